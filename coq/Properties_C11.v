(** C11 — serialization round-trips exactly, estimateSize equals the encoded size.
    Property theorems only; each closed by [exact] of a lemma proved in Serde/.
    [c11_ok c] (Serde/CodecSpec.v) =
       (forall x r, wfd c x = true -> fits c x = true -> dec c (enc c x ++ r) = Value x r)
    /\ (forall bs x r, dec c bs = Value x r -> wfd c x = true)
    /\ (forall x, wfd c x = true -> fits c x = true -> esize c x = len (enc c x))
    /\ (forall bs x r r', dec c bs = Value x r -> fits c x = true -> dec c (enc c x ++ r') = Value x r'). *)
From Coq Require Import ZArith List.
From VB Require Import Gen.Consts Serde.StreamDefs Serde.CodecSpec Serde.StreamProofs Serde.EntityDefs Serde.EntityProofs Serde.Theorems Serde.FitsProofs Serde.StoredDefs Serde.StoredProofs Serde.Refuted Serde.Ids Serde.Memo Serde.Counting.
From VB Require Mempool.CountDefs Mempool.CountProofs.
Local Open Scope Z_scope.

Theorem C11_single_be_int64 : c11_ok c_single_be64.
Proof. exact (c11_of_ok _ c_single_be64_ok). Qed.
Print Assumptions C11_single_be_int64.

Theorem C11_var_len_value : forall mn mx, mx < 2 ^ 31 -> c11_ok (c_var_len mn mx).
Proof. exact (fun mn mx H => c11_of_ok _ (c_var_len_ok mn mx H)). Qed.
Print Assumptions C11_var_len_value.

Theorem C11_single_byte_len_value : forall mn mx, c11_ok (c_sbl mn mx).
Proof. exact (fun mn mx => c11_of_ok _ (c_sbl_ok mn mx)). Qed.
Print Assumptions C11_single_byte_len_value.

Theorem C11_array_of : forall A (c : codec A) mn mx, mx <= alloc_cap -> codec_ok c ->
  c11_ok (c_counted (c_count mn mx) c_empty c).
Proof. exact (fun A c mn mx Hm Hc => c11_of_ok _ (counted_ok mn mx c Hm Hc)). Qed.
Print Assumptions C11_array_of.

Theorem C11_canonical_encoding_injective : forall A (c : codec A), codec_ok c -> forall x y,
  wfd c x = true -> fits c x = true -> wfd c y = true -> fits c y = true -> enc c x = enc c y -> x = y.
Proof. exact @enc_injective. Qed.
Print Assumptions C11_canonical_encoding_injective.

Theorem C11_Address : forall addr_norm, addr_norm_sound addr_norm -> c11_ok (c_address addr_norm).
Proof. exact (fun an H => c11_of_ok _ (c_address_ok an H)). Qed.
Print Assumptions C11_Address.
Theorem C11_Coin : c11_ok c_coin.
Proof. exact (c11_of_ok _ c_coin_ok). Qed.
Print Assumptions C11_Coin.
Theorem C11_Output : forall addr_norm, addr_norm_sound addr_norm -> c11_ok (c_output addr_norm).
Proof. exact (fun an H => c11_of_ok _ (c_output_ok an H)). Qed.
Print Assumptions C11_Output.
Theorem C11_BtcTx : c11_ok c_btctx.
Proof. exact (c11_of_ok _ c_btctx_ok). Qed.
Print Assumptions C11_BtcTx.
Theorem C11_BtcBlock : c11_ok c_btcblock.
Proof. exact (c11_of_ok _ c_btcblock_ok). Qed.
Print Assumptions C11_BtcBlock.
Theorem C11_BtcBlock_raw : c11_ok c_btcblock_raw.
Proof. exact (c11_of_ok _ c_btcblock_raw_ok). Qed.
Print Assumptions C11_BtcBlock_raw.
Theorem C11_VbkBlock : c11_ok c_vbkblock.
Proof. exact (c11_of_ok _ c_vbkblock_ok). Qed.
Print Assumptions C11_VbkBlock.
Theorem C11_VbkBlock_raw : c11_ok c_vbkblock_raw.
Proof. exact (c11_of_ok _ c_vbkblock_raw_ok). Qed.
Print Assumptions C11_VbkBlock_raw.
Theorem C11_MerklePath : c11_ok c_merklepath.
Proof. exact (c11_of_ok _ c_merklepath_ok). Qed.
Print Assumptions C11_MerklePath.
Theorem C11_VbkMerklePath : c11_ok c_vbkmerklepath.
Proof. exact (c11_of_ok _ c_vbkmerklepath_ok). Qed.
Print Assumptions C11_VbkMerklePath.
Theorem C11_PublicationData : c11_ok c_pubdata.
Proof. exact (c11_of_ok _ c_pubdata_ok). Qed.
Print Assumptions C11_PublicationData.
Theorem C11_VbkTx : forall addr_norm, addr_norm_sound addr_norm -> c11_ok (c_vbktx addr_norm).
Proof. exact (fun an H => c11_of_ok _ (c_vbktx_ok an H)). Qed.
Print Assumptions C11_VbkTx.
Theorem C11_VbkPopTx : forall addr_norm, addr_norm_sound addr_norm -> c11_ok (c_vbkpoptx addr_norm).
Proof. exact (fun an H => c11_of_ok _ (c_vbkpoptx_ok an H)). Qed.
Print Assumptions C11_VbkPopTx.
Theorem C11_ATV : forall addr_norm, addr_norm_sound addr_norm -> c11_ok (c_atv addr_norm).
Proof. exact (fun an H => c11_of_ok _ (c_atv_ok an H)). Qed.
Print Assumptions C11_ATV.
Theorem C11_VTB : forall addr_norm, addr_norm_sound addr_norm -> c11_ok (c_vtb addr_norm).
Proof. exact (fun an H => c11_of_ok _ (c_vtb_ok an H)). Qed.
Print Assumptions C11_VTB.
Theorem C11_PopData : forall addr_norm, addr_norm_sound addr_norm -> c11_ok (c_popdata addr_norm).
Proof. exact (fun an H => c11_of_ok _ (c_popdata_ok an H)). Qed.
Print Assumptions C11_PopData.

(** Unconditional forms (no [fits] premise) where the canonical sizes of nested buffers are bounded structurally.
    [c11_full c] (Serde/FitsProofs.v) =
       (forall x r, wfd c x = true -> dec c (enc c x ++ r) = Value x r)
    /\ (forall bs x r r', dec c bs = Value x r -> dec c (enc c x ++ r') = Value x r')
    /\ (forall x, wfd c x = true -> esize c x = len (enc c x)).
    For VbkTx/VbkPopTx/ATV/VTB/PopData only the [c11_ok] form above is proved:
    the full statement
       forall bs x r r', dec (c_vtb a) bs = Value x r -> dec (c_vtb a) (enc (c_vtb a) x ++ r') = Value x r'
    is FALSE at the size limits (the decoder accepts non-canonical encodings that are shorter than the canonical one). *)
Theorem C11_full_Address : forall addr_norm, addr_norm_sound addr_norm -> c11_full (c_address addr_norm).
Proof. exact address_full. Qed.
Print Assumptions C11_full_Address.
Theorem C11_full_Coin : c11_full c_coin.
Proof. exact coin_full. Qed.
Print Assumptions C11_full_Coin.
Theorem C11_full_Output : forall addr_norm, addr_norm_sound addr_norm -> c11_full (c_output addr_norm).
Proof. exact output_full. Qed.
Print Assumptions C11_full_Output.
Theorem C11_full_BtcTx : c11_full c_btctx.
Proof. exact btctx_full. Qed.
Print Assumptions C11_full_BtcTx.
Theorem C11_full_BtcBlock : c11_full c_btcblock.
Proof. exact btcblock_full. Qed.
Print Assumptions C11_full_BtcBlock.
Theorem C11_full_VbkBlock : c11_full c_vbkblock.
Proof. exact vbkblock_full. Qed.
Print Assumptions C11_full_VbkBlock.
Theorem C11_full_VbkMerklePath : c11_full c_vbkmerklepath.
Proof. exact vbkmerklepath_full. Qed.
Print Assumptions C11_full_VbkMerklePath.
Theorem C11_full_PublicationData : c11_full c_pubdata.
Proof. exact pubdata_full. Qed.
Print Assumptions C11_full_PublicationData.
Theorem C11_full_AltBlock : c11_full c_altblock.
Proof. exact altblock_full. Qed.
Print Assumptions C11_full_AltBlock.
Theorem C11_full_KeystoneContainer : c11_full c_keystones.
Proof. exact keystones_full. Qed.
Print Assumptions C11_full_KeystoneContainer.
Theorem C11_full_ContextInfoContainer : c11_full c_ctxinfo.
Proof. exact ctxinfo_full. Qed.
Print Assumptions C11_full_ContextInfoContainer.
Theorem C11_full_AuthenticatedContextInfoContainer : c11_full c_authctx.
Proof. exact authctx_full. Qed.
Print Assumptions C11_full_AuthenticatedContextInfoContainer.
Theorem C11_full_VbkEndorsement : c11_full c_vbk_endorsement.
Proof. exact vbk_endorsement_full. Qed.
Print Assumptions C11_full_VbkEndorsement.
Theorem C11_full_AltEndorsement : c11_full c_alt_endorsement.
Proof. exact alt_endorsement_full. Qed.
Print Assumptions C11_full_AltEndorsement.
Theorem C11_full_StoredBlockIndex_Btc : c11_full c_stored_btc.
Proof. exact stored_btc_full. Qed.
Print Assumptions C11_full_StoredBlockIndex_Btc.
Theorem C11_full_StoredBlockIndex_Vbk : c11_full c_stored_vbk.
Proof. exact stored_vbk_full. Qed.
Print Assumptions C11_full_StoredBlockIndex_Vbk.
Theorem C11_full_StoredBlockIndex_Alt : c11_full c_stored_alt.
Proof. exact stored_alt_full. Qed.
Print Assumptions C11_full_StoredBlockIndex_Alt.
Theorem C11_full_MerklePath : c11_full c_merklepath.
Proof. exact merklepath_full. Qed.
Print Assumptions C11_full_MerklePath.

(** Boundary statements of C11 that are FALSE for the code as it is; the witnesses are replayed on the
    implementation by ./check C11 (keys C11:pubdata-max-size-6-short, C11:noncanonical-at-size-limit). *)
Theorem C11_VbkTx_pubdata_max_size_refuted :
  wfd c_pubdata pub_max = true /\ fits c_pubdata pub_max = true /\
  len (enc c_pubdata pub_max) = MAX_PUBLICATIONDATA_SIZE + 6 /\
  fits c_pub_in_vbktx pub_max = false /\
  dec c_pub_in_vbktx (enc c_pub_in_vbktx pub_max) = Invalid.
Proof. exact pubdata_max_size_refuted. Qed.
Print Assumptions C11_VbkTx_pubdata_max_size_refuted.

Theorem C11_reencode_at_size_limit_refuted :
  (dec c_merklepath_raw mp0_short_raw = Value mp0 nil /\
   dec c_merklepath_raw (enc c_merklepath_raw mp0) = Value mp0 nil /\
   len (enc c_merklepath_raw mp0) = len mp0_short_raw + 4) /\
  (forall limit, 0 <= limit -> limit + 4 < 2 ^ 31 -> forall payload, len payload = limit + 4 ->
     dec (c_var_len 0 limit) (enc (c_var_len 0 limit) payload) = Invalid).
Proof. exact (conj noncanonical_shorter_refuted limit_plus_4_rejected). Qed.
Print Assumptions C11_reencode_at_size_limit_refuted.

(** ids / hashes are functions of the raw encodings only (abstract hash functions) *)
Theorem C11_ids_of_content : forall addr_norm sha256 sha256d progpow,
  (forall a b, enc c_vbkblock_raw a = enc c_vbkblock_raw b -> vbkblock_hash progpow a = vbkblock_hash progpow b) /\
  (forall a b, enc c_btcblock_raw a = enc c_btcblock_raw b -> btcblock_hash sha256d a = btcblock_hash sha256d b) /\
  (forall a b, vbktx_raw addr_norm a = vbktx_raw addr_norm b -> vbktx_hash addr_norm sha256 a = vbktx_hash addr_norm sha256 b) /\
  (forall a b, vbkpoptx_raw addr_norm a = vbkpoptx_raw addr_norm b ->
               vbkpoptx_hash addr_norm sha256 a = vbkpoptx_hash addr_norm sha256 b) /\
  (forall a b, vbktx_raw addr_norm (atv_tx a) = vbktx_raw addr_norm (atv_tx b) ->
               enc c_vbkblock_raw (atv_block a) = enc c_vbkblock_raw (atv_block b) ->
               atv_id addr_norm sha256 progpow a = atv_id addr_norm sha256 progpow b) /\
  (forall a b, ptx_btctx (vtb_tx a) = ptx_btctx (vtb_tx b) ->
               enc c_btcblock_raw (ptx_bop (vtb_tx a)) = enc c_btcblock_raw (ptx_bop (vtb_tx b)) ->
               enc c_vbkblock_raw (vtb_block a) = enc c_vbkblock_raw (vtb_block b) ->
               vtb_id sha256 sha256d progpow a = vtb_id sha256 sha256d progpow b).
Proof. exact ids_of_content. Qed.
Print Assumptions C11_ids_of_content.

(** memoised hashes (hash_ of VbkBlock / BtcBlock): any sequence of setters and getHash calls, starting from a fresh
    (decoded or constructed) object, answers hash(toRaw(current content)) — stated for every field type, raw encoding
    and hash function, hence in particular for [enc c_vbkblock_raw] / [enc c_btcblock_raw]. *)
Theorem C11_id_memo_transparent : forall (A : Type) (raw : A -> list byte) (hash : list byte -> list byte) ops m,
  inv A raw hash m -> List.Forall (fun p => fst p = hash (raw (snd p))) (run A raw hash m ops).
Proof. exact memo_transparent. Qed.
Print Assumptions C11_id_memo_transparent.

Theorem C11_id_memo_VbkBlock : forall progpow ops1 ops2 (x1 x2 : VbkBlock) h1 h2 c1 c2,
  List.In (h1, c1) (run VbkBlock (enc c_vbkblock_raw) progpow (fresh VbkBlock x1) ops1) ->
  List.In (h2, c2) (run VbkBlock (enc c_vbkblock_raw) progpow (fresh VbkBlock x2) ops2) ->
  enc c_vbkblock_raw c1 = enc c_vbkblock_raw c2 -> h1 = h2.
Proof. exact (fun progpow => memo_hash_of_content VbkBlock (enc c_vbkblock_raw) progpow). Qed.
Print Assumptions C11_id_memo_VbkBlock.

(** CountingContext (property C12's abstract container arithmetic, coq/Mempool/CountDefs.v) is tied to the PopData
    codec: [prefix] is singleBEValueSize, and [estimate] over the elements' estimateSize is the estimateSize of the
    PopData — each kind's length prefix priced from the counter of that kind; with codec_ok of PopData the running
    figure of CountingContext is the number of bytes toVbkEncoding() writes. *)
Theorem C11_counting_prefix_is_singleBEValueSize : forall n, (n < 2 ^ 63)%N ->
  single_be_size (Z.of_N n) = Z.of_N (CountDefs.prefix n).
Proof. exact prefix_is_single_be_size. Qed.
Print Assumptions C11_counting_prefix_is_singleBEValueSize.

Theorem C11_counting_estimate_is_popdata_esize : forall addr_norm p sv st sa,
  List.map Z.of_N sv = List.map (esize c_vbkblock) (pop_context p) ->
  List.map Z.of_N st = List.map (esize (c_vtb addr_norm)) (pop_vtbs p) ->
  List.map Z.of_N sa = List.map (esize (c_atv addr_norm)) (pop_atvs p) ->
  (CountDefs.len sv < 2 ^ 63)%N -> (CountDefs.len st < 2 ^ 63)%N -> (CountDefs.len sa < 2 ^ 63)%N ->
  Z.of_N (CountDefs.estimate sv st sa) = esize (c_popdata addr_norm) p.
Proof. exact counting_estimate_is_popdata_esize. Qed.
Print Assumptions C11_counting_estimate_is_popdata_esize.

Theorem C11_counting_figure_is_encoded_size : forall addr_norm, addr_norm_sound addr_norm -> forall p c r,
  CountProofs.agrees c r -> wfd (c_popdata addr_norm) p = true -> StreamDefs.fits (c_popdata addr_norm) p = true ->
  List.map Z.of_N (CountDefs.k_vbk r) = List.map (esize c_vbkblock) (pop_context p) ->
  List.map Z.of_N (CountDefs.k_vtb r) = List.map (esize (c_vtb addr_norm)) (pop_vtbs p) ->
  List.map Z.of_N (CountDefs.k_atv r) = List.map (esize (c_atv addr_norm)) (pop_atvs p) ->
  (CountDefs.len (CountDefs.k_vbk r) < 2 ^ 63)%N -> (CountDefs.len (CountDefs.k_vtb r) < 2 ^ 63)%N -> (CountDefs.len (CountDefs.k_atv r) < 2 ^ 63)%N ->
  Z.of_N (CountDefs.popsize c) = StreamDefs.len (enc (c_popdata addr_norm) p).
Proof. exact counting_figure_is_encoded_size. Qed.
Print Assumptions C11_counting_figure_is_encoded_size.

(** BFI bitcoin wire types (include/veriblock/bfi/bitcoin/serialize.hpp, transaction.hpp, block.hpp); model
    coq/Bfi/BfiDefs.v, proofs coq/Bfi/BfiProofs.v. A C++ exception is the outcome [Err kind].
    [codec_ok c wf] =
       (forall a tl, wf a -> dec c (enc c a ++ tl) = Ok a tl)                       round trip, tail untouched
    /\ (forall a, ssize c a = blen (enc c a))                                       GetSerializeSize = bytes written
    /\ (forall bs a rest, dec c bs = Ok a rest -> wf a /\ bs = enc c a ++ rest)     what decodes is canonical *)
From VB Require Bfi.BfiDefs Bfi.BfiProofs.

Theorem C11_bfi_compact_size_round_trip : forall n tl, (n <= BfiDefs.MAX_SIZE)%N ->
  BfiDefs.read_compact (BfiDefs.write_compact n ++ tl) = BfiDefs.Ok n tl.
Proof. exact BfiProofs.compact_round_trip. Qed.
Print Assumptions C11_bfi_compact_size_round_trip.

Theorem C11_bfi_compact_size_length : forall n,
  BfiDefs.blen (BfiDefs.write_compact n) = BfiDefs.size_of_compact n.
Proof. exact BfiProofs.compact_size_length. Qed.
Print Assumptions C11_bfi_compact_size_length.

Theorem C11_bfi_compact_size_canonical : forall bs n rest, BfiDefs.read_compact bs = BfiDefs.Ok n rest ->
  (n <= BfiDefs.MAX_SIZE)%N /\ bs = BfiDefs.write_compact n ++ rest.
Proof. exact BfiProofs.compact_canonical. Qed.
Print Assumptions C11_bfi_compact_size_canonical.

Theorem C11_bfi_compact_size_injective : forall n m r r', (n <= BfiDefs.MAX_SIZE)%N -> (m <= BfiDefs.MAX_SIZE)%N ->
  BfiDefs.write_compact n ++ r = BfiDefs.write_compact m ++ r' -> n = m /\ r = r'.
Proof. exact BfiProofs.compact_injective. Qed.
Print Assumptions C11_bfi_compact_size_injective.

Theorem C11_bfi_compact_size_le253_writer_refuted :
  ~ (forall n tl, (n <= BfiDefs.MAX_SIZE)%N ->
       BfiDefs.read_compact (BfiDefs.write_compact_le253 n ++ tl) = BfiDefs.Ok n tl) /\
  ~ (forall n, BfiDefs.blen (BfiDefs.write_compact_le253 n) = BfiDefs.size_of_compact n) /\
  ~ (forall n, (n <= BfiDefs.MAX_SIZE)%N -> exists rest,
       BfiDefs.read_compact (BfiDefs.write_compact_le253 n) = BfiDefs.Ok n rest).
Proof. exact BfiProofs.compact_le253_refuted. Qed.
Print Assumptions C11_bfi_compact_size_le253_writer_refuted.

Theorem C11_bfi_uint_le : forall k, BfiDefs.codec_ok (BfiDefs.c_uint k) (BfiDefs.wf_uint k).
Proof. exact BfiProofs.uint_ok. Qed.
Print Assumptions C11_bfi_uint_le.

Theorem C11_bfi_sint_le : forall k, BfiDefs.codec_ok (BfiDefs.c_sint k) (BfiDefs.wf_sint k).
Proof. exact BfiProofs.sint_ok. Qed.
Print Assumptions C11_bfi_sint_le.

Theorem C11_bfi_blob : forall k, BfiDefs.codec_ok (BfiDefs.c_blob k) (BfiDefs.wf_blob k).
Proof. exact BfiProofs.blob_ok. Qed.
Print Assumptions C11_bfi_blob.

Theorem C11_bfi_byte_vector : BfiDefs.codec_ok BfiDefs.c_bytes BfiDefs.wf_bytes.
Proof. exact BfiProofs.bytes_ok. Qed.
Print Assumptions C11_bfi_byte_vector.

Theorem C11_bfi_vector : forall A (c : BfiDefs.codec A) wf, BfiDefs.codec_ok c wf ->
  BfiDefs.codec_ok (BfiDefs.c_vec c) (BfiDefs.wf_vec wf).
Proof. exact BfiProofs.vec_ok. Qed.
Print Assumptions C11_bfi_vector.

Theorem C11_bfi_vector_loop : forall A (d : list Byte.byte -> BfiDefs.res A) n bs,
  BfiDefs.dec_count d n bs = BfiDefs.dec_rep d (N.to_nat n) bs.
Proof. exact BfiProofs.dec_count_rep. Qed.
Print Assumptions C11_bfi_vector_loop.

Theorem C11_bfi_stream_reads : forall k n bs,
  BfiDefs.read_le k bs = (if (length bs <? k)%nat then BfiDefs.Err BfiDefs.EEof
                          else BfiDefs.Ok (BfiDefs.le_val (firstn k bs)) (skipn k bs)) /\
  BfiDefs.read_bytes n bs = (if (BfiDefs.blen bs <? n)%N then BfiDefs.Err BfiDefs.EEof
                             else BfiDefs.Ok (firstn (N.to_nat n) bs) (skipn (N.to_nat n) bs)).
Proof. exact (fun k n bs => conj (BfiProofs.read_le_eq k bs) (BfiProofs.read_bytes_eq n bs)). Qed.
Print Assumptions C11_bfi_stream_reads.

Theorem C11_bfi_fields : forall A B (ca : BfiDefs.codec A) (cb : BfiDefs.codec B) wa wb,
  BfiDefs.codec_ok ca wa -> BfiDefs.codec_ok cb wb -> BfiDefs.codec_ok (BfiDefs.c_pair ca cb) (BfiDefs.wf_pair wa wb).
Proof. exact BfiProofs.pair_ok. Qed.
Print Assumptions C11_bfi_fields.

Theorem C11_bfi_canonical_encoding_injective : forall A (c : BfiDefs.codec A) wf, BfiDefs.codec_ok c wf ->
  forall x y r r', wf x -> wf y -> BfiDefs.enc c x ++ r = BfiDefs.enc c y ++ r' -> x = y /\ r = r'.
Proof. exact BfiProofs.codec_injective. Qed.
Print Assumptions C11_bfi_canonical_encoding_injective.

Theorem C11_bfi_reencode_stable : forall A (c : BfiDefs.codec A) wf, BfiDefs.codec_ok c wf ->
  forall bs x rest tl, BfiDefs.dec c bs = BfiDefs.Ok x rest -> BfiDefs.dec c (BfiDefs.enc c x ++ tl) = BfiDefs.Ok x tl.
Proof. exact BfiProofs.codec_reencode_stable. Qed.
Print Assumptions C11_bfi_reencode_stable.

Theorem C11_bfi_premises_satisfiable :
  let v := ((Byte.x01 :: Byte.x02 :: nil) :: nil :: List.repeat Byte.xff 253 :: nil) in
  BfiDefs.wf_vec BfiDefs.wf_bytes v /\
  BfiDefs.dec (BfiDefs.c_vec BfiDefs.c_bytes) (BfiDefs.enc (BfiDefs.c_vec BfiDefs.c_bytes) v ++ Byte.xaa :: nil)
    = BfiDefs.Ok v (Byte.xaa :: nil) /\
  BfiDefs.ssize (BfiDefs.c_vec BfiDefs.c_bytes) v = 261%N /\
  BfiDefs.blen (BfiDefs.enc (BfiDefs.c_vec BfiDefs.c_bytes) v) = 261%N.
Proof. exact BfiProofs.vec_bytes_nontrivial. Qed.
Print Assumptions C11_bfi_premises_satisfiable.

(** BFI wire types of transaction.hpp / block.hpp (coq/Bfi/BfiWire.v). [wf_tx allow] carries the two facts the
    format itself imposes: with witnesses allowed a transaction without inputs round-trips only without outputs
    (an empty vin is read as the extended-format marker; C11_bfi_tx_empty_vin_with_output_refuted), and under
    SERIALIZE_TRANSACTION_NO_WITNESS the witness stacks are not written. *)
From VB Require Bfi.BfiWire.

Theorem C11_bfi_OutPoint : BfiDefs.codec_ok BfiDefs.c_outpoint BfiDefs.wf_outpoint.
Proof. exact BfiWire.outpoint_ok. Qed.
Print Assumptions C11_bfi_OutPoint.

Theorem C11_bfi_TxIn : BfiDefs.codec_ok BfiDefs.c_txin BfiDefs.wf_txin.
Proof. exact BfiWire.txin_ok. Qed.
Print Assumptions C11_bfi_TxIn.

Theorem C11_bfi_TxOut : BfiDefs.codec_ok BfiDefs.c_txout BfiDefs.wf_txout.
Proof. exact BfiWire.txout_ok. Qed.
Print Assumptions C11_bfi_TxOut.

Theorem C11_bfi_ScriptWitness : BfiDefs.codec_ok BfiDefs.c_wstack BfiDefs.wf_wstack.
Proof. exact BfiWire.wstack_ok. Qed.
Print Assumptions C11_bfi_ScriptWitness.

Theorem C11_bfi_Transaction : forall allow_witness,
  BfiDefs.codec_ok (BfiDefs.c_tx allow_witness) (BfiDefs.wf_tx allow_witness).
Proof. exact BfiWire.tx_ok. Qed.
Print Assumptions C11_bfi_Transaction.

Theorem C11_bfi_BlockHeader : BfiDefs.codec_ok BfiDefs.c_header BfiDefs.wf_header.
Proof. exact BfiWire.header_ok. Qed.
Print Assumptions C11_bfi_BlockHeader.

Theorem C11_bfi_Block : forall allow_witness,
  BfiDefs.codec_ok (BfiDefs.c_block allow_witness) (BfiDefs.wf_block allow_witness).
Proof. exact BfiWire.block_ok. Qed.
Print Assumptions C11_bfi_Block.

Theorem C11_bfi_tx_empty_vin_with_output_refuted :
  let t := BfiDefs.mk_tx nil (BfiDefs.mk_txout 1%Z nil :: nil) 1%Z 0%N in
  BfiDefs.dec_tx true (BfiDefs.enc_tx true t) <> BfiDefs.Ok t nil /\
  BfiDefs.dec_tx false (BfiDefs.enc_tx false t) = BfiDefs.Ok t nil.
Proof. exact BfiWire.tx_empty_vin_with_output_refuted. Qed.
Print Assumptions C11_bfi_tx_empty_vin_with_output_refuted.

Theorem C11_bfi_tx_premises_satisfiable :
  let o := BfiDefs.mk_outpoint (List.repeat Byte.x11 32) 1%N in
  let tw := BfiDefs.mk_tx (BfiDefs.mk_txin o (Byte.xaa :: nil) 4294967295%N ((Byte.xff :: Byte.x4c :: nil) :: nil :: nil)
                           :: BfiDefs.mk_txin o nil 0%N nil :: nil)
                          (BfiDefs.mk_txout (-5)%Z (Byte.xbb :: nil) :: nil) 2%Z 7%N in
  let tp := BfiDefs.mk_tx (BfiDefs.mk_txin o (Byte.xaa :: nil) 4294967295%N nil :: nil)
                          (BfiDefs.mk_txout 4999990000%Z (List.repeat Byte.xcc 253) :: nil) 1%Z 0%N in
  BfiDefs.wf_tx true tw /\ BfiDefs.wf_tx true tp /\ BfiDefs.wf_tx false tp /\
  BfiDefs.dec_tx true (BfiDefs.enc_tx true tw ++ Byte.x01 :: nil) = BfiDefs.Ok tw (Byte.x01 :: nil) /\
  BfiDefs.enc_tx true tp = BfiDefs.enc_tx false tp.
Proof. exact BfiWire.tx_nontrivial. Qed.
Print Assumptions C11_bfi_tx_premises_satisfiable.

(** Address normalisation made concrete (Serde/AddrNorm.v, AddrNormProofs.v, AddrNormConcrete.v): [addr_norm_c18 sha256] is what
    DeserializeFromVbkEncoding(Address) computes, composed from the C18 text model (EncodeBase58|59 by wire type -> Address::fromString
    incl. length/'V'/alphabet/multisig m,n/checksum, type taken from the TEXT -> DecodeBase58|59 by that type). It satisfies the premise
    [addr_norm_sound] for every wire type, every byte string and every sha256 (no premise about sha256), so the address-carrying theorems
    above hold for it outright; only [sha256] stays abstract. *)
From VB Require Serde.AddrNorm Serde.AddrNormProofs Serde.AddrNormConcrete Text.AddressProofs.
Theorem C11_addr_norm_sound_discharged : forall sha256, addr_norm_sound (AddrNorm.addr_norm_c18 sha256).
Proof. exact AddrNormProofs.addr_norm_c18_sound. Qed.
Print Assumptions C11_addr_norm_sound_discharged.
Theorem C11_Address_concrete : forall sha256, c11_ok (c_address (AddrNorm.addr_norm_c18 sha256)).
Proof. exact (fun sha256 => C11_Address _ (C11_addr_norm_sound_discharged sha256)). Qed.
Print Assumptions C11_Address_concrete.
Theorem C11_Output_concrete : forall sha256, c11_ok (c_output (AddrNorm.addr_norm_c18 sha256)).
Proof. exact (fun sha256 => C11_Output _ (C11_addr_norm_sound_discharged sha256)). Qed.
Print Assumptions C11_Output_concrete.
Theorem C11_VbkTx_concrete : forall sha256, c11_ok (c_vbktx (AddrNorm.addr_norm_c18 sha256)).
Proof. exact (fun sha256 => C11_VbkTx _ (C11_addr_norm_sound_discharged sha256)). Qed.
Print Assumptions C11_VbkTx_concrete.
Theorem C11_VbkPopTx_concrete : forall sha256, c11_ok (c_vbkpoptx (AddrNorm.addr_norm_c18 sha256)).
Proof. exact (fun sha256 => C11_VbkPopTx _ (C11_addr_norm_sound_discharged sha256)). Qed.
Print Assumptions C11_VbkPopTx_concrete.
Theorem C11_ATV_concrete : forall sha256, c11_ok (c_atv (AddrNorm.addr_norm_c18 sha256)).
Proof. exact (fun sha256 => C11_ATV _ (C11_addr_norm_sound_discharged sha256)). Qed.
Print Assumptions C11_ATV_concrete.
Theorem C11_VTB_concrete : forall sha256, c11_ok (c_vtb (AddrNorm.addr_norm_c18 sha256)).
Proof. exact (fun sha256 => C11_VTB _ (C11_addr_norm_sound_discharged sha256)). Qed.
Print Assumptions C11_VTB_concrete.
Theorem C11_PopData_concrete : forall sha256, c11_ok (c_popdata (AddrNorm.addr_norm_c18 sha256)).
Proof. exact (fun sha256 => C11_PopData _ (C11_addr_norm_sound_discharged sha256)). Qed.
Print Assumptions C11_PopData_concrete.
Theorem C11_full_Address_concrete : forall sha256, c11_full (c_address (AddrNorm.addr_norm_c18 sha256)).
Proof. exact (fun sha256 => C11_full_Address _ (C11_addr_norm_sound_discharged sha256)). Qed.
Print Assumptions C11_full_Address_concrete.
Theorem C11_full_Output_concrete : forall sha256, c11_full (c_output (AddrNorm.addr_norm_c18 sha256)).
Proof. exact (fun sha256 => C11_full_Output _ (C11_addr_norm_sound_discharged sha256)). Qed.
Print Assumptions C11_full_Output_concrete.
Theorem C11_counting_figure_is_encoded_size_concrete : forall sha256 p c r,
  CountProofs.agrees c r ->
  wfd (c_popdata (AddrNorm.addr_norm_c18 sha256)) p = true -> StreamDefs.fits (c_popdata (AddrNorm.addr_norm_c18 sha256)) p = true ->
  List.map Z.of_N (CountDefs.k_vbk r) = List.map (esize c_vbkblock) (pop_context p) ->
  List.map Z.of_N (CountDefs.k_vtb r) = List.map (esize (c_vtb (AddrNorm.addr_norm_c18 sha256))) (pop_vtbs p) ->
  List.map Z.of_N (CountDefs.k_atv r) = List.map (esize (c_atv (AddrNorm.addr_norm_c18 sha256))) (pop_atvs p) ->
  (CountDefs.len (CountDefs.k_vbk r) < 2 ^ 63)%N -> (CountDefs.len (CountDefs.k_vtb r) < 2 ^ 63)%N -> (CountDefs.len (CountDefs.k_atv r) < 2 ^ 63)%N ->
  Z.of_N (CountDefs.popsize c) = StreamDefs.len (enc (c_popdata (AddrNorm.addr_norm_c18 sha256)) p).
Proof. exact AddrNormConcrete.counting_figure_is_encoded_size_concrete. Qed.
Print Assumptions C11_counting_figure_is_encoded_size_concrete.
(** not vacuous, and it does normalise (stub sha256 = AddressProofs.sha_demo): wire (1, base58 bytes) of a valid STANDARD text is accepted
    unchanged; wire (3, base59 bytes of the same text) is accepted as that STANDARD address, i.e. it is a second, non-canonical wire form
    (wfd = false for it); wire (1, those base59 bytes) is rejected *)
Theorem C11_addr_norm_concrete_nontrivial :
  AddrNorm.addr_norm_c18 AddressProofs.sha_demo 1 AddrNormConcrete.demo_b58 = Some (1, AddrNormConcrete.demo_b58) /\
  AddrNorm.addr_norm_c18 AddressProofs.sha_demo 3 AddrNormConcrete.demo_b59 = Some (1, AddrNormConcrete.demo_b58) /\
  AddrNorm.addr_norm_c18 AddressProofs.sha_demo 1 AddrNormConcrete.demo_b59 = None /\
  wfd (c_address (AddrNorm.addr_norm_c18 AddressProofs.sha_demo)) (mkAddress 1 AddrNormConcrete.demo_b58) = true /\
  wfd (c_address (AddrNorm.addr_norm_c18 AddressProofs.sha_demo)) (mkAddress 3 AddrNormConcrete.demo_b59) = false.
Proof. exact AddrNormConcrete.addr_norm_c18_nontrivial. Qed.
Print Assumptions C11_addr_norm_concrete_nontrivial.
