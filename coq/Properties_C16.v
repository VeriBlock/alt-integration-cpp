(** C16: checkPopData on the worker pool of PopValidator, from the lemmas of Conc/*.v.
    [run false] is the code of /repo, [run true] the code before /repo 9e8bd1f5 (v0).
    All statements quantify over every schedule (list of step labels, including further calls,
    stop() and start()), every worker count and every queue capacity. *)
From Coq Require Import List.
From VB Require Import Conc.ValidatorDefs Conc.ValidatorProofs Conc.ValidatorProgress Conc.ValidatorTermination Conc.RingDefs Conc.RingProofs Gen.ValidatorParams Conc.ValidatorLimits Conc.CheckedDefs Conc.CheckedProofs.
Import ListNotations.

(** whenever checkPopData has returned, its verdict is the sequential one: the index of the first
    invalid payload in submission order, else the duplicates check, else valid *)
Theorem C16_verdict_schedule_independent : forall w c sched v,
  let s := run false sched (init w c) in
  main s = MReturned v -> v = seq_verdict (cur s) (curdup s).
Proof. intros w c sched v s. apply Inv_verdict, Inv2_reach. Qed.
Print Assumptions C16_verdict_schedule_independent.

(** [cur]/[curdup] are exactly the arguments of the last accepted call *)
Theorem C16_call_sets_cur : forall vs dup s s',
  step false (LCall vs dup) s = Some s' ->
  map tvalid (cur s') = vs /\ curdup s' = dup /\ token s' = S (token s).
Proof.
  unfold step, step_call. intros vs dup s s' H. destruct (aborted s); [discriminate |].
  destruct (quiescent_main (main s)); [| discriminate]. injection H as <-. simpl. now rewrite mk_tasks_valid.
Qed.
Print Assumptions C16_call_sets_cur.

(** in every state in which main is outside checkPopData (returned, threw, or never called), no
    queued, running or unfulfilled task exists at all - in particular none holding the caller's PopData *)
Theorem C16_released_on_return : forall w c sched,
  let s := run false sched (init w c) in
  quiescent_main (main s) = true -> holders s = [] /\ holds_token s = false.
Proof.
  intros w c sched s Q. unfold holds_token. rewrite (quiescent_no_holders s (proj1 (Inv2_reach w c sched)) Q). now split.
Qed.
Print Assumptions C16_released_on_return.

(** documentation of the repaired defect F2: before 9e8bd1f5 main could return while a queued task
    still referenced the PopData *)
Theorem C16_released_on_return_v0_refuted :
  exists w c sched, let s := run true sched (init w c) in
    main s = MReturned (VInvalid 0) /\ holders s <> [] /\ holds_token s = true.
Proof. exists 1, 4, v0_witness_sched. vm_compute. repeat split; auto. discriminate. Qed.
Print Assumptions C16_released_on_return_v0_refuted.

(** progress: while the pool runs and main is inside checkPopData some main/worker step is enabled
    (for every reachable state, including states reached through stop()/start()) *)
Theorem C16_no_deadlock_partial : forall w c sched,
  let s := run false sched (init w c) in
  aborted s = false -> pst s = PRun -> quiescent_main (main s) = false ->
  exists l s', inner l = true /\ step false l s = Some s'.
Proof. intros w c sched s. apply progress_state; apply Inv2_reach. Qed.
Print Assumptions C16_no_deadlock_partial.

(** termination: as long as nobody stops the pool and calls fit the queue, from every reachable state main
    can be driven out of checkPopData by at most [measure s] main/worker steps, and every accepted main/worker
    step strictly decreases [measure] - no infinite sequence of enabled steps exists, so every schedule that
    keeps taking enabled steps reaches the return *)
Theorem C16_no_deadlock : forall w c sched,
  forallb (sizes_ok c) sched = true ->
  let s := run false sched (init w c) in
  (exists cont, forallb inner cont = true /\ length cont <= measure s /\
                quiescent_main (main (run false cont s)) = true) /\
  (forall l s', inner l = true -> step false l s = Some s' -> measure s' < measure s).
Proof.
  intros w c sched H s. destruct (NoAbort_run w c sched H) as [I [J N]]. split.
  - now apply (eventually_returns_state c).
  - intros l s' IN ST. apply (measure_decreases l s s' I IN ST), (NoAbort_step c l s s' I N (inner_sizes_ok c l IN) ST).
Qed.
Print Assumptions C16_no_deadlock.

(** stop()/start() outside a call: every join succeeds immediately, breaks no promise, leaves nothing
    behind; start() then yields a fresh pool (to which all theorems above apply again) *)
Theorem C16_stop_restart_safe : forall w c sched,
  let s := run false sched (init w c) in
  aborted s = false -> quiescent_main (main s) = true ->
  (forall k, pst s = PStopping k ->
     exists s', step false LJoin s = Some s' /\ futures s' = futures s /\ holders s' = [] /\ main s' = main s) /\
  (pst s = PStopped ->
     holders s = [] /\
     forall w', exists s', step false (LStart w') s = Some s' /\ pst s' = PRun /\
                workers s' = repeat idle_worker (Nat.max 1 w') /\ main s' = main s /\ aborted s' = false).
Proof. intros w c sched s. destruct (Inv2_reach w c sched) as [I [J _]]. now apply stop_restart_state. Qed.
Print Assumptions C16_stop_restart_safe.

(** no VBK_ASSERT (queue full / validator stopped / started twice) fires when nobody stops or starts
    the validator and every call posts at most qcap tasks *)
Theorem C16_no_assert_fires : forall w c sched,
  forallb (sizes_ok c) sched = true -> aborted (run false sched (init w c)) = false.
Proof. intros w c sched H. apply (NoAbort_run w c sched H). Qed.
Print Assumptions C16_no_assert_fires.

(** the worker queue: the validator model above abstracts tp::MPMCBoundedQueue as a bounded FIFO list.  This
    theorem justifies the abstraction for the ring buffer as coded (cells with sequence numbers,
    enqueue/dequeue positions, index = pos mod size): for EVERY sequence of push/pop on a fresh ring of size >= 2 it
    answers exactly like a FIFO bounded by size - across any number of wrap-arounds never "full" with fewer than
    size elements, never "empty" when non-empty, never spinning.
    _partial: each push/pop runs to completion (one thread at a time); interleavings of the CAS loops of
    concurrent producers/consumers and the 2^64 wrap of the position counters are not modelled *)
Theorem C16_ring_refines_fifo_partial : forall (A : Type) (size : nat) (ops : list (rop A)),
  2 <= size -> ring_run A ops (ring_init A size) = fifo_run A size ops [].
Proof. exact ring_refines_fifo_init. Qed.
Print Assumptions C16_ring_refines_fifo_partial.

(** the premise "each call posts at most qcap tasks" of C16_no_assert_fires is met by the code's own capacity:
    upper_power_of_two(maxWorkerQueueSize()) - the sum as written in alt_chain_params.hpp, regenerated into
    Gen/ValidatorParams.v on every run - is at least the payload count of any PopData that passes the count limits
    of checkPopData, whatever the configured limits and however few workers share the load *)
Theorem C16_qcap_fits_limits : forall max_atvs max_vtbs max_vbk n_atvs n_vtbs n_vbk,
  popdata_within_limits max_atvs max_vtbs max_vbk n_atvs n_vtbs n_vbk ->
  n_vbk + n_vtbs + n_atvs <= code_qcap max_atvs max_vtbs max_vbk.
Proof. exact qcap_fits_limits_lemma. Qed.
Print Assumptions C16_qcap_fits_limits.

Theorem C16_call_within_limits_sizes_ok : forall max_atvs max_vtbs max_vbk vs dup n_atvs n_vtbs n_vbk,
  popdata_within_limits max_atvs max_vtbs max_vbk n_atvs n_vtbs n_vbk ->
  length vs = n_vbk + n_vtbs + n_atvs ->
  sizes_ok (code_qcap max_atvs max_vtbs max_vbk) (LCall vs dup) = true.
Proof. exact call_within_limits_sizes_ok. Qed.
Print Assumptions C16_call_within_limits_sizes_ok.

(** the `checked` flags written by the workers into the caller's payloads (set only after a complete success):
    checking the same PopData object any number of times, a copy of it taken after a check, or a fresh
    deserialisation (all flags cleared) always reports the sequential verdict of the payloads themselves *)
Theorem C16_checked_flags_transparent : forall pd n m k,
  flags_sound pd ->
  Forall (fun v => v = spec_verdict pd) (check_n n pd) /\
  Forall (fun v => v = spec_verdict pd) (check_n k (fresh_copy pd)) /\
  (forall pd', pd' = snd (check_call pd) -> Forall (fun v => v = spec_verdict pd) (check_n m pd')).
Proof.
  intros pd n m k F. destruct (fresh_copy_sound pd) as [FC EC], (check_call_sound pd F) as [_ [FS E]].
  split; [now apply check_n_sound |]. split.
  - rewrite <- EC. now apply check_n_sound.
  - intros pd' ->. rewrite <- E. now apply check_n_sound.
Qed.
Print Assumptions C16_checked_flags_transparent.

(** a PopData on which no flag has been set yet satisfies the premise *)
Theorem C16_no_flags_sound : forall l dup,
  flags_sound (mkPopData (map (fun v => mkPayload v false) l) dup false).
Proof. exact no_flags_sound. Qed.
Print Assumptions C16_no_flags_sound.

(** the worker queue under CONCURRENT access (Conc/RingSteps.v): every push/pop of tp::MPMCBoundedQueue is broken
    into its atomic steps (load position, load cell sequence, compare, CAS on the counter - strong or spuriously
    failing -, data write / data move, sequence store, with the "full"/"empty" exits and both retry loops), any
    number of threads run any programs of pushes and pops, and a schedule is an arbitrary list of
    (thread id, spurious-CAS-failure flag).  Shared memory is the very [ring] record of the sequential theorem above.
    Assumed, not proved: sequentially consistent atomics (the relaxed/acquire/release orders of the code are outside
    the model) and unbounded counters (size_t wrap needs the power-of-two capacity the constructor enforces).
    [rs_lin] is a ghost log appended at each successful CAS, [rs_q] the ghost abstract queue. *)
From VB Require Import Conc.RingSteps Conc.RingConc Conc.RingExamples.

(** for EVERY schedule the successful operations are linearizable, linearization point = the successful CAS:
    the log is a legal history of the bounded FIFO [fifo_step] of the sequential theorem (each logged push accepted
    below capacity, each logged pop returning the oldest element: global FIFO order), it ends in the abstract
    queue, and restricted to any thread it is exactly the successful answers that thread returned, in program
    order, plus the call it has linearized and not yet returned from *)
Theorem C16_ring_linearizable : forall (A : Type) (size : nat) (progs : nat -> list (rop A)) (sched : list (nat * bool)),
  2 <= size ->
  let s := rs_run sched (rs_init size progs) in
  fifo_run A size (map lev_op (rs_lin s)) [] = map lev_res (rs_lin s) /\
  Forall (fun e => is_ok (lev_res e) = true) (rs_lin s) /\
  fifo_state size (map lev_op (rs_lin s)) [] = rs_q s /\
  (forall t, proj t (rs_lin s) = succ_of (thist (rs_thr s t)) ++ pending (tpc (rs_thr s t))).
Proof. exact ring_linearizable_lemma. Qed.
Print Assumptions C16_ring_linearizable.

(** the log respects real time: between any two moments s1, s2 of an execution the log and every thread's list of
    returned answers only grow, and thread t's part of the growth consists of the calls of t that returned or were
    linearized after s1 - a call that has returned by s1 precedes everything linearized later *)
Theorem C16_ring_real_time_order : forall (A : Type) (size : nat) (progs : nat -> list (rop A)) sched1 sched2,
  2 <= size ->
  let s1 := rs_run sched1 (rs_init size progs) in
  let s2 := rs_run sched2 s1 in
  exists ext, rs_lin s2 = rs_lin s1 ++ ext /\
    forall t, exists hext, thist (rs_thr s2 t) = thist (rs_thr s1 t) ++ hext /\
      pending (tpc (rs_thr s1 t)) ++ proj t ext = succ_of hext ++ pending (tpc (rs_thr s2 t)).
Proof. exact ring_real_time_lemma. Qed.
Print Assumptions C16_ring_real_time_order.

(** no task lost, none duplicated, capacity respected, at every point of every schedule: the pushed values in
    linearization order are the popped values followed by the queue contents (equal as lists, hence as multisets:
    every popped value was pushed, each pushed value is popped at most once, popped ++ contents = pushed) *)
Theorem C16_ring_no_loss_no_dup : forall (A : Type) (size : nat) (progs : nat -> list (rop A)) (sched : list (nat * bool)),
  2 <= size ->
  let s := rs_run sched (rs_init size progs) in
  map Some (pushed_vals (rs_lin s)) = popped_vals (rs_lin s) ++ map Some (rs_q s) /\
  length (rs_q s) <= size /\
  length (rs_q s) = enq A (rs_mem s) - deq A (rs_mem s) /\
  deq A (rs_mem s) <= enq A (rs_mem s) <= deq A (rs_mem s) + size.
Proof. exact ring_conservation_lemma. Qed.
Print Assumptions C16_ring_no_loss_no_dup.

(** a push that answers "full" (its history gains PushFull at its next own step after the sequence load, whatever
    the other threads do in between): when it loaded the sequence number the enqueue counter was still the position
    it had read, and the abstract queue held [size] elements or the cell was still owned by a pop between its CAS
    and its sequence store.  The second case is real (C16_ring_full_with_inflight_pop_example). *)
Theorem C16_ring_full_answer_justified : forall (A : Type) (size : nat) (progs : nat -> list (rop A)) sched t x pos b mid b',
  2 <= size ->
  let s := rs_run sched (rs_init size progs) in
  tpc (rs_thr s t) = PushLoadSeq x pos ->
  Forall (fun e => fst e <> t) mid ->
  let s' := rs_step t b' (rs_run mid (rs_step t b s)) in
  thist (rs_thr s' t) = thist (rs_thr s t) ++ [(RPush A x, PushFull A)] ->
  enq A (rs_mem s) = pos /\
  (length (rs_q s) = size \/ (size <= pos /\ exists t', ipop (tpc (rs_thr s t')) = Some (pos - size))).
Proof. exact ring_full_justified_lemma. Qed.
Print Assumptions C16_ring_full_answer_justified.

(** a pop that answers "empty": when it loaded the sequence number the dequeue counter was still the position it
    had read, and the abstract queue was empty or its oldest element belonged to a push between its CAS and its
    sequence store.  The second case is real and makes "empty" non-linearizable in the strict sense
    (C16_ring_empty_with_inflight_push_example); callers must treat it as "retry later", which Worker::threadFunc does. *)
Theorem C16_ring_empty_answer_justified : forall (A : Type) (size : nat) (progs : nat -> list (rop A)) sched t pos b mid b',
  2 <= size ->
  let s := rs_run sched (rs_init size progs) in
  tpc (rs_thr s t) = PopLoadSeq pos ->
  Forall (fun e => fst e <> t) mid ->
  let s' := rs_step t b' (rs_run mid (rs_step t b s)) in
  thist (rs_thr s' t) = thist (rs_thr s t) ++ [(RPop A, PopEmpty A)] ->
  deq A (rs_mem s) = pos /\
  (rs_q s = [] \/ exists t', ipush (tpc (rs_thr s t')) = Some pos).
Proof. exact ring_empty_justified_lemma. Qed.
Print Assumptions C16_ring_empty_answer_justified.

(** the model has the interleavings in question: two producers read the same position and sequence number, both
    reach the CAS, one wins, the other's CAS fails, reloads the sequence of the next cell and retries *)
Theorem C16_ring_cas_collision_example :
  view (rs_run ex_collide (rs_init 2 ex_progs)) =
  ([(0, None); (1, None)], 1, 0,
   [(PushWrite 10 0, []); (PushLoadSeq 20 1, []); (PcIdle, []); (PcIdle, [])],
   [(0, RPush nat 10, PushOk nat)], [10]).
Proof. exact ring_cas_collision_example. Qed.
Print Assumptions C16_ring_cas_collision_example.

Theorem C16_ring_empty_with_inflight_push_example :
  view (rs_run (ex_collide ++ plain [1; 1; 1; 1; 1]) (rs_init 2 ex_progs)) =
    ([(0, None); (2, Some 20)], 2, 0,
     [(PushWrite 10 0, []); (PcIdle, [(RPush nat 20, PushOk nat)]); (PcIdle, []); (PcIdle, [])],
     [(0, RPush nat 10, PushOk nat); (1, RPush nat 20, PushOk nat)], [10; 20]) /\
  view (rs_run (ex_collide ++ plain [1; 1; 1; 1; 1] ++ plain [2; 2; 2; 2]) (rs_init 2 ex_progs)) =
    ([(0, None); (2, Some 20)], 2, 0,
     [(PushWrite 10 0, []); (PcIdle, [(RPush nat 20, PushOk nat)]); (PcIdle, [(RPop nat, PopEmpty nat)]); (PcIdle, [])],
     [(0, RPush nat 10, PushOk nat); (1, RPush nat 20, PushOk nat)], [10; 20]).
Proof. exact ring_empty_with_inflight_push_example. Qed.
Print Assumptions C16_ring_empty_with_inflight_push_example.

Theorem C16_ring_full_with_inflight_pop_example :
  view (rs_run (plain [0; 0; 0; 0; 0; 0; 0; 0; 0; 0; 0; 0; 0; 0] ++ plain [2; 2; 2; 2; 2] ++ plain [3; 3; 3; 3])
               (rs_init 2 ex_progs2)) =
  ([(1, Some 10); (2, Some 20)], 2, 1,
   [(PcIdle, [(RPush nat 10, PushOk nat); (RPush nat 20, PushOk nat)]); (PcIdle, []); (PopMove 0 (Some 10), []);
    (PcIdle, [(RPush nat 30, PushFull nat)])],
   [(0, RPush nat 10, PushOk nat); (0, RPush nat 20, PushOk nat); (2, RPop nat, PopOk nat (Some 10))], [20]).
Proof. exact ring_full_with_inflight_pop_example. Qed.
Print Assumptions C16_ring_full_with_inflight_pop_example.

(** the ring never makes a thread spin on its own (obstruction freedom): from EVERY reachable state - whatever the
    other threads have left half-done - a thread that is inside a push or pop and then runs alone, without
    spurious CAS failures, returns from that call within 8 of its own steps (in particular the reload-and-retry
    branch dif > 0 cannot repeat without another thread moving a counter).  System-wide progress under contention
    (lock freedom) is not stated. *)
From VB Require Import Conc.RingSolo.
Theorem C16_ring_obstruction_free : forall (A : Type) (size : nat) (progs : nat -> list (rop A)) sched t,
  2 <= size ->
  let s := rs_run sched (rs_init size progs) in
  tpc (rs_thr s t) <> PcIdle ->
  exists n, n <= 8 /\ tpc (rs_thr (solo A n t s) t) = PcIdle /\
            exists e, thist (rs_thr (solo A n t s) t) = thist (rs_thr s t) ++ [e].
Proof. exact ring_obstruction_free_lemma. Qed.
Print Assumptions C16_ring_obstruction_free.

(** several callers sharing one validator (Conc/MultiDefs.v: tasks tagged by client, the pool abstracted to the bag of
    posted tasks, any interleaving of posting / execution / returns, any number of clients and payload lists):
    every client that has returned got the sequential verdict of ITS OWN payloads, and no client ever throws.
    The single-client theorems above are the detailed model of the queues; here the point is independence. *)
From VB Require Import Conc.MultiDefs Conc.MultiProofs.
Theorem C16_multi_client_verdict : forall progs sched c r,
  nth_error (mresults (mrun false progs sched (minit progs))) c = Some r ->
  match r with MRunning => True | MRet v => client_spec progs c v | MThrown => False end.
Proof. intros progs sched c r. apply m_res, MInv_run, MInv_init. Qed.
Print Assumptions C16_multi_client_verdict.

(** documentation: if PopValidator::clear() (called on an invalid payload) restarted the pool instead of being a
    no-op, another client's queued checks die with the queues - its call throws although its PopData is valid *)
Theorem C16_clear_restarts_pool_refuted :
  let s := mrun true restart_witness_progs restart_witness_sched (minit restart_witness_progs) in
  mresults s = [MThrown; MRet (VInvalid 0)] /\
  seq_verdict (mk_tasks 0 0 [true; true]) false = VValid.
Proof. vm_compute. auto. Qed.
Print Assumptions C16_clear_restarts_pool_refuted.
