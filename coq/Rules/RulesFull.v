(** C04 — the contextual rule set on the AS-CODED POP state machine (Pop/Sm*.v).

    The state machine model executes, per block, command groups over reference-count commands
    (AddRef / AddEnd / Need / Poison), where [Poison] stands for "any contextually invalid payload at this
    position".  Here the groups of a block are the TRANSLATION [tr] of its payload body in its chain context:
    VBK context blocks and blocks of proof become AddRef, a VTB needs its containing block, and the remaining
    checks of the rule set (the exec functions of RulesDefs) decide between the endorsement command and Poison.
    The translated groups of a body all execute iff the body is [ctx_valid] ([sim_block]); with [reachable_good]
    (every block of the active chain can be replayed on its own ancestry alone) the active chain is [chain_valid]
    in EVERY reachable state: any history of connect / setState / comparePopScore with any scorer. *)
From Coq Require Import List ZArith NArith Bool Lia.
From VB Require Import Rules.RulesDefs Rules.RulesProofs.
From VB Require Import Pop.SmDefs Pop.SmProofs Pop.SmWf Pop.SmTruth Pop.SmCmp Pop.SmAll Pop.SmCoh Pop.SmFull.
Import ListNotations.
Local Open Scope Z_scope.

Definition enc (z : Z) : N := Z.to_N (if z <? 0 then -2 * z - 1 else 2 * z).
Lemma enc_inj a b : enc a = enc b -> a = b.
Proof.
  assert (Nn : forall z, 0 <= (if z <? 0 then -2 * z - 1 else 2 * z)) by (intros z; destruct (Z.ltb_spec z 0); lia).
  unfold enc. intros E%Z2N.inj; [|apply Nn..]. destruct (Z.ltb_spec a 0), (Z.ltb_spec b 0); lia.
Qed.

(** the machine's protecting state represents the known VBK blocks of the rule state *)
Definition R (pp : pstate) (K : list Z) : Prop :=
  forall v, SmDefs.mem (IRef (enc v)) pp = true <-> In v K.

Lemma R_mem pp K v : R pp K -> SmDefs.mem (IRef (enc v)) pp = RulesDefs.mem v K.
Proof. intros H. apply eq_true_iff_eq. rewrite mem_In. apply H. Qed.

Lemma R_add pp K v : R pp K -> R (IRef (enc v) :: pp) (add_known K v).
Proof.
  intros H u. cbn [SmDefs.mem existsb item_eqb]. fold (SmDefs.mem (IRef (enc u)) pp).
  split.
  - intros [E%N.eqb_eq%enc_inj | X%H]%orb_true_iff; apply add_known_In; auto.
  - intros [->|X]%add_known_In; apply orb_true_iff; [left; apply N.eqb_refl | right; now apply H].
Qed.

Lemma R_end pp K e c b : R pp K -> R (IEnd e c b :: pp) K.
Proof. intros H u. cbn [SmDefs.mem existsb item_eqb orb]. apply H. Qed.

Definition is_inl {A B : Type} (x : A + B) : bool := match x with inl _ => true | inr _ => false end.

Definition vpar (W : World) (v : Z) : N :=
  match parent_of (vbks W) v with Some p => enc p | None => enc v end.

(** AddVbkBlock: a known block gets one more reference; an unknown one must connect to a known parent AND pass the
    contextual header rule (otherwise: Poison) *)
Definition c_vbk (W : World) (K : list Z) (v : Z) : ccmd :=
  if RulesDefs.mem v K || hdr_ok W v then AddRef (enc v) (vpar W v) else Poison.
Definition g_vbk (W : World) (K : list Z) (v : Z) : list ccmd := [c_vbk W K v].
Definition g_vtb (W : World) (P : Params) (s : St) (w : Vtb) : list ccmd :=
  Need (enc (w_containing w)) :: (if is_inl (exec_vtb W P s w) then [] else [Poison]).
Definition g_atv (W : World) (P : Params) (c : Z) (K : list Z) (t : Atv) : list ccmd :=
  c_vbk W K (t_bop t) ::
  (if is_inl (exec_atv W P c K t) then [AddEnd (enc (t_endorsed t)) (enc c) (enc (t_bop t))] else [Poison]).

Fixpoint tr_vbks (W : World) (K : list Z) (vs : list Z) : list (list ccmd) :=
  match vs with [] => [] | v :: r => g_vbk W K v :: tr_vbks W (add_known K v) r end.
Fixpoint tr_vtbs (W : World) (P : Params) (s : St) (ws : list Vtb) : list (list ccmd) :=
  match ws with [] => [] | w :: r => g_vtb W P s w :: tr_vtbs W P (after_vtb s w) r end.
Fixpoint tr_atvs (W : World) (P : Params) (c : Z) (K : list Z) (ts : list Atv) : list (list ccmd) :=
  match ts with [] => [] | t :: r => g_atv W P c K t :: tr_atvs W P c (add_known K (t_bop t)) r end.

Definition dupb (s : St) (b : Body) : bool := existsb (fun i => pmem i (seen s)) (body_ids b).

(** command groups of block [c] with body [b] on top of the rule state [s], in the order of
    AltCommandGroupStore::getCommands; a stateful duplicate poisons the block as a whole *)
Definition tr (W : World) (P : Params) (s : St) (c : Z) (b : Body) : list (list ccmd) :=
  let K1 := known_after (vknown s) (bd_ctx b) in
  (if dupb s b then [[Poison]] else []) ++
  tr_vbks W (vknown s) (bd_ctx b) ++
  tr_vtbs W P (RulesDefs.mkSt K1 (brefs s) (vin s) (seen s)) (bd_vtbs b) ++
  tr_atvs W P c K1 (bd_atvs b).

Fixpoint grun (g : list ccmd) (p : pstate) : option pstate :=
  match g with [] => Some p | c :: r => match cexec c p with Some p' => grun r p' | None => None end end.
Fixpoint gsrun (gs : list (list ccmd)) (p : pstate) : option pstate :=
  match gs with [] => Some p | g :: r => match grun g p with Some p' => gsrun r p' | None => None end end.

Lemma gexec_spec : forall todo done p,
  match grun todo p with
  | Some p' => gexec pstate ccmd cexec cunexec done todo p = (p', true)
  | None => snd (gexec pstate ccmd cexec cunexec done todo p) = false
  end.
Proof.
  induction todo as [|c r IH]; intros done p; cbn [grun gexec]; [reflexivity|].
  destruct (cexec c p) as [p'|]; [apply IH | reflexivity].
Qed.

Lemma gsexec_spec : forall todo done p,
  match gsrun todo p with
  | Some p' => gsexec pstate ccmd cexec cunexec done todo p = (p', true)
  | None => snd (gsexec pstate ccmd cexec cunexec done todo p) = false
  end.
Proof.
  induction todo as [|g r IH]; intros done p; cbn [gsrun gsexec]; [reflexivity|].
  unfold group_execute. pose proof (gexec_spec g [] p) as G.
  destruct (grun g p) as [p1|].
  - rewrite G. apply IH.
  - destruct (gexec pstate ccmd cexec cunexec [] g p) as [q ok]. cbn in G. subst ok. reflexivity.
Qed.

Lemma gsexec_true_iff gs p p' :
  gsexec pstate ccmd cexec cunexec [] gs p = (p', true) <-> gsrun gs p = Some p'.
Proof.
  pose proof (gsexec_spec gs [] p) as G. destruct (gsrun gs p) as [q|].
  - rewrite G. split; intros E; inversion E; reflexivity.
  - split; [|discriminate]. intros E. rewrite E in G. discriminate.
Qed.

Lemma gsrun_app a : forall b p,
  gsrun (a ++ b) p = match gsrun a p with Some p' => gsrun b p' | None => None end.
Proof.
  induction a as [|g r IH]; intros b p; cbn [app gsrun]; [reflexivity|].
  destruct (grun g p); [apply IH | reflexivity].
Qed.

(** [o]: the machine's run of the translated groups; [r]: the checks as coded; [kn]: what the result knows *)
Definition sim {A} (kn : A -> list Z) (o : option pstate) (r : A + Err) : Prop :=
  match r with
  | inl a => exists pp, o = Some pp /\ R pp (kn a)
  | inr _ => o = None
  end.

Lemma sim_bind {A B} (ka : A -> list Z) (kb : B -> list Z) o r g (f : A -> B + Err) :
  sim ka o r -> (forall pp a, r = inl a -> R pp (ka a) -> sim kb (g pp) (f a)) ->
  sim kb (match o with Some p => g p | None => None end) (match r with inl a => f a | inr e => inr e end).
Proof.
  destruct r as [a|e]; cbn [sim].
  - intros (pp & -> & HR) H. now apply H.
  - now intros ->.
Qed.

Lemma sim_addref W pp K v : R pp K ->
  cexec (c_vbk W K v) pp = if is_inl (exec_vbk W K v) then Some (IRef (enc v) :: pp) else None.
Proof.
  intros H. unfold c_vbk, exec_vbk, vpar. pose proof (R_mem pp K v H) as Ev.
  destruct (RulesDefs.mem v K), (hdr_ok W v), (parent_of (vbks W) v) as [p|]; cbn [orb cexec];
    rewrite ?Ev; try reflexivity; rewrite ?(R_mem pp K p H); now destruct (RulesDefs.mem p K).
Qed.

Lemma sim_vbk W pp K v : R pp K -> sim id (grun (g_vbk W K v) pp) (exec_vbk W K v).
Proof.
  intros H. unfold g_vbk. cbn [grun]. rewrite (sim_addref W pp K v H).
  destruct (exec_vbk W K v) as [K1|e] eqn:E; cbn [is_inl sim]; [|reflexivity].
  apply exec_vbk_iff in E. destruct E as [_ ->]. eexists. split; [reflexivity | now apply R_add].
Qed.

Lemma sim_vbks W : forall vs pp K, R pp K -> sim id (gsrun (tr_vbks W K vs) pp) (exec_vbks W K vs).
Proof.
  induction vs as [|v r IH]; intros pp K H; cbn [exec_vbks tr_vbks gsrun]; [now exists pp|].
  apply (sim_bind id id); [now apply sim_vbk|]. intros pp' K' [_ ->]%exec_vbk_iff. apply IH.
Qed.

Lemma sim_vtb W P pp s w : R pp (vknown s) -> sim vknown (grun (g_vtb W P s w) pp) (exec_vtb W P s w).
Proof.
  intros H. unfold g_vtb. cbn [grun cexec]. rewrite (R_mem _ _ _ H).
  destruct (exec_vtb W P s w) as [s'|e] eqn:E; cbn [sim].
  - apply exec_vtb_iff in E. destruct E as [[Hc _] ->]. apply mem_In in Hc. rewrite Hc. now exists pp.
  - now destruct (RulesDefs.mem (w_containing w) (vknown s)).
Qed.

Lemma sim_vtbs W P : forall ws pp s, R pp (vknown s) -> sim vknown (gsrun (tr_vtbs W P s ws) pp) (exec_vtbs W P s ws).
Proof.
  induction ws as [|w r IH]; intros pp s H; cbn [exec_vtbs tr_vtbs gsrun]; [now exists pp|].
  apply (sim_bind vknown vknown); [now apply sim_vtb|]. intros pp' s' [_ ->]%exec_vtb_iff. apply IH.
Qed.

Lemma sim_atv W P c pp K t : R pp K -> sim id (grun (g_atv W P c K t) pp) (exec_atv W P c K t).
Proof.
  intros H. unfold g_atv. cbn [grun]. rewrite (sim_addref W pp K (t_bop t) H).
  destruct (exec_atv W P c K t) as [K2|e2] eqn:E2; cbn [sim].
  - apply exec_atv_iff in E2. destruct E2 as [[C1 _] ->].
    rewrite (proj2 (exec_vbk_iff W K (t_bop t) _) (conj C1 eq_refl)). cbn [is_inl grun cexec SmDefs.mem existsb item_eqb].
    rewrite N.eqb_refl. eexists. split; [reflexivity|]. apply R_end. now apply R_add.
  - destruct (is_inl (exec_vbk W K (t_bop t))); reflexivity.
Qed.

Lemma sim_atvs W P c : forall ts pp K, R pp K -> sim id (gsrun (tr_atvs W P c K ts) pp) (exec_atvs W P c K ts).
Proof.
  induction ts as [|t r IH]; intros pp K H; cbn [exec_atvs tr_atvs gsrun]; [now exists pp|].
  apply (sim_bind id id); [now apply sim_atv|]. intros pp' K' [_ ->]%exec_atv_iff. apply IH.
Qed.

Lemma sim_block W P s c b pp : R pp (vknown s) -> sim vknown (gsrun (tr W P s c b) pp) (exec_block W P s c b).
Proof.
  intros H. unfold exec_block, tr. fold (dupb s b). destruct (dupb s b); [reflexivity|]. cbn [app].
  rewrite gsrun_app. apply (sim_bind id vknown); [now apply sim_vbks|]. intros pp1 K1 [_ ->]%exec_vbks_iff R1.
  rewrite gsrun_app. apply (sim_bind vknown vknown); [now apply sim_vtbs|]. intros pp2 s2 [_ ->]%exec_vtbs_iff R2.
  rewrite vknown_after_vtbs in *. cbn [vknown] in *.
  pose proof (sim_atvs W P c (bd_atvs b) pp2 _ R2) as S3. now destruct (exec_atvs W P c _ (bd_atvs b)).
Qed.

Lemma tr_executes W P s c b pp pp' : R pp (vknown s) ->
  gsexec pstate ccmd cexec cunexec [] (tr W P s c b) pp = (pp', true) ->
  ctx_valid W P s c b /\ R pp' (vknown (after_block s b)).
Proof.
  intros H E. apply gsexec_true_iff in E. pose proof (sim_block W P s c b pp H) as S.
  destruct (exec_block W P s c b) as [s'|e] eqn:X; [|congruence].
  apply exec_block_iff in X. destruct X as [V ->]. destruct S as (pp1 & G & HR).
  assert (pp1 = pp') as <- by congruence. auto.
Qed.

Theorem groups_execute_iff_ctx_valid W P s c b pp : R pp (vknown s) ->
  ((exists pp', gsexec pstate ccmd cexec cunexec [] (tr W P s c b) pp = (pp', true)) <-> ctx_valid W P s c b).
Proof.
  intros H. split.
  - intros [pp' E]. exact (proj1 (tr_executes W P s c b pp pp' H E)).
  - intros [s' E]%exec_ok_iff_ctx_valid. pose proof (sim_block W P s c b pp H) as S. rewrite E in S.
    destruct S as (pp' & G & _). exists pp'. now apply gsexec_true_iff.
Qed.

Section Chain.
  Variable W : World.
  Variable P : Params.
  Variable bodyof : N -> Body.      (* the payload body of every ALT block *)

  Definition zid (i : N) : Z := Z.of_N i.

  (** bodies of the n blocks above the n-th ancestor of i, lowest first *)
  Fixpoint alt_chain (l : list ent) (n : nat) (i : N) : list (Z * Body) :=
    match n with
    | O => []
    | S m => alt_chain l m (parent l i) ++ [(zid i, bodyof i)]
    end.
  Definition rctx (l : list ent) (n : nat) (i : N) : St := after_chain st0 (alt_chain l n i).

  (** the command groups of every block are the translation of its body in its chain context; the bootstrap
      block has none *)
  Definition compiled (s : cst) : Prop :=
    gs_of s (root _ _ s) = [] /\
    forall b, In b (blocks _ _ s) -> b_id _ b <> root _ _ s ->
      b_gs _ b = tr W P (rctx (cores s) (depth s (b_par _ b)) (b_par _ b)) (zid (b_id _ b)) (bodyof (b_id _ b)).

  Lemma vknown_after_block s c b s' : exec_block W P s c b = inl s' -> s' = after_block s b.
  Proof. intros E. apply exec_block_iff in E. tauto. Qed.

  Lemma act_parent s i : wf s -> is_act (cores s) i -> i <> root _ _ s ->
    exists b, find ccmd (blocks _ _ s) i = Some b /\ parent (cores s) i = b_par _ b
              /\ is_act (cores s) (b_par _ b) /\ hgt (cores s) i = hgt (cores s) (b_par _ b) + 1.
  Proof.
    intros Wf (e & He & Hae) Hir. destruct (core_find _ _ _ He) as (b & Fb & <-).
    exists b. split; [exact Fb|]. split; [unfold parent; now rewrite He|].
    split; [|exact (wf_parent_height _ _ _ Wf He Hir)].
    destruct (wf_act_closed _ Wf) as (_ & _ & Cl). destruct (Cl _ _ Fb Hae Hir) as (pb & Fpb & Apb).
    exists (core pb). split; [now apply find_cfind | exact Apb].
  Qed.

  (** the applied blocks are root..tip ([applied_exactly]), one per height *)
  Lemma act_depth0_root s i : quiet s -> is_act (cores s) i -> depth s i = O -> i = root _ _ s.
  Proof.
    intros Q Ha Hd. pose proof Q as (Wf & Ta & _). pose proof (quiet_depth_nonneg s Q) as Hn.
    set (d := hgt (cores s) (tip _ _ s) - hgt (cores s) (root _ _ s)) in *.
    assert (U : forall k, Z.of_nat k <= d ->
              hgt (cores s) (up (cores s) k (tip _ _ s)) = hgt (cores s) (tip _ _ s) - Z.of_nat k
              /\ is_act (cores s) (up (cores s) k (tip _ _ s))).
    { induction k as [|k IH]; intros Hk; [cbn [up]; split; [lia | exact Ta]|].
      destruct IH as [Hh Hact]; [lia|]. rewrite up_succ_r.
      destruct (act_parent s _ Wf Hact) as (b & _ & -> & Hpa & Hph); [intros X; rewrite X in Hh; lia|].
      split; [lia | exact Hpa]. }
    assert (Hr : is_act (cores s) (root _ _ s)).
    { destruct Wf as (_ & (hr & HR) & _). now exists (root _ _ s, root _ _ s, hr, true). }
    destruct (anc_list_up _ _ _ _ (proj1 (applied_exactly s Q i) Ha)) as (k1 & Hk1 & ->).
    destruct (anc_list_up _ _ _ _ (proj1 (applied_exactly s Q _) Hr)) as (k0 & Hk0 & E0).
    unfold depth in Hd. fold d in Hk1, Hk0.
    destruct (U k1) as [H1 _]; [lia|]. destruct (U k0) as [H0 _]; [lia|].
    rewrite <- E0 in H0. assert (k1 = k0) by lia. congruence.
  Qed.

  Lemma bgs_succ s n i : bgs s (S n) i = bgs s n (parent (cores s) i) ++ [gs_of s i].
  Proof. reflexivity. Qed.

  Lemma replay_chain_valid : forall s, quiet s -> compiled s ->
    forall n i pp base, R base (vknown st0) ->
      is_act (cores s) i -> depth s i = n ->
      replay (bgs s n i) base = Some pp ->
      chain_valid W P st0 (alt_chain (cores s) n i) /\ R pp (vknown (rctx (cores s) n i)).
  Proof.
    intros s Q [Croot Cgs] n. pose proof Q as (Wf & _ & _).
    induction n as [|n IH]; intros i pp base Hb Ha Hd Hrp.
    - (* i is the root: no groups *)
      rewrite (act_depth0_root s i Q Ha Hd) in Hrp. unfold bgs in Hrp. cbn [anc_list map rev app] in Hrp.
      rewrite Croot in Hrp. injection Hrp as <-. split; [exact I | exact Hb].
    - assert (Hir : i <> root _ _ s).
      { intros ->. unfold depth in Hd. now rewrite Z.sub_diag in Hd. }
      destruct (act_parent s i Wf Ha Hir) as (b & Fb & Hp & Hpa & Hph).
      destruct (find_some_in _ _ _ Fb) as [Hin Hid].
      assert (Hdp : depth s (b_par _ b) = n) by (unfold depth in *; lia).
      rewrite bgs_succ, Hp, replay_app in Hrp.
      destruct (replay (bgs s n (b_par _ b)) base) as [pp0|] eqn:Erp; [|discriminate].
      destruct (IH _ _ _ Hb Hpa Hdp Erp) as [Hcv HR0].
      unfold gs_of in Hrp. rewrite Fb, (Cgs b Hin), Hdp, Hid in Hrp by congruence. cbn [replay] in Hrp.
      destruct (gsexec pstate ccmd cexec cunexec [] _ pp0) as [q ok] eqn:Eg.
      destruct ok; [|discriminate]. injection Hrp as ->.
      destruct (tr_executes W P _ _ _ _ _ HR0 Eg) as [Hv HR].
      unfold rctx in *. cbn [alt_chain]. rewrite Hp, chain_valid_app, after_chain_app. cbn. auto.
  Qed.
End Chain.

(** * C04 on the as-coded machine: every reachable state has a contextually valid active chain *)
Definition base0 : pstate := [IRef (enc 0)].        (* the bootstrap VBK block is known *)

Lemma R_base0 : R base0 (vknown st0).
Proof. apply (R_add [] [] 0). intros v. split; [discriminate | intros []]. Qed.

(** the bodies of the active chain root..tip (root excluded), lowest first *)
Definition active_bodies (bodyof : N -> Body) (s : cst) : list (Z * Body) :=
  alt_chain bodyof (cores s) (depth s (tip _ _ s)) (tip _ _ s).

Theorem active_payloads_valid : forall W P bodyof s,
  reachable base0 s -> compiled W P bodyof s ->
  chain_valid W P st0 (active_bodies bodyof s).
Proof.
  intros W P bodyof s Rch Cmp.
  destruct (reachable_good _ _ Rch) as (Q & _ & _ & (bt & Fbt & Hl) & U). pose proof Q as (_ & Ta & _).
  pose proof (find_some_in _ _ _ Fbt) as [Hin Hid].
  (* the tip is at the fully-valid level, so it replays on its own ancestry *)
  destruct (U bt Hin (proj2 (N.leb_le _ _) Hl)) as (p' & Hp'). rewrite Hid in Hp'.
  exact (proj1 (replay_chain_valid W P bodyof s Q Cmp _ _ _ _ R_base0 Ta eq_refl Hp')).
Qed.

(** per block: every applied block other than the root is valid in the context made by the bodies below it *)
Theorem active_block_valid : forall W P bodyof s,
  reachable base0 s -> compiled W P bodyof s ->
  forall j b, find ccmd (blocks _ _ s) j = Some b -> b_act _ b = true -> j <> root _ _ s ->
    ctx_valid W P (rctx bodyof (cores s) (depth s (b_par _ b)) (b_par _ b)) (zid j) (bodyof j).
Proof.
  intros W P bodyof s Rch Cmp j b Fb Ab Hjr.
  destruct (applied_blocks_executed _ _ Rch j b Fb Ab Hjr) as (pp & p' & Hrp & Hg).
  destruct (reachable_good _ _ Rch) as (Q & _ & _ & _ & _). pose proof Q as (Wf & _ & _).
  assert (Ha : is_act (cores s) j) by (exists (core b); split; [now apply find_cfind | exact Ab]).
  destruct (act_parent s j Wf Ha Hjr) as (b' & Fb' & _ & Hap & _). assert (b' = b) as -> by congruence.
  destruct (replay_chain_valid W P bodyof s Q Cmp _ _ _ _ R_base0 Hap eq_refl Hrp) as [_ HR].
  pose proof (find_some_in _ _ _ Fb) as [Hin Hid].
  destruct Cmp as [_ Cgs]. rewrite (Cgs b Hin), Hid in Hg by congruence.
  exact (proj1 (tr_executes W P _ _ _ _ _ HR Hg)).
Qed.

(** * non-vacuity: a reachable, compiled state with two applied blocks above the root *)
Definition ex_bodyof (i : N) : Body :=
  match i with
  | 1%N => mkBody [1] [] []
  | 2%N => mkBody [] [] [honest_atv exW 2 1 1 1]
  | _ => mkBody [] [] []
  end.
Definition ex_gs1 := tr exW exP st0 1 (ex_bodyof 1).
Definition ex_gs2 := tr exW exP (after_block st0 (ex_bodyof 1)) 2 (ex_bodyof 2).
Definition ex_ops : list op := [OConnect 1 0 false ex_gs1; OConnect 2 1 false ex_gs2; OSetState 2].

Example ex_machine_state :
  exists s, run (c_init 0 0 base0) ex_ops = Ok s /\ tip _ _ s = 2%N /\ compiled exW exP ex_bodyof s /\
            active_bodies ex_bodyof s = [(1, ex_bodyof 1); (2, ex_bodyof 2)].
Proof.
  eexists. split; [vm_compute; reflexivity|]. split; [reflexivity|]. split.
  - split; [reflexivity|]. intros b Hb Hr. cbn in Hb.
    destruct Hb as [<-|[<-|[<-|[]]]]; [exfalso; apply Hr; reflexivity | vm_compute; reflexivity | vm_compute; reflexivity].
  - vm_compute. reflexivity.
Qed.
