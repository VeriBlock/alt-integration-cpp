(** C19 — honestly built VTBs satisfy the contextual rules of the chain they are delivered on; an ALT block whose
    whole body is honest is accepted, with no validity premise about its payloads. *)
From Coq Require Import ZArith List Bool Lia.
From VB Require Import Rules.RulesDefs Rules.RulesProofs Rules.C19HonestDefs.
Import ListNotations.
Local Open Scope Z_scope.

Lemma anc_at_cases (tr : Tree) (h : Z) (Q : nat -> Z -> Z -> Prop) :
  (forall f x b, find_blk tr x = Some b -> b_height b = h -> Q f x x) ->
  (forall f x b a, find_blk tr x = Some b -> h < b_height b -> parent_of tr x = Some (b_parent b) ->
     anc_at f tr (b_parent b) h = Some a -> Q f (b_parent b) a -> Q (S f) x a) ->
  forall f x a, anc_at f tr x h = Some a -> Q f x a.
Proof.
  intros Here Up. induction f as [|f IH]; intros x a H; cbn [anc_at] in H;
    destruct (find_blk tr x) as [b|] eqn:F; try discriminate;
    destruct (Z.eqb_spec (b_height b) h) as [E|N].
  1, 3: injection H as <-; eapply Here; eassumption.
  all: destruct (Z.ltb_spec (b_height b) h); try discriminate.
  destruct (b_parent b =? -1) eqn:Np; [discriminate|].
  eapply Up; eauto; [lia | unfold parent_of; now rewrite F, Np].
Qed.

Lemma anc_at_height tr h : forall f x a, anc_at f tr x h = Some a -> height_of tr a = Some h.
Proof.
  apply anc_at_cases; [|auto]. intros _ x b F <-. unfold height_of. now rewrite F.
Qed.

Lemma ancestor_is_anc_or_eq tr x h a : ancestor_at tr x h = Some a -> is_anc_or_eq tr a x.
Proof. intros H. exists h. split; [exact (anc_at_height _ _ _ _ _ H) | exact H]. Qed.

Lemma anc_at_closed W K h : vclosed W K ->
  forall f x a, anc_at f (vbks W) x h = Some a -> In x K -> In a K.
Proof.
  intros C. apply (anc_at_cases _ _ (fun _ x a => In x K -> In a K)); [auto|].
  intros f x b a _ _ Hp _ IH Hx. exact (IH (C x _ Hx Hp)).
Qed.

(** the BTC context of MockMiner::getBlocks starts right after a referenced block, re-sends none, is a chain *)
Lemma hbc_spec W R cont : forall f x acc conn path,
  honest_btc_context f W R cont x acc = Some (conn, path) ->
  btc_ref_ok W R conn cont = true
  /\ (btc_chain W x acc = true -> btc_chain W conn path = true)
  /\ exists pre, path = pre ++ x :: acc /\ forall b, In b pre -> btc_ref_ok W R b cont = false.
Proof.
  induction f as [|f IH]; intros x acc conn path H; cbn [honest_btc_context] in H; [discriminate|].
  destruct (parent_of (btcs W) x) as [p|] eqn:Pa; [|discriminate].
  assert (Hp : btc_chain W x acc = true -> btc_chain W p (x :: acc) = true).
  { intros Hx. cbn [btc_chain]. now rewrite Pa, (proj2 (oz_eqb_eq _ _) eq_refl). }
  destruct (btc_ref_ok W R p cont) eqn:Rk.
  - injection H as <- <-. split; [exact Rk|]. split; [exact Hp|]. exists []. split; [reflexivity | intros b []].
  - destruct (IH _ _ _ _ H) as (Hr & Hc & pre & -> & Hn). split; [exact Hr|]. split; [auto|].
    exists (pre ++ [p]). split; [now rewrite <- app_assoc|].
    intros b [Hb|[<-|[]]]%in_app_or; [now apply Hn | exact Rk].
Qed.

Lemma hbc_complete W R cont ha : forall f x a,
  anc_at f (btcs W) x ha = Some a -> btc_ref_ok W R a cont = true -> x <> a ->
  forall acc, exists r, honest_btc_context f W R cont x acc = Some r.
Proof.
  apply (anc_at_cases _ _ (fun f x a => btc_ref_ok W R a cont = true -> x <> a ->
           forall acc, exists r, honest_btc_context f W R cont x acc = Some r)); [congruence|].
  intros f x b a _ _ Hp _ IH Ra _ acc.
  cbn [honest_btc_context]. rewrite Hp. destruct (btc_ref_ok W R (b_parent b) cont) eqn:Rk; [eauto|].
  apply IH; congruence.
Qed.

Lemma honest_vtb_inv W R sp w : honest_vtb W R sp = Some w ->
  exists e conn path,
    w = mkVtb (vs_id sp) e (vs_cont sp) conn path
    /\ ancestor_at (vbks W) (vs_cont sp) (vs_eh sp) = Some e
    /\ honest_btc_context (length (btcs W)) W R (vs_cont sp) (vs_bop sp) [] = Some (conn, path).
Proof.
  unfold honest_vtb. intros H.
  destruct (ancestor_at (vbks W) (vs_cont sp) (vs_eh sp)) as [e|]; [|discriminate].
  destruct (honest_btc_context (length (btcs W)) W R (vs_cont sp) (vs_bop sp) []) as [[conn path]|]; [|discriminate].
  injection H as <-. exists e, conn, path. auto.
Qed.

Lemma honest_vtb_containing W R sp w : honest_vtb W R sp = Some w -> w_containing w = vs_cont sp.
Proof. intros H. destruct (honest_vtb_inv _ _ _ _ H) as (e & conn & path & -> & _). reflexivity. Qed.

Definition vtb_valid_but_window (W : World) (P : Params) (s : St) (w : Vtb) : Prop :=
  In (w_containing w) (vknown s)
  /\ count (w_containing w) (vin s) < p_maxvtb P
  /\ (exists c', In (w_conn w, c') (brefs s) /\ (c' = -1 \/ is_anc_or_eq (vbks W) c' (w_containing w)))
  /\ btc_chain W (w_conn w) (w_bctx w) = true
  /\ forallb (bhdr_ok W) (w_bctx w) = true
  /\ In (w_endorsed w) (vknown s)
  /\ is_anc_or_eq (vbks W) (w_endorsed w) (w_containing w).

Lemma vtb_valid_split W P s w :
  vtb_valid W P s w <-> vtb_valid_but_window W P s w /\ within (vbks W) (w_containing w) (w_endorsed w) (p_vsettle P).
Proof.
  unfold vtb_valid, vtb_valid_but_window. split.
  - intros (V1 & V2 & V3 & V4 & V5 & V6 & V7 & V8). repeat split; assumption.
  - intros [(V1 & V2 & V3 & V4 & V5 & V6 & V7) V8]. repeat split; assumption.
Qed.

Lemma honest_vtb_but_window W P s sp w :
  honest_vtb W (brefs s) sp = Some w ->
  In (vs_cont sp) (vknown s) -> vclosed W (vknown s) -> btc_clock_ok W ->
  count (vs_cont sp) (vin s) < p_maxvtb P ->
  vtb_valid_but_window W P s w /\ height_of (vbks W) (w_endorsed w) = Some (vs_eh sp).
Proof.
  intros H Hc Cl Ck Hn. destruct (honest_vtb_inv _ _ _ _ H) as (e & conn & path & -> & A & B).
  unfold vtb_valid_but_window. cbn [w_containing w_conn w_bctx w_endorsed].
  destruct (hbc_spec W (brefs s) (vs_cont sp) _ _ _ _ _ B) as (Rk & Ch & _). specialize (Ch eq_refl).
  repeat split; auto.
  - now apply btc_ref_ok_iff.
  - apply forallb_forall. intros b _. apply Ck.
  - exact (anc_at_closed W _ _ Cl _ _ _ A Hc).
  - exact (ancestor_is_anc_or_eq _ _ _ _ A).
  - exact (anc_at_height _ _ _ _ _ A).
Qed.

Lemma honest_vtb_valid W P s sp w :
  honest_vtb W (brefs s) sp = Some w ->
  In (vs_cont sp) (vknown s) -> vclosed W (vknown s) -> btc_clock_ok W ->
  count (vs_cont sp) (vin s) < p_maxvtb P ->
  vtb_timely W P sp ->
  vtb_valid W P s w.
Proof.
  intros H Hc Cl Ck Hn (hc & Eh & Le).
  destruct (honest_vtb_but_window W P s sp w H Hc Cl Ck Hn) as [V He].
  apply vtb_valid_split. split; [exact V|].
  rewrite (honest_vtb_containing _ _ _ _ H). exists hc, (vs_eh sp). auto.
Qed.

Lemma count_cons x y l : count x (y :: l) = (if x =? y then 1 else 0) + count x l.
Proof.
  unfold count. cbn [filter]. destruct (x =? y); cbn [length]; [|lia].
  rewrite Nat2Z.inj_succ. lia.
Qed.

Lemma honest_vtbs_valid W P : btc_clock_ok W ->
  forall sps s ws,
    honest_vtbs W s sps = Some ws ->
    honest_vtb_specs W P s sps -> vclosed W (vknown s) ->
    vtbs_valid W P s ws.
Proof.
  intros Ck. induction sps as [|sp r IH]; intros s ws H [Hs Hr] Cl; cbn [honest_vtbs] in H.
  - injection H as <-. exact I.
  - destruct (honest_vtb W (brefs s) sp) as [w|] eqn:Hw; [|discriminate].
    destruct (honest_vtbs W (after_vtb s w) r) as [ws'|] eqn:Hws; [|discriminate].
    injection H as <-. cbn [vtbs_valid].
    destruct (Hs sp (or_introl eq_refl)) as [Hc Ht].
    pose proof (honest_vtb_containing _ _ _ _ Hw) as Ec.
    unfold vtb_room in Hr. cbn [map] in Hr. split.
    + eapply honest_vtb_valid; eauto.
      specialize (Hr (vs_cont sp)). rewrite count_cons, Z.eqb_refl in Hr.
      unfold count in *. lia.
    + apply (IH _ _ Hws); [|exact Cl]. split.
      * intros sp' Hi. apply Hs. now right.
      * intros c. specialize (Hr c). cbn [after_vtb vin]. rewrite Ec. rewrite count_cons in *. lia.
Qed.

(** the references only grow, so buildability is judged in the state BEFORE the block's VTBs *)
Lemma btc_ref_ok_mono W R R' a c :
  (forall q, In q R -> In q R') -> btc_ref_ok W R a c = true -> btc_ref_ok W R' a c = true.
Proof.
  intros Sub (c' & Hin & H)%btc_ref_ok_iff. apply btc_ref_ok_iff. exists c'. auto.
Qed.

Lemma spec_buildable_mono W R R' sp :
  (forall q, In q R -> In q R') -> spec_buildable W R sp -> spec_buildable W R' sp.
Proof.
  intros Sub [A (a & ha & B1 & B2 & B3)]. split; [exact A|]. exists a, ha. repeat split; auto.
  exact (btc_ref_ok_mono _ _ _ _ _ Sub B3).
Qed.

Lemma honest_vtb_succeeds W R sp : spec_buildable W R sp -> exists w, honest_vtb W R sp = Some w.
Proof.
  intros [[e A] (a & ha & B1 & B2 & B3)]. unfold honest_vtb. rewrite A.
  destruct (hbc_complete W R (vs_cont sp) ha _ _ _ B1 B3 (not_eq_sym B2) []) as [[conn path] ->]. eauto.
Qed.

Lemma honest_vtbs_succeed W : forall sps s,
  (forall sp, In sp sps -> spec_buildable W (brefs s) sp) -> exists ws, honest_vtbs W s sps = Some ws.
Proof.
  induction sps as [|sp r IH]; intros s H; cbn [honest_vtbs]; [eauto|].
  destruct (honest_vtb_succeeds W (brefs s) sp (H sp (or_introl eq_refl))) as [w ->].
  destruct (IH (after_vtb s w)) as [ws ->]; [|eauto].
  intros sp' Hi. apply (spec_buildable_mono W (brefs s)); [|exact (H sp' (or_intror Hi))].
  intros q Hq. cbn [after_vtb brefs]. apply in_or_app. now right.
Qed.

Lemma vclosed_add W K v : vclosed W K -> vbk_connects W K v -> vclosed W (add_known K v).
Proof.
  intros C Hv x p [->|Hx]%add_known_In Hp; apply add_known_In; right; [|eapply C; eauto].
  destruct Hv as [Hv|(q & Eq & Hq & _)]; [eapply C; eauto | congruence].
Qed.

Lemma vclosed_ctx W : forall vs K, vclosed W K -> ctx_connects W K vs -> vclosed W (known_after K vs).
Proof.
  induction vs as [|v r IH]; intros K C H; cbn [known_after]; [exact C|].
  destruct H as [H1 H2]. apply IH; [now apply vclosed_add | exact H2].
Qed.

Lemma atvs_valid_connect W P c : forall ts K, atvs_valid W P c K ts -> ctx_connects W K (map t_bop ts).
Proof.
  induction ts as [|t r IH]; intros K H; cbn [map ctx_connects]; [exact I|].
  destruct H as [[H1 _] H2]. auto.
Qed.

Lemma vclosed_after_block W P s c b : vclosed W (vknown s) -> ctx_valid W P s c b -> vclosed W (vknown (after_block s b)).
Proof.
  intros C (_ & H2 & _ & H4). unfold after_block. cbn [vknown].
  apply vclosed_ctx; [now apply vclosed_ctx | exact (atvs_valid_connect _ _ _ _ _ H4)].
Qed.

Lemma vclosed_after_chain W P : forall ch s,
  vclosed W (vknown s) -> chain_valid W P s ch -> vclosed W (vknown (after_chain s ch)).
Proof.
  induction ch as [|[c b] r IH]; intros s C H; cbn [after_chain]; [exact C|].
  destruct H as [H1 H2]. apply IH; [|exact H2]. eapply vclosed_after_block; eauto.
Qed.

Lemma vclosed_st0 W : parent_of (vbks W) 0 = None -> vclosed W (vknown st0).
Proof. intros H v p [<-|[]] Hp. congruence. Qed.

(** every state the chain can be in: the bootstrap VBK block is a root of the world *)
Lemma vclosed_reachable W P ch :
  parent_of (vbks W) 0 = None -> chain_valid W P st0 ch -> vclosed W (vknown (after_chain st0 ch)).
Proof. intros H0 H. eapply vclosed_after_chain; [now apply vclosed_st0 | exact H]. Qed.

(** * the whole honest block: no validity premise about any payload *)
Lemma honest_block_accepted_full W P s c ctx vspecs vtbs specs :
  let K := known_after (vknown s) ctx in
  let s1 := mkSt K (brefs s) (vin s) (seen s) in
  let b := mkBody ctx vtbs (mk_honest W P specs) in
  honest_vtbs W s1 vspecs = Some vtbs ->
  honest_vtb_specs W P s1 vspecs ->
  honest_atvs W P c K specs ->
  ctx_connects W (vknown s) ctx ->
  no_dup_on_chain s b ->
  vclosed W (vknown s) -> btc_clock_ok W ->
  exec_block W P s c b = inl (after_block s b).
Proof.
  intros K s1 b Hb Hv Ha Hc Hd Cl Ck.
  apply honest_block_accepted; auto.
  eapply honest_vtbs_valid; eauto. cbn [vknown s1]. now apply vclosed_ctx.
Qed.

(** ... and on every state reached from the bootstrap state by a valid chain (any fork) *)
Lemma honest_block_accepted_reachable W P pre c ctx vspecs vtbs specs :
  let s := after_chain st0 pre in
  let K := known_after (vknown s) ctx in
  let s1 := mkSt K (brefs s) (vin s) (seen s) in
  let b := mkBody ctx vtbs (mk_honest W P specs) in
  parent_of (vbks W) 0 = None -> btc_clock_ok W ->
  chain_valid W P st0 pre ->
  honest_vtbs W s1 vspecs = Some vtbs ->
  honest_vtb_specs W P s1 vspecs ->
  honest_atvs W P c K specs ->
  ctx_connects W (vknown s) ctx ->
  no_dup_on_chain s b ->
  apply_chain W P st0 (pre ++ [(c, b)]) = VOk (after_block s b).
Proof.
  intros s K s1 b H0 Ck Hp Hb Hv Ha Hc Hd.
  assert (E : exec_block W P s c b = inl (after_block s b)).
  { apply (honest_block_accepted_full W P s c ctx vspecs vtbs specs); auto. now apply (vclosed_reachable W P pre). }
  rewrite apply_chain_app, (valid_chain_never_refused _ _ _ _ Hp). fold s. cbn [apply_chain]. now rewrite E.
Qed.

Lemma find_blk_id tr x b : find_blk tr x = Some b -> b_id b = x /\ In b tr.
Proof.
  induction tr as [|b0 r IH]; cbn [find_blk]; [discriminate|].
  destruct (Z.eqb_spec (b_id b0) x) as [E|_].
  - intros [= <-]. split; [exact E | now left].
  - intros H. destruct (IH H) as [A B]. split; [exact A | now right].
Qed.

Lemma btc_clock_ok_dec W : forallb (bhdr_ok W) (map b_id (btcs W)) = true -> btc_clock_ok W.
Proof.
  intros H b. destruct (find_blk (btcs W) b) as [blk|] eqn:F.
  - destruct (find_blk_id _ _ _ F) as [<- Hi]. rewrite forallb_forall in H. apply H. now apply in_map.
  - unfold bhdr_ok, parent_of. now rewrite F.
Qed.

(* the VTB of RulesProofs.exV is what the miner builds: containing VBK 2, endorsed height 1, block of proof BTC 2;
   the context walks 2 -> 1 -> bootstrap block 0 *)
Example ex_honest_vtb_is_exV :
  honest_vtb exW (brefs st0) (mkVtbSpec 1 2 1 2) = Some exV.
Proof. vm_compute. reflexivity. Qed.

(* two VTBs in one ALT block of hxW after the VBK context 1,2,3,4,5: the first (containing 3, endorsing height 2,
   block of proof BTC 2) brings BTC 1,2; the second (containing 4, endorsing height 2 = exactly the VBK settlement
   interval below, block of proof BTC 4) connects to BTC 2 of the FIRST one; a third one on the BTC fork 5 (containing
   VBK 4 as well) connects to BTC 2 too *)
Definition hx_specs : list VtbSpec := [mkVtbSpec 11 3 2 2; mkVtbSpec 12 4 2 4; mkVtbSpec 13 4 3 5].
Definition hx_s1 : St := mkSt (known_after (vknown st0) [1; 2; 3; 4; 5]) (brefs st0) (vin st0) (seen st0).

Example hx_built :
  honest_vtbs hxW hx_s1 hx_specs =
  Some [mkVtb 11 2 3 0 [1; 2]; mkVtb 12 2 4 2 [3; 4]; mkVtb 13 3 4 2 [5]].
Proof. vm_compute. reflexivity. Qed.

Example hx_clock : btc_clock_ok hxW.
Proof. apply btc_clock_ok_dec. vm_compute. reflexivity. Qed.

Example hx_closed : vclosed hxW (vknown st0).
Proof. apply vclosed_st0. vm_compute. reflexivity. Qed.

Example hx_ctx : ctx_connects hxW (vknown st0) [1; 2; 3; 4; 5].
Proof. eapply exec_vbks_iff. vm_compute. reflexivity. Qed.

Example hx_specs_honest : honest_vtb_specs hxW hxP hx_s1 hx_specs.
Proof.
  split.
  - intros sp [E|[E|[E|[]]]]; subst sp; split.
    1, 3, 5: now apply mem_In.
    all: eexists; split; [vm_compute; reflexivity | vm_compute; discriminate].
  - intros c. unfold hxP, default_params, p_maxvtb. cbn [hx_s1 vin st0 hx_specs map vs_cont].
    rewrite !count_cons. unfold count. cbn [filter length Z.of_nat].
    destruct (c =? 3), (c =? 4); vm_compute; discriminate.
Qed.

Example hx_atvs : honest_atvs hxW hxP 4 (known_after (vknown st0) [1; 2; 3; 4; 5]) [(21, 1, 5); (22, 3, 4)].
Proof.
  cbn [honest_atvs]. repeat split.
  1, 4: now apply anc_or_eq_iff.
  1, 3: now apply hdiff_le_iff.
  all: left; now apply mem_In.
Qed.

(* all premises of the full theorem hold for this block (ALT block 4 on top of three empty blocks), and the code
   accepts it *)
Example hx_block_accepted : exists s,
  apply_chain hxW hxP st0
    [(1, mkBody [] [] []); (2, mkBody [] [] []); (3, mkBody [] [] []);
     (4, mkBody [1; 2; 3; 4; 5] [mkVtb 11 2 3 0 [1; 2]; mkVtb 12 2 4 2 [3; 4]; mkVtb 13 3 4 2 [5]]
                (mk_honest hxW hxP [(21, 1, 5); (22, 3, 4)]))] = VOk s.
Proof. eexists. vm_compute. reflexivity. Qed.

(* the settlement interval is not vacuous here: the same second VTB endorsing height 1 (3 below containing 4,
   VBK settlement 2) is built but refused as expired *)
Example hx_vtb_expired :
  exists w, honest_vtb hxW (brefs hx_s1) (mkVtbSpec 12 4 1 4) = Some w /\ exec_vtb hxW hxP hx_s1 w = inr EVExpired.
Proof. exists (mkVtb 12 1 4 0 [1; 2; 3; 4]). split; vm_compute; reflexivity. Qed.

(* every premise of [honest_block_accepted_full] at once, for that block on the bootstrap state *)
Example hx_full_premises :
  let ctx := [1; 2; 3; 4; 5] in
  let vtbs := [mkVtb 11 2 3 0 [1; 2]; mkVtb 12 2 4 2 [3; 4]; mkVtb 13 3 4 2 [5]] in
  let specs := [(21, 1, 5); (22, 3, 4)] in
  honest_vtbs hxW hx_s1 hx_specs = Some vtbs
  /\ honest_vtb_specs hxW hxP hx_s1 hx_specs
  /\ honest_atvs hxW hxP 4 (known_after (vknown st0) ctx) specs
  /\ ctx_connects hxW (vknown st0) ctx
  /\ no_dup_on_chain st0 (mkBody ctx vtbs (mk_honest hxW hxP specs))
  /\ vclosed hxW (vknown st0) /\ btc_clock_ok hxW.
Proof.
  cbv zeta. split; [exact hx_built|]. split; [exact hx_specs_honest|]. split; [exact hx_atvs|].
  split; [exact hx_ctx|]. split; [|split; [exact hx_closed | exact hx_clock]].
  intros i _ [].
Qed.
