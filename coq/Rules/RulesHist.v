(** C04 — the hypothesis [compiled] of Rules/RulesFull.v discharged over histories: if every connectBlock of
    a history hands the machine the translation of the block's body in its chain context AT THAT TIME, then
    every state of the history is [compiled] (the static part of a block never changes), hence its active
    chain is contextually valid. *)
From Coq Require Import List ZArith NArith.
From VB Require Import Rules.RulesDefs Rules.RulesProofs.
From VB Require Import Pop.SmDefs Pop.SmProofs Pop.SmWf Pop.SmTruth Pop.SmCmp Pop.SmAll Pop.SmCoh Pop.SmFull.
From VB Require Import Rules.RulesFull.
Import ListNotations.
Local Open Scope Z_scope.

Section Hist.
  Variable W : World.
  Variable P : Params.
  Variable bodyof : N -> Body.

  Lemma alt_chain_static : forall l l' n i, same_static l l' -> alt_chain bodyof l' n i = alt_chain bodyof l n i.
  Proof.
    intros l l' n. induction n as [|n IH]; intros i S; [reflexivity|]. cbn [alt_chain].
    rewrite (parent_static _ _ i S), (IH _ S). reflexivity.
  Qed.

  Lemma alt_chain_app : forall l x n i,
    (forall j e, cfind l j = Some e -> exists pe, cfind l (e_par e) = Some pe) ->
    (exists e, cfind l i = Some e) -> alt_chain bodyof (l ++ [x]) n i = alt_chain bodyof l n i.
  Proof.
    intros l x n. induction n as [|n IH]; intros i Hcl (e & He); [reflexivity|]. cbn [alt_chain].
    unfold parent. rewrite (cfind_app_some _ x _ _ He), He. f_equal. exact (IH _ Hcl (Hcl _ _ He)).
  Qed.

  Lemma compiled_static : forall s s',
    map (static ccmd) (blocks _ _ s') = map (static ccmd) (blocks _ _ s) -> root _ _ s' = root _ _ s ->
    compiled W P bodyof s -> compiled W P bodyof s'.
  Proof.
    intros s s' H Rt [C0 C1]. pose proof (same_static_of_static _ _ H) as S. split.
    - rewrite Rt, (gs_of_static _ _ _ H). exact C0.
    - intros b' Hin Hr.
      assert (X : In (static ccmd b') (map (static ccmd) (blocks _ _ s))) by (rewrite <- H; apply in_map; exact Hin).
      apply in_map_iff in X. destruct X as (b & Eb & Hb).
      inversion Eb as [[E1 E2 E3 E4]].
      unfold rctx.
      rewrite (depth_static _ _ _ H Rt), (alt_chain_static _ _ _ _ S).
      apply C1; [exact Hb | rewrite E1, <- Rt; exact Hr].
  Qed.

  (** the discipline of a history: each connected block carries the translation of its body, computed in the
      state in which it is connected *)
  Definition op_ok (s : cst) (o : op) : Prop :=
    match o with
    | OConnect i par dup gs =>
      gs = tr W P (rctx bodyof (cores s) (depth s par) par) (zid i) (bodyof i)
    | _ => True
    end.

  Fixpoint ops_ok (s : cst) (ops : list op) : Prop :=
    match ops with
    | [] => True
    | o :: r => op_ok s o /\ match step_op s o with Ok s1 => ops_ok s1 r | Abort _ => True end
    end.

  Lemma compiled_connect : forall s i par dup gs s',
    wf s -> compiled W P bodyof s -> op_ok s (OConnect i par dup gs) ->
    c_connect s i par dup gs = Ok s' -> compiled W P bodyof s'.
  Proof.
    intros s i par dup gs s' Wf [C0 C1] Hok H. unfold c_connect, connect in H.
    destruct (find ccmd (blocks pstate ccmd s) par) as [pb|] eqn:Fp; [|discriminate].
    destruct (find ccmd (blocks pstate ccmd s) i) eqn:Fi; [discriminate|].
    injection H as <-.
    set (nb := mkBlk ccmd i par (b_h ccmd pb + 1) L_CONNECTED false dup (is_failed ccmd pb) false gs).
    set (s' := with_blocks pstate ccmd s (blocks pstate ccmd s ++ [nb])).
    pose proof Wf as (_ & (hr & HR) & HP & _).
    assert (Hctx : forall j e, cfind (cores s) j = Some e ->
                     rctx bodyof (cores s') (depth s' j) j = rctx bodyof (cores s) (depth s j) j).
    { intros j e He. unfold rctx, depth, hgt. cbn [root with_blocks s'].
      replace (cores s') with (cores s ++ [core nb]) by (symmetry; exact (map_app core _ [nb])).
      rewrite (cfind_app_some _ _ _ _ He), (cfind_app_some _ _ _ _ HR), He, HR.
      now rewrite (alt_chain_app _ _ _ _ (wf_closed s Wf) (ex_intro _ _ He)). }
    split.
    - destruct (core_find _ _ _ HR) as (rb & Fr & _). unfold gs_of in *. cbn [root blocks with_blocks s'].
      rewrite (find_app_some _ _ _ _ Fr). now rewrite Fr in C0.
    - intros b Hin Hr. cbn [blocks with_blocks s'] in Hin. cbn [root with_blocks s'] in Hr.
      apply in_app_or in Hin. destruct Hin as [Hin|[<-|[]]].
      + destruct (HP (core b) (in_map core _ _ Hin) Hr) as (pe & Hpe & _). change (e_par (core b)) with (b_par ccmd b) in Hpe.
        rewrite (Hctx _ _ Hpe). apply C1; assumption.
      + cbn [b_gs b_par b_id nb]. rewrite (Hctx _ _ (find_cfind _ _ _ Fp)). exact Hok.
  Qed.

  Lemma compiled_run : forall base ops s s',
    good base s -> compiled W P bodyof s -> ops_ok s ops -> run s ops = Ok s' -> compiled W P bodyof s'.
  Proof.
    induction ops as [|o r IH]; intros s s' G C Hok H; cbn in H.
    - injection H as <-. exact C.
    - destruct (step_op s o) as [s1|] eqn:E; cbn in H; [|discriminate].
      cbn [ops_ok] in Hok. rewrite E in Hok. destruct Hok as [Ho Hr].
      assert (G1 : good base s1) by (eapply (good_run base [o] s s1 G); cbn; rewrite E; reflexivity).
      eapply (IH s1 s' G1); [|exact Hr|exact H].
      destruct G as (Q & _). pose proof Q as (Wf & _).
      destruct o as [i par dup gs|to|c sc cr]; cbn in E.
      + eapply compiled_connect; eassumption.
      + destruct (c_setState s to) as [[s2 ok]|] eqn:E2; cbn in E; [|discriminate]. injection E as <-.
        destruct (quiet_setState _ _ _ _ Q E2) as (_ & _ & Rt & _).
        exact (compiled_static _ _ (static_setState _ _ _ _ E2) Rt C).
      + destruct (c_compare sc cr s c) as [[s2 rr]|] eqn:E2; cbn in E; [|discriminate]. injection E as <-.
        destruct (quiet_compare _ _ _ _ _ _ Q E2) as (_ & _ & Rt & _).
        exact (compiled_static _ _ (static_compare _ _ _ _ _ _ E2) Rt C).
  Qed.

  Lemma compiled_init : forall r h, compiled W P bodyof (c_init r h base0).
  Proof.
    intros r h. split.
    - unfold gs_of, c_init, init. cbn [blocks root find b_id]. rewrite N.eqb_refl. reflexivity.
    - intros b [<-|[]] Hr. exfalso. apply Hr. reflexivity.
  Qed.

  (** C04 over histories of the as-coded machine: whatever sequence of connectBlock (with the translated
      groups of the block's body) / setState / comparePopScore (any scorer) is run from the bootstrap state,
      the active chain of the resulting state consists of contextually valid blocks only *)
  Theorem history_active_payloads_valid : forall r h ops s,
    ops_ok (c_init r h base0) ops -> run (c_init r h base0) ops = Ok s ->
    chain_valid W P st0 (active_bodies bodyof s).
  Proof.
    intros r h ops s Hok H. apply active_payloads_valid.
    - exists r, h, ops. exact H.
    - eapply compiled_run; [apply good_init | apply compiled_init | exact Hok | exact H].
  Qed.
End Hist.

(** non-vacuity: the example history of RulesFull obeys the discipline and runs *)
Example ex_history_ok : ops_ok exW exP ex_bodyof (c_init 0 0 base0) ex_ops.
Proof. vm_compute. repeat split. Qed.
