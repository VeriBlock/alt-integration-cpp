(** C04 — the verdict on a chain depends on that chain only, and the shared payload index as coded (with its
    as-coded clean-up of keys) answers the duplicate question exactly per chain, whatever other forks were accepted
    or dropped before. *)
From Coq Require Import ZArith List Bool.
From VB Require Import Rules.RulesDefs Rules.RulesProofs Rules.ForkDefs.
Import ListNotations.
Local Open Scope Z_scope.

Lemma fstep_activate_verdict W P m ch :
  snd (fstep W P m (FActivate ch)) = true <-> chain_valid W P st0 ch.
Proof.
  cbn [fstep snd]. unfold activate. split.
  - destruct (apply_chain W P st0 ch) as [s|c e] eqn:E; [|discriminate]. intros _. now apply apply_chain_ok_iff in E.
  - intros V. now rewrite (valid_chain_never_refused _ _ _ _ V).
Qed.

(** acceptance of a candidate does not depend on which other forks exist, existed or were removed, nor on what
    was active before *)
Lemma verdict_independent_of_other_forks W P h1 h2 ch :
  snd (fstep W P (frun W P fm0 h1) (FActivate ch)) = snd (fstep W P (frun W P fm0 h2) (FActivate ch)).
Proof.
  apply eq_true_iff_eq. rewrite !fstep_activate_verdict. tauto.
Qed.

Lemma verdict_iff_own_chain_valid W P h ch :
  snd (fstep W P (frun W P fm0 h) (FActivate ch)) = true <-> chain_valid W P st0 ch.
Proof. apply fstep_activate_verdict. Qed.

Lemma fork_machine_active_valid W P ops : m_inv W P (f_m (frun W P fm0 ops)).
Proof.
  assert (G : forall m, m_inv W P (f_m m) -> m_inv W P (f_m (frun W P m ops))).
  { induction ops as [|o r IH]; intros m H; cbn [frun]; [exact H|]. apply IH.
    destruct o; cbn [fstep fst f_m]; auto. now apply activate_inv. }
  apply G. unfold m_inv, fm0, m0. cbn. auto.
Qed.

Lemma seen_after_chain ch : forall s i,
  In i (seen (after_chain s ch)) <-> In i (seen s) \/ exists c b, In (c, b) ch /\ In i (body_ids b).
Proof.
  induction ch as [|[c0 b0] r IH]; intros s i; cbn [after_chain].
  - split; [auto | intros [H|(c & b & [] & _)]; exact H].
  - etransitivity; [apply IH|]. cbn [after_block seen In]. rewrite in_app_iff. split.
    + intros [[H|H]|(c & b & H1 & H2)]; [right; exists c0, b0 | | right; exists c, b]; auto.
    + intros [H|(c & b & [[= -> ->]|H1] & H2)]; [| |right; exists c, b]; auto.
Qed.

Lemma dup_rule_own_chain pre b :
  no_dup_on_chain (after_chain st0 pre) b <->
  (forall i, In i (body_ids b) -> forall c' b', In (c', b') pre -> ~ In i (body_ids b')).
Proof.
  unfold no_dup_on_chain. split.
  - intros H i Hi c' b' Hin Hi'. apply (H i Hi). apply seen_after_chain. right. exists c', b'. auto.
  - intros H i Hi Hs. apply seen_after_chain in Hs. destruct Hs as [[]|(c & bb & H1 & H2)]. exact (H i Hi c bb H1 H2).
Qed.

Lemma pid_eqb_spec a b : reflect (a = b) (pid_eqb a b).
Proof. apply iff_reflect. symmetry. apply pair_eqb_eq. Qed.

Lemma pid_eqb_refl a : pid_eqb a a = true.
Proof. now destruct (pid_eqb_spec a a). Qed.

Lemma in_set_erase blk s x : In x (set_erase blk s) <-> In x s /\ x <> blk.
Proof. unfold set_erase. now rewrite filter_In, negb_true_iff, Z.eqb_neq. Qed.

Lemma in_set_insert blk s x : In x (if mem blk s then s else blk :: s) <-> In x s \/ x = blk.
Proof. etransitivity; [exact (add_known_In s blk x) | tauto]. Qed.

Lemma find_add ix p blk q x :
  In x (ix_find (ix_add ix p blk) q) <-> In x (ix_find ix q) \/ (p = q /\ x = blk).
Proof.
  induction ix as [|[k s] r IH]; cbn [ix_add ix_find].
  - destruct (pid_eqb_spec p q); cbn [In]; intuition congruence.
  - destruct (pid_eqb_spec k p) as [->|N]; cbn [ix_find].
    + clear IH. destruct (pid_eqb_spec p q); [etransitivity; [apply in_set_insert|]|]; tauto.
    + destruct (pid_eqb_spec k q); [clear IH; intuition congruence | exact IH].
Qed.

(** the index is an unordered_map: keys are unique, as far as lookups can tell *)
Fixpoint uniq (ix : Index) : Prop :=
  match ix with [] => True | (k, _) :: r => (forall x, ~ In x (ix_find r k)) /\ uniq r end.

(** [uniq]: a key dropped with its emptied set must not uncover an older entry *)
Lemma find_remove ix p blk q x : uniq ix ->
  In x (ix_find (ix_remove ix p blk) q) <-> In x (ix_find ix q) /\ ~ (p = q /\ x = blk).
Proof.
  induction ix as [|[k s] r IH]; cbn [ix_remove ix_find uniq]; [tauto|]. intros [U1 U2].
  destruct (pid_eqb_spec k p) as [->|N].
  - destruct (pid_eqb_spec p q) as [<-|N'].
    + transitivity (In x (set_erase blk s)); [|etransitivity; [apply in_set_erase|]; tauto].
      destruct (set_erase blk s); cbn [ix_find]; [split; [apply U1 | intros []] | now rewrite pid_eqb_refl].
    + transitivity (In x (ix_find r q)); [|tauto].
      destruct (set_erase blk s); cbn [ix_find]; [reflexivity | now destruct (pid_eqb_spec p q)].
  - cbn [ix_find]. destruct (pid_eqb_spec k q); [clear IH; intuition congruence | now apply IH].
Qed.

Lemma uniq_add ix p blk : uniq ix -> uniq (ix_add ix p blk).
Proof.
  induction ix as [|[k s] r IH]; cbn [ix_add uniq]; [now split|]. intros [H1 H2].
  destruct (pid_eqb_spec k p) as [->|N]; cbn [uniq]; [auto|].
  split; [|auto]. intros x [X|[E _]]%find_add; [exact (H1 x X) | congruence].
Qed.

Lemma uniq_remove ix p blk : uniq ix -> uniq (ix_remove ix p blk).
Proof.
  induction ix as [|[k s] r IH]; cbn [ix_remove uniq]; [auto|]. intros [H1 H2].
  destruct (pid_eqb_spec k p) as [->|N].
  - destruct (set_erase blk s); cbn [uniq]; auto.
  - cbn [uniq]. split; [|auto]. intros x [X _]%find_remove; [exact (H1 x X) | exact H2].
Qed.

Lemma fold_left_inv {A B} (f : A -> B -> A) (I : A -> Prop) :
  (forall a b, I a -> I (f a b)) -> forall l a, I a -> I (fold_left f l a).
Proof. intros H. induction l as [|b r IH]; intros a Ha; cbn [fold_left]; auto. Qed.

Lemma find_add_block blk q x : forall ids ix,
  In x (ix_find (fold_left (fun acc p => ix_add acc p blk) ids ix) q) <-> In x (ix_find ix q) \/ (In q ids /\ x = blk).
Proof.
  induction ids as [|p r IH]; intros ix; cbn [fold_left In]; [tauto|].
  rewrite IH, find_add. split.
  - intros [[H|[-> ->]]|[H ->]]; auto.
  - intros [H|[[->|H] ->]]; auto.
Qed.

Lemma find_remove_block blk q x : forall ids ix, uniq ix ->
  In x (ix_find (fold_left (fun acc p => ix_remove acc p blk) ids ix) q) <-> In x (ix_find ix q) /\ ~ (In q ids /\ x = blk).
Proof.
  induction ids as [|p r IH]; intros ix U; cbn [fold_left In]; [tauto|].
  rewrite IH by now apply uniq_remove. rewrite find_remove by exact U. split.
  - intros [[H N1] N2]. split; [exact H|]. intros [[->|Hq] ->]; auto.
  - intros [H N]. repeat split; [exact H | |]; intros [Hq ->]; apply N; auto.
Qed.

Definition ix_ok (h : Held) : Prop :=
  uniq (h_index h) /\
  forall p blk, In blk (ix_find (h_index h) p) <-> exists b, hfind (h_blocks h) blk = Some b /\ In p (body_ids b).

Lemma hfind_filter l blk x :
  hfind (filter (fun cb : Z * Body => negb (fst cb =? blk)) l) x = if x =? blk then None else hfind l x.
Proof.
  induction l as [|[c b] r IH]; cbn [filter hfind fst].
  - now destruct (x =? blk).
  - destruct (Z.eqb_spec c blk) as [->|N]; cbn [negb hfind]; rewrite IH.
    + rewrite (Z.eqb_sym blk x). now destruct (x =? blk).
    + destruct (Z.eqb_spec c x) as [<-|]; [|reflexivity]. now destruct (Z.eqb_spec c blk).
Qed.

Lemma hstep_ok h o : ix_ok h -> ix_ok (hstep h o).
Proof.
  intros [U H]. destruct o as [blk b|blk]; cbn [hstep].
  - destruct (hfind (h_blocks h) blk) eqn:F; [split; assumption|].
    split; cbn [h_index h_blocks]; [apply (fold_left_inv _ uniq); [intros; now apply uniq_add | exact U]|].
    intros p x. unfold ix_add_block. rewrite find_add_block, H. cbn [hfind].
    destruct (Z.eqb_spec blk x) as [<-|N].
    + rewrite F. split; [intros [(bb & [=] & _)|[H1 _]]; eauto | intros (bb & [= <-] & H2); auto].
    + split; [intros [H1|[_ ->]]; [exact H1 | contradiction] | auto].
  - destruct (hfind (h_blocks h) blk) as [b|] eqn:F; [|split; assumption].
    split; cbn [h_index h_blocks]; [apply (fold_left_inv _ uniq); [intros; now apply uniq_remove | exact U]|].
    intros p x. unfold ix_remove_block. rewrite find_remove_block by exact U. rewrite H, hfind_filter.
    destruct (Z.eqb_spec x blk) as [->|N].
    + rewrite F. split; [intros [(bb & [= <-] & H2) []]; auto | intros (bb & [=] & _)].
    + split; [now intros [H1 _] | intros H1; split; [exact H1 | now intros [_ E]]].
Qed.

Lemma hrun_ok ops : forall h, ix_ok h -> ix_ok (hrun h ops).
Proof. induction ops as [|o r IH]; intros h H; cbn [hrun]; [exact H|]. apply IH. now apply hstep_ok. Qed.

Lemma held0_ok : ix_ok held0.
Proof. split; cbn; [exact I|]. intros p blk. split; [intros []|intros [b [H _]]; discriminate]. Qed.

(** the as-coded duplicate test through the shared index, evaluated for a block whose ancestors [pre] are held with
    their bodies, answers exactly the first check of [exec_block] on that chain — after ANY history of other blocks
    (forks) being accepted and dropped *)
Lemma shared_index_dup_check_is_own_chain ops pre b :
  (forall c bd, In (c, bd) pre -> hfind (h_blocks (hrun held0 ops)) c = Some bd) ->
  ix_block_dup (h_index (hrun held0 ops)) (map fst pre) b
  = existsb (fun i => pmem i (seen (after_chain st0 pre))) (body_ids b).
Proof.
  intros Hp. destruct (hrun_ok ops held0 held0_ok) as [_ H].
  apply eq_true_iff_eq. unfold ix_block_dup, ix_is_dup. rewrite !existsb_exists.
  enough (X : forall i, existsb (fun blk => mem blk (map fst pre)) (ix_find (h_index (hrun held0 ops)) i) = true
                        <-> pmem i (seen (after_chain st0 pre)) = true).
  { split; intros (i & Hi & D); exists i; (split; [exact Hi | now apply X]). }
  intros i. rewrite existsb_exists, pmem_In, seen_after_chain. split.
  - intros (blk & (bb & F1 & F2)%H & ([c bd] & <- & Hin)%mem_In%in_map_iff). cbn [fst] in F1.
    rewrite (Hp _ _ Hin) in F1. injection F1 as <-. eauto 6.
  - intros [[]|(c & bd & Hin & Hid)]. exists c. split.
    + apply H. exists bd. split; [exact (Hp _ _ Hin) | exact Hid].
    + apply mem_In, in_map_iff. now exists (c, bd).
Qed.

(** the hypotheses are satisfiable: two forks share payload 7, one is dropped, the other one still sees it *)
Example ex_shared_dropped :
  let h := hrun held0 [HAccept 1 (mkBody [7] [] []); HAccept 2 (mkBody [7] [] []); HDrop 2] in
  ix_block_dup (h_index h) [1] (mkBody [7] [] []) = true /\ ix_block_dup (h_index h) [2] (mkBody [7] [] []) = false.
Proof. vm_compute. auto. Qed.
