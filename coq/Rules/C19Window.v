(** C19 — "timely" is exact, and independent of the fork.

    The code (AddEndorsement::Execute, the same template for ALT and VBK) refuses an endorsement iff
        containing->getHeight() - endorsed->getHeight() > (int) getEndorsementSettlementInterval()
    i.e. it accepts iff  height(containing) - height(endorsed) <= settlement interval  (NON-strict: a containing
    block exactly [settle] above the endorsed block is still accepted, [settle + 1] above is the first refused
    one).  The model's [hdiff_le] is  a - b <=? d : the same inequality.  The mempool pre-check
    (MemPoolBlockTree::checkContextually: tip + 1 > window + endorsed height -> "atv-expired";
    containing height > window + published height -> "vtb-expired") and the load-time recovery window
    (Chain(max(0, height - si), current) must contain the endorsed height) are the same inequality. *)
From Coq Require Import ZArith List Bool Lia.
From VB Require Import Rules.RulesDefs Rules.RulesProofs Rules.C19HonestDefs Rules.C19Honest.
Import ListNotations.
Local Open Scope Z_scope.

Lemma window_verdict {A E} (x d : Z) (ok : A) (e : E) (r := if x <=? d then inl ok else inr e) :
  (r = inl ok <-> x <= d) /\ (r = inr e <-> d < x).
Proof. subst r. destruct (Z.leb_spec x d); split; split; intros; try reflexivity; try lia; try discriminate. Qed.

Lemma hdiff_le_heights tr hi lo d a b :
  height_of tr hi = Some a -> height_of tr lo = Some b -> hdiff_le tr hi lo d = (a - b <=? d).
Proof. intros Ha Hb. unfold hdiff_le. now rewrite Ha, Hb. Qed.

Lemma exec_atv_but_window W P c K t :
  vbk_connects W K (t_bop t) -> alt_known W (t_endorsed t) = true ->
  atv_ctx t = create_from_previous W (p_ki P) (parent_of (alts W) (t_endorsed t)) ->
  is_anc_or_eq (alts W) (t_endorsed t) c ->
  exec_atv W P c K t =
  if hdiff_le (alts W) c (t_endorsed t) (p_settle P) then inl (add_known K (t_bop t)) else inr EExpired.
Proof.
  intros Hc Hk Hx Ha. unfold exec_atv.
  rewrite (proj2 (exec_vbk_iff W K (t_bop t) _) (conj Hc eq_refl)), Hk,
    (proj2 (ctx_eqb_eq _ _) Hx), (proj2 (anc_or_eq_iff _ _ _) Ha). cbn [negb].
  now destruct (hdiff_le (alts W) c (t_endorsed t) (p_settle P)).
Qed.

Lemma atv_window_exact W P c K t he hc :
  vbk_connects W K (t_bop t) -> alt_known W (t_endorsed t) = true ->
  atv_ctx t = create_from_previous W (p_ki P) (parent_of (alts W) (t_endorsed t)) ->
  is_anc_or_eq (alts W) (t_endorsed t) c ->
  height_of (alts W) (t_endorsed t) = Some he -> height_of (alts W) c = Some hc ->
  (exec_atv W P c K t = inl (add_known K (t_bop t)) <-> hc - he <= p_settle P)
  /\ (exec_atv W P c K t = inr EExpired <-> p_settle P < hc - he).
Proof.
  intros Hc Hk Hx Ha He Hh.
  rewrite (exec_atv_but_window W P c K t Hc Hk Hx Ha), (hdiff_le_heights _ _ _ _ _ _ Hh He).
  apply window_verdict.
Qed.

Lemma honest_atv_accepted_iff W P c K id e bop :
  alt_known W e = true -> vbk_connects W K bop ->
  ((exists K', exec_atv W P c K (honest_atv W (p_ki P) id e bop) = inl K')
   <-> is_anc_or_eq (alts W) e c /\ within (alts W) c e (p_settle P)).
Proof.
  intros Hk Hc. split.
  - intros [K' H]. apply exec_atv_iff in H. destruct H as [(_ & _ & _ & A & B) _].
    destruct (honest_atv_proj W (p_ki P) id e bop) as (_ & Ee & _). rewrite Ee in A, B. auto.
  - intros [A B]. eexists. apply exec_atv_iff. split; [|reflexivity]. now apply honest_satisfies_ctx_valid.
Qed.

Lemma honest_atv_window_exact W P c K id e bop he hc :
  alt_known W e = true -> vbk_connects W K bop -> is_anc_or_eq (alts W) e c ->
  height_of (alts W) e = Some he -> height_of (alts W) c = Some hc ->
  let t := honest_atv W (p_ki P) id e bop in
  (exec_atv W P c K t = inl (add_known K bop) <-> hc - he <= p_settle P)
  /\ (exec_atv W P c K t = inr EExpired <-> p_settle P < hc - he).
Proof.
  intros Hk Hc Ha He Hh t.
  destruct (honest_atv_proj W (p_ki P) id e bop) as (_ & Ee & Eb & Ex). fold t in Ee, Eb, Ex.
  pose proof (atv_window_exact W P c K t he hc) as X. rewrite Ee, Eb in X. now apply X.
Qed.

(** the two off-by-one readings are false (RulesProofs.exW: ALT chain 0-1-2-3-4, settlement interval 2) *)
Example atv_window_plus_one_accepted_refuted :
  ~ (forall W P c K id e bop he hc,
       alt_known W e = true -> vbk_connects W K bop -> is_anc_or_eq (alts W) e c ->
       height_of (alts W) e = Some he -> height_of (alts W) c = Some hc ->
       hc - he <= p_settle P + 1 ->
       exists K', exec_atv W P c K (honest_atv W (p_ki P) id e bop) = inl K').
Proof.
  intros H. destruct (H exW exP 4 [1; 0] 7 1 1 1 4) as [K' E]; try (vm_compute; reflexivity).
  - left. now left.
  - now apply anc_or_eq_iff.
  - vm_compute. discriminate.
  - vm_compute in E. discriminate.
Qed.

Example atv_window_exactly_rejected_refuted :
  ~ (forall W P c K id e bop he hc,
       alt_known W e = true -> vbk_connects W K bop -> is_anc_or_eq (alts W) e c ->
       height_of (alts W) e = Some he -> height_of (alts W) c = Some hc ->
       p_settle P <= hc - he ->
       exists err, exec_atv W P c K (honest_atv W (p_ki P) id e bop) = inr err).
Proof.
  intros H. destruct (H exW exP 3 [1; 0] 7 1 1 1 3) as [err E]; try (vm_compute; reflexivity).
  - left. now left.
  - now apply anc_or_eq_iff.
  - vm_compute. discriminate.
  - vm_compute in E. discriminate.
Qed.

Lemma exec_vtb_but_window W P s w :
  vtb_valid_but_window W P s w ->
  exec_vtb W P s w =
  if hdiff_le (vbks W) (w_containing w) (w_endorsed w) (p_vsettle P) then inl (after_vtb s w) else inr EVExpired.
Proof.
  intros (V1 & V2 & V3 & V4 & V5 & V6 & V7). unfold exec_vtb. cbv zeta.
  rewrite (proj2 (mem_In _ _) V1), (proj2 (Z.leb_gt _ _) V2), (proj2 (btc_ref_ok_iff _ _ _ _) V3), V4, V5,
    (proj2 (mem_In _ _) V6), (proj2 (anc_or_eq_iff _ _ _) V7). cbn [negb].
  now destruct (hdiff_le (vbks W) (w_containing w) (w_endorsed w) (p_vsettle P)).
Qed.

Lemma vtb_window_exact W P s w he hc :
  vtb_valid_but_window W P s w ->
  height_of (vbks W) (w_endorsed w) = Some he -> height_of (vbks W) (w_containing w) = Some hc ->
  (exec_vtb W P s w = inl (after_vtb s w) <-> hc - he <= p_vsettle P)
  /\ (exec_vtb W P s w = inr EVExpired <-> p_vsettle P < hc - he).
Proof.
  intros V He Hh. rewrite (exec_vtb_but_window W P s w V), (hdiff_le_heights _ _ _ _ _ _ Hh He).
  apply window_verdict.
Qed.

Lemma honest_vtb_window_exact W P s sp w hc :
  honest_vtb W (brefs s) sp = Some w ->
  In (vs_cont sp) (vknown s) -> vclosed W (vknown s) -> btc_clock_ok W ->
  count (vs_cont sp) (vin s) < p_maxvtb P ->
  height_of (vbks W) (vs_cont sp) = Some hc ->
  (exec_vtb W P s w = inl (after_vtb s w) <-> hc - vs_eh sp <= p_vsettle P)
  /\ (exec_vtb W P s w = inr EVExpired <-> p_vsettle P < hc - vs_eh sp).
Proof.
  intros H Hc Cl Ck Hn Hh.
  destruct (honest_vtb_but_window W P s sp w H Hc Cl Ck Hn) as [V He].
  apply vtb_window_exact; auto. now rewrite (honest_vtb_containing _ _ _ _ H).
Qed.

(** off-by-one readings refuted on C19HonestDefs.hxW (VBK chain 0-1-2-3-4, VBK settlement interval 2), for VTBs in
    VBK block 4 on top of [hx_s1] *)
Lemma hx_vtb_premises :
  In 4 (vknown hx_s1) /\ vclosed hxW (vknown hx_s1) /\ btc_clock_ok hxW
  /\ count 4 (vin hx_s1) < p_maxvtb hxP /\ height_of (vbks hxW) 4 = Some 4.
Proof.
  split; [now apply mem_In|]. split; [exact (vclosed_ctx _ _ _ hx_closed hx_ctx)|]. split; [exact hx_clock|].
  split; reflexivity.
Qed.

Example vtb_window_plus_one_accepted_refuted :
  ~ (forall W P s sp w hc,
       honest_vtb W (brefs s) sp = Some w ->
       In (vs_cont sp) (vknown s) -> vclosed W (vknown s) -> btc_clock_ok W ->
       count (vs_cont sp) (vin s) < p_maxvtb P ->
       height_of (vbks W) (vs_cont sp) = Some hc ->
       hc - vs_eh sp <= p_vsettle P + 1 ->
       exists s', exec_vtb W P s w = inl s').
Proof.
  intros H. destruct hx_vtb_expired as (w & Hw & X). destruct hx_vtb_premises as (A & B & C & D & F).
  destruct (H _ _ _ _ _ 4 Hw A B C D F) as [s' E]; [vm_compute; discriminate | congruence].
Qed.

Example vtb_window_exactly_rejected_refuted :
  ~ (forall W P s sp w hc,
       honest_vtb W (brefs s) sp = Some w ->
       In (vs_cont sp) (vknown s) -> vclosed W (vknown s) -> btc_clock_ok W ->
       count (vs_cont sp) (vin s) < p_maxvtb P ->
       height_of (vbks W) (vs_cont sp) = Some hc ->
       p_vsettle P <= hc - vs_eh sp ->
       exists err, exec_vtb W P s w = inr err).
Proof.
  intros H. destruct hx_vtb_premises as (A & B & C & D & F).
  assert (Hw : honest_vtb hxW (brefs hx_s1) (mkVtbSpec 12 4 2 4) = Some (mkVtb 12 2 4 0 [1; 2; 3; 4]))
    by (vm_compute; reflexivity).
  destruct (H _ _ _ _ _ 4 Hw A B C D F) as [err E]; [vm_compute; discriminate | vm_compute in E; discriminate].
Qed.

(** acceptance of ANY ATV depends on the containing block only through "the endorsed block is on its chain" and
    the height difference: [c'] may be on the same chain as [c] or on any other fork, above or below [c] *)
Lemma atv_accept_transfers W P c c' K t K' he h' :
  exec_atv W P c K t = inl K' ->
  is_anc_or_eq (alts W) (t_endorsed t) c' ->
  height_of (alts W) (t_endorsed t) = Some he -> height_of (alts W) c' = Some h' ->
  h' <= he + p_settle P ->
  exec_atv W P c' K t = inl K'.
Proof.
  intros H Ha He Hh L. apply exec_atv_iff in H. destruct H as [(A1 & A2 & A3 & _ & _) EK].
  apply exec_atv_iff. split; [|exact EK]. repeat split; auto.
  exists h', he. repeat split; auto. lia.
Qed.

Lemma atv_window_closes W P c c' K t K' he h' :
  exec_atv W P c K t = inl K' ->
  is_anc_or_eq (alts W) (t_endorsed t) c' ->
  height_of (alts W) (t_endorsed t) = Some he -> height_of (alts W) c' = Some h' ->
  he + p_settle P < h' ->
  exec_atv W P c' K t = inr EExpired.
Proof.
  intros H Ha He Hh L. apply exec_atv_iff in H. destruct H as [(A1 & A2 & A3 & _ & _) EK].
  apply (atv_window_exact W P c' K t he h'); auto. lia.
Qed.

Lemma anc_at_here f tr x h b : find_blk tr x = Some b -> b_height b = h -> anc_at f tr x h = Some x.
Proof. intros F <-. destruct f; cbn [anc_at]; now rewrite F, Z.eqb_refl. Qed.

Lemma anc_at_up f tr x h b :
  find_blk tr x = Some b -> h < b_height b -> parent_of tr x = Some (b_parent b) ->
  anc_at (S f) tr x h = anc_at f tr (b_parent b) h.
Proof.
  intros F L Hp. unfold parent_of in Hp. rewrite F in Hp. cbn [anc_at]. rewrite F.
  destruct (Z.eqb_spec (b_height b) h); [lia|]. destruct (Z.ltb_spec (b_height b) h); [lia|].
  now destruct (b_parent b =? -1).
Qed.

Lemma anc_at_fuel_S tr h : forall f x a, anc_at f tr x h = Some a -> anc_at (S f) tr x h = Some a.
Proof.
  apply (anc_at_cases _ _ (fun f x a => anc_at (S f) tr x h = Some a)).
  - intros f x b F E. exact (anc_at_here _ _ _ _ _ F E).
  - intros f x b a F L Hp _ IH. now rewrite (anc_at_up _ _ _ _ _ F L Hp).
Qed.

(** getAncestor composes downwards: the block at height [he] below an ancestor [c'] of [c] is the block at height
    [he] below [c] *)
Lemma anc_at_via tr he h' : he <= h' ->
  forall f c c', anc_at f tr c h' = Some c' -> forall e, anc_at f tr c he = Some e -> anc_at f tr c' he = Some e.
Proof.
  intros L. apply (anc_at_cases _ _ (fun f c c' => forall e, anc_at f tr c he = Some e -> anc_at f tr c' he = Some e)).
  - auto.
  - intros f c b c' F Lb Hp _ IH e H. rewrite (anc_at_up _ _ _ _ _ F) in H by (lia || exact Hp).
    apply anc_at_fuel_S, IH, H.
Qed.

Lemma is_anc_via tr e c c' he h' :
  is_anc_or_eq tr e c -> height_of tr e = Some he -> ancestor_at tr c h' = Some c' -> he <= h' ->
  is_anc_or_eq tr e c'.
Proof.
  intros (ha & E1 & A) He Hc L. assert (ha = he) as -> by congruence.
  exists he. split; [exact He | exact (anc_at_via _ _ _ L _ _ _ Hc _ A)].
Qed.

(** [c'] is any block of [c]'s own chain from the endorsed block's height upwards; for the descendants of [c] it is
    [atv_accept_transfers] *)
Lemma atv_accept_monotone_below W P c K t K' he hc h' c' :
  exec_atv W P c K t = inl K' ->
  height_of (alts W) (t_endorsed t) = Some he -> height_of (alts W) c = Some hc ->
  he <= h' -> h' <= hc -> ancestor_at (alts W) c h' = Some c' ->
  exec_atv W P c' K t = inl K'.
Proof.
  intros H He Hh L1 L2 Hc'. pose proof H as H0.
  apply exec_atv_iff in H0. destruct H0 as [(A1 & A2 & A3 & A & _) ->].
  pose proof (proj1 (proj1 (atv_window_exact W P c K t he hc A1 A2 A3 A He Hh)) H) as Lw.
  apply (atv_accept_transfers W P c c' K t _ he h'); auto; [|exact (anc_at_height _ _ _ _ _ Hc')|lia].
  exact (is_anc_via _ _ _ _ _ _ A He Hc' L1).
Qed.

(** an honest endorsement of [e] is accepted at the end of ANY valid chain [pre] of bodies (the active chain or any
    fork, whatever payloads it carries) in ANY block [c] that has [e] on its chain within the window, provided its
    block of proof connects there and its id is not yet on that chain *)
Lemma honest_atv_any_fork W P s0 pre c id e bop :
  let s := after_chain s0 pre in
  let b := mkBody [] [] [honest_atv W (p_ki P) id e bop] in
  chain_valid W P s0 pre ->
  alt_known W e = true -> is_anc_or_eq (alts W) e c -> within (alts W) c e (p_settle P) ->
  vbk_connects W (vknown s) bop -> ~ In (2, id) (seen s) ->
  apply_chain W P s0 (pre ++ [(c, b)]) = VOk (after_block s b).
Proof.
  intros s b Hp Hk Ha Hw Hc Hd.
  assert (V : ctx_valid W P s c b).
  { split; [|split; [exact I|split; [exact I|split; [|exact I]]]].
    - intros i [<-|[]]. cbn [fst snd t_id]. now destruct (honest_atv_proj W (p_ki P) id e bop) as (-> & _).
    - now apply honest_satisfies_ctx_valid. }
  rewrite apply_chain_app, (valid_chain_never_refused _ _ _ _ Hp). fold s. cbn [apply_chain].
  now rewrite (proj2 (exec_block_iff W P s c b _) (conj V eq_refl)).
Qed.

(** the same endorsement on two forks at once: two valid chains and two containing blocks, each within the window
    of [e]; neither acceptance depends on the other fork *)
Lemma honest_atv_two_forks W P pre1 pre2 c1 c2 id e bop :
  let b := mkBody [] [] [honest_atv W (p_ki P) id e bop] in
  alt_known W e = true ->
  (forall pre c, In (pre, c) [(pre1, c1); (pre2, c2)] ->
     chain_valid W P st0 pre /\ is_anc_or_eq (alts W) e c /\ within (alts W) c e (p_settle P)
     /\ vbk_connects W (vknown (after_chain st0 pre)) bop /\ ~ In (2, id) (seen (after_chain st0 pre))) ->
  apply_chain W P st0 (pre1 ++ [(c1, b)]) = VOk (after_block (after_chain st0 pre1) b)
  /\ apply_chain W P st0 (pre2 ++ [(c2, b)]) = VOk (after_block (after_chain st0 pre2) b).
Proof.
  intros b Hk H. split.
  - destruct (H pre1 c1) as (A & B & C & D & E); [now left|]. now apply honest_atv_any_fork.
  - destruct (H pre2 c2) as (A & B & C & D & E); [right; now left|]. now apply honest_atv_any_fork.
Qed.

(** * non-vacuity on hxW (ALT chain 0..6 and the fork 7-8-9 off block 2, settlement interval 3) *)
(* the endorsement of block 2 (block of proof VBK 1) is accepted in block 2 itself (AddEndorsement::Execute does not
   ask for a strict ancestor), in blocks 3, 4, 5 of the main chain and in blocks 7, 8, 9 of the fork — every height
   up to 5 = 2 + settle — and refused as expired in block 6 *)
Definition hx_t : Atv := honest_atv hxW (p_ki hxP) 31 2 1.
Example hx_fork_accept :
  forallb (fun c => match exec_atv hxW hxP c [0] hx_t with inl K => mem 1 K | inr _ => false end) [2; 3; 4; 5; 7; 8; 9] = true
  /\ exec_atv hxW hxP 6 [0] hx_t = inr EExpired.
Proof. split; vm_compute; reflexivity. Qed.

Example hx_any_fork_premises :
  chain_valid hxW hxP st0 [(1, mkBody [] [] []); (2, mkBody [1] [] []); (7, mkBody [] [] []); (8, mkBody [] [] [])]
  /\ alt_known hxW 2 = true /\ is_anc_or_eq (alts hxW) 2 9 /\ within (alts hxW) 9 2 (p_settle hxP).
Proof.
  split; [|split; [|split]].
  - eapply apply_chain_ok_iff. vm_compute. split; reflexivity.
  - vm_compute. reflexivity.
  - now apply anc_or_eq_iff.
  - now apply hdiff_le_iff.
Qed.
