(** C19 — the BTC context an honest pop miner builds is the SHORTEST connecting one: it starts right after a block
    the chain already references and contains no other block the chain already references (this is the choice of
    lastKnownBtcBlock that the correspondence stage of props/C19.py hands to MockMiner::createVTB). *)
From Coq Require Import ZArith List.
From VB Require Import Rules.RulesDefs Rules.C19HonestDefs Rules.C19Honest.
Import ListNotations.
Local Open Scope Z_scope.

Theorem honest_vtb_context_minimal W R sp w :
  honest_vtb W R sp = Some w ->
  w_containing w = vs_cont sp
  /\ ancestor_at (vbks W) (vs_cont sp) (vs_eh sp) = Some (w_endorsed w)
  /\ btc_ref_ok W R (w_conn w) (vs_cont sp) = true
  /\ exists pre, w_bctx w = pre ++ [vs_bop sp] /\ forall b, In b pre -> btc_ref_ok W R b (vs_cont sp) = false.
Proof.
  intros H. destruct (honest_vtb_inv _ _ _ _ H) as (e & conn & path & -> & A & B). cbn.
  apply hbc_spec in B. destruct B as (Hc & _ & pre & Hp & Hn). eauto 6.
Qed.

(** non-trivial instance: in the example world the second VTB of the block skips the two BTC blocks the first one
    made known and sends exactly the two unknown ones *)
Example honest_vtb_context_minimal_ex :
  honest_vtbs hxW (mkSt [0; 1; 2; 3; 4; 5] [(0, -1)] [] [])
              [mkVtbSpec 11 3 2 2; mkVtbSpec 12 4 2 4]
  = Some [mkVtb 11 2 3 0 [1; 2]; mkVtb 12 2 4 2 [3; 4]].
Proof. vm_compute. reflexivity. Qed.
