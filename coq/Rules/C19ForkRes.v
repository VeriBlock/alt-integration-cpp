(** C19 — "... and then counts in fork resolution": in the comparator AS CODED (Score/CmpDefs.v [impl] = model of
    comparePopScoreImpl, the template instantiated for the ALT tree and for the VBK tree alike; tied to the library
    by the correspondence stages of C03), a chain whose first compared keystone has a publication beats the chain
    whose keystone was never published, in both argument orders. *)
From Coq Require Import ZArith List Lia.
From VB Require Import Score.CInt Score.CmpDefs Score.CmpProofs.
Import ListNotations.
Local Open Scope Z_scope.

Lemma spec_endorsed_vs_not c p :
  spec c (inf_profile [Some p]) (inf_profile [None]) = tbl c 0
  /\ spec c (inf_profile [None]) (inf_profile [Some p]) = - tbl c 0.
Proof. split; unfold spec, spec_run, zip_pad; cbn -[tbl Z.add Z.sub Z.opp]; lia. Qed.

Theorem endorsement_counts c p :
  table_ok c -> fd_ok c -> 0 < tbl c 0 ->
  0 <= p -> p + fd c < NO_ENDORSEMENT -> p + Z.of_nat (length (table c)) <= NO_ENDORSEMENT ->
  budget_ok c 1 ->
  (exists r, impl c (real_view [Some p]) (real_view [None]) = Ok r /\ 0 < r)
  /\ (exists r, impl c (real_view [None]) (real_view [Some p]) = Ok r /\ r < 0).
Proof.
  intros Ht Hf Hpos H0 H1 H2 Hb.
  assert (Ha : heights_ok c [Some p]) by (repeat constructor; assumption).
  assert (Hn : heights_ok c [None]) by (repeat constructor).
  destruct (spec_endorsed_vs_not c p) as [S1 S2].
  destruct (impl_real_sign_eq_spec c [Some p] [None] Ht Hf Ha Hn Hb) as (r1 & E1 & Hs1).
  destruct (impl_real_sign_eq_spec c [None] [Some p] Ht Hf Hn Ha Hb) as (r2 & E2 & Hs2).
  rewrite S1 in Hs1. rewrite S2 in Hs2.
  split; [exists r1 | exists r2]; (split; [assumption|]).
  - apply Z.sgn_pos_iff. rewrite Hs1. now apply Z.sgn_pos_iff.
  - apply Z.sgn_neg_iff. rewrite Hs2. apply Z.sgn_neg_iff. lia.
Qed.

(** the parameters of the library's VBK tree and ALT tree meet the premises *)
Lemma default_cfg_ok c : c = vbk_cfg \/ c = alt_cfg ->
  table_ok c /\ fd_ok c /\ 0 < tbl c 0 /\ fd c <= 100000 /\ Z.of_nat (length (table c)) <= 100000 /\ budget_ok c 1.
Proof.
  destruct default_params_ok as (Ta & Fa & Tv & Fv & _).
  intros [-> | ->]; (split; [assumption|]); (split; [assumption|]);
    repeat split; try apply Z.leb_le; vm_compute; reflexivity.
Qed.

Theorem endorsement_counts_default p :
  0 <= p <= 2000000000 ->
  forall c, c = vbk_cfg \/ c = alt_cfg ->
  (exists r, impl c (real_view [Some p]) (real_view [None]) = Ok r /\ 0 < r)
  /\ (exists r, impl c (real_view [None]) (real_view [Some p]) = Ok r /\ r < 0).
Proof.
  intros Hp c (Ht & Hf & Hpos & Hfd & Hlen & Hb)%default_cfg_ok.
  apply endorsement_counts; unfold NO_ENDORSEMENT; auto; lia.
Qed.

(** the premises of [endorsement_counts] are met by the VBK tree's configuration and a publication at BTC height 7 *)
Example endorsement_counts_ex :
  table_ok vbk_cfg /\ fd_ok vbk_cfg /\ 0 < tbl vbk_cfg 0 /\ 7 + fd vbk_cfg < NO_ENDORSEMENT
  /\ 7 + Z.of_nat (length (table vbk_cfg)) <= NO_ENDORSEMENT /\ budget_ok vbk_cfg 1
  /\ impl vbk_cfg (real_view [Some 7]) (real_view [None]) = Ok (tbl vbk_cfg 0).
Proof.
  destruct (default_cfg_ok vbk_cfg (or_introl eq_refl)) as (Ht & Hf & Hpos & Hfd & Hlen & Hb).
  unfold NO_ENDORSEMENT. do 6 (split; [assumption || lia|]). vm_compute. reflexivity.
Qed.
