(** C04 / C19 — the commands' checks as coded accept exactly the declaratively valid bodies;
    an invalid block and everything above it is refused; honest publication data is valid. *)
From Coq Require Import ZArith List Bool.
From VB Require Import Rules.RulesDefs.
Import ListNotations.
Local Open Scope Z_scope.

Lemma mem_In x l : mem x l = true <-> In x l.
Proof.
  unfold mem. rewrite existsb_exists. split.
  - intros (y & Hy & E). apply Z.eqb_eq in E. now subst.
  - intros H. exists x. split; [exact H | apply Z.eqb_refl].
Qed.

Lemma mem_false_In x l : mem x l = false <-> ~ In x l.
Proof. rewrite <- mem_In. destruct (mem x l); split; congruence. Qed.

Lemma pair_eqb_eq (p q : Z * Z) : (fst p =? fst q) && (snd p =? snd q) = true <-> p = q.
Proof.
  destruct p, q. cbn. rewrite andb_true_iff, !Z.eqb_eq. split; [intros [-> ->] | intros [= -> ->]]; auto.
Qed.

Lemma pmem_In p l : pmem p l = true <-> In p l.
Proof.
  unfold pmem. rewrite existsb_exists. split.
  - intros (q & Hq & E). apply pair_eqb_eq in E. now subst.
  - intros H. exists p. split; [exact H | now apply pair_eqb_eq].
Qed.

Lemma oz_eqb_eq a b : oz_eqb a b = true <-> a = b.
Proof.
  destruct a as [x|], b as [y|]; cbn; rewrite ?Z.eqb_eq; split; congruence.
Qed.

Lemma anc_or_eq_iff tr a x : anc_or_eq tr a x = true <-> is_anc_or_eq tr a x.
Proof.
  unfold anc_or_eq, is_anc_or_eq. split.
  - destruct (height_of tr a) as [ha|]; [|discriminate]. rewrite oz_eqb_eq. eauto.
  - intros (ha & -> & H). now apply oz_eqb_eq.
Qed.

Lemma hdiff_le_iff tr hi lo d : hdiff_le tr hi lo d = true <-> within tr hi lo d.
Proof.
  unfold hdiff_le, within. split.
  - destruct (height_of tr hi) as [a|], (height_of tr lo) as [b|]; try discriminate.
    rewrite Z.leb_le. eauto.
  - intros (a & b & -> & -> & H). now apply Z.leb_le.
Qed.

Lemma ctx_eqb_eq a b : ctx_eqb a b = true <-> a = b.
Proof.
  destruct a as [[h1 x1] y1], b as [[h2 x2] y2]. cbn. split.
  - intros [[->%Z.eqb_eq ->%oz_eqb_eq]%andb_true_iff ->%oz_eqb_eq]%andb_true_iff. reflexivity.
  - intros [= -> -> ->]. now rewrite Z.eqb_refl, !(proj2 (oz_eqb_eq _ _) eq_refl).
Qed.

Lemma btc_ref_ok_iff W R conn cont :
  btc_ref_ok W R conn cont = true <->
  exists c', In (conn, c') R /\ (c' = -1 \/ is_anc_or_eq (vbks W) c' cont).
Proof.
  unfold btc_ref_ok. rewrite existsb_exists. split.
  - intros ([b c'] & Hin & E). cbn in E. apply andb_true_iff in E as [->%Z.eqb_eq E%orb_true_iff].
    exists c'. split; [exact Hin|].
    destruct E as [E%Z.eqb_eq|E%anc_or_eq_iff]; auto.
  - intros (c' & Hin & H). exists (conn, c'). split; [exact Hin|]. cbn. rewrite Z.eqb_refl. apply orb_true_iff.
    destruct H as [->|H%anc_or_eq_iff]; auto.
Qed.

(** Every exec function is a sequence of steps that refuse or let the rest decide, and the declarative predicates
    list one clause per step in the same order, so "accepted iff valid" goes step by step: [guard] for a boolean
    test, [bind] for a sub-command; [Q] is the remaining clauses, [T] the equation that fixes the result. *)
Section Steps.
  Context {A E : Type}.

  Lemma guard_last (c : bool) (e : E) (r : A + E) (y : A) (C T : Prop) :
    (c = false <-> C) -> (r = inl y <-> T) -> ((if c then inr e else r) = inl y <-> C /\ T).
  Proof.
    intros HC HT. destruct c.
    - split; [discriminate | intros [X%HC _]; discriminate].
    - split; [intros X%HT; split; [now apply HC | exact X] | intros [_ X%HT]; exact X].
  Qed.

  Lemma guard (c : bool) (e : E) (r : A + E) (y : A) (C Q T : Prop) :
    (c = false <-> C) -> (r = inl y <-> Q /\ T) -> ((if c then inr e else r) = inl y <-> (C /\ Q) /\ T).
  Proof. intros HC H. rewrite and_assoc, <- H. now apply guard_last. Qed.

  Lemma bind_last {S} {r : S + E} {f : S -> A} {g : E -> A} {y : A} {a : S} {V T : Prop} :
    (forall x, r = inl x <-> V /\ x = a) -> (forall e, g e <> y) -> (f a = y <-> T) ->
    (match r with inl x => f x | inr e => g e end = y <-> V /\ T).
  Proof.
    intros H G <-. destruct r as [x|e].
    - destruct (proj1 (H x) eq_refl) as [HV ->]. tauto.
    - split; [intros X; now apply G in X|]. intros [HV _].
      pose proof (proj2 (H a) (conj HV eq_refl)). discriminate.
  Qed.

  Lemma bind {S} {r : S + E} {f : S -> A} {g : E -> A} {y : A} {a : S} {V Q T : Prop} :
    (forall x, r = inl x <-> V /\ x = a) -> (forall e, g e <> y) -> (f a = y <-> Q /\ T) ->
    (match r with inl x => f x | inr e => g e end = y <-> (V /\ Q) /\ T).
  Proof. intros H G HT. rewrite and_assoc, <- HT. now apply (bind_last H). Qed.
End Steps.

Lemma negb_reflects (c : bool) (C : Prop) : (c = true <-> C) -> (negb c = false <-> C).
Proof. now rewrite negb_false_iff. Qed.

Lemma inl_eq_iff {A E} (a y : A) : @inl A E a = inl y <-> y = a.
Proof. split; [intros [= ->] | intros ->]; reflexivity. Qed.

Lemma add_known_In K v u : In u (add_known K v) <-> u = v \/ In u K.
Proof.
  unfold add_known. destruct (mem v K) eqn:M.
  - apply mem_In in M. split; [auto | intros [->|H]; assumption].
  - cbn [In]. split; intros [<-|H]; auto.
Qed.

Lemma exec_vbk_iff W K v K' :
  exec_vbk W K v = inl K' <-> vbk_connects W K v /\ K' = add_known K v.
Proof.
  unfold exec_vbk, vbk_connects, add_known. destruct (mem v K) eqn:M.
  - apply mem_In in M. split; [intros [= <-]; auto | now intros [_ ->]].
  - apply mem_false_In in M. split.
    + destruct (parent_of (vbks W) v) as [p|]; [|discriminate].
      destruct (mem p K) eqn:Mp; [|discriminate]. destruct (hdr_ok W v) eqn:Hd; [|discriminate].
      intros [= <-]. apply mem_In in Mp. split; [right; exists p|]; auto.
    + intros [[H|(p & -> & Hp%mem_In & ->)] ->]; [contradiction | now rewrite Hp].
Qed.

Lemma exec_vbks_iff W vs : forall K K',
  exec_vbks W K vs = inl K' <-> ctx_connects W K vs /\ K' = known_after K vs.
Proof.
  induction vs as [|v r IH]; intros K K'; cbn [exec_vbks ctx_connects known_after].
  - rewrite inl_eq_iff. tauto.
  - apply (bind (exec_vbk_iff W K v)); [discriminate | apply IH].
Qed.

Lemma exec_vtb_iff W P s w s' :
  exec_vtb W P s w = inl s' <-> vtb_valid W P s w /\ s' = after_vtb s w.
Proof.
  unfold exec_vtb, vtb_valid. cbv zeta.
  apply guard; [apply negb_reflects, mem_In|].
  apply guard; [apply Z.leb_gt|].
  apply guard; [apply negb_reflects, btc_ref_ok_iff|].
  apply guard; [now apply negb_reflects|].
  apply guard; [now apply negb_reflects|].
  apply guard; [apply negb_reflects, mem_In|].
  apply guard; [apply negb_reflects, anc_or_eq_iff|].
  apply guard_last; [apply negb_reflects, hdiff_le_iff|].
  apply inl_eq_iff.
Qed.

Lemma exec_vtbs_iff W P ws : forall s s',
  exec_vtbs W P s ws = inl s' <-> vtbs_valid W P s ws /\ s' = after_vtbs s ws.
Proof.
  induction ws as [|w r IH]; intros s s'; cbn [exec_vtbs vtbs_valid after_vtbs].
  - rewrite inl_eq_iff. tauto.
  - apply (bind (exec_vtb_iff W P s w)); [discriminate | apply IH].
Qed.

Lemma exec_atv_iff W P c K t K' :
  exec_atv W P c K t = inl K' <-> atv_valid W P c K t /\ K' = add_known K (t_bop t).
Proof.
  unfold exec_atv, atv_valid.
  apply (bind (exec_vbk_iff W K (t_bop t))); [discriminate|].
  apply guard; [now apply negb_reflects|].
  apply guard; [apply negb_reflects, ctx_eqb_eq|].
  apply guard; [apply negb_reflects, anc_or_eq_iff|].
  apply guard_last; [apply negb_reflects, hdiff_le_iff|].
  apply inl_eq_iff.
Qed.

Lemma exec_atvs_iff W P c ts : forall K K',
  exec_atvs W P c K ts = inl K' <-> atvs_valid W P c K ts /\ K' = known_after K (map t_bop ts).
Proof.
  induction ts as [|t r IH]; intros K K'; cbn [exec_atvs atvs_valid known_after map].
  - rewrite inl_eq_iff. tauto.
  - apply (bind (exec_atv_iff W P c K t)); [discriminate | apply IH].
Qed.

Lemma dup_check_iff s b :
  existsb (fun i => pmem i (seen s)) (body_ids b) = false <-> no_dup_on_chain s b.
Proof.
  unfold no_dup_on_chain. rewrite <- not_true_iff_false, existsb_exists. split.
  - intros H i Hi Hs. apply H. exists i. split; [exact Hi | now apply pmem_In].
  - intros H (i & Hi & Hs). apply pmem_In in Hs. exact (H i Hi Hs).
Qed.

Lemma vknown_after_vtbs ws : forall s, vknown (after_vtbs s ws) = vknown s.
Proof. induction ws as [|w r IH]; intros s; cbn [after_vtbs]; [reflexivity | now rewrite IH]. Qed.

Lemma exec_block_iff W P s c b s' :
  exec_block W P s c b = inl s' <-> ctx_valid W P s c b /\ s' = after_block s b.
Proof.
  unfold exec_block, ctx_valid, after_block.
  apply guard; [apply dup_check_iff|].
  apply (bind (exec_vbks_iff W (bd_ctx b) (vknown s))); [discriminate|].
  apply (bind (exec_vtbs_iff W P (bd_vtbs b) _)); [discriminate|].
  rewrite vknown_after_vtbs. cbn [vknown].
  apply (bind_last (exec_atvs_iff W P c (bd_atvs b) _)); [discriminate|].
  apply inl_eq_iff.
Qed.

Lemma exec_ok_iff_ctx_valid W P s c b :
  (exists s', exec_block W P s c b = inl s') <-> ctx_valid W P s c b.
Proof.
  split.
  - intros [s' E]. now apply exec_block_iff in E.
  - intros H. exists (after_block s b). apply exec_block_iff. auto.
Qed.

Lemma exec_refuses_iff_invalid W P s c b :
  (exists e, exec_block W P s c b = inr e) <-> ~ ctx_valid W P s c b.
Proof.
  rewrite <- exec_ok_iff_ctx_valid. destruct (exec_block W P s c b) as [s'|e].
  - split; [intros [e E]; discriminate | intros H; exfalso; apply H; eauto].
  - split; [intros _ [s' E]; discriminate | intros _; eauto].
Qed.

Lemma apply_chain_ok_iff W P ch : forall s s',
  apply_chain W P s ch = VOk s' <-> chain_valid W P s ch /\ s' = after_chain s ch.
Proof.
  induction ch as [|[c b] r IH]; intros s s'; cbn [apply_chain chain_valid after_chain].
  - split; [intros [= ->] | intros [_ ->]]; auto.
  - apply (bind (exec_block_iff W P s c b)); [discriminate | apply IH].
Qed.

Lemma valid_chain_never_refused W P s ch :
  chain_valid W P s ch -> apply_chain W P s ch = VOk (after_chain s ch).
Proof. intros H. apply apply_chain_ok_iff. auto. Qed.

Lemma apply_chain_app W P pre : forall s post,
  apply_chain W P s (pre ++ post) =
  match apply_chain W P s pre with VOk s' => apply_chain W P s' post | refused => refused end.
Proof.
  induction pre as [|[c b] r IH]; intros s post; cbn [app apply_chain]; [reflexivity|].
  destruct (exec_block W P s c b); [apply IH | reflexivity].
Qed.

Lemma chain_valid_app W P pre : forall s post,
  chain_valid W P s (pre ++ post) <-> chain_valid W P s pre /\ chain_valid W P (after_chain s pre) post.
Proof.
  induction pre as [|[c b] r IH]; intros s post; cbn [app chain_valid after_chain]; [tauto|].
  split.
  - intros [H1 [H2 H3]%IH]. auto.
  - intros [[H1 H2] H3]. split; [exact H1 | apply IH; auto].
Qed.

Lemma after_chain_app pre : forall s post, after_chain s (pre ++ post) = after_chain (after_chain s pre) post.
Proof. induction pre as [|[c b] r IH]; intros s post; cbn [app after_chain]; [reflexivity | apply IH]. Qed.

Lemma apply_chain_refused_iff W P ch : forall s c e,
  apply_chain W P s ch = VRefused c e <->
  exists pre b post, ch = pre ++ (c, b) :: post /\ chain_valid W P s pre
                     /\ exec_block W P (after_chain s pre) c b = inr e.
Proof.
  intros s c e. split.
  - revert s. induction ch as [|[c0 b0] r IH]; intros s; cbn [apply_chain]; [discriminate|].
    destruct (exec_block W P s c0 b0) as [s1|e1] eqn:E1.
    + intros H. apply exec_block_iff in E1. destruct E1 as [C1 ->].
      destruct (IH _ H) as (pre & b & post & -> & V & N).
      exists ((c0, b0) :: pre), b, post. cbn [app chain_valid after_chain]. auto.
    + intros [= -> ->]. exists [], b0, r. split; [reflexivity | split; [exact I | exact E1]].
  - intros (pre & b & post & -> & V & E).
    rewrite apply_chain_app, (valid_chain_never_refused _ _ _ _ V). cbn [apply_chain]. now rewrite E.
Qed.

(** setState on a block violating a rule, or on any descendant of it, fails, and it fails AT that block *)
Lemma invalid_block_refused W P pre : forall s c b post,
  chain_valid W P s pre ->
  ~ ctx_valid W P (after_chain s pre) c b ->
  exists e, apply_chain W P s (pre ++ (c, b) :: post) = VRefused c e.
Proof.
  intros s c b post Hv [e E]%exec_refuses_iff_invalid. exists e. apply apply_chain_refused_iff. exists pre, b, post. auto.
Qed.

Lemma refused_names_invalid W P ch : forall s c e,
  apply_chain W P s ch = VRefused c e ->
  exists pre b post, ch = pre ++ (c, b) :: post /\ chain_valid W P s pre /\ ~ ctx_valid W P (after_chain s pre) c b.
Proof.
  intros s c e (pre & b & post & E & V & N)%apply_chain_refused_iff. exists pre, b, post.
  split; [exact E | split; [exact V | apply exec_refuses_iff_invalid; eauto]].
Qed.

Definition m_inv (W : World) (P : Params) (m : Machine) : Prop :=
  chain_valid W P st0 (m_chain m) /\ m_st m = after_chain st0 (m_chain m).

Lemma activate_inv W P m cand : m_inv W P m -> m_inv W P (fst (activate W P m cand)).
Proof.
  intros H. unfold activate. destruct (apply_chain W P st0 cand) as [s|c e] eqn:E; cbn [fst].
  - apply apply_chain_ok_iff in E. exact E.
  - exact H.
Qed.

Lemma active_payloads_valid_partial W P ops : m_inv W P (run W P m0 ops).
Proof.
  assert (G : forall m, m_inv W P m -> m_inv W P (run W P m ops)).
  { induction ops as [|c r IH]; intros m H; cbn [run]; [exact H|]. apply IH. now apply activate_inv. }
  apply G. unfold m_inv, m0. cbn. auto.
Qed.

Lemma refused_not_activated W P m pre c b post :
  chain_valid W P st0 pre -> ~ ctx_valid W P (after_chain st0 pre) c b ->
  activate W P m (pre ++ (c, b) :: post) = (m, false).
Proof.
  intros Hv Hn. unfold activate.
  destruct (invalid_block_refused W P pre st0 c b post Hv Hn) as [e E]. rewrite E. reflexivity.
Qed.

(** * C19: honest publication data is valid wherever it is still timely *)

(** the context info in honestly generated publication data is by construction what CheckPublicationData
    recomputes: both sides are [create_from_previous] of the endorsed block's parent *)
Lemma honest_atv_proj W ki id e bop (t := honest_atv W ki id e bop) :
  t_id t = id /\ t_endorsed t = e /\ t_bop t = bop
  /\ atv_ctx t = create_from_previous W ki (parent_of (alts W) e).
Proof.
  subst t. unfold honest_atv. destruct (create_from_previous W ki (parent_of (alts W) e)) as [[h k1] k2]. cbn. auto.
Qed.

Lemma honest_satisfies_ctx_valid W P c K id e bop :
  alt_known W e = true ->
  is_anc_or_eq (alts W) e c ->
  within (alts W) c e (p_settle P) ->
  vbk_connects W K bop ->
  atv_valid W P c K (honest_atv W (p_ki P) id e bop).
Proof.
  intros Hk Ha Hw Hc. unfold atv_valid.
  destruct (honest_atv_proj W (p_ki P) id e bop) as (_ & -> & -> & ->). auto.
Qed.

Fixpoint honest_atvs (W : World) (P : Params) (c : Z) (K : list Z) (specs : list (Z * Z * Z)) : Prop :=
  match specs with
  | [] => True
  | (id, e, bop) :: r =>
    alt_known W e = true /\ is_anc_or_eq (alts W) e c /\ within (alts W) c e (p_settle P) /\ vbk_connects W K bop
    /\ honest_atvs W P c (add_known K bop) r
  end.

Definition mk_honest (W : World) (P : Params) (specs : list (Z * Z * Z)) : list Atv :=
  map (fun x => honest_atv W (p_ki P) (fst (fst x)) (snd (fst x)) (snd x)) specs.

Lemma honest_atvs_valid W P c specs : forall K,
  honest_atvs W P c K specs -> atvs_valid W P c K (mk_honest W P specs).
Proof.
  induction specs as [|[[id e] bop] r IH]; intros K H; cbn [mk_honest map atvs_valid]; [exact I|].
  cbn [honest_atvs] in H. destruct H as (H1 & H2 & H3 & H4 & H5). cbn [fst snd]. split.
  - now apply honest_satisfies_ctx_valid.
  - destruct (honest_atv_proj W (p_ki P) id e bop) as (_ & _ & -> & _). apply IH. exact H5.
Qed.

Lemma honest_block_accepted W P s c ctx vtbs specs :
  let b := mkBody ctx vtbs (mk_honest W P specs) in
  no_dup_on_chain s b ->
  ctx_connects W (vknown s) ctx ->
  vtbs_valid W P (mkSt (known_after (vknown s) ctx) (brefs s) (vin s) (seen s)) vtbs ->
  honest_atvs W P c (known_after (vknown s) ctx) specs ->
  exec_block W P s c b = inl (after_block s b).
Proof.
  intros b H1 H2 H3 H4. apply exec_block_iff. split; [|reflexivity].
  unfold ctx_valid. cbn [bd_ctx bd_vtbs bd_atvs b]. repeat split; auto.
  now apply honest_atvs_valid.
Qed.

(** * non-vacuity: a world with a fork, keystone interval 2, settlement interval 2 *)
Definition exW : World :=
  mkWorld [mkBlk 0 (-1) 0; mkBlk 1 0 1; mkBlk 2 1 2; mkBlk 3 2 3; mkBlk 4 3 4; mkBlk 5 1 2]
          [mkBlk 0 (-1) 0; mkBlk 1 0 1; mkBlk 2 1 2; mkBlk 3 1 2]
          [mkBlk 0 (-1) 0; mkBlk 1 0 1; mkBlk 2 1 2]
          []
          [(0, 100); (1, 110); (2, 105); (3, 99)]
          [(0, 50); (1, 60); (2, 70)]
          1000.
Definition exP : Params := default_params 2 10 2.
Definition exT : Atv := honest_atv exW 2 1 3 1.                 (* endorses block 3, block of proof VBK 1 *)
Definition exV : Vtb := mkVtb 1 1 2 0 [1; 2].

Example ex_honest_ctx : atv_ctx exT = (3, Some 0, Some 0).
Proof. reflexivity. Qed.
Example ex_accept : exists s, apply_chain exW exP st0
    [(1, mkBody [] [] []); (2, mkBody [] [] []); (3, mkBody [1; 2] [exV] []); (4, mkBody [] [] [exT])] = VOk s.
Proof. eexists. vm_compute. reflexivity. Qed.
Example ex_valid : chain_valid exW exP st0
    [(1, mkBody [] [] []); (2, mkBody [] [] []); (3, mkBody [1; 2] [exV] []); (4, mkBody [] [] [exT])].
Proof. eapply apply_chain_ok_iff. vm_compute. split; reflexivity. Qed.
(* expired by exactly one: endorsed 1 in containing 4 *)
Example ex_expired : apply_chain exW exP st0
    [(1, mkBody [] [] []); (2, mkBody [] [] []); (3, mkBody [] [] []); (4, mkBody [] [] [honest_atv exW 2 2 1 1])]
    = VRefused 4 EExpired.
Proof. vm_compute. reflexivity. Qed.
(* endorsed block 5 is on another fork *)
Example ex_fork : apply_chain exW exP st0
    [(1, mkBody [] [] []); (2, mkBody [] [] []); (3, mkBody [] [] [honest_atv exW 2 2 5 1]); (4, mkBody [] [] [])]
    = VRefused 3 EDiffers.
Proof. vm_compute. reflexivity. Qed.
(* wrong first keystone *)
Example ex_keystone : apply_chain exW exP st0
    [(1, mkBody [] [] []); (2, mkBody [] [] []); (3, mkBody [] [] []); (4, mkBody [] [] [mkAtv 9 3 1 3 (Some 1) (Some 0)])]
    = VRefused 4 ESfContext.
Proof. vm_compute. reflexivity. Qed.
(* duplicate of a payload id of an ancestor *)
Example ex_dup : apply_chain exW exP st0
    [(1, mkBody [1] [] []); (2, mkBody [1] [] [])] = VRefused 2 EDup.
Proof. vm_compute. reflexivity. Qed.

(* VBK header 3 (timestamp 99) is below the minimum timestamp of a child of block 1 (lower median of {100, 110} = 100);
   header 2 (105) is admissible although it is older than its parent *)
Example ex_vbktime : apply_chain exW exP st0 [(1, mkBody [1; 3] [] [])] = VRefused 1 EVbkTime.
Proof. vm_compute. reflexivity. Qed.
Example ex_vbktime_ok : exists s, apply_chain exW exP st0 [(1, mkBody [1; 2] [] [])] = VOk s.
Proof. eexists. vm_compute. reflexivity. Qed.
