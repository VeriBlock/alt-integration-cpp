(** Base58, part 5: the CONVERSE round trip. Whatever DecodeBase58 accepts is,
    up to leading/trailing spaces, exactly the text EncodeBase58 produces for
    the decoded bytes: there are no non-canonical encodings, and decoding is
    injective modulo surrounding white space. *)
From Coq Require Import ZArith List Bool Lia.
From VB Require Import Gen.TextTables Text.TextCommon Text.Radix Text.Base58Defs
  Text.Base58Proofs Text.Base58Proofs2 Text.Base58Proofs3.
Import ListNotations.
Local Open Scope Z_scope.

Theorem b58_decode_encode s v :
  bytes s -> b58_decode s = Ok v ->
  exists sp1 body sp2,
    s = sp1 ++ body ++ sp2 /\ all_space sp1 /\ all_space sp2 /\ b58_encode v = Ok body.
Proof.
  intros Hb Hv.
  destruct (b58_decode_shape s v Hv) as [_ (sp1 & body & sp2 & E & A1 & A2 & Dc)].
  exists sp1, body, sp2. split; [exact E|]. split; [exact A1|]. split; [exact A2|].
  (* the body is '1' x z ++ the characters of digits D without leading zero *)
  assert (Ba : Forall (fun c => In c b58_alphabet) body).
  { apply digit_chars_alphabet; [|exact Dc]. rewrite E in Hb.
    apply Forall_app in Hb. destruct Hb as [_ Hb]. apply Forall_app in Hb. apply Hb. }
  destruct (alphabet_text_split _ Ba) as (z & D & -> & DD & Hhead).
  rewrite <- app_assoc in E.
  (* so v is z zero bytes ++ the base-256 digits R of the value of D ... *)
  destruct (b58_decode_text_sp sp1 z D sp2 A1 A2 DD Hhead) as (R & E2 & RD & RC & RV).
  rewrite <- E, Hv in E2. injection E2 as ->.
  (* ... and encoding it gives z '1's ++ base-58 digits D' of the same value *)
  destruct (b58_encode_spec (repeat 0 z ++ R)) as (D' & EE & DD' & Hhead' & HV').
  { apply Forall_app. split; [|exact RD]. apply Forall_repeat. unfold is_byte. lia. }
  destruct (count_leading_repeat 0 z R RC) as [CL DL].
  rewrite EE, CL. rewrite DL in HV'. do 3 f_equal.
  apply (canon_unique b58_enc_base enc_base_gt1); try assumption.
  rewrite HV'. exact RV.
Qed.

Corollary b58_decode_injective s1 s2 v :
  bytes s1 -> bytes s2 -> b58_decode s1 = Ok v -> b58_decode s2 = Ok v ->
  exists a1 b1 a2 b2 body,
    s1 = a1 ++ body ++ b1 /\ s2 = a2 ++ body ++ b2
    /\ all_space a1 /\ all_space b1 /\ all_space a2 /\ all_space b2.
Proof.
  intros B1 B2 H1 H2.
  destruct (b58_decode_encode s1 v B1 H1) as [a1 [body1 [b1 [E1 [A1 [A1' EN1]]]]]].
  destruct (b58_decode_encode s2 v B2 H2) as [a2 [body2 [b2 [E2 [A2 [A2' EN2]]]]]].
  rewrite EN1 in EN2. inversion EN2; subst body2.
  exists a1, b1, a2, b2, body1. repeat split; assumption.
Qed.
