(** Base58, part 1: facts about the GENERATED tables (evaluation over the finite
    domains 0..57 / 0..255 only), the shape of every accepted DecodeBase58
    input, the rejection theorems that follow from it, and the int width of
    the carry loop. *)
From Coq Require Import ZArith List Bool Lia.
From VB Require Import Gen.TextTables Text.TextCommon Text.Radix Text.Base58Defs.
Import ListNotations.
Local Open Scope Z_scope.

(** the numeric constants of the two loops agree with the alphabet size and
    the byte range (re-checked against the generated file on every run) *)
Lemma b58_enc_base_is_alphabet_length : b58_enc_base = Z.of_nat (length b58_alphabet).
Proof. vm_compute. reflexivity. Qed.
Lemma b58_consts_dual : b58_dec_mul = b58_enc_base /\ b58_dec_base = b58_enc_mul /\ b58_enc_mul = 256.
Proof. vm_compute. repeat split. Qed.

(** mapBase58 inverts pszBase58 on the 58 digits, and every other entry of it is -1 *)
Lemma b58_tables :
  table_inverts b58_alphabet b58_map = true /\ table_entries_ok b58_alphabet b58_map = true.
Proof. vm_compute. split; reflexivity. Qed.

Lemma b58_map_char d : 0 <= d < b58_enc_base -> lookup b58_map (b58_char d) = d.
Proof. exact (table_of_char _ _ (proj1 b58_tables) d). Qed.

Lemma b58_char_in_alphabet d : 0 <= d < b58_enc_base -> In (b58_char d) b58_alphabet.
Proof. intros H. apply in_alphabet_iff. exists d. split; [exact H|reflexivity]. Qed.

Lemma b58_map_minus1 c : is_byte c -> (lookup b58_map c = -1 <-> ~ In c b58_alphabet).
Proof. exact (table_none_iff _ _ (proj1 b58_tables) (proj2 b58_tables) c). Qed.

Lemma b58_map_inv c :
  is_byte c -> lookup b58_map c <> -1 ->
  0 <= lookup b58_map c < b58_enc_base /\ b58_char (lookup b58_map c) = c /\ In c b58_alphabet.
Proof.
  intros Hc Hne. destruct (char_of_table _ _ (proj2 b58_tables) c Hc) as [E|[Hr He]]; [contradiction|].
  split; [exact Hr|]. split; [exact He|]. rewrite <- He. apply b58_char_in_alphabet, Hr.
Qed.

Lemma b58_alphabet_no_space c : In c b58_alphabet -> is_space c = false /\ c <> 0.
Proof.
  assert (A : forallb (fun c => negb (is_space c) && negb (c =? 0)) b58_alphabet = true)
    by (vm_compute; reflexivity).
  intros H. rewrite forallb_forall in A. specialize (A c H).
  apply andb_true_iff in A. destruct A as [A1 A2].
  apply negb_true_iff in A1, A2. apply Z.eqb_neq in A2. split; assumption.
Qed.

Lemma b58_one_is_digit0 : b58_one = b58_char 0 /\ lookup b58_map b58_one = 0.
Proof. vm_compute. split; reflexivity. Qed.

Lemma b58_one_nonzero : b58_one <> 0.
Proof. discriminate. Qed.

Lemma nul_not_space : is_space 0 = false.
Proof. reflexivity. Qed.

Lemma b58_one_in_alphabet : In b58_one b58_alphabet.
Proof. rewrite (proj1 b58_one_is_digit0). apply b58_char_in_alphabet. change b58_enc_base with 58. lia. Qed.

Lemma b58_one_no_space : is_space b58_one = false.
Proof. apply b58_alphabet_no_space, b58_one_in_alphabet. Qed.

Lemma b58_char_one d : 0 <= d < b58_enc_base -> b58_char d = b58_one -> d = 0.
Proof.
  intros H E. rewrite <- (b58_map_char d H), E. apply b58_one_is_digit0.
Qed.

Definition all_space (l : list Z) : Prop := Forall (fun c => is_space c = true) l.
Definition digit_char (c : Z) : Prop := is_space c = false /\ lookup b58_map c <> -1.

Lemma skip_spaces_split s : exists sp, s = sp ++ skip_spaces s /\ all_space sp.
Proof.
  induction s as [|c s [sp [E A]]].
  - exists []. split; [reflexivity|constructor].
  - cbn [skip_spaces]. destruct (is_space c) eqn:Hc.
    + exists (c :: sp). split; [cbn [app]; f_equal; exact E|constructor; assumption].
    + exists []. split; [reflexivity|constructor].
Qed.

Lemma skip_spaces_nil s : skip_spaces s = [] -> all_space s.
Proof.
  intros H. destruct (skip_spaces_split s) as [sp [E A]].
  rewrite H, app_nil_r in E. subst sp. exact A.
Qed.

Lemma count_ones_split m : forall s z z' s2,
  count_ones m z s = Ok (z', s2) -> exists ones, s = ones ++ s2 /\ Forall (fun c => c = b58_one) ones.
Proof.
  induction s as [|c s IH]; intros z z' s2 H; cbn [count_ones] in H.
  - inversion H; subst. exists []. split; [reflexivity|constructor].
  - destruct (Z.eqb_spec c b58_one) as [->|Hne].
    + destruct (m <? S z)%nat; [discriminate|].
      destruct (IH _ _ _ H) as [ones [E F]].
      exists (b58_one :: ones). split; [cbn [app]; f_equal; exact E|constructor; [reflexivity|exact F]].
    + inversion H; subst. exists []. split; [reflexivity|constructor].
Qed.

Lemma dec_loop_split m z : forall s len buf len' buf' s3,
  dec_loop m z len buf s = Ok (len', buf', s3) ->
  exists ds, s = ds ++ s3 /\ Forall digit_char ds.
Proof.
  induction s as [|c s IH]; intros len buf len' buf' s3 H; cbn [dec_loop] in H.
  - inversion H; subst. exists []. split; [reflexivity|constructor].
  - destruct (is_space c) eqn:Hc.
    + inversion H; subst. exists []. split; [reflexivity|constructor].
    + cbv zeta in H. destruct (Z.eqb_spec (lookup b58_map c) (-1)) as [E|E]; [discriminate|].
      destruct (push_digit b58_dec_mul b58_dec_base (lookup b58_map c) len buf)
        as [[i bufi]| |]; try discriminate.
      destruct (m <? i + z)%nat; [discriminate|].
      destruct (IH _ _ _ _ _ H) as [ds [E1 F]].
      exists (c :: ds).
      split; [cbn [app]; f_equal; exact E1|constructor; [split; assumption|exact F]].
Qed.

(** every input accepted by the inner DecodeBase58 is
    spaces ++ digit characters ++ spaces (the leading '1's are digit characters too) *)
Theorem b58_decode_c_shape s m v :
  b58_decode_c s m = Ok v ->
  exists sp1 body sp2,
    s = sp1 ++ body ++ sp2 /\ all_space sp1 /\ all_space sp2 /\ Forall digit_char body.
Proof.
  unfold b58_decode_c. intros H.
  destruct (skip_spaces_split s) as [sp1 [E1 A1]].
  destruct (count_ones m 0 (skip_spaces s)) as [[z s2]| |] eqn:C; try discriminate.
  destruct (count_ones_split _ _ _ _ _ C) as [ones [E2 F2]].
  destruct (dec_loop m z 0 (repeat 0 (b58_dec_size (length s2))) s2) as [[[len buf] s3]| |] eqn:D;
    try discriminate.
  destruct (dec_loop_split _ _ _ _ _ _ _ _ D) as [ds [E3 F3]].
  destruct (skip_spaces s3) eqn:S3; [|discriminate].
  apply skip_spaces_nil in S3.
  exists sp1, (ones ++ ds), s3. rewrite <- app_assoc, <- E3, <- E2.
  repeat split; try assumption. apply Forall_app. split; [|exact F3].
  eapply Forall_impl; [|exact F2]. intros c ->.
  split; [exact b58_one_no_space|rewrite (proj2 b58_one_is_digit0); discriminate].
Qed.

Theorem b58_decode_shape s v :
  b58_decode s = Ok v ->
  ~ In 0 s /\
  exists sp1 body sp2,
    s = sp1 ++ body ++ sp2 /\ all_space sp1 /\ all_space sp2 /\ Forall digit_char body.
Proof.
  unfold b58_decode. destruct (existsb (fun c => c =? 0) s) eqn:E; [discriminate|].
  intros H. split; [|eapply b58_decode_c_shape; exact H].
  intros Hin. assert (existsb (fun c => c =? 0) s = true); [|congruence].
  apply existsb_exists. exists 0. split; [exact Hin|reflexivity].
Qed.

Lemma digit_chars_alphabet l : bytes l -> Forall digit_char l -> Forall (fun c => In c b58_alphabet) l.
Proof.
  unfold bytes. rewrite !Forall_forall. intros Hb D c Hc. apply b58_map_inv; [apply Hb|apply D]; exact Hc.
Qed.

Theorem b58_decode_chars s v :
  bytes s -> b58_decode s = Ok v ->
  Forall (fun c => is_space c = true \/ In c b58_alphabet) s.
Proof.
  intros Hb H. destruct (b58_decode_shape s v H) as [_ (sp1 & body & sp2 & -> & A1 & A2 & D)].
  apply Forall_app in Hb. destruct Hb as [_ Hb]. apply Forall_app in Hb. destruct Hb as [Hb _].
  repeat (apply Forall_app; split).
  - eapply Forall_impl; [|exact A1]. intros c Hc. left. exact Hc.
  - eapply Forall_impl; [|exact (digit_chars_alphabet body Hb D)]. intros c Hc. right. exact Hc.
  - eapply Forall_impl; [|exact A2]. intros c Hc. left. exact Hc.
Qed.

(** one character that is neither a space nor in the alphabet makes
    DecodeBase58 fail *)
Theorem b58_decode_rejects s :
  bytes s ->
  (exists c, In c s /\ ~ In c b58_alphabet /\ is_space c = false) ->
  forall v, b58_decode s <> Ok v.
Proof.
  intros Hb [c [Hin [Hna Hns]]] v H.
  pose proof (b58_decode_chars s v Hb H) as F. rewrite Forall_forall in F.
  destruct (F c Hin) as [Hs|Ha]; [congruence|contradiction].
Qed.

(** a space strictly inside the digits is rejected *)
Theorem b58_decode_inner_space a sp b v :
  b58_decode (a ++ sp :: b) = Ok v -> is_space sp = true ->
  (exists x, In x a /\ is_space x = false) -> all_space b.
Proof.
  intros H Hs [x [Hx Hxn]].
  destruct (b58_decode_shape _ _ H) as [_ (sp1 & body & sp2 & E & A1 & A2 & D)].
  unfold all_space in *. rewrite Forall_forall in A1, D.
  (* [sp1] ends inside [a], since [a] holds a non-space ... *)
  apply app_eq_app in E. destruct E as [l [[Ea E]|[E1 _]]].
  2:{ rewrite A1 in Hxn; [discriminate|]. rewrite E1. apply in_or_app. left. exact Hx. }
  (* ... and [sp] is not in [body], so [sp :: b] is a tail of [sp2] *)
  symmetry in E. apply app_eq_app in E. destruct E as [l' [[_ E2]|[Eb E2]]].
  - rewrite E2 in A2. apply Forall_app in A2. exact (Forall_inv_tail (proj2 A2)).
  - destruct l' as [|c l'].
    + cbn [app] in E2. rewrite <- E2 in A2. exact (Forall_inv_tail A2).
    + injection E2 as <- _. rewrite (proj1 (D sp ltac:(rewrite Eb; apply in_elt))) in Hs. discriminate.
Qed.

Corollary b58_decode_rejects_inner_space a sp b :
  is_space sp = true ->
  (exists x, In x a /\ is_space x = false) ->
  (exists y, In y b /\ is_space y = false) ->
  forall v, b58_decode (a ++ sp :: b) <> Ok v.
Proof.
  intros Hs X [y [Hy Hn]] v H.
  pose proof (b58_decode_inner_space a sp b v H Hs X) as A.
  unfold all_space in A. rewrite Forall_forall in A. specialize (A y Hy). congruence.
Qed.

(** The carry loop as C executes it: [int carry] is a 32-bit two's-complement
    int ([wrap32] after every operation), [%] and [/] truncate towards zero
    ([Z.rem], [Z.quot]), the digit is stored into an [unsigned char]
    ([mod 256]). [carry_loop_bounds] shows that for a start carry in [0, mul)
    and buffer digits in [0, base) nothing wraps or truncates:
    this is exactly [carry_loop] of Base58Defs. *)
Definition wrap32 (x : Z) : Z := (x + 2 ^ 31) mod 2 ^ 32 - 2 ^ 31.

Fixpoint carry_loop_c (mul base carry : Z) (i length : nat) (buf : list Z)
  : list Z * Z * nat :=
  match buf with
  | [] => ([], carry, i)
  | x :: r =>
      if negb (carry =? 0) || (i <? length)%nat then
        let c := wrap32 (carry + wrap32 (mul * x)) in
        match carry_loop_c mul base (Z.quot c base) (S i) length r with
        | (r', carry', i') => ((Z.rem c base) mod 256 :: r', carry', i')
        end
      else (buf, carry, i)
  end.

Lemma wrap32_id x : 0 <= x < 2 ^ 31 -> wrap32 x = x.
Proof. unfold wrap32. intros H. rewrite Z.mod_small; lia. Qed.

Theorem carry_loop_bounds mul base len :
  0 < base <= 256 -> 0 < mul -> mul * base <= 2 ^ 31 ->
  forall buf carry i,
    0 <= carry < mul -> Forall (fun x => 0 <= x < base) buf ->
    carry_loop_c mul base carry i len buf = carry_loop mul base carry i len buf.
Proof.
  intros Hb Hm Hmb. induction buf as [|x r IH]; intros carry i Hc Hd; [reflexivity|].
  inversion Hd as [|? ? Hx Hr]; subst.
  cbn [carry_loop_c carry_loop]. destruct (negb (carry =? 0) || (i <? len)%nat); [|reflexivity].
  cbv zeta.
  assert (Hc1 : 0 <= carry + mul * x < mul * base) by nia.
  rewrite (wrap32_id (mul * x)) by nia.
  rewrite (wrap32_id (carry + mul * x)) by lia.
  set (c := carry + mul * x) in *.
  rewrite Z.quot_div_nonneg, Z.rem_mod_nonneg by lia.
  assert (Hq : 0 <= c / base < mul).
  { split; [apply Z.div_pos; lia|apply Z.div_lt_upper_bound; lia]. }
  rewrite (Z.mod_small (c mod base) 256) by (pose proof (Z.mod_pos_bound c base); lia).
  rewrite (IH (c / base) (S i) Hq Hr). reflexivity.
Qed.

(** the two instances in the code: the start carry is a byte resp. a base-58 digit *)
Corollary carry_loop_bounds_enc len buf b i :
  0 <= b < 256 -> Forall (fun x => 0 <= x < b58_enc_base) buf ->
  carry_loop_c b58_enc_mul b58_enc_base b i len buf = carry_loop b58_enc_mul b58_enc_base b i len buf.
Proof.
  intros Hb Hd. apply carry_loop_bounds; try assumption; try (vm_compute; intuition discriminate).
Qed.

Corollary carry_loop_bounds_dec len buf d i :
  0 <= d < 58 -> Forall (fun x => 0 <= x < b58_dec_base) buf ->
  carry_loop_c b58_dec_mul b58_dec_base d i len buf = carry_loop b58_dec_mul b58_dec_base d i len buf.
Proof.
  intros Hb Hd. apply carry_loop_bounds; try assumption; try (vm_compute; intuition discriminate).
Qed.
