(** Base58, part 2: the arithmetic of the carry loop. Specification of
    [carry_loop] / [push_digit] (value, canonicity of [length], the assert
    cannot fire when the value fits the buffer), and the two buffer-size
    inequalities for ALL n, stated with the generated constants. *)
From Coq Require Import ZArith List Bool Lia.
From VB Require Import Gen.TextTables Text.TextCommon Text.Radix Text.Base58Defs Text.Base58Proofs.
Import ListNotations.
Local Open Scope Z_scope.

(** little-endian value (the model buffers are little-endian) *)
Fixpoint val_le (b : Z) (l : list Z) : Z :=
  match l with [] => 0 | x :: r => x + b * val_le b r end.

Definition zeros (l : list Z) : Prop := Forall (fun x => x = 0) l.

Lemma val_le_app b l1 l2 :
  val_le b (l1 ++ l2) = val_le b l1 + b ^ Z.of_nat (length l1) * val_le b l2.
Proof.
  induction l1 as [|x l1 IH].
  - cbn [app val_le length]. change (Z.of_nat 0) with 0. rewrite Z.pow_0_r. ring.
  - cbn [app val_le length]. rewrite IH, Nat2Z.inj_succ, Z.pow_succ_r by lia. ring.
Qed.

Lemma val_le_zeros b l : zeros l -> val_le b l = 0.
Proof.
  induction 1 as [|x l Hx _ IH]; [reflexivity|].
  cbn [val_le]. rewrite IH, Hx. ring.
Qed.

Lemma val_le_bound b l : 0 < b -> digits b l -> 0 <= val_le b l < b ^ Z.of_nat (length l).
Proof.
  intros Hb. induction 1 as [|x l Hx _ IH]; [cbn; lia|].
  cbn [val_le length]. rewrite Nat2Z.inj_succ, Z.pow_succ_r by lia.
  set (P := b ^ Z.of_nat (length l)) in *. nia.
Qed.

Lemma val_le_firstn b k l : zeros (skipn k l) -> val_le b (firstn k l) = val_le b l.
Proof.
  intros H. rewrite <- (firstn_skipn k l) at 2.
  rewrite val_le_app, (val_le_zeros b _ H). ring.
Qed.

Lemma val_be_rev b l : val_be b l = val_le b (rev l).
Proof.
  induction l as [|x l IH]; [reflexivity|].
  cbn [rev]. rewrite val_be_cons, val_le_app, rev_length, IH. cbn [val_le]. ring.
Qed.

Lemma zeros_skipn k l : zeros l -> zeros (skipn k l).
Proof. intros H. apply Forall_firstn_skipn, H. Qed.

Section Loop.
  Variables mul base : Z.
  Hypothesis Hbase : 1 < base.
  Hypothesis Hmul : 1 <= mul.
  Variable len : nat.

  (** [buf] is the buffer from position [i] on, [k] the number of positions
      visited. Last two clauses: the loop does not stop before [length] unless
      the buffer ends, and if it goes beyond [length] and leaves no carry the
      last digit written is not 0. *)
  Lemma carry_loop_spec : forall buf carry i,
    digits base buf -> 0 <= carry -> zeros (skipn (len - i) buf) ->
    exists buf' carry' k,
      carry_loop mul base carry i len buf = (buf', carry', (i + k)%nat)
      /\ val_le base buf' + base ^ Z.of_nat (length buf) * carry' = carry + mul * val_le base buf
      /\ length buf' = length buf /\ digits base buf' /\ 0 <= carry'
      /\ (k <= length buf)%nat /\ zeros (skipn k buf')
      /\ (k = 0%nat -> carry' = carry)
      /\ ((i + k < len)%nat -> k = length buf)
      /\ (carry' = 0 -> (len < i + k)%nat -> (0 < k)%nat ->
          base ^ (Z.of_nat k - 1) <= val_le base buf').
  Proof.
    induction buf as [|x r IH]; intros carry i Hd Hc Hz.
    { exists [], carry, 0%nat. cbn [carry_loop val_le length]. rewrite Nat.add_0_r.
      repeat split; try constructor; try lia. }
    cbn [carry_loop]. inversion Hd as [|? ? Hx Hr]; subst.
    destruct (negb (carry =? 0) || (i <? len)%nat) eqn:Cond.
    - cbv zeta. set (c := carry + mul * x).
      assert (Hc0 : 0 <= c) by nia.
      assert (Hq : 0 <= c / base) by (apply Z.div_pos; lia).
      assert (Hm : 0 <= c mod base < base) by (apply Z.mod_pos_bound; lia).
      pose proof (Z_div_mod_eq_full c base) as Hdm.
      assert (Hz' : zeros (skipn (len - S i) r)).
      { destruct (len - i)%nat as [|n] eqn:E.
        - replace (len - S i)%nat with 0%nat by lia. exact (Forall_inv_tail Hz).
        - replace (len - S i)%nat with n by lia. exact Hz. }
      destruct (IH (c / base) (S i) Hr Hq Hz')
        as (r' & carry' & k & E & Hv & Hl & Hd' & Hc' & Hk & Hzz & Hsame & Hshort & Hcanon).
      rewrite E. exists (c mod base :: r'), carry', (S k).
      pose proof (val_le_bound base r' ltac:(lia) Hd') as Hvb.
      set (q := c / base) in *. set (m := c mod base) in *. clearbody q m.
      split; [rewrite <- plus_n_Sm; reflexivity|].
      cbn [val_le length skipn]. rewrite Nat2Z.inj_succ, Z.pow_succ_r by lia.
      set (P := base ^ Z.of_nat (length r)) in *.
      set (vr := val_le base r) in *. set (vr' := val_le base r') in *.
      repeat split; try lia.
      + constructor; assumption.
      + exact Hzz.
      + intros C0 Hlen _. destruct k as [|k].
        * (* the step was taken although i >= len, so carry <> 0 *)
          assert (carry <> 0).
          { intros ->. rewrite Z.eqb_refl in Cond. cbn [negb orb] in Cond.
            apply Nat.ltb_lt in Cond. lia. }
          rewrite (Hsame eq_refl) in C0. change (Z.of_nat 1 - 1) with 0.
          rewrite Z.pow_0_r. unfold c in *. nia.
        * replace (Z.of_nat (S (S k)) - 1) with (Z.succ (Z.of_nat (S k) - 1)) by lia.
          rewrite Z.pow_succ_r by lia. specialize (Hcanon C0 ltac:(lia) ltac:(lia)). nia.
    - apply orb_false_iff in Cond. destruct Cond as [C1 C2].
      apply negb_false_iff, Z.eqb_eq in C1. apply Nat.ltb_ge in C2. subst carry.
      replace (len - i)%nat with 0%nat in Hz by lia. cbn [skipn] in Hz.
      exists (x :: r), 0, 0%nat. rewrite Nat.add_0_r, (val_le_zeros base _ Hz).
      repeat split; try assumption; try lia.
  Qed.
End Loop.

Section Push.
  Variables mul base : Z.
  Hypothesis Hbase : 1 < base.
  Hypothesis Hmul : 1 <= mul.

  (** invariant of the outer loops on (length, buffer): digits in range, every
      position >= length is 0, length within the buffer, and length is
      CANONICAL (0, or the top covered digit position is needed) *)
  Definition binv (len : nat) (buf : list Z) : Prop :=
    digits base buf /\ zeros (skipn len buf) /\ (len <= length buf)%nat
    /\ (len = 0%nat \/ base ^ (Z.of_nat len - 1) <= val_le base buf).

  Lemma push_digit_spec d len buf :
    0 <= d -> binv len buf ->
    d + mul * val_le base buf < base ^ Z.of_nat (length buf) ->
    exists len' buf',
      push_digit mul base d len buf = Ok (len', buf')
      /\ binv len' buf' /\ length buf' = length buf
      /\ val_le base buf' = d + mul * val_le base buf.
  Proof.
    intros Hd [Hdig [Hz [Hlen Hcan]]] Hfit. unfold push_digit.
    destruct (carry_loop_spec mul base Hbase Hmul len buf d 0%nat Hdig Hd)
      as (buf' & carry' & k & E & Hv & Hl & Hd' & Hc' & Hk & Hzz & _ & Hshort & Hcanon);
      [rewrite Nat.sub_0_r; exact Hz|].
    rewrite E. cbn [Nat.add] in *.
    pose proof (val_le_bound base buf' ltac:(lia) Hd') as Hvb.
    pose proof (val_le_bound base buf ltac:(lia) Hdig) as Hvb0.
    rewrite Hl in Hvb. set (P := base ^ Z.of_nat (length buf)) in *.
    (* a carry out of the top position would make the value >= base^|buf| *)
    assert (C0 : carry' = 0) by nia.
    rewrite C0, Z.eqb_refl. rewrite C0, Z.mul_0_r, Z.add_0_r in Hv.
    exists k, buf'. repeat split; try assumption; try lia.
    destruct (Nat.lt_ge_cases len k) as [Hgt|Hle].
    - destruct k; [lia|]. right. apply Hcanon; [exact C0|exact Hgt|lia].
    - (* k = len: the value has not shrunk *)
      assert (k = len) by lia. subst k.
      destruct Hcan as [Hcan|Hcan]; [left; exact Hcan|right]. nia.
  Qed.

  (** room for [n] more digits, even if they are all mul-1 *)
  Definition room (n len : nat) (buf : list Z) : Prop :=
    binv len buf
    /\ (val_le base buf + 1) * mul ^ Z.of_nat n <= base ^ Z.of_nat (length buf).

  Lemma push_digit_room d n len buf :
    0 <= d < mul -> room (S n) len buf ->
    exists len' buf',
      push_digit mul base d len buf = Ok (len', buf')
      /\ room n len' buf' /\ length buf' = length buf
      /\ val_le base buf' = d + mul * val_le base buf.
  Proof.
    intros Hd [Inv Fit].
    pose proof (val_le_bound base buf ltac:(lia) (proj1 Inv)) as VB.
    rewrite Nat2Z.inj_succ, Z.pow_succ_r in Fit by lia.
    assert (HM : 0 < mul ^ Z.of_nat n) by (apply Z.pow_pos_nonneg; lia).
    set (V := val_le base buf) in *. set (M := mul ^ Z.of_nat n) in *.
    destruct (push_digit_spec d len buf ltac:(lia) Inv ltac:(nia))
      as (len' & buf' & E & Inv' & L & V').
    exists len', buf'. split; [exact E|]. split; [split; [exact Inv'|]|split; [exact L|exact V']].
    rewrite L, V'. fold V M. nia.
  Qed.

  Lemma room_init n size : mul ^ Z.of_nat n <= base ^ Z.of_nat size -> room n 0 (repeat 0 size).
  Proof.
    intros H. pose proof (Forall_repeat (fun x => x = 0) 0 size eq_refl) as Z0.
    repeat split.
    - apply Forall_repeat. lia.
    - exact Z0.
    - lia.
    - left. reflexivity.
    - rewrite (val_le_zeros _ _ Z0), repeat_length. lia.
  Qed.

  Lemma room_le n m len buf : (m <= n)%nat -> room n len buf -> room m len buf.
  Proof.
    intros Hmn [Inv Fit]. split; [exact Inv|].
    pose proof (val_le_bound base buf ltac:(lia) (proj1 Inv)) as VB.
    assert (mul ^ Z.of_nat m <= mul ^ Z.of_nat n) by (apply Z.pow_le_mono_r; lia).
    nia.
  Qed.

  Lemma binv_result len buf : binv len buf ->
    let R := rev (firstn len buf) in
    digits base R /\ hd_nz R /\ val_be base R = val_le base buf.
  Proof.
    intros [D [Z0 [Hl C]]]. cbv zeta.
    pose proof (firstn_length_le buf Hl) as E.
    pose proof (val_le_firstn base len buf Z0) as V.
    apply (Forall_firstn_skipn _ len) in D. destruct D as [D _].
    revert E V D. generalize (firstn len buf). intros L E V D.
    rewrite val_be_rev, rev_involutive.
    repeat split; try assumption; [apply Forall_rev, D|].
    (* the top digit c: L = low ++ [c] with val low < base^(len-1) <= val L *)
    destruct (rev L) as [|c low] eqn:ER; [exact I|]. cbn [hd_nz]. intros ->.
    apply (f_equal (@rev Z)) in ER. rewrite rev_involutive in ER. cbn [rev] in ER. subst L.
    rewrite app_length, Nat.add_comm in E. cbn [length Nat.add] in E.
    destruct C as [C|C]; [lia|]. rewrite <- V, val_le_app in C. cbn [val_le] in C.
    apply Forall_app in D.
    pose proof (val_le_bound base _ ltac:(lia) (proj1 D)) as B.
    replace (Z.of_nat len - 1) with (Z.of_nat (length (rev low))) in C by lia. lia.
  Qed.
End Push.

(** a^q <= b^p says log_b a <= p/q; proof: compare the q-th powers of both sides *)
Lemma pow_le_by_ratio a b p q n e :
  1 <= a -> 1 <= b -> 0 < q -> 0 <= p -> a ^ q <= b ^ p ->
  0 <= n -> n * p <= e * q -> a ^ n <= b ^ e.
Proof.
  intros Ha Hb Hq Hp Hpow Hn Hle.
  assert (He : 0 <= e) by nia.
  apply (Z.pow_le_mono_l_iff _ _ q); [apply Z.pow_nonneg; lia|apply Z.pow_nonneg; lia|exact Hq|].
  rewrite <- !Z.pow_mul_r by lia.
  transitivity (b ^ (p * n)).
  - rewrite (Z.mul_comm n q), !Z.pow_mul_r by lia.
    apply Z.pow_le_mono_l. split; [apply Z.pow_nonneg; lia|exact Hpow].
  - apply Z.pow_le_mono_r; lia.
Qed.

(** ENCODER BUFFER: 256^n <= 58^(n*138/100+1) for all n.
    11/8 lies between log_58 256 = 1.3656.. and 138/100. *)
Theorem b58_enc_buffer_bound n :
  b58_enc_mul ^ Z.of_nat n <= b58_enc_base ^ Z.of_nat (b58_enc_size n).
Proof.
  apply (pow_le_by_ratio _ _ 11 8); [discriminate|discriminate|reflexivity|discriminate
                                   |vm_compute; discriminate|lia|].
  unfold b58_enc_size. change b58_enc_size_num with 138. change b58_enc_size_den with 100.
  change b58_enc_size_add with 1. Z.div_mod_to_equations. lia.
Qed.

(** DECODER BUFFER: 58^n <= 256^(n*733/1000+1) for all n.
    52/71 lies between log_256 58 = 0.73224.. and 733/1000. *)
Theorem b58_dec_buffer_bound n :
  b58_dec_mul ^ Z.of_nat n <= b58_dec_base ^ Z.of_nat (b58_dec_size n).
Proof.
  apply (pow_le_by_ratio _ _ 52 71); [discriminate|discriminate|reflexivity|discriminate
                                    |vm_compute; discriminate|lia|].
  unfold b58_dec_size. change b58_dec_size_num with 733. change b58_dec_size_den with 1000.
  change b58_dec_size_add with 1. Z.div_mod_to_equations. lia.
Qed.
