(** What the text codecs share: sweeps over [zrange], an alphabet with its index
    table (base58, base59, hex), and big-endian positional notation [val_be]:
    a digit list without leading zero is determined by its value. *)
From Coq Require Import ZArith List Bool Lia.
From VB Require Import Text.TextCommon.
Import ListNotations.
Local Open Scope Z_scope.

Lemma zrange_sweep (P : Z -> bool) n : forall lo,
  forallb P (zrange lo n) = true -> forall x, lo <= x < lo + Z.of_nat n -> P x = true.
Proof.
  induction n as [|n IH]; intros lo H x Hx; [lia|].
  cbn [zrange forallb] in H. apply andb_true_iff in H. destruct H as [H1 H2].
  destruct (Z.eq_dec lo x) as [->|Hne]; [exact H1|]. apply (IH (lo + 1) H2). lia.
Qed.

Lemma Forall_repeat {A} (P : A -> Prop) x n : P x -> Forall P (repeat x n).
Proof. intros H. apply Forall_forall. intros y Hy. apply repeat_spec in Hy. subst. exact H. Qed.

Lemma Forall_firstn_skipn {A} (P : A -> Prop) n l :
  Forall P l -> Forall P (firstn n l) /\ Forall P (skipn n l).
Proof. intros H. apply Forall_app. rewrite firstn_skipn. exact H. Qed.

Lemma firstn_skipn_app {A} n (l1 l2 : list A) :
  length l1 = n -> firstn n (l1 ++ l2) = l1 /\ skipn n (l1 ++ l2) = l2.
Proof.
  intros <-. rewrite firstn_app, skipn_app, Nat.sub_diag, firstn_all, skipn_all.
  split; [apply app_nil_r|reflexivity].
Qed.

Lemma In_combine_zrange (l : list Z) dflt : forall lo c, lo <= c < lo + Z.of_nat (length l) ->
  In (c, nth (Z.to_nat (c - lo)) l dflt) (combine (zrange lo (length l)) l).
Proof.
  induction l as [|x l IH]; intros lo c H; cbn [length] in H; [lia|].
  cbn [length zrange combine]. destruct (Z.eq_dec c lo) as [->|Hne].
  - left. rewrite Z.sub_diag. reflexivity.
  - right. replace (Z.to_nat (c - lo)) with (S (Z.to_nat (c - (lo + 1)))) by lia.
    apply IH. lia.
Qed.

(** An alphabet [al] (digit -> character) and its index table [tb]
    (character -> digit, -1 = none): the two checks are evaluated per codec on
    the generated tables, everything else follows from them. *)
Section Alphabet.
  Variables al tb : list Z.
  Let ch (d : Z) : Z := nth (Z.to_nat d) al 0.
  Let n : Z := Z.of_nat (length al).

  Definition table_inverts : bool :=
    forallb (fun d => lookup tb (ch d) =? d) (zrange 0 (length al)).
  Definition table_entries_ok : bool :=
    forallb (fun cd => let d := snd cd in
               (d =? -1) || ((0 <=? d) && (d <? n) && (ch d =? fst cd)))
            (combine (zrange 0 (length tb)) tb).

  Lemma in_alphabet_iff c : In c al <-> exists d, 0 <= d < n /\ ch d = c.
  Proof.
    split.
    - intros H. destruct (In_nth _ _ 0 H) as [k [Hk Hc]].
      exists (Z.of_nat k). split; [lia|]. unfold ch. rewrite Nat2Z.id. exact Hc.
    - intros [d [Hd <-]]. apply nth_In. lia.
  Qed.

  Hypothesis inverts : table_inverts = true.

  Lemma table_of_char d : 0 <= d < n -> lookup tb (ch d) = d.
  Proof. intros Hd. apply Z.eqb_eq, (zrange_sweep _ _ 0 inverts). exact Hd. Qed.

  Lemma char_inj d1 d2 : 0 <= d1 < n -> 0 <= d2 < n -> ch d1 = ch d2 -> d1 = d2.
  Proof.
    intros H1 H2 E. rewrite <- (table_of_char d1 H1), <- (table_of_char d2 H2), E. reflexivity.
  Qed.

  Lemma alphabet_NoDup : NoDup al.
  Proof.
    apply (NoDup_nth al 0). intros i j Hi Hj E.
    apply Nat2Z.inj, char_inj; [lia|lia|]. unfold ch. rewrite !Nat2Z.id. exact E.
  Qed.

  Hypothesis entries_ok : table_entries_ok = true.

  Lemma char_of_table c : 0 <= c < Z.of_nat (length tb) ->
    lookup tb c = -1 \/ (0 <= lookup tb c < n /\ ch (lookup tb c) = c).
  Proof.
    intros Hc. unfold table_entries_ok in entries_ok. rewrite forallb_forall in entries_ok.
    pose proof (entries_ok _ (In_combine_zrange tb (-1) 0 c Hc)) as H.
    rewrite Z.sub_0_r in H. cbn [fst snd] in H. fold (lookup tb c) in H.
    destruct (Z.eqb_spec (lookup tb c) (-1)) as [E|_]; [left; exact E|right].
    cbn [orb] in H. apply andb_prop in H. destruct H as [H H3].
    apply andb_prop in H. lia.
  Qed.

  Lemma table_none_iff c : 0 <= c < Z.of_nat (length tb) ->
    (lookup tb c = -1 <-> ~ In c al).
  Proof.
    intros Hc. rewrite in_alphabet_iff. split.
    - intros E [d [Hd Ed]]. rewrite <- Ed, table_of_char in E by exact Hd. lia.
    - intros Hn. destruct (char_of_table c Hc) as [E|[Hr He]]; [exact E|].
      destruct Hn. exists (lookup tb c). split; assumption.
  Qed.
End Alphabet.

Definition digits (b : Z) (l : list Z) : Prop := Forall (fun x => 0 <= x < b) l.
Definition hd_nz (l : list Z) : Prop := match l with [] => True | d :: _ => d <> 0 end.

Lemma val_be_acc_spec b l : forall acc,
  val_be_acc b acc l = acc * b ^ Z.of_nat (length l) + val_be b l.
Proof.
  unfold val_be. induction l as [|x r IH]; intros acc.
  - cbn [val_be_acc length]. change (Z.of_nat 0) with 0. rewrite Z.pow_0_r. lia.
  - cbn [val_be_acc length]. rewrite (IH (acc * b + x)), (IH (0 * b + x)).
    rewrite Nat2Z.inj_succ, Z.pow_succ_r by lia. ring.
Qed.

Lemma val_be_cons b x l : val_be b (x :: l) = x * b ^ Z.of_nat (length l) + val_be b l.
Proof. unfold val_be at 1. cbn [val_be_acc]. rewrite val_be_acc_spec. ring. Qed.

Lemma val_be_snoc b l x : val_be b (l ++ [x]) = val_be b l * b + x.
Proof.
  unfold val_be. generalize 0. induction l as [|y l IH]; intros acc; [reflexivity|apply IH].
Qed.

Lemma val_be_repeat0 b k l : val_be b (repeat 0 k ++ l) = val_be b l.
Proof.
  induction k as [|k IH]; [reflexivity|]. cbn [repeat app]. rewrite val_be_cons, IH. ring.
Qed.

Lemma val_be_bound b l : 0 < b -> digits b l -> 0 <= val_be b l < b ^ Z.of_nat (length l).
Proof.
  intros Hb. induction 1 as [|x r Hx _ IH]; [cbn; lia|].
  rewrite val_be_cons. cbn [length]. rewrite Nat2Z.inj_succ, Z.pow_succ_r by lia.
  set (P := b ^ Z.of_nat (length r)) in *. nia.
Qed.

Lemma val_be_lower b x r : 0 < b -> digits b (x :: r) -> x <> 0 ->
  b ^ Z.of_nat (length r) <= val_be b (x :: r).
Proof.
  intros Hb H Hx. inversion H as [|? ? Hx0 Hr]; subst.
  pose proof (val_be_bound b r Hb Hr) as Hv. rewrite val_be_cons.
  set (P := b ^ Z.of_nat (length r)) in *. nia.
Qed.

Lemma val_be_inj_len b : 1 < b -> forall l1 l2,
  length l1 = length l2 -> digits b l1 -> digits b l2 -> val_be b l1 = val_be b l2 -> l1 = l2.
Proof.
  intros Hb. induction l1 as [|x1 r1 IH]; intros [|x2 r2] Hl H1 H2 Hv; try discriminate.
  - reflexivity.
  - cbn [length] in Hl. injection Hl as Hl.
    inversion H1 as [|? ? Hx1 Hr1]; inversion H2 as [|? ? Hx2 Hr2]; subst.
    rewrite !val_be_cons, Hl in Hv.
    pose proof (val_be_bound b r1 ltac:(lia) Hr1) as B1.
    pose proof (val_be_bound b r2 ltac:(lia) Hr2) as B2.
    rewrite Hl in B1. set (P := b ^ Z.of_nat (length r2)) in *.
    assert (x1 = x2) by nia. subst x2.
    f_equal. apply IH; [exact Hl|exact Hr1|exact Hr2|lia].
Qed.

(** two radices: the larger number may be written in the smaller radix *)
Lemma canon_length_le b1 b2 l1 l2 : 1 < b2 <= b1 ->
  digits b1 l1 -> hd_nz l1 -> digits b2 l2 -> val_be b1 l1 <= val_be b2 l2 ->
  (length l1 <= length l2)%nat.
Proof.
  intros Hb H1 N1 H2 Hv.
  destruct l1 as [|x1 r1]; [cbn [length]; lia|].
  pose proof (val_be_lower b1 x1 r1 ltac:(lia) H1 N1) as L1.
  pose proof (val_be_bound b2 l2 ltac:(lia) H2) as B2.
  assert (b2 ^ Z.of_nat (length l2) <= b1 ^ Z.of_nat (length l2)) by (apply Z.pow_le_mono_l; lia).
  assert (Hlt : b1 ^ Z.of_nat (length r1) < b1 ^ Z.of_nat (length l2)) by lia.
  apply Z.pow_lt_mono_r_iff in Hlt; [cbn [length]; lia|lia|lia].
Qed.

Theorem canon_unique b : 1 < b -> forall l1 l2,
  digits b l1 -> digits b l2 -> hd_nz l1 -> hd_nz l2 -> val_be b l1 = val_be b l2 -> l1 = l2.
Proof.
  intros Hb l1 l2 H1 H2 N1 N2 Hv.
  apply (val_be_inj_len b Hb); try assumption.
  apply Nat.le_antisymm; apply (canon_length_le b b); try assumption; lia.
Qed.
