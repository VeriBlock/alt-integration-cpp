(** Lemmas about the hex model (HexDefs): table facts (evaluated over the
    GENERATED tables, finite domains only), ParseHex never reads beyond
    the NUL terminator, ParseHex (HexStr bs) = bs for every byte string, IsHex
    (HexStr bs), ParseHex stops at the first non-hex non-space character. *)
From Coq Require Import ZArith List Bool Lia.
From VB Require Import Gen.TextTables Text.TextCommon Text.Radix Text.HexDefs.
Import ListNotations.
Local Open Scope Z_scope.

Lemma hex_digit_length : length hex_digit = 256%nat.
Proof. vm_compute. reflexivity. Qed.

Lemma hex_map_length : length hex_map = 16%nat.
Proof. vm_compute. reflexivity. Qed.

(** hex_digit inverts hex_map on 0..15 (not conversely: 'A' and 'a' are both 10) *)
Lemma hex_digit_of_hex_char d : 0 <= d < 16 -> hex_digit_of (hex_char d) = d.
Proof.
  assert (A : table_inverts hex_map hex_digit = true) by (vm_compute; reflexivity).
  exact (table_of_char _ _ A d).
Qed.

Lemma hex_digit_range c : is_byte c -> -1 <= hex_digit_of c <= 15.
Proof.
  assert (A : forallb (fun d => (-1 <=? d) && (d <=? 15)) hex_digit = true) by (vm_compute; reflexivity).
  intros _. unfold hex_digit_of, lookup.
  destruct (nth_in_or_default (Z.to_nat c) hex_digit (-1)) as [Hin|E]; [|rewrite E; lia].
  rewrite forallb_forall in A. specialize (A _ Hin). lia.
Qed.

Lemma nul_not_hex : hex_digit_of 0 = -1.
Proof. reflexivity. Qed.

Lemma nul_not_space : is_space 0 = false.
Proof. reflexivity. Qed.

Lemma space_not_hex c : is_space c = true -> hex_digit_of c = -1.
Proof.
  assert (A : forallb (fun c => hex_digit_of c =? -1) space_chars = true) by (vm_compute; reflexivity).
  intros H. apply existsb_exists in H. destruct H as [x [Hin Hx]]. apply Z.eqb_eq in Hx. subst x.
  rewrite forallb_forall in A. apply Z.eqb_eq, A, Hin.
Qed.

Lemma hex_char_plain d : 0 <= d < 16 -> is_space (hex_char d) = false /\ (hex_char d =? 0) = false.
Proof.
  assert (A : forallb (fun c => negb (is_space c) && negb (c =? 0)) hex_map = true)
    by (vm_compute; reflexivity).
  intros H. rewrite forallb_forall in A.
  specialize (A (hex_char d) ltac:(apply in_alphabet_iff; exists d; split; [exact H|reflexivity])).
  apply andb_true_iff in A. destruct A as [A1 A2]. apply negb_true_iff in A1, A2. split; assumption.
Qed.

(** a byte is its two nibbles: [val >> 4], [val & 15], and [(hi << 4) | lo] as computed
    in a uint8_t *)
Lemma nibbles b : is_byte b ->
  0 <= Z.shiftr b 4 < 16 /\ 0 <= Z.land b 15 < 16
  /\ Z.lor (Z.shiftl (Z.shiftr b 4) 4 mod 256) (Z.land b 15) = b.
Proof.
  unfold is_byte. intros Hb.
  assert (Hhi : Z.shiftr b 4 = b / 16) by (apply (Z.shiftr_div_pow2 b 4); lia).
  assert (Hlo : Z.land b 15 = b mod 16) by (apply (Z.land_ones b 4); lia).
  split; [rewrite Hhi|split; [rewrite Hlo|]]; [Z.div_mod_to_equations; lia..|].
  rewrite Z.mod_small.
  - rewrite <- (Z.ldiff_ones_r b 4) by lia. apply (Z.lor_ldiff_and b (Z.ones 4)).
  - rewrite Z.shiftl_mul_pow2, Hhi by lia. change (2 ^ 4) with 16. Z.div_mod_to_equations. lia.
Qed.

Lemma parse_hex_go_terminated l : forall st, exists v, parse_hex_go st (l ++ [0]) = Ok v.
Proof.
  induction l as [|c l IH]; intros st.
  - cbn [app parse_hex_go]. destruct st as [hi|].
    + rewrite nul_not_hex. cbn [Z.eqb Pos.eqb]. eexists. reflexivity.
    + rewrite nul_not_space, nul_not_hex. cbn [Z.eqb Pos.eqb]. eexists. reflexivity.
  - cbn [app parse_hex_go]. destruct st as [hi|].
    + destruct (hex_digit_of c =? -1); [eexists; reflexivity|].
      destruct (IH None) as [v Hv]. rewrite Hv. cbn [ocons]. eexists. reflexivity.
    + destruct (is_space c); [apply IH|].
      destruct (hex_digit_of c =? -1); [eexists; reflexivity|]. apply IH.
Qed.

Theorem parse_hex_no_overrun s : exists v, parse_hex_mem (c_string s) = Ok v.
Proof. unfold parse_hex_mem, c_string. apply parse_hex_go_terminated. Qed.

(** the rest of the text is parsed to the end by [parse_hex_go_terminated], so
    [parse_hex rest] can be split off *)
Lemma parse_hex_byte b rest : is_byte b -> parse_hex (hex_str [b] ++ rest) = b :: parse_hex rest.
Proof.
  intros Hb. destruct (nibbles b Hb) as [Hhi [Hlo Hv]].
  unfold parse_hex, parse_hex_mem, c_string. cbn [hex_str app c_text].
  rewrite (Z.mod_small b 256) by exact Hb.
  rewrite (proj2 (hex_char_plain _ Hhi)), (proj2 (hex_char_plain _ Hlo)). cbn [app parse_hex_go].
  rewrite (proj1 (hex_char_plain _ Hhi)), !hex_digit_of_hex_char by assumption.
  destruct (Z.eqb_spec (Z.shiftr b 4) (-1)); [lia|]. destruct (Z.eqb_spec (Z.land b 15) (-1)); [lia|].
  rewrite Hv. destruct (parse_hex_go_terminated (c_text rest) None) as [v ->]. reflexivity.
Qed.

Lemma parse_hex_hex_str bs rest : bytes bs -> parse_hex (hex_str bs ++ rest) = bs ++ parse_hex rest.
Proof.
  induction 1 as [|b bs Hb _ IH]; [reflexivity|].
  change (hex_str (b :: bs) ++ rest) with (hex_str [b] ++ hex_str bs ++ rest).
  rewrite (parse_hex_byte b _ Hb), IH. reflexivity.
Qed.

Lemma parse_hex_spaces sp rest : forallb is_space sp = true -> parse_hex (sp ++ rest) = parse_hex rest.
Proof.
  unfold parse_hex, parse_hex_mem, c_string.
  induction sp as [|c sp IH]; intros H; [reflexivity|].
  cbn [forallb] in H. apply andb_true_iff in H. destruct H as [H1 H2].
  cbn [app c_text]. destruct (Z.eqb_spec c 0) as [->|_]; [rewrite nul_not_space in H1; discriminate|].
  cbn [app parse_hex_go]. rewrite H1. exact (IH H2).
Qed.

Theorem hex_roundtrip bs : bytes bs -> parse_hex (hex_str bs) = bs.
Proof.
  intros Hb. rewrite <- (app_nil_r (hex_str bs)), (parse_hex_hex_str bs [] Hb). apply app_nil_r.
Qed.

(** ParseHex stops at the first character that is neither a hex digit nor a
    space (NUL included), whatever follows it *)
Theorem parse_hex_stops bs c rest :
  bytes bs -> hex_digit_of c = -1 -> is_space c = false ->
  parse_hex (hex_str bs ++ c :: rest) = bs.
Proof.
  intros Hb Hc Hs. rewrite (parse_hex_hex_str bs _ Hb).
  enough (E : parse_hex (c :: rest) = []) by (rewrite E; apply app_nil_r).
  unfold parse_hex, parse_hex_mem, c_string. cbn [c_text].
  destruct (c =? 0); cbn [app parse_hex_go]; [rewrite nul_not_space, nul_not_hex|rewrite Hs, Hc]; reflexivity.
Qed.

Theorem hex_roundtrip_spaces a sp b :
  bytes a -> bytes b -> forallb is_space sp = true ->
  parse_hex (hex_str a ++ sp ++ hex_str b) = a ++ b.
Proof.
  intros Ha Hb Hs.
  rewrite (parse_hex_hex_str a _ Ha), (parse_hex_spaces sp _ Hs), (hex_roundtrip b Hb). reflexivity.
Qed.

Lemma hex_str_length bs : length (hex_str bs) = (2 * length bs)%nat.
Proof. induction bs as [|b bs IH]; [reflexivity|]. cbn [hex_str length]. rewrite IH. lia. Qed.

Lemma hex_str_all_digits bs : bytes bs ->
  forallb (fun c => negb (hex_digit_of c <? 0)) (hex_str bs) = true.
Proof.
  induction 1 as [|b bs Hb1 _ IH]; [reflexivity|].
  destruct (nibbles b Hb1) as [Hhi [Hlo _]].
  cbn [hex_str forallb]. rewrite (Z.mod_small b 256) by exact Hb1.
  rewrite !hex_digit_of_hex_char, IH by assumption.
  destruct (Z.ltb_spec (Z.shiftr b 4) 0); [lia|]. destruct (Z.ltb_spec (Z.land b 15) 0); [lia|].
  reflexivity.
Qed.

Theorem is_hex_hex_str bs : bytes bs -> bs <> [] -> is_hex (hex_str bs) = true.
Proof.
  intros Hb Hne. unfold is_hex. rewrite hex_str_all_digits by exact Hb.
  rewrite hex_str_length.
  destruct bs as [|b bs]; [contradiction|].
  cbn [hex_str andb negb].
  apply Z.eqb_eq. rewrite Nat2Z.inj_mul, Z.mul_comm. apply Z.mod_mul. discriminate.
Qed.

Theorem is_hex_sound s : is_hex s = true ->
  s <> [] /\ Z.of_nat (length s) mod 2 = 0 /\ Forall (fun c => 0 <= hex_digit_of c) s.
Proof.
  unfold is_hex. intros H. apply andb_true_iff in H. destruct H as [H H3].
  apply andb_true_iff in H. destruct H as [H1 H2].
  split; [|split].
  - destruct s; [discriminate|discriminate].
  - apply Z.eqb_eq. exact H3.
  - apply Forall_forall. intros c Hin. rewrite forallb_forall in H1.
    specialize (H1 c Hin). apply negb_true_iff in H1. lia.
Qed.

(** the hypotheses of the round-trip theorems are satisfiable by non-trivial values *)
Example hex_roundtrip_example :
  bytes [0; 1; 171; 255] /\ parse_hex (hex_str [0; 1; 171; 255]) = [0; 1; 171; 255]
  /\ hex_str [0; 1; 171; 255] = [48; 48; 48; 49; 97; 98; 102; 102].
Proof.
  split; [|split]; [|vm_compute; reflexivity|vm_compute; reflexivity].
  repeat constructor; unfold is_byte; lia.
Qed.
