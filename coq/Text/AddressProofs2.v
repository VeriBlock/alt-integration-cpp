(** Address, part 2: the multisig branch of Address::fromString and absence of
    Abort.
    - decodeNumber on one character, swept over all 256 bytes: it is [Abort]
      (ret[0] on an EMPTY vector) exactly for the six space characters;
    - fromString never reaches that read, nor any assert, for any byte string;
    - what an accepted MULTISIG address guarantees (m, n ranges). *)
From Coq Require Import ZArith List Bool Lia.
From VB Require Import Gen.TextTables Text.TextCommon Text.Radix Text.Base58Defs
  Text.Base58Proofs Text.Base58Proofs3 Text.AddressDefs Text.AddressProofs.
From VB Require Text.Base59Defs Text.Base59Proofs Text.Base59Proofs2.
Import ListNotations.
Local Open Scope Z_scope.

Definition outcome_Z_eqb (a b : outcome Z) : bool :=
  match a, b with
  | Ok x, Ok y => x =? y
  | Invalid, Invalid => true
  | Abort, Abort => true
  | _, _ => false
  end.

Lemma outcome_Z_eqb_eq a b : outcome_Z_eqb a b = true -> a = b.
Proof.
  destruct a, b; cbn [outcome_Z_eqb]; intros H; try discriminate; try reflexivity.
  apply Z.eqb_eq in H. subst. reflexivity.
Qed.

(** decodeNumber(std::string(1, c)): NUL -> invalid (ValidAsCString); a space ->
    DecodeBase58 succeeds with an EMPTY vector and [ret[0]] reads index 0 of it
    (Abort); a non-alphabet character -> invalid; a digit d -> d + 1 *)
Definition decode_number_expected (c : Z) : outcome Z :=
  if c =? 0 then Invalid
  else if is_space c then Abort
  else let d := lookup b58_map c in if d =? -1 then Invalid else Ok (d + 1).

Lemma decode_number_char c : is_byte c -> decode_number [c] = decode_number_expected c.
Proof.
  assert (A : forallb (fun c => outcome_Z_eqb (decode_number [c]) (decode_number_expected c))
                      (zrange 0 256) = true) by (vm_compute; reflexivity).
  intros H. apply outcome_Z_eqb_eq, (zrange_sweep _ 256 0 A c H).
Qed.

Lemma b59_alphabet_no_space_nul_all :
  forallb (fun c => negb (is_space c) && negb (c =? 0)) b59_alphabet = true.
Proof. vm_compute. reflexivity. Qed.

Lemma decode_number_b59 c : is_byte c -> In c b59_alphabet ->
  decode_number [c] = if lookup b58_map c =? -1 then Invalid else Ok (lookup b58_map c + 1).
Proof.
  intros Hb Hin. rewrite (decode_number_char c Hb). unfold decode_number_expected.
  pose proof b59_alphabet_no_space_nul_all as A. rewrite forallb_forall in A.
  specialize (A c Hin). apply andb_true_iff in A. destruct A as [A1 A2].
  apply negb_true_iff in A1, A2. rewrite A1, A2. reflexivity.
Qed.

Lemma obind_abort {A B} (o : outcome A) (f : A -> outcome B) :
  obind o f = Abort -> o = Abort \/ exists a, o = Ok a /\ f a = Abort.
Proof. destruct o as [a| |]; cbn [obind]; intros H; [right; exists a; split; [reflexivity|exact H]|discriminate|left; reflexivity]. Qed.

Lemma obind_ok {A B} (o : outcome A) (f : A -> outcome B) b :
  obind o f = Ok b -> exists a, o = Ok a /\ f a = Ok b.
Proof. destruct o as [a| |]; cbn [obind]; intros H; [exists a; split; [reflexivity|exact H]|discriminate|discriminate]. Qed.

Lemma char_at_byte s i : bytes s -> (Z.to_nat i < length s)%nat -> is_byte (char_at s i) /\ In (char_at s i) s.
Proof.
  intros Hb Hi. unfold char_at. assert (Hin : In (nth (Z.to_nat i) s 0) s) by (apply nth_In; exact Hi).
  split; [|exact Hin]. unfold bytes in Hb. rewrite Forall_forall in Hb. apply Hb. exact Hin.
Qed.

Lemma b59_ok_chars s w : bytes s -> Base59Defs.b59_decode s = Ok w -> forall c, In c s -> In c b59_alphabet.
Proof.
  intros Hb E c Hc. destruct (in_dec Z.eq_dec c b59_alphabet) as [Hin|Hn]; [exact Hin|exfalso].
  assert (R : Base59Defs.b59_decode s = Invalid).
  { apply Base59Proofs.b59_decode_rejects; [exact Hb|]. exists c. split; assumption. }
  rewrite R in E. discriminate.
Qed.

(** the multisig branch of Address::fromString as one outcome *)
Definition multisig_checks (s : list Z) : outcome unit :=
  obind (is_base59_string s) (fun _ =>
  obind (decode_number [char_at s addr_multisig_address_m_value]) (fun m =>
  obind (decode_number [char_at s addr_multisig_address_n_value]) (fun n =>
    if n <? addr_multisig_address_min_n_value then Invalid
    else if n <? m then Invalid
    else if (addr_multisig_address_max_n_value <? n)
            || (addr_multisig_address_max_m_value <? m) then Invalid
    else is_base58_string (firstn (Z.to_nat (addr_size - 1)) s)))).

Lemma multisig_checks_spec s : bytes s -> length s = 30%nat ->
  match multisig_checks s with
  | Abort => False
  | Invalid => True
  | Ok _ =>
      let m := lookup b58_map (char_at s addr_multisig_address_m_value) + 1 in
      let n := lookup b58_map (char_at s addr_multisig_address_n_value) + 1 in
      1 <= m <= n /\ addr_multisig_address_min_n_value <= n <= addr_multisig_address_max_n_value
      /\ (forall c, In c s -> In c b59_alphabet)
      /\ (exists v, b58_decode (firstn (Z.to_nat (addr_size - 1)) s) = Ok v)
  end.
Proof.
  intros Hb L30. unfold multisig_checks, is_base59_string, is_base58_string.
  destruct (Base59Defs.b59_decode s) as [w| |] eqn:E59; cbn [obind];
    [|exact I|exact (Base59Proofs2.b59_decode_no_abort s Hb E59)].
  pose proof (b59_ok_chars s w Hb E59) as In59.
  destruct (char_at_byte s addr_multisig_address_m_value Hb ltac:(rewrite L30; cbv; lia)) as [B1 I1].
  destruct (char_at_byte s addr_multisig_address_n_value Hb ltac:(rewrite L30; cbv; lia)) as [B2 I2].
  rewrite (decode_number_b59 _ B1 (In59 _ I1)), (decode_number_b59 _ B2 (In59 _ I2)).
  set (c1 := char_at s addr_multisig_address_m_value) in *.
  set (c2 := char_at s addr_multisig_address_n_value) in *.
  destruct (Z.eqb_spec (lookup b58_map c1) (-1)) as [|N1]; [exact I|]. cbn [obind].
  destruct (Z.eqb_spec (lookup b58_map c2) (-1)) as [|N2]; [exact I|]. cbn [obind].
  destruct (b58_map_inv c1 B1 N1) as [R1 _].
  destruct (Z.ltb_spec (lookup b58_map c2 + 1) addr_multisig_address_min_n_value); [exact I|].
  destruct (Z.ltb_spec (lookup b58_map c2 + 1) (lookup b58_map c1 + 1)); [exact I|].
  destruct (Z.ltb_spec addr_multisig_address_max_n_value (lookup b58_map c2 + 1)); [exact I|].
  destruct (Z.ltb_spec addr_multisig_address_max_m_value (lookup b58_map c1 + 1)); [exact I|].
  cbn [orb].
  destruct (b58_decode (firstn (Z.to_nat (addr_size - 1)) s)) as [v| |] eqn:E58; cbn [obind];
    [|exact I|exact (b58_decode_never_aborts _ (proj1 (Forall_firstn_skipn _ _ _ Hb)) E58)].
  split; [lia|]. split; [lia|]. split; [exact In59|]. exists v. reflexivity.
Qed.

Section WithSha.
  Variable sha256 : list Z -> list Z.
  Hypothesis sha256_ok : forall x, length (sha256 x) = 32%nat /\ bytes (sha256 x).

  (** Address::fromString reaches neither an assert nor the
      unchecked [ret[0]] of decodeNumber, for any byte string *)
  Theorem addr_from_string_never_aborts s : bytes s -> addr_from_string sha256 s <> Abort.
  Proof.
    intros Hb H. unfold addr_from_string in H. cbv zeta in H.
    destruct (Z.eqb_spec (Z.of_nat (length s)) addr_size) as [EL|]; [|discriminate]. cbn [negb] in H.
    destruct (char_at s 0 =? addr_starting_char); [|discriminate]. cbn [negb] in H.
    assert (L30 : length s = 30%nat) by (change addr_size with 30 in EL; lia).
    pose proof (multisig_checks_spec s Hb L30) as M. unfold multisig_checks in M.
    apply obind_abort in H. destruct H as [H|[[] [_ H]]].
    - destruct (addr_is_multisig s); [rewrite H in M; exact M|].
      unfold is_base58_string in H. apply obind_abort in H. destruct H as [H|[v [_ H]]]; [|discriminate].
      exact (b58_decode_never_aborts _ Hb H).
    - apply obind_abort in H.
      destruct (calculate_checksum_ok sha256 sha256_ok (addr_data_portion s) (addr_is_multisig s)) as [ck [C _]].
      rewrite C in H. destruct H as [H|[ck' [_ H]]]; [discriminate|].
      destruct (negb (list_eqb ck' (addr_checksum_portion s (addr_is_multisig s)))); discriminate.
  Qed.

  Theorem addr_multisig_sound s a :
    bytes s -> addr_from_string sha256 s = Ok a -> addr_is_multisig s = true ->
    let m := lookup b58_map (char_at s addr_multisig_address_m_value) + 1 in
    let n := lookup b58_map (char_at s addr_multisig_address_n_value) + 1 in
    addr_type a = ADDR_MULTISIG
    /\ 1 <= m <= n /\ addr_multisig_address_min_n_value <= n <= addr_multisig_address_max_n_value
    /\ (forall c, In c s -> In c b59_alphabet)
    /\ (exists v, b58_decode (firstn (Z.to_nat (addr_size - 1)) s) = Ok v).
  Proof using sha256_ok. (* the premise on sha256 belongs to the statement; this proof does not need it *)
    intros Hb H Hms. cbv zeta.
    destruct (addr_from_string_sound sha256 s a H) as [_ [EL [_ [Ety _]]]].
    rewrite Hms in Ety. split; [exact Ety|].
    assert (L30 : length s = 30%nat) by (change addr_size with 30 in EL; lia).
    pose proof (multisig_checks_spec s Hb L30) as M. unfold multisig_checks in M.
    unfold addr_from_string in H. cbv zeta in H.
    destruct (negb (Z.of_nat (length s) =? addr_size)); [discriminate|].
    destruct (negb (char_at s 0 =? addr_starting_char)); [discriminate|].
    rewrite Hms in H. apply obind_ok in H. destruct H as [[] [H _]].
    rewrite H in M. exact M.
  Qed.
End WithSha.

(** concrete multisig address of test/pop/entities/address_test.cpp: the
    structural checks (everything except the sha-dependent checksum) hold *)
Example multisig_demo :
  let s := [86; 50; 51; 67; 117; 121; 99; 51; 52; 117; 53; 114; 100; 107; 57; 112;
            115; 74; 56; 54; 97; 70; 99; 119; 104; 66; 49; 109; 100; 48] in
  addr_is_multisig s = true
  /\ decode_number [char_at s addr_multisig_address_m_value] = Ok 2
  /\ decode_number [char_at s addr_multisig_address_n_value] = Ok 3.
Proof. vm_compute. repeat split. Qed.
