(** Base59, second part: the main loops, absence of Abort, and the round trip
    [b59_decode (b59_encode bs) = Ok bs] for ALL byte strings. *)
From Coq Require Import ZArith List Bool Lia.
From VB Require Import Gen.TextTables Text.TextCommon Text.Radix Text.Base59Defs Text.Base59Proofs.
Import ListNotations.
Local Open Scope Z_scope.

Definition strip0 (l : list Z) : list Z := skipn (zero_count l) l.

Lemma zero_count_cons x r :
  zero_count (x :: r) = if x =? 0 then S (zero_count r) else O.
Proof. reflexivity. Qed.

Lemma strip0_split l : l = repeat 0 (zero_count l) ++ strip0 l.
Proof.
  unfold strip0. induction l as [|x r IH]; [reflexivity|].
  rewrite zero_count_cons. destruct (x =? 0) eqn:E.
  - assert (x = 0) by lia. subst x. cbn [repeat skipn app]. f_equal. exact IH.
  - reflexivity.
Qed.

Lemma strip0_hd_nz l : hd_nz (strip0 l).
Proof.
  unfold strip0. induction l as [|x r IH]; [exact I|].
  rewrite zero_count_cons. destruct (Z.eqb_spec x 0) as [_|E]; [exact IH|exact E].
Qed.

Lemma strip0_val b l : val_be b (strip0 l) = val_be b l.
Proof. rewrite (strip0_split l) at 2. rewrite val_be_repeat0. reflexivity. Qed.

Lemma strip0_Forall (P : Z -> Prop) l : Forall P l -> Forall P (strip0 l).
Proof.
  intros H. rewrite (strip0_split l) in H. apply Forall_app in H. apply H.
Qed.

Lemma strip0_length l : (length l = zero_count l + length (strip0 l))%nat.
Proof. rewrite (strip0_split l) at 1. rewrite app_length, repeat_length. reflexivity. Qed.

Lemma strip0_length_le l : (length (strip0 l) <= length l)%nat.
Proof. pose proof (strip0_length l). lia. Qed.

Lemma zero_count_repeat k l : hd_nz l -> zero_count (repeat 0 k ++ l) = k.
Proof.
  intros H. induction k as [|k IH].
  - destruct l as [|x r]; [reflexivity|]. cbn [repeat app]. rewrite zero_count_cons.
    destruct (Z.eqb_spec x 0); [contradiction|reflexivity].
  - cbn [repeat app]. rewrite zero_count_cons. cbn [Z.eqb]. f_equal. exact IH.
Qed.

Lemma strip_lead0 l : forall j, strip_lead 0 l j = (strip0 l, (j + zero_count l)%nat).
Proof.
  unfold strip0. induction l as [|x r IH]; intros j.
  - cbn [strip_lead zero_count skipn]. rewrite Nat.add_0_r. reflexivity.
  - cbn [strip_lead]. rewrite zero_count_cons. destruct (x =? 0) eqn:E.
    + rewrite IH. cbn [skipn]. f_equal. lia.
    + cbn [skipn]. rewrite Nat.add_0_r. reflexivity.
Qed.

Lemma strip_lead_none x l j :
  match l with [] => True | c :: _ => c <> x end -> strip_lead x l j = (l, j).
Proof.
  intros H. destruct l as [|c t]; [reflexivity|]. cbn [strip_lead].
  destruct (Z.eqb_spec c x); [contradiction|reflexivity].
Qed.

Lemma repeat_snoc_cons {A} (x : A) k l : repeat x k ++ x :: l = x :: repeat x k ++ l.
Proof. induction k as [|k IH]; [reflexivity|]. cbn [repeat app]. f_equal. exact IH. Qed.

Lemma ones_loop_unfold j zc acc :
  ones_loop j zc acc =
  if zc =? size_max then Ok acc
  else match j with
       | O => Abort
       | S j' => ones_loop j' (size_dec zc) (char_of_digit 0 :: acc)
       end.
Proof. destruct j; reflexivity. Qed.

Lemma ones_loop_spec z : forall e acc,
  Z.of_nat z <= size_max ->
  ones_loop (z + e) (size_dec (Z.of_nat z)) acc = Ok (repeat (char_of_digit 0) z ++ acc).
Proof.
  unfold size_max. induction z as [|z IH]; intros e acc Hz.
  - rewrite ones_loop_unfold. unfold size_dec, size_max. reflexivity.
  - rewrite ones_loop_unfold.
    assert (E : size_dec (Z.of_nat (S z)) = Z.of_nat z) by (unfold size_dec; rewrite Z.mod_small; lia).
    rewrite E. unfold size_max.
    destruct (Z.of_nat z =? 2 ^ 64 - 1) eqn:E2; [lia|].
    cbn [Nat.add]. rewrite IH by lia. cbn [repeat app]. rewrite repeat_snoc_cons. reflexivity.
Qed.

Lemma enc_loop_unfold j input startAt acc :
  enc_loop j input startAt acc =
  if (startAt <? length input)%nat then
    match j with
    | O => Abort
    | S j' =>
        let nm := divmod59 input startAt in
        let input' := fst nm in
        let startAt' := if nth startAt input' 0 =? 0 then S startAt else startAt in
        enc_loop j' input' startAt' (char_of_digit (snd nm) :: acc)
    end
  else Ok (acc, j).
Proof. destruct j; reflexivity. Qed.

Lemma pow59_fuel k : 256 ^ Z.of_nat k <= 59 ^ Z.of_nat (2 * k).
Proof.
  rewrite Nat2Z.inj_mul. change (Z.of_nat 2) with 2.
  rewrite Z.pow_mul_r by lia. change (59 ^ 2) with 3481.
  apply Z.pow_le_mono_l. lia.
Qed.

(** [k] = fuel needed, [e] = spare fuel. After a division whose leading quotient
    digit is 0, the next one is not ([longdiv_head_nz]): the loop advances
    [startAt] by at most one and never leaves a leading zero. *)
Lemma enc_loop_spec : forall k e pre suf acc,
  bytes suf -> hd_nz suf -> val_be 256 suf < 59 ^ Z.of_nat k ->
  exists ds,
    enc_loop (k + e) (pre ++ suf) (length pre) acc
      = Ok (map char_of_digit ds ++ acc, (k - length ds + e)%nat)
    /\ dig 59 ds /\ val_be 59 ds = val_be 256 suf
    /\ (length ds <= k)%nat /\ hd_nz ds.
Proof.
  induction k as [|k IH]; intros e pre suf acc Hb Hnz Hv; (destruct suf as [|d t];
    [exists []; rewrite enc_loop_unfold, app_nil_r, Nat.ltb_irrefl, Nat.sub_0_r;
     repeat split; [constructor|apply Nat.le_0_l]|]).
  - (* no fuel needed: the value is 0, hence the suffix is empty *)
    exfalso. pose proof (val_be_lower 256 d t ltac:(lia) Hb Hnz) as L.
    pose proof (Z.pow_pos_nonneg 256 (Z.of_nat (length t)) ltac:(lia) ltac:(lia)).
    change (59 ^ Z.of_nat 0) with 1 in Hv. lia.
  - pose proof (Forall_inv Hb : 0 <= d < 256) as Hd. pose proof (Forall_inv_tail Hb) as Ht.
    cbn [hd_nz] in Hnz.
    pose proof (longdiv_spec 256 59 eq_refl eq_refl (d :: t) 0 ltac:(lia) Hb) as Hdiv.
    rewrite enc_loop_unfold.
    assert (Hlt : (length pre <? length (pre ++ d :: t))%nat = true).
    { apply Nat.ltb_lt. rewrite app_length. cbn [length]. lia. }
    rewrite Hlt. cbn [Nat.add]. cbv zeta. rewrite (divmod59_app pre _ Hb). cbn [fst snd].
    rewrite nth_len_app. revert Hdiv. rewrite longdiv_cons0. cbv zeta. cbn [fst snd hd].
    set (q' := fst (longdiv 256 59 t (d mod 59))). set (m := snd (longdiv 256 59 t (d mod 59))).
    rewrite Z.mul_0_l, Z.add_0_l. intros [Eval [Hm [Hbq Hlq]]].
    assert (Hvq : val_be 256 (d / 59 :: q') < 59 ^ Z.of_nat k).
    { rewrite Nat2Z.inj_succ, Z.pow_succ_r in Hv by lia. lia. }
    assert (Hrec : exists pre' suf',
               pre ++ d / 59 :: q' = pre' ++ suf'
               /\ (if d / 59 =? 0 then S (length pre) else length pre) = length pre'
               /\ bytes suf' /\ hd_nz suf' /\ val_be 256 suf' = val_be 256 (d / 59 :: q')).
    { destruct (Z.eqb_spec (d / 59) 0) as [E0|E0].
      - exists (pre ++ [d / 59]), q'.
        rewrite <- app_assoc, app_length, Nat.add_comm, E0, val_be_cons, Z.mul_0_l.
        repeat split; [exact (Forall_inv_tail Hbq)|].
        apply longdiv_head_nz; [lia|Z.div_mod_to_equations; lia|exact Ht].
      - exists pre, (d / 59 :: q'). repeat split; assumption. }
    destruct Hrec as (pre' & suf' & Eapp & Elen & Hb' & Hnz' & Hv').
    rewrite Eapp, Elen.
    destruct (IH e pre' suf' (char_of_digit m :: acc) Hb' Hnz' ltac:(lia))
      as (ds & Eloop & Hds & Hvds & Hlen & Hnzds).
    exists (ds ++ [m]). rewrite Eloop, map_app, <- app_assoc, app_length, val_be_snoc.
    cbn [map app length]. repeat split.
    + do 2 f_equal. lia.
    + apply Forall_app. split; [exact Hds|constructor; [exact Hm|constructor]].
    + lia.
    + lia.
    + destruct ds as [|d' t']; [|exact Hnzds]. cbn [app hd_nz].
      (* the quotient is 0, so m is the whole value, which is not 0 *)
      change (val_be 59 []) with 0 in Hvds.
      pose proof (val_be_lower 256 d t ltac:(lia) Hb Hnz) as L.
      pose proof (Z.pow_pos_nonneg 256 (Z.of_nat (length t)) ltac:(lia) ltac:(lia)). lia.
Qed.

Lemma dec_loop_unfold j input59 startAt acc :
  dec_loop j input59 startAt acc =
  if (startAt <? length input59)%nat then
    match j with
    | O => Abort
    | S j' =>
        let nm := divmod256 input59 startAt in
        let input' := fst nm in
        let startAt' := if nth startAt input' 0 =? 0 then S startAt else startAt in
        dec_loop j' input' startAt' (snd nm :: acc)
    end
  else Ok (acc, j).
Proof. destruct j; reflexivity. Qed.

(** every division by 256 of a base-59 number leaves a leading 0, so the loop
    runs exactly [length suf] times *)
Lemma dec_loop_spec : forall n suf e pre acc,
  length suf = n -> dig 59 suf ->
  exists bs,
    dec_loop (n + e) (pre ++ suf) (length pre) acc = Ok (bs ++ acc, e)
    /\ bytes bs /\ length bs = n /\ val_be 256 bs = val_be 59 suf.
Proof.
  induction n as [|n IH]; intros suf e pre acc Hn Hd; destruct suf as [|d t]; try discriminate.
  - exists []. rewrite dec_loop_unfold, app_nil_r, Nat.ltb_irrefl.
    repeat split. constructor.
  - injection Hn as Hn. pose proof (Forall_inv Hd : 0 <= d < 59) as Hd0.
    pose proof (longdiv_spec 59 256 eq_refl eq_refl (d :: t) 0 ltac:(lia) Hd) as Hdiv.
    rewrite dec_loop_unfold.
    assert (Hlt : (length pre <? length (pre ++ d :: t))%nat = true).
    { apply Nat.ltb_lt. rewrite app_length. cbn [length]. lia. }
    rewrite Hlt. cbn [Nat.add]. cbv zeta.
    rewrite (divmod256_app pre _ (dig59_bytes _ Hd)). cbn [fst snd].
    rewrite nth_len_app. revert Hdiv. rewrite longdiv_cons0. cbv zeta. cbn [fst snd hd].
    rewrite Z.mul_0_l, Z.add_0_l, (Z.div_small d 256), (Z.mod_small d 256) by lia.
    set (q' := fst (longdiv 59 256 t d)). set (m := snd (longdiv 59 256 t d)).
    rewrite (val_be_cons 59 0 q'), Z.mul_0_l. intros [Eval [Hm [Hdq Hlq]]]. cbn [Z.eqb].
    replace (pre ++ 0 :: q') with ((pre ++ [0]) ++ q') by (rewrite <- app_assoc; reflexivity).
    replace (S (length pre)) with (length (pre ++ [0])) by (rewrite app_length, Nat.add_comm; reflexivity).
    cbn [length] in Hlq.
    destruct (IH q' e (pre ++ [0]) (m :: acc) ltac:(lia) (Forall_inv_tail Hdq))
      as (bs & Eloop & Hbs & Hlen & Hv).
    exists (bs ++ [m]). rewrite Eloop, <- app_assoc, app_length, val_be_snoc. cbn [app length].
    repeat split; [|lia|lia].
    apply Forall_app. split; [exact Hbs|constructor; [exact Hm|constructor]].
Qed.

Definition one : Z := char_of_digit 0.   (* g_Base59Alphabet[0], the character '1' *)

Lemma map_char_repeat0 k : map char_of_digit (repeat 0 k) = repeat one k.
Proof. induction k as [|k IH]; [reflexivity|]. cbn [repeat map]. rewrite IH. reflexivity. Qed.

Lemma b59_encode_o_unfold bs :
  b59_encode_o bs =
  match enc_loop (2 * length bs) bs (zero_count bs) [] with
  | Ok (acc, j) =>
      let aj := strip_lead (char_of_digit 0) acc j in
      ones_loop (snd aj) (size_dec (Z.of_nat (zero_count bs))) (fst aj)
  | Invalid => Invalid
  | Abort => Abort
  end.
Proof. destruct bs; reflexivity. Qed.

Theorem b59_encode_o_spec bs :
  bytes bs -> Z.of_nat (length bs) <= size_max ->
  exists ds,
    b59_encode_o bs = Ok (repeat one (zero_count bs) ++ map char_of_digit ds)
    /\ dig 59 ds /\ hd_nz ds /\ val_be 59 ds = val_be 256 bs
    /\ (zero_count bs + length ds <= 2 * length bs)%nat.
Proof.
  intros Hb Hsz. rewrite b59_encode_o_unfold.
  set (z := zero_count bs) in *. set (suf := strip0 bs).
  pose proof (strip0_split bs) as Esplit. fold z suf in Esplit.
  pose proof (strip0_length bs) as Elen. fold z suf in Elen.
  assert (Hbs : bytes suf) by (apply strip0_Forall; exact Hb).
  pose proof (strip0_hd_nz bs) as Hnz. fold suf in Hnz.
  pose proof (val_be_bound 256 suf ltac:(lia) Hbs) as Bv.
  pose proof (pow59_fuel (length suf)) as Pf.
  destruct (enc_loop_spec (2 * length suf) (2 * z) (repeat 0 z) suf [] Hbs Hnz ltac:(lia))
    as [ds [Eloop [Hds [Hvds [Hlen Hnzds]]]]].
  rewrite repeat_length, <- Esplit in Eloop.
  replace (2 * length bs)%nat with (2 * length suf + 2 * z)%nat by lia.
  rewrite Eloop, app_nil_r. cbv zeta.
  rewrite strip_lead_none.
  2:{ destruct ds as [|d0 dt]; [exact I|]. cbn [map app]. intros Ec.
      apply Hnzds, char_of_digit_inj; [exact (Forall_inv Hds)|lia|exact Ec]. }
  cbn [fst snd].
  replace (2 * length suf - length ds + 2 * z)%nat
    with (z + (2 * length suf - length ds + z))%nat by lia.
  rewrite ones_loop_spec by lia.
  exists ds. split; [reflexivity|]. split; [exact Hds|]. split; [exact Hnzds|].
  split; [rewrite Hvds; apply strip0_val|lia].
Qed.

(** no write past the front of [temp] (= out of fuel) for any input *)
Corollary b59_encode_o_no_abort bs :
  bytes bs -> Z.of_nat (length bs) <= size_max -> exists v, b59_encode_o bs = Ok v.
Proof.
  intros Hb Hsz. destruct (b59_encode_o_spec bs Hb Hsz) as [ds [E _]]. eexists. exact E.
Qed.

(** the output fits the buffer: at most 2 * nSize characters *)
Corollary b59_encode_length bs :
  bytes bs -> Z.of_nat (length bs) <= size_max ->
  (length (b59_encode bs) <= 2 * length bs)%nat.
Proof.
  intros Hb Hsz. destruct (b59_encode_o_spec bs Hb Hsz) as [ds [E [_ [_ [_ L]]]]].
  unfold b59_encode. rewrite E, app_length, repeat_length, map_length. exact L.
Qed.

Theorem b59_decode_digits ds :
  dig 59 ds ->
  exists bs,
    b59_decode (map char_of_digit ds) = Ok (repeat 0 (zero_count ds) ++ strip0 bs)
    /\ bytes bs /\ val_be 256 bs = val_be 59 ds
    /\ length bs = length (strip0 ds).
Proof.
  intros Hds. rewrite b59_decode_unfold, (dec_chars_map ds Hds). cbv zeta.
  set (z := zero_count ds). set (suf := strip0 ds).
  pose proof (strip0_split ds) as Esplit. fold z suf in Esplit.
  pose proof (strip0_length ds) as Elen. fold z suf in Elen.
  destruct (dec_loop_spec (length suf) suf z (repeat 0 z) [] eq_refl (strip0_Forall _ _ Hds))
    as [bs [Eloop [Hb [Hlen Hv]]]].
  rewrite repeat_length, <- Esplit in Eloop.
  rewrite map_length. replace (length ds) with (length suf + z)%nat by lia.
  rewrite Eloop, app_nil_r, strip_lead0. cbn [fst snd].
  assert (Hlt : (z + zero_count bs <? z)%nat = false) by (apply Nat.ltb_ge; lia).
  rewrite Hlt. exists bs. split; [reflexivity|]. split; [exact Hb|].
  split; [|exact Hlen]. rewrite Hv. apply strip0_val.
Qed.

(** alphabet-only text is always accepted: never Invalid, never Abort (the
    iterator [temp.begin() + j - zeroCount] is never before begin, [temp] never
    overflows) *)
Theorem b59_decode_accepts s :
  Forall (fun c => In c b59_alphabet) s -> exists v, b59_decode s = Ok v.
Proof.
  intros H. destruct (alphabet_text_digits s H) as [ds [Hds ->]].
  destruct (b59_decode_digits ds Hds) as [bs [E _]]. eexists. exact E.
Qed.

Lemma b59_text_cases s : bytes s ->
  b59_decode s = Invalid \/ Forall (fun c => In c b59_alphabet) s.
Proof.
  intros Hb.
  destruct (Forall_Exists_dec (fun c => In c b59_alphabet)
              (fun c => in_dec Z.eq_dec c b59_alphabet) s) as [Hall|Hex]; [right; exact Hall|left].
  apply Exists_exists in Hex. apply (b59_decode_rejects s Hb Hex).
Qed.

Theorem b59_decode_no_abort s : bytes s -> b59_decode s <> Abort.
Proof.
  intros Hb. destruct (b59_text_cases s Hb) as [E|Hall]; [rewrite E; discriminate|].
  destruct (b59_decode_accepts s Hall) as [v E]. rewrite E. discriminate.
Qed.

(** Round trip, for all byte strings (leading zero bytes included).
    The only side condition is that nSize is a size_t value
    ([length bs <= SIZE_MAX = 2^64-1]): the leading-'1' loop counts modulo 2^64.
    (In the C++ code [temp(nSize * 2)] would additionally wrap for
    nSize >= 2^63; such a buffer cannot exist -- the copy [input(buf, buf+nSize)]
    exceeds vector::max_size() -- and the model keeps [2 * nSize] unwrapped.)

    By [enc_loop_spec] the encoder's main loop emits no leading zero digit, so
    the "strip extra '1'" loop is dead code ([strip_lead_none] in
    [b59_encode_o_spec]). By [dec_loop_spec] the decoder ends with
    [j = zeroCount], so [temp.begin() + j - zeroCount] is never before [begin()]. *)
Theorem b59_roundtrip bs :
  bytes bs -> Z.of_nat (length bs) <= size_max -> b59_decode (b59_encode bs) = Ok bs.
Proof.
  intros Hb Hsz.
  destruct (b59_encode_o_spec bs Hb Hsz) as [ds [E [Hds [Hnz [Hv _]]]]].
  unfold b59_encode. rewrite E. rewrite <- map_char_repeat0, <- map_app.
  set (z := zero_count bs).
  assert (Hds' : dig 59 (repeat 0 z ++ ds)).
  { apply Forall_app. split; [|exact Hds]. apply Forall_repeat. lia. }
  destruct (b59_decode_digits _ Hds') as [bs' [E' [Hb' [Hv' _]]]].
  rewrite E', (zero_count_repeat z ds Hnz). f_equal.
  transitivity (repeat 0 z ++ strip0 bs); [|symmetry; apply strip0_split]. f_equal.
  apply (canon_unique 256 ltac:(lia)).
  - apply strip0_Forall. exact Hb'.
  - apply strip0_Forall. exact Hb.
  - apply strip0_hd_nz.
  - apply strip0_hd_nz.
  - rewrite !strip0_val, Hv', val_be_repeat0. exact Hv.
Qed.

(** the hypotheses are satisfiable by a non-trivial value *)
Example b59_roundtrip_witness :
  bytes [0; 0; 255; 0; 7] /\ Z.of_nat (length [0; 0; 255; 0; 7]) <= size_max
  /\ b59_encode [0; 0; 255; 0; 7] = [49; 49; 50; 80; 78; 113; 120].
Proof.
  split; [repeat constructor; unfold is_byte; lia|]. split; [vm_compute; discriminate|].
  vm_compute. reflexivity.
Qed.

(** Converse round trip: the decoder is injective on accepted text (every
    accepted string is the canonical encoding of its decoding; no malleability) *)
Theorem b59_encode_decode s v :
  bytes s -> Z.of_nat (length s) <= size_max -> b59_decode s = Ok v -> b59_encode v = s.
Proof.
  intros Hb Hsz E.
  destruct (b59_text_cases s Hb) as [R|Hall]; [rewrite R in E; discriminate|].
  destruct (alphabet_text_digits s Hall) as [ds [Hds ->]].
  destruct (b59_decode_digits ds Hds) as [bs' [E' [Hb' [Hv' Hl']]]].
  rewrite E' in E. injection E as <-.
  set (z := zero_count ds) in *.
  assert (Hzc : zero_count (repeat 0 z ++ strip0 bs') = z)
    by (apply zero_count_repeat, strip0_hd_nz).
  assert (Hbv : bytes (repeat 0 z ++ strip0 bs')).
  { apply Forall_app. split; [|apply strip0_Forall; exact Hb'].
    apply Forall_repeat. unfold is_byte. lia. }
  assert (Hlen : Z.of_nat (length (repeat 0 z ++ strip0 bs')) <= size_max).
  { rewrite app_length, repeat_length. rewrite map_length in Hsz.
    pose proof (strip0_length_le bs') as L1. pose proof (strip0_length ds) as L2.
    fold z in L2. lia. }
  destruct (b59_encode_o_spec _ Hbv Hlen) as [ds2 [E2 [Hds2 [Hnz2 [Hv2 _]]]]].
  unfold b59_encode. rewrite E2, Hzc.
  rewrite <- map_char_repeat0, <- map_app. f_equal.
  transitivity (repeat 0 z ++ strip0 ds); [|symmetry; apply strip0_split]. f_equal.
  apply (canon_unique 59 ltac:(lia)).
  - exact Hds2.
  - apply strip0_Forall. exact Hds.
  - exact Hnz2.
  - apply strip0_hd_nz.
  - rewrite Hv2, val_be_repeat0, !strip0_val. exact Hv'.
Qed.
