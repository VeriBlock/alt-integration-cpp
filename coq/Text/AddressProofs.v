(** Lemmas about the address model (AddressDefs). sha256 is a Section variable;
    the only thing assumed about it is the explicit premise
      forall x, length (sha256 x) = 32 /\ bytes (sha256 x). *)
From Coq Require Import ZArith List Bool Lia.
From VB Require Import Gen.TextTables Text.TextCommon Text.Radix Text.Base58Defs
  Text.Base58Proofs Text.Base58Proofs3 Text.AddressDefs.
Import ListNotations.
Local Open Scope Z_scope.

Lemma list_eqb_refl l : list_eqb l l = true.
Proof. induction l as [|x l IH]; [reflexivity|]. cbn [list_eqb]. rewrite Z.eqb_refl, IH. reflexivity. Qed.

Lemma list_eqb_eq a : forall b, list_eqb a b = true -> a = b.
Proof.
  induction a as [|x a IH]; intros [|y b] H; try reflexivity; try discriminate.
  cbn [list_eqb] in H. apply andb_true_iff in H. destruct H as [H1 H2].
  apply Z.eqb_eq in H1. subst. f_equal. apply IH. exact H2.
Qed.

Lemma starting_char_in_alphabet : In addr_starting_char b58_alphabet.
Proof. apply b58_map_inv; now cbv. Qed.

Lemma multisig_ending_char_not_in_alphabet : ~ In addr_multisig_ending_char b58_alphabet.
Proof. apply b58_map_minus1; now cbv. Qed.

Lemma addr_layout :
  addr_size = 1 + addr_multisig_address_data_end + Z.of_nat addr_checksum_len_standard
  /\ Z.to_nat addr_size = 30%nat /\ Z.to_nat addr_multisig_address_data_end = 24%nat.
Proof. vm_compute. repeat split. Qed.

Section WithSha.
  Variable sha256 : list Z -> list Z.
  Hypothesis sha256_ok : forall x, length (sha256 x) = 32%nat /\ bytes (sha256 x).

  Lemma encode_hash x : exists enc,
    b58_encode (sha256 x) = Ok enc /\ (32 <= length enc)%nat
    /\ Forall (fun c => In c b58_alphabet) enc.
  Proof.
    destruct (sha256_ok x) as [L B].
    destruct (b58_encode_never_aborts _ B) as [enc E]. exists enc.
    split; [exact E|]. split.
    - rewrite <- L. apply (b58_encode_length _ _ B E).
    - apply (b58_encode_alphabet _ _ B E).
  Qed.

  Lemma calculate_checksum_ok data multisig : exists ck,
    calculate_checksum sha256 data multisig = Ok ck
    /\ length ck = (if multisig then addr_checksum_len_multisig else addr_checksum_len_standard)
    /\ Forall (fun c => In c b58_alphabet) ck.
  Proof.
    destruct (encode_hash data) as [enc [E [L A]]].
    unfold calculate_checksum. rewrite E. cbn [obind]. eexists. split; [reflexivity|]. split.
    - apply firstn_length_le. destruct multisig; unfold addr_checksum_len_multisig, addr_checksum_len_standard; lia.
    - apply Forall_firstn_skipn, A.
  Qed.

  (** fromPublicKey never aborts (EncodeBase58's assert is unreachable); the derived
      address is 'V' ++ 24 characters ++ 5 checksum characters *)
  Lemma addr_from_public_key_shape k :
    exists data ck,
      addr_from_public_key sha256 k = Ok (mk_address ADDR_STANDARD (data ++ ck))
      /\ length data = 25%nat /\ length ck = 5%nat
      /\ hd 0 data = addr_starting_char
      /\ Forall (fun c => In c b58_alphabet) (data ++ ck)
      /\ calculate_checksum sha256 data false = Ok ck.
  Proof.
    unfold addr_from_public_key.
    destruct (encode_hash k) as [enc [E [L A]]]. rewrite E. cbn [obind].
    set (data := addr_starting_char :: firstn (Z.to_nat addr_multisig_address_data_end) enc).
    destruct (calculate_checksum_ok data false) as [ck [C [CL CA]]].
    rewrite C. cbn [obind]. exists data, ck. split; [reflexivity|].
    split; [|split; [exact CL|split; [reflexivity|split; [|exact C]]]].
    - unfold data. cbn [length]. rewrite firstn_length_le; [reflexivity|].
      change (Z.to_nat addr_multisig_address_data_end) with 24%nat. lia.
    - apply Forall_app. split; [|exact CA]. constructor; [exact starting_char_in_alphabet|].
      apply Forall_firstn_skipn, A.
  Qed.

  (** fromString accepts every text 'V' ++ 24 alphabet chars ++ its own 5-char checksum *)
  Lemma addr_from_string_standard data ck :
    length data = 25%nat -> length ck = 5%nat -> hd 0 data = addr_starting_char ->
    Forall (fun c => In c b58_alphabet) (data ++ ck) ->
    calculate_checksum sha256 data false = Ok ck ->
    addr_from_string sha256 (data ++ ck) = Ok (mk_address ADDR_STANDARD (data ++ ck)).
  Proof.
    intros DL CL Hhd HA HC. set (text := data ++ ck).
    assert (TL : length text = 30%nat) by (unfold text; rewrite app_length; lia).
    unfold addr_from_string. cbv zeta.
    assert (E1 : (Z.of_nat (length text) =? addr_size) = true) by (rewrite TL; reflexivity).
    rewrite E1. cbn [negb].
    assert (E2 : (char_at text 0 =? addr_starting_char) = true).
    { unfold char_at, text. change (Z.to_nat 0) with 0%nat.
      destruct data as [|d0 data']; [discriminate DL|]. cbn [app nth]. cbn [hd] in Hhd.
      rewrite Hhd. apply Z.eqb_refl. }
    rewrite E2. cbn [negb].
    assert (E3 : addr_is_multisig text = false).
    { unfold addr_is_multisig, char_at. apply Z.eqb_neq. intros E.
      apply multisig_ending_char_not_in_alphabet. rewrite <- E.
      rewrite Forall_forall in HA. apply HA. apply nth_In. fold text. rewrite TL.
      change (Z.to_nat (addr_size - 1)) with 29%nat. lia. }
    rewrite E3.
    destruct (firstn_skipn_app 25 data ck DL) as [E4 E5].
    change (addr_data_portion text) with (firstn 25 (data ++ ck)).
    change (addr_checksum_portion text false) with (skipn 25 (data ++ ck)).
    rewrite E4, E5.
    destruct (b58_decode_accepts text HA) as [v Hv].
    unfold is_base58_string. rewrite Hv. cbn [obind].
    rewrite HC. cbn [obind]. rewrite list_eqb_refl. cbn [negb]. reflexivity.
  Qed.

  Theorem addr_from_public_key_valid k a :
    addr_from_public_key sha256 k = Ok a ->
    addr_from_string sha256 (addr_to_string a) = Ok a.
  Proof.
    destruct (addr_from_public_key_shape k) as (data & ck & -> & DL & CL & Hhd & HA & HC).
    intros H. injection H as <-. apply addr_from_string_standard; assumption.
  Qed.

  Theorem addr_from_public_key_total k : exists a, addr_from_public_key sha256 k = Ok a.
  Proof. destruct (addr_from_public_key_shape k) as (data & ck & E & _). eexists. exact E. Qed.

  Theorem addr_is_derived k a :
    addr_from_public_key sha256 k = Ok a ->
    addr_is_derived_from_public_key sha256 a k = Ok true.
  Proof.
    intros H. unfold addr_is_derived_from_public_key. rewrite H. cbn [obind].
    rewrite list_eqb_refl. cbn [negb].
    unfold address_checksum.
    destruct (calculate_checksum_ok (addr_to_string a) (addr_type a =? ADDR_MULTISIG)) as [ck [C _]].
    rewrite C. cbn [obind]. rewrite list_eqb_refl. reflexivity.
  Qed.

  (** isDerivedFromPublicKey = true only for the text fromPublicKey produces *)
  Theorem addr_is_derived_sound k a :
    addr_is_derived_from_public_key sha256 a k = Ok true ->
    exists e, addr_from_public_key sha256 k = Ok e /\ addr_text a = addr_text e.
  Proof.
    unfold addr_is_derived_from_public_key. intros H.
    destruct (addr_from_public_key sha256 k) as [e| |]; try discriminate. cbn [obind] in H.
    exists e. split; [reflexivity|].
    destruct (list_eqb (addr_text a) (addr_text e)) eqn:E; [|cbn [negb] in H; discriminate].
    apply list_eqb_eq. exact E.
  Qed.

  Theorem addr_from_string_sound s a :
    addr_from_string sha256 s = Ok a ->
    addr_text a = s /\ Z.of_nat (length s) = addr_size /\ char_at s 0 = addr_starting_char
    /\ addr_type a = (if addr_is_multisig s then ADDR_MULTISIG else ADDR_STANDARD)
    /\ calculate_checksum sha256 (addr_data_portion s) (addr_is_multisig s)
       = Ok (addr_checksum_portion s (addr_is_multisig s))
    /\ (addr_is_multisig s = false -> exists v, b58_decode s = Ok v).
  Proof.
    unfold addr_from_string. cbv zeta. intros H.
    destruct (Z.eqb_spec (Z.of_nat (length s)) addr_size) as [E1|]; [|discriminate]. cbn [negb] in H.
    destruct (Z.eqb_spec (char_at s 0) addr_starting_char) as [E2|]; [|discriminate]. cbn [negb] in H.
    match type of H with obind ?X _ = _ => destruct X as [[]| |] eqn:EX; try discriminate end.
    cbn [obind] in H.
    destruct (calculate_checksum sha256 (addr_data_portion s) (addr_is_multisig s)) as [ck| |] eqn:EC;
      try discriminate.
    cbn [obind] in H.
    destruct (list_eqb ck (addr_checksum_portion s (addr_is_multisig s))) eqn:EL;
      [|cbn [negb] in H; discriminate].
    cbn [negb] in H. inversion H; subst a. clear H. cbn [addr_text addr_type].
    apply list_eqb_eq in EL. subst ck.
    repeat split; try assumption; try reflexivity.
    intros Hms. rewrite Hms in EX. unfold is_base58_string in EX.
    destruct (b58_decode s) as [v| |]; try discriminate. exists v. reflexivity.
  Qed.

  (** fromString . toString = id on accepted text (C18) *)
  Theorem addr_from_to_string s a :
    addr_from_string sha256 s = Ok a ->
    addr_to_string a = s /\ addr_from_string sha256 (addr_to_string a) = Ok a.
  Proof.
    intros H. destruct (addr_from_string_sound s a H) as [E _].
    unfold addr_to_string. rewrite E. split; [reflexivity|exact H].
  Qed.

  (** a STANDARD address accepted by fromString consists of base-58 alphabet
      characters only: DecodeBase58 tolerates leading/trailing spaces, but the text
      starts with 'V' and ends with its own checksum *)
  Theorem addr_standard_chars s a :
    bytes s -> addr_from_string sha256 s = Ok a -> addr_type a = ADDR_STANDARD ->
    Forall (fun c => In c b58_alphabet) s.
  Proof.
    intros Hb H Ht. destruct (addr_from_string_sound s a H) as [_ [EL [E0 [Ety [EC Hdec]]]]].
    destruct (addr_is_multisig s) eqn:Hms; [rewrite Ety in Ht; discriminate Ht|].
    destruct (Hdec eq_refl) as [v Hv].
    destruct (b58_decode_shape s v Hv) as [_ (sp1 & body & sp2 & E & A1 & A2 & D)].
    (* no space in front: the text starts with 'V' *)
    destruct sp1 as [|c sp1'].
    2:{ exfalso. rewrite E in E0. unfold char_at in E0. cbn [app nth Z.to_nat] in E0.
        apply Forall_inv in A1. rewrite E0 in A1.
        rewrite (proj1 (b58_alphabet_no_space _ starting_char_in_alphabet)) in A1. discriminate. }
    cbn [app] in E. induction sp2 as [|c sp2' _] using rev_ind.
    { rewrite app_nil_r in E. subst body. exact (digit_chars_alphabet s Hb D). }
    (* no space behind: the text ends with the last character [y] of its checksum *)
    exfalso. destruct (calculate_checksum_ok (addr_data_portion s) false) as [ck [C [CL CA]]].
    rewrite EC in C. injection C as Eck.
    induction ck as [|y ck' _] using rev_ind; [discriminate CL|].
    assert (Ey : c = y).
    { apply (app_inj_tail (body ++ sp2') (addr_data_portion s ++ ck')).
      rewrite <- (app_assoc _ ck'), <- Eck. unfold addr_data_portion, addr_checksum_portion.
      rewrite firstn_skipn, E. symmetry. apply app_assoc. }
    apply Forall_app in A2. destruct A2 as [_ A2]. apply Forall_inv in A2.
    rewrite Forall_forall in CA.
    rewrite Ey, (proj1 (b58_alphabet_no_space y (CA y (in_elt y ck' [])))) in A2. discriminate.
  Qed.
End WithSha.

(** the premise on sha256 is satisfiable; a concrete derived address parses *)
Definition sha_demo (x : list Z) : list Z := repeat 7 32.

Example sha_demo_ok : forall x, length (sha_demo x) = 32%nat /\ bytes (sha_demo x).
Proof.
  intros x. split; [reflexivity|]. apply Forall_repeat. unfold is_byte. lia.
Qed.

Example addr_demo :
  exists a, addr_from_public_key sha_demo [1; 2; 3] = Ok a
            /\ addr_from_string sha_demo (addr_to_string a) = Ok a
            /\ length (addr_text a) = 30%nat.
Proof.
  destruct (addr_from_public_key_shape _ sha_demo_ok [1; 2; 3]) as (data & ck & H & DL & CL & _).
  eexists. split; [exact H|]. split; [exact (addr_from_public_key_valid _ sha_demo_ok _ _ H)|].
  cbn [addr_text]. rewrite app_length, DL, CL. reflexivity.
Qed.
