(** Base58, part 3: the outer loops, what EncodeBase58 produces, what
    DecodeBase58 does on digit text (surrounded by spaces), and the ROUND TRIP
    for all byte strings (leading zero bytes included).
    Also: the asserts of encoder and decoder never fire, whatever the byte
    string (the b256 buffer is always large enough for the digits that follow);
    every alphabet-only string is accepted, and an accepted input yields a byte
    vector. *)
From Coq Require Import ZArith List Bool Lia.
From VB Require Import Gen.TextTables Text.TextCommon Text.Radix Text.Base58Defs
  Text.Base58Proofs Text.Base58Proofs2.
Import ListNotations.
Local Open Scope Z_scope.

Lemma enc_base_gt1 : 1 < b58_enc_base. Proof. reflexivity. Qed.
Lemma enc_mul_ge1 : 1 <= b58_enc_mul. Proof. discriminate. Qed.
Lemma dec_base_gt1 : 1 < b58_dec_base. Proof. reflexivity. Qed.
Lemma dec_mul_ge1 : 1 <= b58_dec_mul. Proof. discriminate. Qed.

Lemma count_drop x l : l = repeat x (count_leading x l) ++ drop_leading x l.
Proof.
  induction l as [|c l IH]; [reflexivity|].
  cbn [count_leading drop_leading]. destruct (Z.eqb_spec c x) as [->|Hne].
  - cbn [repeat app]. f_equal. exact IH.
  - reflexivity.
Qed.

Lemma drop_leading_head x l : match drop_leading x l with [] => True | c :: _ => c <> x end.
Proof.
  induction l as [|c l IH]; [exact I|].
  cbn [drop_leading]. destruct (Z.eqb_spec c x) as [->|Hne]; [exact IH|exact Hne].
Qed.

Lemma drop_leading_Forall (P : Z -> Prop) x l : Forall P l -> Forall P (drop_leading x l).
Proof. intros H. rewrite (count_drop x l) in H. apply Forall_app in H. apply H. Qed.

Lemma count_leading_repeat x z t :
  match t with [] => True | c :: _ => c <> x end ->
  count_leading x (repeat x z ++ t) = z /\ drop_leading x (repeat x z ++ t) = t.
Proof.
  intros Ht. induction z as [|z [IH1 IH2]].
  - cbn [repeat app]. destruct t as [|c t]; [split; reflexivity|].
    cbn [count_leading drop_leading]. destruct (Z.eqb_spec c x); [contradiction|split; reflexivity].
  - cbn [repeat app count_leading drop_leading]. rewrite Z.eqb_refl, IH1, IH2. split; reflexivity.
Qed.

Lemma enc_loop_spec : forall bs len buf,
  digits b58_enc_mul bs -> room b58_enc_mul b58_enc_base (length bs) len buf ->
  exists len' buf',
    enc_loop len buf bs = Ok (len', buf') /\ binv b58_enc_base len' buf'
    /\ val_le b58_enc_base buf' = val_be_acc b58_enc_mul (val_le b58_enc_base buf) bs.
Proof.
  induction bs as [|b r IH]; intros len buf Db Hroom.
  - exists len, buf. split; [reflexivity|]. split; [apply Hroom|reflexivity].
  - inversion Db as [|? ? Hb Dr]; subst. cbn [enc_loop].
    destruct (push_digit_room _ _ enc_base_gt1 enc_mul_ge1 b _ len buf Hb Hroom)
      as (len1 & buf1 & E1 & Room1 & _ & V1).
    rewrite E1. destruct (IH len1 buf1 Dr Room1) as (len2 & buf2 & E2 & Inv2 & V2).
    exists len2, buf2. rewrite E2, V2, V1.
    split; [reflexivity|]. split; [exact Inv2|].
    cbn [val_be_acc]. f_equal. ring.
Qed.

(** ENCODER SPECIFICATION: for every byte string EncodeBase58 does not assert
    and returns  '1' x (number of leading zero bytes) ++ the alphabet
    characters of the base-58 digits D (no leading zero) of the remaining bytes *)
Theorem b58_encode_spec bs :
  bytes bs ->
  exists D,
    b58_encode bs = Ok (repeat b58_one (count_leading 0 bs) ++ map b58_char D)
    /\ digits b58_enc_base D /\ hd_nz D
    /\ val_be b58_enc_base D = val_be b58_enc_mul (drop_leading 0 bs).
Proof.
  intros Hb. unfold b58_encode. set (rest := drop_leading 0 bs).
  pose proof (drop_leading_Forall _ 0 _ Hb : digits b58_enc_mul rest) as Dr.
  set (size := b58_enc_size (length rest)).
  destruct (enc_loop_spec rest 0%nat (repeat 0 size) Dr) as (len & buf & E & Inv & V).
  { apply room_init; [exact enc_base_gt1|apply b58_enc_buffer_bound]. }
  rewrite E.
  destruct (binv_result _ enc_base_gt1 len buf Inv) as [RD [_ RV]].
  exists (drop_leading 0 (rev (firstn len buf))).
  split; [reflexivity|]. split; [|split].
  - apply drop_leading_Forall, RD.
  - apply drop_leading_head.
  - rewrite (count_drop 0 (rev (firstn len buf))) in RV. rewrite val_be_repeat0 in RV.
    rewrite RV, V, (val_le_zeros _ (repeat 0 size)) by (apply Forall_repeat; reflexivity).
    reflexivity.
Qed.

Corollary b58_encode_never_aborts bs : bytes bs -> exists s, b58_encode bs = Ok s.
Proof. intros H. destruct (b58_encode_spec bs H) as [D [E _]]. eexists. exact E. Qed.

Lemma b58_char_props d : 0 <= d < b58_dec_mul ->
  is_space (b58_char d) = false /\ b58_char d <> 0 /\ lookup b58_map (b58_char d) = d.
Proof.
  intros H. destruct (b58_alphabet_no_space _ (b58_char_in_alphabet d H)) as [A B].
  split; [exact A|]. split; [exact B|apply b58_map_char; exact H].
Qed.

Lemma dec_loop_spec m z tl :
  match tl with [] => True | c :: _ => is_space c = true end ->
  forall D len buf,
  digits b58_dec_mul D -> room b58_dec_mul b58_dec_base (length D) len buf ->
  (length buf + z <= m)%nat ->
  exists len' buf',
    dec_loop m z len buf (map b58_char D ++ tl) = Ok (len', buf', tl) /\ binv b58_dec_base len' buf'
    /\ val_le b58_dec_base buf' = val_be_acc b58_dec_mul (val_le b58_dec_base buf) D.
Proof.
  intros Htl. induction D as [|d r IH]; intros len buf Dd Hroom Hm.
  - exists len, buf. cbn [map app val_be_acc].
    split; [|split; [apply Hroom|reflexivity]].
    destruct tl as [|c tl']; [reflexivity|]. cbn [dec_loop]. rewrite Htl. reflexivity.
  - inversion Dd as [|? ? Hd Dr]; subst.
    destruct (b58_char_props d Hd) as [Hsp [_ Hlk]].
    destruct (push_digit_room _ _ dec_base_gt1 dec_mul_ge1 d _ len buf Hd Hroom)
      as (len1 & buf1 & E1 & Room1 & L1 & V1).
    cbn [map app dec_loop]. rewrite Hsp. cbv zeta. rewrite Hlk.
    destruct (Z.eqb_spec d (-1)) as [Em|_]; [lia|]. rewrite E1.
    (* length + zeroes <= max_ret_len: length stays within the buffer *)
    assert (Hl1 : (len1 <= length buf1)%nat) by apply Room1.
    assert (Hchk : (m <? len1 + z)%nat = false) by (apply Nat.ltb_ge; lia).
    rewrite Hchk.
    destruct (IH len1 buf1 Dr Room1 ltac:(lia)) as (len2 & buf2 & E2 & Inv2 & V2).
    exists len2, buf2. rewrite E2, V2, V1.
    split; [reflexivity|]. split; [exact Inv2|].
    cbn [val_be_acc]. f_equal. ring.
Qed.

Lemma count_ones_repeat m t : forall z k,
  (k + z <= m)%nat ->
  match t with [] => True | c :: _ => c <> b58_one end ->
  count_ones m k (repeat b58_one z ++ t) = Ok ((k + z)%nat, t).
Proof.
  induction z as [|z IH]; intros k Hk Ht.
  - cbn [repeat app]. rewrite Nat.add_0_r. destruct t as [|c t]; [reflexivity|].
    cbn [count_ones]. destruct (Z.eqb_spec c b58_one); [contradiction|reflexivity].
  - cbn [repeat app count_ones]. rewrite Z.eqb_refl.
    assert (E : (m <? S k)%nat = false) by (apply Nat.ltb_ge; lia). rewrite E.
    rewrite IH by (try lia; exact Ht). f_equal. f_equal. lia.
Qed.

Lemma skip_spaces_app_space sp r : all_space sp -> skip_spaces (sp ++ r) = skip_spaces r.
Proof. induction 1 as [|c sp Hc _ IH]; [reflexivity|]. cbn [app skip_spaces]. rewrite Hc. exact IH. Qed.

Lemma all_space_nonzero sp : all_space sp -> Forall (fun c => c <> 0) sp.
Proof.
  intros H. eapply Forall_impl; [|exact H]. intros c Hc ->.
  rewrite nul_not_space in Hc. discriminate.
Qed.

Lemma existsb_nul_false l : Forall (fun c => c <> 0) l -> existsb (fun c => c =? 0) l = false.
Proof.
  induction 1 as [|c l Hc _ IH]; [reflexivity|].
  cbn [existsb]. rewrite IH. apply Z.eqb_neq in Hc. rewrite Hc. reflexivity.
Qed.

Lemma b58_dec_size_le k : (b58_dec_size k <= k + 1)%nat.
Proof.
  unfold b58_dec_size. change b58_dec_size_num with 733.
  change b58_dec_size_den with 1000. change b58_dec_size_add with 1. Z.div_mod_to_equations. lia.
Qed.

(** DECODER ON DIGIT TEXT SURROUNDED BY SPACES: spaces ++ '1' x z ++ characters
    of the digits D (no leading zero) ++ spaces is accepted, the assert does not
    fire, and the result is z zero bytes ++ the base-256 digits R (no leading
    zero) of the value of D. The last premise makes [skip_spaces] stop after sp1. *)
Lemma b58_decode_text_body sp1 z D sp2 :
  all_space sp1 -> all_space sp2 -> digits b58_dec_mul D -> hd_nz D ->
  (z = 0%nat -> D = [] -> sp2 = []) ->
  exists R,
    b58_decode (sp1 ++ repeat b58_one z ++ map b58_char D ++ sp2) = Ok (repeat 0 z ++ R)
    /\ digits b58_dec_base R /\ hd_nz R
    /\ val_be b58_dec_base R = val_be b58_dec_mul D.
Proof.
  intros A1 A2 Dd Hhead Hbody. set (T := map b58_char D).
  set (s := sp1 ++ repeat b58_one z ++ T ++ sp2).
  assert (HT : Forall (fun c => c <> 0 /\ is_space c = false) T).
  { apply Forall_forall. intros c Hc. apply in_map_iff in Hc. destruct Hc as [d [<- Hd]].
    destruct (b58_char_props d (proj1 (Forall_forall _ D) Dd d Hd)) as [? [? _]]. split; assumption. }
  unfold b58_decode.
  assert (Enul : existsb (fun c => c =? 0) s = false).
  { apply existsb_nul_false. unfold s. repeat (apply Forall_app; split);
      try (apply all_space_nonzero; assumption).
    - apply Forall_repeat. exact b58_one_nonzero.
    - eapply Forall_impl; [|exact HT]. intros c [Hc _]. exact Hc. }
  rewrite Enul. change (Z.to_nat b58_max_ret_add) with 1%nat.
  assert (Hlen : length s = (length sp1 + (z + (length D + length sp2)))%nat)
    by (unfold s, T; rewrite !app_length, repeat_length, map_length; reflexivity).
  set (m := (length s + 1)%nat).
  unfold b58_decode_c. unfold s at 1. rewrite (skip_spaces_app_space _ _ A1).
  assert (Esk : skip_spaces (repeat b58_one z ++ T ++ sp2) = repeat b58_one z ++ T ++ sp2).
  { destruct z as [|z]; [destruct D as [|d D']|].
    - rewrite (Hbody eq_refl eq_refl). reflexivity.
    - unfold T in *. cbn [repeat map app skip_spaces] in *.
      rewrite (proj2 (Forall_inv HT)). reflexivity.
    - cbn [repeat app skip_spaces]. rewrite b58_one_no_space. reflexivity. }
  rewrite Esk.
  assert (Hhd : match T ++ sp2 with [] => True | c :: _ => c <> b58_one end).
  { unfold T. destruct D as [|d D']; cbn [map app].
    - destruct sp2 as [|c sp2']; [exact I|]. intros ->.
      apply Forall_inv in A2. rewrite b58_one_no_space in A2. discriminate.
    - intros E. apply Hhead, b58_char_one; [exact (Forall_inv Dd)|exact E]. }
  rewrite (count_ones_repeat m (T ++ sp2) z 0%nat ltac:(unfold m; lia) Hhd). cbn [Nat.add].
  set (size := b58_dec_size (length (T ++ sp2))).
  assert (HTl : length (T ++ sp2) = (length D + length sp2)%nat)
    by (unfold T; rewrite app_length, map_length; reflexivity).
  assert (Htl : match sp2 with [] => True | c :: _ => is_space c = true end)
    by (destruct A2; [exact I|assumption]).
  destruct (dec_loop_spec m z sp2 Htl D 0%nat (repeat 0 size) Dd)
    as (len & buf & E & Inv & V).
  { apply (room_le _ _ dec_base_gt1 dec_mul_ge1 (length (T ++ sp2))); [lia|].
    apply room_init; [exact dec_base_gt1|apply b58_dec_buffer_bound]. }
  { rewrite repeat_length. pose proof (b58_dec_size_le (length (T ++ sp2))). unfold size, m. lia. }
  fold T in E. rewrite E.
  rewrite <- (app_nil_r sp2), (skip_spaces_app_space sp2 [] A2). cbn [skip_spaces].
  destruct (binv_result _ dec_base_gt1 len buf Inv) as [RD [RC RV]].
  exists (rev (firstn len buf)). repeat split; try assumption.
  rewrite RV, V, (val_le_zeros _ (repeat 0 size)) by (apply Forall_repeat; reflexivity).
  reflexivity.
Qed.

Theorem b58_decode_text_sp sp1 z D sp2 :
  all_space sp1 -> all_space sp2 -> digits b58_dec_mul D -> hd_nz D ->
  exists R,
    b58_decode (sp1 ++ repeat b58_one z ++ map b58_char D ++ sp2) = Ok (repeat 0 z ++ R)
    /\ digits b58_dec_base R /\ hd_nz R
    /\ val_be b58_dec_base R = val_be b58_dec_mul D.
Proof.
  intros A1 A2 Dd Hhead.
  destruct z as [|z]; [destruct D as [|d D']|].
  2,3: apply b58_decode_text_body; assumption || discriminate.
  (* nothing but spaces: count sp2 among the leading spaces *)
  destruct (b58_decode_text_body (sp1 ++ sp2) 0 [] []) as (R & E & H);
    [apply Forall_app; split; assumption|constructor|constructor|exact I|reflexivity|].
  cbn [repeat map app] in *. rewrite app_nil_r in E. exists R. split; [exact E|exact H].
Qed.

Corollary b58_decode_text z D :
  digits b58_dec_mul D -> hd_nz D ->
  exists R,
    b58_decode (repeat b58_one z ++ map b58_char D) = Ok (repeat 0 z ++ R)
    /\ digits b58_dec_base R /\ hd_nz R
    /\ val_be b58_dec_base R = val_be b58_dec_mul D.
Proof.
  intros Dd Hhead.
  destruct (b58_decode_text_sp [] z D [] ltac:(constructor) ltac:(constructor) Dd Hhead) as (R & E & H).
  cbn [app] in E. rewrite app_nil_r in E. exists R. split; [exact E|exact H].
Qed.

Theorem b58_roundtrip bs :
  bytes bs -> exists s, b58_encode bs = Ok s /\ b58_decode s = Ok bs.
Proof.
  intros Hb.
  destruct (b58_encode_spec bs Hb) as (D & E & DD & Hhead & HV).
  eexists. split; [exact E|].
  destruct (b58_decode_text (count_leading 0 bs) D DD Hhead) as (R & E2 & RD & RC & RV).
  rewrite E2. f_equal. rewrite (count_drop 0 bs) at 2. f_equal.
  (* both are the base-256 digits, without leading zero, of the same number *)
  apply (canon_unique b58_dec_base dec_base_gt1); try assumption.
  - apply drop_leading_Forall, Hb.
  - apply drop_leading_head.
  - rewrite RV. exact HV.
Qed.

(** the premises are satisfiable by non-trivial values  *)
Example b58_roundtrip_example :
  bytes [0; 0; 27; 53; 84; 6] /\
  b58_encode [0; 0; 27; 53; 84; 6] = Ok [49; 49; 104; 76; 97; 88; 88] /\
  b58_decode [49; 49; 104; 76; 97; 88; 88] = Ok [0; 0; 27; 53; 84; 6].
Proof.
  split; [|split]; [|vm_compute; reflexivity|vm_compute; reflexivity].
  repeat constructor; unfold is_byte; lia.
Qed.

Lemma alphabet_text_digits t : Forall (fun c => In c b58_alphabet) t ->
  exists D, t = map b58_char D /\ digits b58_dec_mul D.
Proof.
  induction 1 as [|c t Hc _ [D [E DD]]].
  - exists []. split; [reflexivity|constructor].
  - apply in_alphabet_iff in Hc. destruct Hc as [d [Hd <-]].
    exists (d :: D). split; [cbn [map]; f_equal; exact E|constructor; assumption].
Qed.

Lemma alphabet_text_split s : Forall (fun c => In c b58_alphabet) s ->
  exists z D, s = repeat b58_one z ++ map b58_char D /\ digits b58_dec_mul D /\ hd_nz D.
Proof.
  intros H. exists (count_leading b58_one s).
  destruct (alphabet_text_digits _ (drop_leading_Forall _ b58_one _ H)) as [D [E DD]].
  exists D. split; [rewrite <- E; apply count_drop|]. split; [exact DD|].
  pose proof (drop_leading_head b58_one s) as Hh. rewrite E in Hh.
  destruct D as [|d D']; [exact I|]. cbn in *. intros ->. apply Hh.
  symmetry. apply b58_one_is_digit0.
Qed.

(** every string over the base-58 alphabet is accepted by DecodeBase58 (in
    particular the assert in the decoder cannot fire on it) *)
Theorem b58_decode_accepts s :
  Forall (fun c => In c b58_alphabet) s -> exists v, b58_decode s = Ok v.
Proof.
  intros H. destruct (alphabet_text_split s H) as (z & D & -> & DD & Hhead).
  destruct (b58_decode_text z D DD Hhead) as [R [E _]]. eexists. exact E.
Qed.

Theorem b58_encode_length bs s :
  bytes bs -> b58_encode bs = Ok s -> (length bs <= length s)%nat.
Proof.
  intros Hb Hs. destruct (b58_encode_spec bs Hb) as (D & E & DD & _ & HV).
  rewrite E in Hs. injection Hs as <-.
  rewrite (count_drop 0 bs) at 1. rewrite !app_length, !repeat_length, map_length.
  enough (length (drop_leading 0 bs) <= length D)%nat by lia.
  apply (canon_length_le b58_enc_mul b58_enc_base); try assumption.
  - split; [reflexivity|discriminate].
  - apply drop_leading_Forall, Hb.
  - apply drop_leading_head.
  - rewrite HV. apply Z.le_refl.
Qed.

Theorem b58_encode_alphabet bs s :
  bytes bs -> b58_encode bs = Ok s -> Forall (fun c => In c b58_alphabet) s.
Proof.
  intros Hb Hs. destruct (b58_encode_spec bs Hb) as [D [E [DD _]]].
  rewrite E in Hs. injection Hs as <-. apply Forall_app. split.
  - apply Forall_repeat, b58_one_in_alphabet.
  - apply Forall_forall. intros c Hc. apply in_map_iff in Hc. destruct Hc as [d [<- Hd]].
    apply b58_char_in_alphabet, (proj1 (Forall_forall _ D) DD), Hd.
Qed.

(** DecodeBase58 on ARBITRARY byte strings: VBK_ASSERT(carry == 0) is unreachable. *)
Lemma dec_loop_safe m z : forall s len buf,
  bytes s -> room b58_dec_mul b58_dec_base (length s) len buf ->
  match dec_loop m z len buf s with
  | Abort => False
  | Invalid => True
  | Ok (len', buf', _) => binv b58_dec_base len' buf'
  end.
Proof.
  induction s as [|c r IH]; intros len buf Hb Hroom; cbn [dec_loop]; [apply Hroom|].
  inversion Hb as [|? ? Hc Hr]; subst.
  destruct (is_space c); [apply Hroom|].
  cbv zeta. destruct (Z.eqb_spec (lookup b58_map c) (-1)) as [E|E]; [exact I|].
  destruct (b58_map_inv c Hc E) as [Hd _].
  destruct (push_digit_room _ _ dec_base_gt1 dec_mul_ge1 _ _ len buf Hd Hroom)
    as (len1 & buf1 & E1 & Room1 & _).
  rewrite E1. destruct (m <? len1 + z)%nat; [exact I|]. exact (IH len1 buf1 Hr Room1).
Qed.

Lemma count_ones_no_abort m : forall s k, count_ones m k s <> Abort.
Proof.
  induction s as [|c s IH]; intros k; cbn [count_ones]; [discriminate|].
  destruct (c =? b58_one); [|discriminate].
  destruct (m <? S k)%nat; [discriminate|apply IH].
Qed.

(** the inner DecodeBase58 never asserts, whatever max_ret_len is; an accepted
    input yields bytes *)
Theorem b58_decode_c_safe s m :
  bytes s ->
  match b58_decode_c s m with
  | Abort => False
  | Invalid => True
  | Ok v => bytes v
  end.
Proof.
  intros Hb. unfold b58_decode_c.
  destruct (skip_spaces_split s) as [sp1 [E1 _]].
  rewrite E1 in Hb. apply Forall_app in Hb. destruct Hb as [_ B1].
  destruct (count_ones m 0 (skip_spaces s)) as [[z s2]| |] eqn:C;
    [|exact I|exact (count_ones_no_abort _ _ _ C)].
  destruct (count_ones_split _ _ _ _ _ C) as [ones [E2 _]].
  rewrite E2 in B1. apply Forall_app in B1. destruct B1 as [_ B2].
  set (size := b58_dec_size (length s2)).
  pose proof (dec_loop_safe m z s2 0%nat (repeat 0 size) B2) as D.
  specialize (D ltac:(apply room_init; [exact dec_base_gt1|apply b58_dec_buffer_bound])).
  destruct (dec_loop m z 0 (repeat 0 size) s2) as [[[len buf] s3]| |]; [|exact I|exact D].
  destruct (skip_spaces s3); [|exact I].
  destruct (binv_result _ dec_base_gt1 len buf D) as [RD _].
  apply Forall_app. split; [|exact RD]. apply Forall_repeat. unfold is_byte. lia.
Qed.

(** DecodeBase58(const std::string&): the assert is unreachable for every input *)
Lemma b58_decode_safe s : bytes s ->
  match b58_decode s with Abort => False | Invalid => True | Ok v => bytes v end.
Proof.
  intros Hb. unfold b58_decode. destruct (existsb (fun c => c =? 0) s); [exact I|].
  apply b58_decode_c_safe, Hb.
Qed.

Theorem b58_decode_never_aborts s : bytes s -> b58_decode s <> Abort.
Proof. intros Hb E. pose proof (b58_decode_safe s Hb) as H. rewrite E in H. exact H. Qed.

Theorem b58_decode_bytes s v : bytes s -> b58_decode s = Ok v -> bytes v.
Proof. intros Hb E. pose proof (b58_decode_safe s Hb) as H. rewrite E in H. exact H. Qed.
