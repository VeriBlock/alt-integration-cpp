(** Proofs about the base59 model (Text/Base59Defs.v): table lemmas over the
    GENERATED tables, rejection of foreign characters, digit-level correctness of
    the two in-place long divisions (with the C++ widths). *)
From Coq Require Import ZArith List Bool Lia.
From VB Require Import Base.Bits Gen.TextTables Text.TextCommon Text.Radix Text.Base59Defs.
Import ListNotations.
Local Open Scope Z_scope.

Example ex_enc_001 : b59_encode [0;0;1] = [49;49;50].
Proof. vm_compute. reflexivity. Qed.
Example ex_dec_001 : b59_decode (b59_encode [0;0;1]) = Ok [0;0;1].
Proof. vm_compute. reflexivity. Qed.
Example ex_dec_high : b59_decode [49;200] = Invalid.
Proof. vm_compute. reflexivity. Qed.
Example ex_dec_I : b59_decode [49;73] = Invalid.   (* 'I' is not in the alphabet *)
Proof. vm_compute. reflexivity. Qed.
(* "b4df3138d6b98a5a6350e653f4d6cb0c" <-> "GcJp9rfcTQfG104YwUGAk9" *)
Example ex_vec_enc :
  b59_encode [180;223;49;56;214;185;138;90;99;80;230;83;244;214;203;12]
  = [71;99;74;112;57;114;102;99;84;81;102;71;49;48;52;89;119;85;71;65;107;57].
Proof. vm_compute. reflexivity. Qed.
Example ex_vec_dec :
  b59_decode [71;99;74;112;57;114;102;99;84;81;102;71;49;48;52;89;119;85;71;65;107;57]
  = Ok [180;223;49;56;214;185;138;90;99;80;230;83;244;214;203;12].
Proof. vm_compute. reflexivity. Qed.
(* 34 zero bytes <-> 34 times '1' *)
Example ex_zeros : b59_encode (repeat 0 34) = repeat 49 34
                   /\ b59_decode (repeat 49 34) = Ok (repeat 0 34).
Proof. vm_compute. split; reflexivity. Qed.

(** digit lists; [dig B l] is [Radix.digits B l] *)
Definition dig (B : Z) (l : list Z) : Prop := Forall (fun d => 0 <= d < B) l.

Lemma bytes_dig l : bytes l <-> dig 256 l.
Proof. unfold bytes, dig, is_byte. reflexivity. Qed.

Lemma b59_base_is_alphabet_length : b59_base = Z.of_nat (length b59_alphabet).
Proof. vm_compute. reflexivity. Qed.

Lemma b59_alphabet_lt128 : Forall (fun c => 0 <= c < 128) b59_alphabet.
Proof.
  apply Forall_forall. intros c Hc.
  assert (H : forallb (fun c => (0 <=? c) && (c <? 128)) b59_alphabet = true)
    by (vm_compute; reflexivity).
  rewrite forallb_forall in H. specialize (H c Hc). lia.
Qed.

Lemma b59_tables :
  table_inverts b59_alphabet b59_indexes = true /\ table_entries_ok b59_alphabet b59_indexes = true.
Proof. vm_compute. split; reflexivity. Qed.

Lemma b59_index_of_char d :
  0 <= d < 59 -> lookup b59_indexes (char_of_digit d) = d.
Proof. exact (table_of_char _ _ (proj1 b59_tables) d). Qed.

Lemma b59_char_of_index c :
  0 <= c < 128 ->
  lookup b59_indexes c = -1 \/
  (0 <= lookup b59_indexes c < 59 /\ char_of_digit (lookup b59_indexes c) = c).
Proof. exact (char_of_table _ _ (proj2 b59_tables) c). Qed.

Lemma b59_char_range d : 0 <= d < 59 -> 0 <= char_of_digit d < 128.
Proof.
  intros Hd. pose proof b59_alphabet_lt128 as A. rewrite Forall_forall in A.
  apply A, in_alphabet_iff. exists d. split; [exact Hd|reflexivity].
Qed.

Lemma char_of_digit_inj d1 d2 :
  0 <= d1 < 59 -> 0 <= d2 < 59 -> char_of_digit d1 = char_of_digit d2 -> d1 = d2.
Proof. exact (char_inj _ _ (proj1 b59_tables) d1 d2). Qed.

Lemma b59_alphabet_NoDup : NoDup b59_alphabet.
Proof. exact (alphabet_NoDup _ _ (proj1 b59_tables)). Qed.

Lemma u8_id x : 0 <= x < 256 -> u8 x = x.
Proof. intros H. unfold u8. apply Z.mod_small. exact H. Qed.

Lemma land255 x : Z.land x 255 = x mod 256.
Proof. change 255 with (2 ^ 8 - 1). change 256 with (2 ^ 8). apply land_ones_mod. lia. Qed.

(** [(uint32_t)number[i] & 0xFF] is the byte itself *)
Lemma land255_byte x : 0 <= x < 256 -> Z.land x 255 = x.
Proof. intros H. rewrite land255. apply Z.mod_small. exact H. Qed.

(** [(int8_t)number59[i] & 0xFF] is the byte itself (sign extension undone) *)
Lemma s8_land255 x : 0 <= x < 256 -> Z.land (s8 x) 255 = x.
Proof. intros H. rewrite land255. unfold s8. destruct (x <? 128); Z.div_mod_to_equations; lia. Qed.

Lemma dec_chars_unfold ch r :
  dec_chars (ch :: r) =
  if u8 ch >=? Z.of_nat (length b59_indexes) then
    (if b59_bounds_checked =? 1 then Invalid else Abort)
  else if lookup b59_indexes (u8 ch) <? 0 then Invalid
       else match dec_chars r with Ok ds => Ok (u8 (lookup b59_indexes (u8 ch)) :: ds) | o => o end.
Proof. reflexivity. Qed.

Lemma dec_chars_no_abort s : dec_chars s <> Abort.
Proof.
  induction s as [|ch r IH]; [discriminate|].
  rewrite dec_chars_unfold.
  destruct (u8 ch >=? _); [discriminate|].
  destruct (_ <? 0); [discriminate|].
  destruct (dec_chars r); [discriminate|discriminate|exact IH].
Qed.

Lemma dec_chars_rejects s :
  bytes s -> (exists c, In c s /\ ~ In c b59_alphabet) -> dec_chars s = Invalid.
Proof.
  induction s as [|ch r IH]; intros Hb [c [Hin Hn]]; [destruct Hin|].
  inversion Hb as [|? ? Hch Hr]; subst.
  rewrite dec_chars_unfold, (u8_id ch Hch).
  destruct (ch >=? Z.of_nat (length b59_indexes)) eqn:E1; [reflexivity|].
  destruct (lookup b59_indexes ch <? 0) eqn:E2; [reflexivity|].
  destruct Hin as [->|Hin].
  - apply (table_none_iff _ _ (proj1 b59_tables) (proj2 b59_tables)) in Hn; [lia|].
    unfold is_byte in Hch. lia.
  - rewrite (IH Hr (ex_intro _ c (conj Hin Hn))). reflexivity.
Qed.

Lemma b59_decode_unfold s :
  b59_decode s =
  match dec_chars s with
  | Ok input59 =>
      let zeroCount := zero_count input59 in
      match dec_loop (length s) input59 zeroCount [] with
      | Ok (acc, j) =>
          let aj := strip_lead 0 acc j in
          if (snd aj <? zeroCount)%nat then Abort
          else Ok (repeat 0 zeroCount ++ fst aj)
      | Invalid => Invalid
      | Abort => Abort
      end
  | Invalid => Invalid
  | Abort => Abort
  end.
Proof. destruct s; reflexivity. Qed.

(** every character outside the alphabet (>= 128 included) is rejected *)
Theorem b59_decode_rejects s :
  bytes s -> (exists c, In c s /\ ~ In c b59_alphabet) -> b59_decode s = Invalid.
Proof.
  intros Hb He. rewrite b59_decode_unfold, (dec_chars_rejects s Hb He). reflexivity.
Qed.

Lemma dec_chars_map ds : dig 59 ds -> dec_chars (map char_of_digit ds) = Ok ds.
Proof.
  induction 1 as [|d r Hd _ IH]; [reflexivity|].
  cbn [map]. rewrite dec_chars_unfold.
  pose proof (b59_char_range d Hd) as Hc.
  rewrite (u8_id (char_of_digit d)) by lia.
  change (Z.of_nat (length b59_indexes)) with 128.
  destruct (char_of_digit d >=? 128) eqn:E1; [lia|].
  rewrite (b59_index_of_char d Hd).
  destruct (d <? 0) eqn:E2; [lia|].
  rewrite IH, (u8_id d) by lia. reflexivity.
Qed.

Lemma alphabet_text_digits s :
  Forall (fun c => In c b59_alphabet) s -> exists ds, dig 59 ds /\ s = map char_of_digit ds.
Proof.
  induction 1 as [|c r Hc _ [ds [Hd ->]]].
  - exists []. split; [constructor|reflexivity].
  - apply in_alphabet_iff in Hc. destruct Hc as [d [Hd0 <-]].
    exists (d :: ds). split; [constructor; assumption|reflexivity].
Qed.

(** The in-place long divisions: [divmod59] and [divmod256] are the same schoolbook
    division of a base-[B] number (most significant digit first) by [b], with the
    radices swapped. *)
Fixpoint longdiv (B b : Z) (l : list Z) (rem : Z) : list Z * Z :=
  match l with
  | [] => ([], rem)
  | d :: r =>
      let temp := rem * B + d in
      let qr := longdiv B b r (temp mod b) in
      (temp / b :: fst qr, snd qr)
  end.

Lemma longdiv_spec B b : 0 < B -> 0 < b -> forall l rem,
  0 <= rem < b -> digits B l ->
  let q := fst (longdiv B b l rem) in
  let r := snd (longdiv B b l rem) in
  rem * B ^ Z.of_nat (length l) + val_be B l = b * val_be B q + r
  /\ 0 <= r < b /\ digits B q /\ length q = length l.
Proof.
  intros HB Hb. induction l as [|d t IH]; intros rem Hrem Hd; cbv zeta.
  - cbn [longdiv fst snd length]. change (Z.of_nat 0) with 0. change (val_be B []) with 0.
    rewrite Z.pow_0_r. repeat split; try lia; constructor.
  - inversion Hd as [|? ? Hd0 Ht]; subst. cbn [longdiv fst snd].
    (* temp < b * B, so the quotient digit is again a base-B digit *)
    set (temp := rem * B + d).
    assert (Htemp : 0 <= temp < b * B) by nia.
    assert (Hq : 0 <= temp / b < B).
    { split; [apply Z.div_pos; lia|apply Z.div_lt_upper_bound; lia]. }
    pose proof (Z.mod_pos_bound temp b Hb) as Hm.
    pose proof (Z.div_mod temp b ltac:(lia)) as E.
    destruct (IH (temp mod b) Hm Ht) as [Hv [Hr [Hdq Hl]]].
    split; [|split; [exact Hr|split; [constructor; assumption|cbn [length]; lia]]].
    rewrite !val_be_cons, Hl. cbn [length]. rewrite Nat2Z.inj_succ, Z.pow_succ_r by lia.
    set (P := B ^ Z.of_nat (length t)) in *.
    set (q0 := temp / b) in *. set (m := temp mod b) in *. clearbody q0 m. unfold temp in E. nia.
Qed.

Lemma longdiv_cons0 B b d t :
  longdiv B b (d :: t) 0
  = (d / b :: fst (longdiv B b t (d mod b)), snd (longdiv B b t (d mod b))).
Proof. cbn [longdiv]. rewrite Z.mul_0_l, Z.add_0_l. reflexivity. Qed.

Lemma longdiv_head_nz B b l rem :
  0 < b <= B -> 1 <= rem -> digits B l -> hd_nz (fst (longdiv B b l rem)).
Proof.
  intros Hb Hrem Hd. destruct Hd as [|d t Hd _]; [exact I|].
  cbn [longdiv fst hd_nz]. assert (0 < (rem * B + d) / b); [|lia].
  apply Z.div_str_pos. nia.
Qed.

(** the C++ divisions do not truncate: this is where the widths matter *)
Lemma divmod59_go_longdiv l : forall rem, 0 <= rem < 59 -> bytes l ->
  divmod59_go l rem = longdiv 256 59 l rem.
Proof.
  induction l as [|d t IH]; intros rem Hrem Hb; cbn [divmod59_go longdiv].
  - rewrite u8_id by lia. reflexivity.
  - inversion Hb as [|? ? Hd Ht]; subst. unfold is_byte in Hd.
    change b59_base256 with 256. change b59_base with 59. rewrite (land255_byte d Hd).
    rewrite IH by (try assumption; Z.div_mod_to_equations; lia).
    rewrite u8_id by (Z.div_mod_to_equations; lia). reflexivity.
Qed.

Lemma divmod256_go_longdiv l : forall rem, 0 <= rem < 256 -> bytes l ->
  divmod256_go l rem = longdiv 59 256 l rem.
Proof.
  induction l as [|d t IH]; intros rem Hrem Hb; cbn [divmod256_go longdiv].
  - rewrite u8_id by lia. reflexivity.
  - inversion Hb as [|? ? Hd Ht]; subst. unfold is_byte in Hd.
    change b59_base256 with 256. change b59_base with 59. rewrite (s8_land255 d Hd).
    rewrite IH by (try assumption; Z.div_mod_to_equations; lia).
    rewrite u8_id by (Z.div_mod_to_equations; lia). reflexivity.
Qed.

Lemma nth_len_app {A} (pre suf : list A) d : nth (length pre) (pre ++ suf) d = hd d suf.
Proof. induction pre as [|x r IH]; [destruct suf; reflexivity|exact IH]. Qed.

Lemma divmod59_app pre suf : bytes suf ->
  divmod59 (pre ++ suf) (length pre) = (pre ++ fst (longdiv 256 59 suf 0), snd (longdiv 256 59 suf 0)).
Proof.
  intros Hb. unfold divmod59.
  destruct (firstn_skipn_app (length pre) pre suf eq_refl) as [-> ->].
  rewrite divmod59_go_longdiv by (try assumption; lia). reflexivity.
Qed.

Lemma divmod256_app pre suf : bytes suf ->
  divmod256 (pre ++ suf) (length pre) = (pre ++ fst (longdiv 59 256 suf 0), snd (longdiv 59 256 suf 0)).
Proof.
  intros Hb. unfold divmod256.
  destruct (firstn_skipn_app (length pre) pre suf eq_refl) as [-> ->].
  rewrite divmod256_go_longdiv by (try assumption; lia). reflexivity.
Qed.

Lemma dig59_bytes ds : dig 59 ds -> bytes ds.
Proof. intros H. eapply Forall_impl; [|exact H]. cbv beta. unfold is_byte. intros; lia. Qed.

(** divmod59(number, 0) on a base-256 number: quotient in place, remainder returned *)
Theorem divmod59_correct num q r :
  bytes num -> divmod59 num 0 = (q, r) ->
  val_be 256 num = 59 * val_be 256 q + r /\ 0 <= r < 59 /\ bytes q /\ length q = length num.
Proof.
  intros Hb E. rewrite (divmod59_app [] num Hb : divmod59 num 0 = _) in E. injection E as <- <-.
  exact (longdiv_spec 256 59 eq_refl eq_refl num 0 ltac:(lia) Hb).
Qed.

(** divmod256(number59, 0) on a base-59 number *)
Theorem divmod256_correct num q r :
  dig 59 num -> divmod256 num 0 = (q, r) ->
  val_be 59 num = 256 * val_be 59 q + r /\ 0 <= r < 256 /\ dig 59 q /\ length q = length num.
Proof.
  intros Hd E. rewrite (divmod256_app [] num (dig59_bytes num Hd) : divmod256 num 0 = _) in E. injection E as <- <-.
  exact (longdiv_spec 59 256 eq_refl eq_refl num 0 ltac:(lia) Hd).
Qed.
