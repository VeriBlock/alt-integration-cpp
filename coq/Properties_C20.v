(** C20 — a chain once reported fully valid can be activated again. Closed, instantiated machine
    (Pop/SmDefs.v, as-coded model; every assert of the code is an explicit Abort outcome).

    PROVED, for EVERY reachable state (any history of connectBlock / setState / comparePopScore with any scorer, any
    tree, payload assignment, failing position):
      * C20_reactivation: setState to a block that is at level CAN_BE_APPLIED and not invalidated returns TRUE - the
        walk (fork search, unapply to the fork, apply the branch) hits no assert and no command group fails;
      * C20_full_validity_truthful: every block at level CAN_BE_APPLIED replays successfully ALONE (the bodies of
        root..b executed from the bootstrap state all succeed);
      * C20_chain_full: every block of the active chain root..tip is applied, not failed and at CAN_BE_APPLIED;
      * the level logic of applyBlock for all states: the fully-valid level is raised only on a fully valid parent and
        only when the applied-block counter says nothing but root..parent is applied (C20_full_level_guard); a block
        applied next to another chain or on a MAYBE parent is never reported fully valid by that application
        (C20_maybe_level_never_reported_full);
      * the unapply discipline (applied, parent applied, no applied child) (C20_unapply_order).
      * over ALL continuations of ALL histories: a block that was reported fully valid in ANY of the three ways (level
        CAN_BE_APPLIED, target of a successful setState, winner of a comparePopScore) keeps the level in every later state
        (C20_reported_full_persists, C20_levels_never_lowered) and setState to it returns TRUE from every later state in
        which it carries no failure mark (C20_later_reactivation); the re-activation sweep of the check (react_seq, the
        model function that is run against the implementation's `react`) can answer false only for a block with a
        failure mark (C20_react_sweep_sound).
      * the comparison clause as an invariant of ALL reachable states: a block whose own ancestry does not replay from
        the bootstrap state (valid only next to a competing chain) is at no reachable state at the fully-valid level
        (C20_never_full_unless_valid_alone); a block at that level has every ancestor at that level, unfailed, and
        replays alone (C20_full_means_validated_alone);
      * revert order at full strength (equalities of protecting states): applyBlock executes the block's commands in
        body order, unapplyBlock un-executes them one by one in exactly the reverse order (C20_apply_executes_in_order,
        C20_unapply_reverts_in_reverse); the unapplyWhile(not fully valid) that comparePopScore runs before unapplying the
        losing chain stops only at the fork or at a fully valid block (C20_unvalidated_unapplied_first).
    No _partial theorem is left for this property. (Finalization and altchain invalidate/revalidate are outside the
    model: the premise "not invalidated" is the FAILED_* flags of the block; they are exercised on the implementation
    by the re-activation oracle.) *)
From Coq Require Import List ZArith NArith Bool.
From VB Require Import Pop.SmDefs Pop.SmProofs Pop.SmWf Pop.SmTruth Pop.SmCmp Pop.SmAll Pop.SmCoh Pop.SmFull Pop.SmReact Pop.SmLaterDefs Pop.SmLater Pop.SmTree Pop.SmAlone Pop.SmRevert.
Local Open Scope Z_scope.

Theorem C20_full_level_guard :
  forall s i s' b pb b',
    c_applyBlock s i = Ok (s', true) ->
    find ccmd (blocks _ _ s) i = Some b -> find ccmd (blocks _ _ s) (b_par _ b) = Some pb ->
    find ccmd (blocks _ _ s') i = Some b' ->
    b_lvl _ b <> L_FULL -> b_lvl _ b' = L_FULL ->
    valid_upto _ pb L_FULL = true /\ b_h _ b = root_h _ _ s + Z.of_N (napp _ _ s).
Proof. exact full_level_guard. Qed.
Print Assumptions C20_full_level_guard.

Theorem C20_maybe_level_never_reported_full :
  forall s i s' b pb b',
    c_applyBlock s i = Ok (s', true) ->
    find ccmd (blocks _ _ s) i = Some b -> find ccmd (blocks _ _ s) (b_par _ b) = Some pb ->
    find ccmd (blocks _ _ s') i = Some b' ->
    b_lvl _ b <> L_FULL ->
    (valid_upto _ pb L_FULL = false \/ b_h _ b <> root_h _ _ s + Z.of_N (napp _ _ s)) ->
    b_lvl _ b' <> L_FULL.
Proof. exact maybe_level_never_reported_full. Qed.
Print Assumptions C20_maybe_level_never_reported_full.

Theorem C20_unapply_order :
  forall s i s', c_unapplyBlock s i = Ok s' ->
    exists b pb, find ccmd (blocks _ _ s) i = Some b /\ b_act _ b = true /\
                 find ccmd (blocks _ _ s) (b_par _ b) = Some pb /\ b_act _ pb = true /\
                 child_active _ (blocks _ _ s) i = false /\ i <> root _ _ s.
Proof. exact unapply_order. Qed.
Print Assumptions C20_unapply_order.

Theorem C20_reactivation :
  forall base s to bto,
    reachable base s -> find ccmd (blocks _ _ s) to = Some bto -> valid_upto _ bto L_FULL = true ->
    exists s', c_setState s to = Ok (s', true).
Proof. exact reactivation. Qed.
Print Assumptions C20_reactivation.

Theorem C20_chain_full :
  forall base s, reachable base s ->
    forall j, In j (chain s) -> exists b, find ccmd (blocks _ _ s) j = Some b /\ b_act _ b = true /\ valid_upto _ b L_FULL = true.
Proof. exact chain_full. Qed.
Print Assumptions C20_chain_full.

Theorem C20_full_validity_truthful :
  forall base s, reachable base s ->
    forall b, In b (blocks _ _ s) -> N.leb L_FULL (b_lvl _ b) = true ->
              exists p', replay (bgs s (depth s (b_id _ b)) (b_id _ b)) base = Some p'.
Proof. exact full_validity_truthful_all. Qed.
Print Assumptions C20_full_validity_truthful.

Theorem C20_levels_never_lowered :
  forall u j ops s s', lvl_ge u j s -> run s ops = Ok s' -> lvl_ge u j s'.
Proof. exact lvl_ge_run. Qed.
Print Assumptions C20_levels_never_lowered.

Theorem C20_reported_full_persists :
  forall base s t ops s2,
    reachable base s -> reported_full s t -> run s ops = Ok s2 -> lvl_ge L_FULL t s2.
Proof. exact reported_full_persists. Qed.
Print Assumptions C20_reported_full_persists.

Theorem C20_later_reactivation :
  forall base s t ops s2 b2,
    reachable base s -> reported_full s t ->
    run s ops = Ok s2 ->
    find ccmd (blocks _ _ s2) t = Some b2 -> is_failed _ b2 = false ->
    exists s3, c_setState s2 t = Ok (s3, true).
Proof. exact later_reactivation. Qed.
Print Assumptions C20_later_reactivation.

Theorem C20_react_sweep_sound :
  forall base ids s s' l,
    reachable base s -> react_seq s ids = Ok (s', l) ->
    reachable base s' /\ map fst l = ids /\
    forall t, In (t, false) l -> lvl_ge L_FULL t s ->
              exists ops s1 b1, run s ops = Ok s1 /\ find ccmd (blocks _ _ s1) t = Some b1 /\ is_failed _ b1 = true.
Proof. exact react_seq_sound. Qed.
Print Assumptions C20_react_sweep_sound.

Theorem C20_full_means_validated_alone :
  forall base s to bto,
    reachable base s -> find ccmd (blocks _ _ s) to = Some bto -> valid_upto _ bto L_FULL = true ->
    (forall i, Z.of_nat i <= dep s to ->
               exists b, find ccmd (blocks _ _ s) (up (cores s) i to) = Some b /\ N.le L_FULL (b_lvl _ b) /\ is_failed _ b = false) /\
    exists p', replay (bgs s (depth s to) to) base = Some p'.
Proof. exact full_means_validated_alone. Qed.
Print Assumptions C20_full_means_validated_alone.

Theorem C20_never_full_unless_valid_alone :
  forall base s b,
    reachable base s -> In b (blocks _ _ s) ->
    replay (bgs s (depth s (b_id _ b)) (b_id _ b)) base = None ->
    N.leb L_FULL (b_lvl _ b) = false.
Proof. exact never_full_unless_valid_alone. Qed.
Print Assumptions C20_never_full_unless_valid_alone.

Theorem C20_apply_executes_in_order :
  forall s i s' b,
    c_applyBlock s i = Ok (s', true) -> find ccmd (blocks _ _ s) i = Some b ->
    gexec pstate ccmd cexec cunexec nil (concat (b_gs _ b)) (pst _ _ s) = (pst _ _ s', true).
Proof. exact apply_executes_in_order. Qed.
Print Assumptions C20_apply_executes_in_order.

Theorem C20_unapply_reverts_in_reverse :
  forall s i s' b,
    c_unapplyBlock s i = Ok s' -> find ccmd (blocks _ _ s) i = Some b ->
    pst _ _ s' = undo pstate ccmd cunexec (rev (concat (b_gs _ b))) (pst _ _ s).
Proof. exact unapply_reverts_in_reverse. Qed.
Print Assumptions C20_unapply_reverts_in_reverse.

Theorem C20_unvalidated_unapplied_first :
  forall fuel s cur to s' w,
    unapplyWhile pstate ccmd cunexec fuel s cur to (not_full ccmd) = Ok (s', w) ->
    w = to \/ exists bw, find ccmd (blocks _ _ s') w = Some bw /\ valid_upto _ bw L_FULL = true.
Proof. exact unvalidated_unapplied_first. Qed.
Print Assumptions C20_unvalidated_unapplied_first.
