(** The coded BTC retarget rules (BtcDefs) equal Bitcoin's rules (BtcSpec)
    wherever no machine width wraps; the pre-fix uint32 timespan does not. *)
From Coq Require Import ZArith Lia Bool List.
From VB Require Import Arith.CompactDefs Gen.ChainParams Pow.PowBase Pow.BtcDefs Pow.BtcSpec Pow.MedianProofs.
Import ListNotations.
Local Open Scope Z_scope.
Ltac Zify.zify_post_hook ::= Z.div_mod_to_equations.

(** two's complement reading of the low bits, for any half-range [M] (2^31 for [s32], 2^63 for [s64]) *)
Lemma wrap_small M z : - M <= z < M ->
  (let w := z mod (2 * M) in if w <? M then w else w - 2 * M) = z.
Proof.
  intros H. cbv zeta. destruct (Z.neg_nonneg_cases z).
  - rewrite <- (Z.mod_unique z (2 * M) (-1) (z + 2 * M)) by lia.
    destruct (Z.ltb_spec (z + 2 * M) M); lia.
  - rewrite Z.mod_small by lia. destruct (Z.ltb_spec z M); lia.
Qed.

Lemma s32_small z : - 2 ^ 31 <= z < 2 ^ 31 -> s32 z = z.
Proof. exact (wrap_small (2 ^ 31) z). Qed.

Lemma s64_small z : - 2 ^ 63 <= z < 2 ^ 63 -> s64 z = z.
Proof. exact (wrap_small (2 ^ 63) z). Qed.

Lemma u32_small z : 0 <= z < 2 ^ 32 -> u32 z = z.
Proof. apply Z.mod_small. Qed.

Lemma u256_small z : 0 <= z < two256 -> u256 z = z.
Proof. apply Z.mod_small. Qed.

Lemma gt_cap a b : (if a >? b then b else a) = Z.min b a.
Proof. rewrite Z.gtb_ltb. destruct (Z.ltb_spec b a); lia. Qed.

Lemma floor_max lo d : (if d <? lo then lo else d) = Z.max lo d.
Proof. destruct (Z.ltb_spec d lo); lia. Qed.

Lemma target_of_range c : 0 <= target_of c < two256.
Proof.
  unfold target_of, fromBits. cbn [fst].
  destruct (Z.leb_spec (Z.shiftr c 24) 3) as [Hs|_]; [|apply Z.mod_pos_bound; reflexivity].
  (* a 23-bit word shifted right *)
  change 8388607 with (Z.ones 23). rewrite Z.land_ones, Z.shiftr_div_pow2 by lia.
  pose proof (Z.mod_pos_bound c (2 ^ 23) eq_refl) as Hm.
  set (w := c mod 2 ^ 23) in *. set (k := 8 * (3 - Z.shiftr c 24)).
  assert (Hk : 0 < 2 ^ k) by (apply Z.pow_pos_nonneg; lia).
  split; [apply Z.div_pos; lia|].
  apply Z.le_lt_trans with (w / 1); [apply Z.div_le_compat_l; lia|].
  rewrite Z.div_1_r. apply Z.lt_trans with (2 ^ 23); [apply Hm | reflexivity].
Qed.

Theorem btc_calc_spec : forall p tipTime tipBits firstTime,
  btc_params_ok p -> bp_no_retarget p = false ->
  0 <= tipTime < 2 ^ 32 -> 0 <= firstTime < 2 ^ 32 ->
  0 <= target_of tipBits <= bp_pow_limit p ->
  btc_calc p tipTime tipBits firstTime =
  Ok (toBits (spec_calc (bp_pow_limit p) (bp_timespan p) tipTime firstTime (target_of tipBits)) false).
Proof.
  intros p tipTime tipBits firstTime (Hsp & HspT & HT4 & Hlim0 & Hovf) Hnr Htip Hfirst Htgt.
  unfold btc_calc, spec_calc. rewrite Hnr. cbv zeta.
  set (T := bp_timespan p) in *. set (L := bp_pow_limit p) in *. set (tg := target_of tipBits) in *.
  (* the 256-bit product stays below limit * 4T; 2^256 is kept away from lia, which pays for the size of
     every constant in sight *)
  assert (Hmul : forall s, 0 <= s <= T * 4 -> u256 (tg * s) = tg * s).
  { intros s Hs. apply u256_small. split; [apply Z.mul_nonneg_nonneg; [apply Htgt | apply Hs]|].
    apply Z.le_lt_trans with (L * (T * 4)); [apply Z.mul_le_mono_nonneg; first [apply Htgt | apply Hs] | exact Hovf]. }
  clear Hovf.
  assert (Hq : 0 <= T / 4 <= T) by lia.
  set (q := T / 4) in *. clearbody q.
  assert (Hd : - 2 ^ 32 < tipTime - firstTime < 2 ^ 32) by lia.
  set (d := tipTime - firstTime) in *. clearbody d. clear Htip Hfirst.
  rewrite (s64_small d), (s64_small q), (s64_small (T * 4)) by lia.
  rewrite floor_max, (gt_cap (Z.max q d)).
  set (span := Z.min (T * 4) (Z.max q d)).
  assert (Hspan : 0 <= span <= T * 4) by (unfold span; lia).
  clearbody span. clear Hq Hd.
  rewrite (u32_small span), Hmul by lia.
  rewrite (proj2 (Z.eqb_neq T 0)), gt_cap by lia. reflexivity.
Qed.

Lemma btc_walk_back_spec : forall I lim chain h,
  0 <= h - zlen chain + 1 -> h < 2 ^ 32 ->
  btc_walk_back I lim h chain = spec_last_non_min I lim h chain.
Proof.
  intros I lim chain. induction chain as [|b rest IH]; intros h Hroot Hh; [reflexivity|].
  cbn [btc_walk_back spec_last_non_min].
  destruct rest as [|c rest']; [reflexivity|].
  rewrite !zlen_cons in Hroot. pose proof (zlen_nonneg rest') as Hn.
  rewrite (u32_small h), IH by (rewrite ?zlen_cons; lia).
  destruct (h mod I =? 0), (x_bits b =? lim); reflexivity.
Qed.

Theorem btc_next_work_spec : forall p h chain btime,
  btc_params_ok p -> chain <> [] -> chain_times_ok chain ->
  0 <= h - zlen chain + 1 -> h + 1 < 2 ^ 31 -> 0 <= btime < 2 ^ 32 ->
  (forall b, In b chain -> 0 <= target_of (x_bits b) <= bp_pow_limit p) ->
  (match chain with prev :: _ => x_time prev + 2 * bp_spacing p < 2 ^ 32 | [] => True end) ->
  btc_next_work p h chain btime =
  match spec_next_bits p h chain btime with Some b => Ok b | None => Abort end.
Proof.
  intros p h chain btime Hok Hne Htimes Hroot Hh Hbt Htg Hwrap.
  destruct chain as [|prev rest]; [congruence|]. clear Hne.
  pose proof Hok as (Hsp & HspT & HT4 & _).
  assert (Hlen : 1 <= zlen (prev :: rest)) by (rewrite zlen_cons; pose proof (zlen_nonneg rest); lia).
  unfold chain_times_ok in Htimes. rewrite Forall_forall in Htimes.
  pose proof (Htimes prev (or_introl eq_refl)) as Hprev.
  unfold btc_next_work, btc_next_work_with, spec_next_bits, bp_interval.
  set (T := bp_timespan p) in *. set (S := bp_spacing p) in *.
  set (chain := prev :: rest) in *.
  assert (HI : 0 < T / S) by (apply Z.div_str_pos; lia).
  set (I := T / S) in *. clearbody I.
  rewrite (proj2 (Z.eqb_neq S 0)), (proj2 (Z.eqb_neq I 0)) by lia.
  cbv zeta.
  rewrite (u32_small (h + 1)) by lia.
  destruct ((h + 1) mod I =? 0); cbn [negb].
  - unfold znth_error. rewrite (proj2 (Z.ltb_ge (I - 1) 0)) by lia.
    destruct (nth_error chain (Z.to_nat (I - 1))) as [first|] eqn:Hnth; [|reflexivity].
    destruct (bp_no_retarget p) eqn:Hnr.
    + unfold btc_calc. rewrite Hnr. reflexivity.
    + apply btc_calc_spec; try assumption.
      * apply Htimes. eapply nth_error_In, Hnth.
      * apply Htg. left. reflexivity.
  - destruct (bp_allow_min p); [|reflexivity].
    rewrite (Z.mul_comm S 2), (u32_small (2 * S)), (u32_small (x_time prev + 2 * S)), Z.gtb_ltb by lia.
    destruct (x_time prev + 2 * S <? btime); [reflexivity|].
    rewrite btc_walk_back_spec by lia. reflexivity.
Qed.

Ltac zclosed := vm_compute; first [reflexivity | discriminate | split; first [reflexivity | discriminate]].

Lemma btc_main_params_ok : btc_params_ok btc_main.
Proof. repeat apply conj; zclosed. Qed.

(** the testnet constants that enter the bounds are those of mainnet *)
Lemma btc_test_params_ok : btc_params_ok btc_test.
Proof. exact btc_main_params_ok. Qed.

Corollary btc_main_calc_spec : forall tipTime tipBits firstTime,
  0 <= tipTime < 2 ^ 32 -> 0 <= firstTime < 2 ^ 32 ->
  0 <= target_of tipBits <= btc_main_pow_limit ->
  btc_calc btc_main tipTime tipBits firstTime =
  Ok (toBits (spec_calc btc_main_pow_limit btc_main_timespan tipTime firstTime (target_of tipBits)) false).
Proof.
  intros. apply (btc_calc_spec btc_main); [apply btc_main_params_ok | reflexivity | assumption ..].
Qed.

(** defect F7: the uint32 timespan of the old code is not Bitcoin's rule.
    Witness: mainnet, a tip 1000 s older than the first block of its interval. *)

Lemma f7_witness_target : 0 <= target_of 469827583 <= btc_main_pow_limit.
Proof. split; [apply target_of_range | zclosed]. Qed.

Example btc_timespan_fixed_on_witness :
  btc_calc btc_main 1000 469827583 2000 =
  Ok (toBits (spec_calc (bp_pow_limit btc_main) (bp_timespan btc_main) 1000 2000 (target_of 469827583)) false).
Proof. apply btc_main_calc_spec; [zclosed | zclosed | exact f7_witness_target]. Qed.

Theorem btc_timespan_v0_refuted : exists p tipTime tipBits firstTime,
  btc_params_ok p /\ bp_no_retarget p = false /\
  0 <= tipTime < 2 ^ 32 /\ 0 <= firstTime < 2 ^ 32 /\
  0 <= target_of tipBits <= bp_pow_limit p /\
  btc_calc_v0 p tipTime tipBits firstTime <>
  Ok (toBits (spec_calc (bp_pow_limit p) (bp_timespan p) tipTime firstTime (target_of tipBits)) false).
Proof.
  exists btc_main, 1000, 469827583, 2000.
  split; [apply btc_main_params_ok|]. split; [reflexivity|].
  split; [zclosed|]. split; [zclosed|]. split; [exact f7_witness_target|].
  vm_compute. discriminate.
Qed.

(** the premises of [btc_next_work_spec] are satisfiable: a retarget on a
    small chain (timespan 16, spacing 2, interval 8, 8 blocks, heights 0..7) *)

Definition ex_params : BtcParams := mkBtcParams (2 ^ 248 - 1) 16 2 true false 7200.
Definition ex_bits : Z := 520159231. (* 0x1f00ffff *)
Definition ex_chain : list bidx :=
  [ mkBidx 8 1040 ex_bits; mkBidx 7 1030 ex_bits; mkBidx 6 1025 ex_bits; mkBidx 5 1020 ex_bits;
    mkBidx 4 1015 ex_bits; mkBidx 3 1010 ex_bits; mkBidx 2 1005 ex_bits; mkBidx 1 1000 ex_bits ].

Example btc_next_work_example :
  btc_next_work ex_params 7 ex_chain 1045 =
  match spec_next_bits ex_params 7 ex_chain 1045 with Some b => Ok b | None => Abort end
  /\ spec_next_bits ex_params 7 ex_chain 1045 = Some 520257533 (* 0x1f027ffd: target * 40 / 16 *).
Proof.
  split; [|vm_compute; reflexivity].
  apply btc_next_work_spec.
  - repeat apply conj; zclosed.
  - discriminate.
  - repeat constructor; zclosed.
  - zclosed.
  - zclosed.
  - zclosed.
  - assert (Hb : 0 <= target_of ex_bits <= bp_pow_limit ex_params) by (split; [apply target_of_range | zclosed]).
    intros b Hin. repeat (destruct Hin as [<-|Hin]; [exact Hb|]). destruct Hin.
  - zclosed.
Qed.
