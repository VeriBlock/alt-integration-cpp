(** Block proof (work of one block): Bitcoin's 2^256 / (target + 1), computed in 256 bits;
    the divisor of the double step of the VBK retarget is positive for the real parameter sets. *)
From Coq Require Import ZArith Lia Bool List.
From VB Require Import Arith.CompactDefs Pow.PowBase Pow.BtcDefs Pow.VbkDefs Gen.ChainParams Pow.BtcProofs.
Local Open Scope Z_scope.
Ltac Zify.zify_post_hook ::= Z.div_mod_to_equations.

Lemma btc_work_formula t : 1 <= t < two256 - 1 ->
  u256 ((two256 - 1 - t) / u256 (t + 1) + 1) = two256 / (t + 1).
Proof.
  intros Ht. assert (P : 0 < two256) by reflexivity.
  rewrite (u256_small (t + 1)) by lia.
  replace ((two256 - 1 - t) / (t + 1) + 1) with (two256 / (t + 1)).
  - apply u256_small. split; [apply Z.div_pos; lia | apply Z.div_lt; lia].
  - replace two256 with (two256 - 1 - t + 1 * (t + 1)) at 1 by lia. apply Z.div_add. lia.
Qed.

Lemma btc_block_proof_spec bits t :
  fromBits bits = (t, false, false) -> 1 <= t < two256 - 1 ->
  btc_block_proof bits = two256 / (t + 1).
Proof.
  intros E Ht. unfold btc_block_proof. rewrite E. cbn [orb].
  destruct (Z.eqb_spec t 0); [lia|]. apply btc_work_formula. exact Ht.
Qed.

Lemma vbk_block_proof_spec bits t :
  fromBits bits = (t, false, false) -> t <> 0 -> vbk_block_proof bits = t.
Proof.
  intros E Ht. unfold vbk_block_proof. rewrite E. cbn [orb].
  destruct (Z.eqb_spec t 0); [contradiction|reflexivity].
Qed.

(** K of the real VBK parameter sets (constants regenerated from vbk_chain_params.hpp):
    K >= 10, so the clamped t = max(t, K/10) is positive and K / t is a finite double *)
Lemma vbk_real_K : vbk_K vbk_main = 148500 /\ vbk_K vbk_test = 148500 /\ 10 <= vbk_K vbk_regtest.
Proof. vm_compute. repeat split; discriminate. Qed.

Lemma vbk_t_positive K t : 10 <= K < 2 ^ 31 ->
  0 < (if t <? s32 (K / 10) then s32 (K / 10) else t).
Proof.
  intros HK. rewrite s32_small, floor_max; lia.
Qed.

Example btc_block_proof_example : btc_block_proof 486604799 = 4295032833.
Proof. vm_compute. reflexivity. Qed.
