(** The VBK retarget (getNextWorkRequired): no dependence on an earlier call, never below the
    minimum difficulty, the process-wide static K of the old code refuted (defect F6);
    validateKeystones = keystone arithmetic. *)
From Coq Require Import ZArith Lia Bool List.
From VB Require Import Arith.CompactDefs Pow.PowBase Pow.BtcDefs Pow.VbkDefs Pow.VbkFloat Pow.BtcProofs.
Import ListNotations.
Local Open Scope Z_scope.

(** the current code: the result does not depend on any earlier call. Stated
    against the stateful shape of the old code: whatever the "static" of an
    imaginary earlier call was, the present definition ignores it. *)
Lemma vbk_next_work_history_independent :
  forall coef (earlier : option Z) p h chain,
    vbk_next_work coef p h chain = vbk_next_work_K coef (vbk_K p) p h chain /\
    fst (vbk_next_work_v0 coef None p h chain) = vbk_next_work coef p h chain /\
    (earlier = Some (vbk_K p) -> fst (vbk_next_work_v0 coef earlier p h chain) = vbk_next_work coef p h chain).
Proof.
  intros. unfold vbk_next_work, vbk_next_work_v0. cbn [fst].
  repeat split. intros ->. reflexivity.
Qed.

Lemma min_diff_floor m s r :
  0 <= m -> m + 500000 < two256 ->
  (if s <? m then Ok (toBits (u256 (m + 500000)) false) else Ok (toBits s false)) = Ok r ->
  exists x, r = toBits x false /\ m <= x.
Proof.
  intros Hm0 Hm1. destruct (Z.ltb_spec s m) as [Hs|Hs]; intros [= <-].
  - exists (m + 500000). rewrite u256_small by (split; [lia | exact Hm1]). split; [reflexivity | lia].
  - exists s. split; [reflexivity | exact Hs].
Qed.

Lemma vbk_next_work_bounds :
  forall coef p h chain r,
    0 <= vp_min_diff p -> vp_min_diff p + 500000 < two256 ->
    vp_no_retarget p = false -> vp_N p <= u32 h ->
    vbk_next_work coef p h chain = Ok r ->
    exists x, r = toBits x false /\ vp_min_diff p <= x.
Proof.
  intros coef p h chain r Hm0 Hm1 Hnr HN.
  unfold vbk_next_work, vbk_next_work_K.
  destruct chain as [|prev rest]; [discriminate|].
  rewrite Hnr, (proj2 (Z.ltb_ge _ _) HN). cbn [orb].
  destruct (vbk_loop _ _ _ 0 0 0) as [sum t].
  destruct (u32 (vp_N p - 1) =? 0); [discriminate|].
  destruct (coef _ _) as [c|]; [|discriminate].
  apply min_diff_floor; assumption.
Qed.

(** the pre-fix code (static K) is refuted: two calls with different parameter
    sets in one process; the second result is not the one the function of
    (params, ancestors) prescribes. Witness evaluated with primitive floats. *)
Definition f6_p1 := mkVbkParams 1 false 5 10 300 4.
Definition f6_p2 := mkVbkParams 1 false 3 30 300 5.
Definition f6_chain : list bidx :=
  [mkBidx 4 1090 19398656; mkBidx 3 1060 19398656; mkBidx 2 1030 19398656; mkBidx 1 1000 19398656].

Lemma vbk_static_K_v0_refuted :
  exists p1 h1 c1 p2 h2 c2,
    let s := snd (vbk_next_work_v0_f None p1 h1 c1) in
    fst (vbk_next_work_v0_f s p2 h2 c2) <> vbk_next_work_f p2 h2 c2.
Proof.
  exists f6_p1, 3, f6_chain, f6_p2, 3, f6_chain.
  vm_compute. discriminate.
Qed.

Example vbk_static_K_first_call_ok :
  fst (vbk_next_work_v0_f None f6_p2 3 f6_chain) = vbk_next_work_f f6_p2 3 f6_chain.
Proof. exact (proj1 (proj2 (vbk_next_work_history_independent vbk_coef None f6_p2 3 f6_chain))). Qed.

(** the previous keystone of a block whose parent has height h is the block at
    the largest multiple of KI strictly below h; the second one KI lower; a
    keystone that would lie below height 0 must be all zeroes *)
Definition spec_keystones (KI h : Z) (chain : list bidx) (ks1 ks2 : Z) : bool :=
  let k1 := (h - 1) / KI * KI in
  let k2 := k1 - KI in
  let check k ks :=
    if 0 <=? k then match znth_error chain (h - k) with Some a => x_id a =? ks | None => false end
    else ks =? 0 in
  check k1 ks1 && check k2 ks2.

Lemma keystone_offset KI h : 0 < KI < 2 ^ 32 ->
  let d1 := if h mod KI =? 0 then u32 (h mod KI + KI) else h mod KI in
  (h - 1) / KI * KI = h - d1 /\ 0 < d1 <= KI.
Proof.
  intros HK. cbv zeta.
  pose proof (Z.mod_pos_bound h KI (proj1 HK)) as Hr. pose proof (Z.div_mod h KI) as Eh.
  set (q := h / KI) in *. set (r := h mod KI) in *. clearbody q r.
  destruct (Z.eqb_spec r 0) as [->|E].
  - rewrite u32_small, <- (Z.div_unique (h - 1) KI (q - 1) (KI - 1)) by lia. lia.
  - rewrite <- (Z.div_unique (h - 1) KI q (r - 1)) by lia. lia.
Qed.

Lemma leb_sub a b : (0 <=? b - a) = (a <=? b).
Proof. destruct (Z.leb_spec 0 (b - a)), (Z.leb_spec a b); lia. Qed.

Lemma keystones_spec :
  forall p h chain ks1 ks2,
    0 < vp_ks p < 2 ^ 29 -> 0 <= h < 2 ^ 31 ->
    vbk_validate_keystones p h chain ks1 ks2 = Ok (spec_keystones (vp_ks p) h chain ks1 ks2).
Proof.
  intros p h chain ks1 ks2 HK Hh.
  unfold vbk_validate_keystones, spec_keystones. cbv zeta.
  set (KI := vp_ks p) in *.
  rewrite (proj2 (Z.eqb_neq KI 0)), (u32_small h) by lia.
  destruct (keystone_offset KI h) as [-> Hd]; [lia|].
  set (d1 := if h mod KI =? 0 then _ else _) in *. clearbody d1.
  replace (h - d1 - KI) with (h - (d1 + KI)) by lia. rewrite !leb_sub.
  replace (h - (h - d1)) with d1 by lia. replace (h - (h - (d1 + KI))) with (d1 + KI) by lia.
  unfold vbk_ks_one. rewrite (u32_small (d1 + KI)), !s32_small by lia.
  match goal with |- (if negb ?c then _ else _) = _ => destruct c end; reflexivity.
Qed.

Example keystones_spec_example :
  vbk_validate_keystones vbk_main 41
    (map (fun i => mkBidx (42 - Z.of_nat i) 0 0) (seq 0 42)) 41 21 = Ok true.
Proof. vm_compute. reflexivity. Qed.
