(** Proofs about the abstract PoW block tree (BestChainDefs / AcceptDefs):

    1. [pow_best_chain_*]: after ANY sequence of acceptBlockHeader /
       invalidateSubtree(off-chain block) operations the best tip is a valid
       block of maximal chain work, and every valid block inserted earlier than
       the tip has strictly less chain work (earliest-seen wins ties).
    2. [chainwork_sum_*]: for every stored block, chainWork equals (mod 2^256)
       the sum of getBlockProof over its ancestor chain. *)
From Coq Require Import ZArith Lia Bool List.
From VB Require Import Arith.CompactDefs Pow.PowBase Pow.BtcDefs Pow.VbkDefs
  Pow.BestChainDefs Pow.AcceptDefs Pow.BtcProofs.
Import ListNotations.
Local Open Scope Z_scope.

(** blocks are newest-first, so [older] = inserted earlier than the tip *)
Definition best_tip_ok (st : tree) : Prop :=
  exists newer older,
    t_blocks st = newer ++ t_tip st :: older /\
    k_valid (t_tip st) = true /\
    (forall b, In b newer -> k_valid b = true -> k_work b <= k_work (t_tip st)) /\
    (forall b, In b older -> k_valid b = true -> k_work b < k_work (t_tip st)).

Lemma find_blk_In bs id b : find_blk bs id = Some b -> In b bs.
Proof.
  induction bs as [|x r IH]; cbn [find_blk]; intros H.
  - discriminate.
  - destruct (k_id x =? id).
    + injection H as ->. left; reflexivity.
    + right; auto.
Qed.

Lemma find_blk_None_id bs id b : find_blk bs id = None -> In b bs -> k_id b <> id.
Proof.
  induction bs as [|x r IH]; cbn [find_blk]; intros H Hin.
  - destruct Hin.
  - destruct (Z.eqb_spec (k_id x) id) as [E|E]; [discriminate|].
    destruct Hin as [->|Hin]; auto.
Qed.

Lemma best_tip_In st : best_tip_ok st -> In (t_tip st) (t_blocks st).
Proof.
  intros (nw & od & E & _). rewrite E. apply in_or_app. right. left. reflexivity.
Qed.

(** every valid stored block has at most the tip's work *)
Lemma best_tip_max st b :
  best_tip_ok st -> In b (t_blocks st) -> k_valid b = true -> k_work b <= k_work (t_tip st).
Proof.
  intros (nw & od & E & _ & Hn & Ho) Hin Hv. rewrite E in Hin.
  apply in_app_or in Hin. destruct Hin as [Hin|[<-|Hin]].
  - auto.
  - lia.
  - specialize (Ho b Hin Hv). lia.
Qed.

(** determineBestChain never switches to a candidate already in the tree *)
Lemma determine_existing st cand :
  best_tip_ok st -> In cand (t_blocks st) -> determine st cand = st.
Proof.
  intros Hok Hin. unfold determine.
  destruct (k_id (t_tip st) =? k_id cand); [reflexivity|].
  destruct (k_valid cand) eqn:Hv; cbn [negb]; [|reflexivity].
  destruct (Z.ltb_spec (k_work (t_tip st)) (k_work cand)) as [L|L]; [|reflexivity].
  pose proof (best_tip_max st cand Hok Hin Hv). lia.
Qed.

Lemma determine_blocks st cand : t_blocks (determine st cand) = t_blocks st.
Proof.
  unfold determine.
  destruct (k_id (t_tip st) =? k_id cand); [reflexivity|].
  destruct (negb (k_valid cand)); [reflexivity|].
  destruct (k_work (t_tip st) <? k_work cand); reflexivity.
Qed.

Lemma best_tip_push st nb :
  best_tip_ok st -> (k_valid nb = true -> k_work nb <= k_work (t_tip st)) ->
  best_tip_ok (mkTree (nb :: t_blocks st) (t_tip st)).
Proof.
  intros (nw & od & E & Hv & Hn & Ho) Hnb. exists (nb :: nw), od. cbn [t_blocks t_tip].
  split; [rewrite E; reflexivity|]. split; [exact Hv|]. split; [|exact Ho].
  intros b [<-|Hin]; [exact Hnb | exact (Hn b Hin)].
Qed.

Lemma best_tip_switch st nb :
  best_tip_ok st -> k_valid nb = true -> k_work (t_tip st) < k_work nb ->
  best_tip_ok (mkTree (nb :: t_blocks st) nb).
Proof.
  intros Hok Hv Hw. exists [], (t_blocks st). cbn [t_blocks t_tip app].
  split; [reflexivity|]. split; [exact Hv|]. split; [intros b []|].
  intros b Hin Hbv. pose proof (best_tip_max st b Hok Hin Hbv). lia.
Qed.

(** what [insert_header] and [invalidate_fork] do to a tree, one step at a time *)
Inductive tstep (proof : Z -> Z) (st : tree) : tree -> Prop :=
| step_known c : In c (t_blocks st) -> tstep proof st (determine st c)
| step_new nb pb :
    find_blk (t_blocks st) (k_parent nb) = Some pb -> find_blk (t_blocks st) (k_id nb) = None ->
    k_work nb = u256 (proof (k_bits nb) + k_work pb) ->
    tstep proof st (let st' := mkTree (nb :: t_blocks st) (t_tip st) in
                    if k_valid nb then determine st' nb else st')
| step_inval f :
    (forall x, k_id (f x) = k_id x /\ k_parent (f x) = k_parent x /\ k_bits (f x) = k_bits x /\
               k_work (f x) = k_work x /\ (k_valid (f x) = true -> k_valid x = true)) ->
    f (t_tip st) = t_tip st -> tstep proof st (mkTree (map f (t_blocks st)) (t_tip st)).

Definition accept_inserts (proof : Z -> Z) (accept : tree -> hdr -> tree * code) : Prop :=
  forall st hd,
    fst (accept st hd) = st \/
    fst (accept st hd) =
      fst (insert_header proof st (h_id hd) (h_parent hd) (h_time hd) (h_bits hd)).

Lemma run_invariant (Inv : tree -> Prop) proof accept :
  accept_inserts proof accept -> (forall st st', tstep proof st st' -> Inv st -> Inv st') ->
  forall ops st, Inv st -> Inv (run accept st ops).
Proof.
  intros Hacc Hstep ops. unfold run. induction ops as [|o r IH]; intros st H; cbn [fold_left]; [exact H|].
  apply IH. destruct o as [hd|b order]; cbn [run_op].
  - destruct (Hacc st hd) as [->| ->]; [exact H|]. unfold insert_header.
    destruct (find_blk (t_blocks st) (h_parent hd)) as [pb|] eqn:Hp; [|exact H].
    destruct (find_blk (t_blocks st) (h_id hd)) as [ex|] eqn:Hid.
    + destruct (k_valid pb); cbn [fst]; [|exact H].
      apply (Hstep st), H. apply step_known. eapply find_blk_In, Hid.
    + epose proof (step_new proof st (mkBlk _ _ _ _ (h_bits hd) (u256 (proof (h_bits hd) + k_work pb)) (k_valid pb))
                              pb Hp Hid eq_refl) as S.
      cbn [k_valid] in S. revert S. destruct (k_valid pb); intros S; exact (Hstep st _ S H).
  - unfold invalidate_fork.
    destruct (find_blk (t_blocks st) b) as [fb|]; [|exact H].
    destruct (in_subtree (t_blocks st) b (t_tip st)) eqn:Htip; [exact H|].
    cbn [fst]. set (s := mkTree _ _). assert (Hs : Inv s).
    { apply (Hstep st), H. apply step_inval; [|now rewrite Htip].
      intros x. destruct (in_subtree (t_blocks st) b x); cbn; now repeat split. }
    clearbody s. revert s Hs. induction order as [|i r' IHo]; intros s Hs; cbn [fold_left]; [exact Hs|]. apply IHo.
    destruct (find_blk (t_blocks s) i) as [c|] eqn:Hc; [|exact Hs].
    apply (Hstep s), Hs. apply step_known. eapply find_blk_In, Hc.
Qed.

Lemma best_tip_step proof st st' : tstep proof st st' -> best_tip_ok st -> best_tip_ok st'.
Proof.
  intros [c Hin | nb pb _ Hid _ | f Hf Htip] Hok.
  - now rewrite determine_existing.
  - cbv zeta. destruct (k_valid nb) eqn:Hv; [|apply best_tip_push; [exact Hok | congruence]].
    unfold determine. cbn [t_tip t_blocks]. rewrite Hv.
    rewrite (proj2 (Z.eqb_neq _ _) (find_blk_None_id _ _ _ Hid (best_tip_In st Hok))). cbn [negb].
    destruct (Z.ltb_spec (k_work (t_tip st)) (k_work nb)) as [L|L].
    + now apply best_tip_switch.
    + apply best_tip_push; [exact Hok | intros _; exact L].
  - destruct Hok as (nw & od & E & Hv & Hn & Ho).
    exists (map f nw), (map f od). cbn [t_blocks t_tip].
    split; [rewrite E, map_app; cbn [map]; now rewrite Htip|].
    split; [exact Hv|].
    split; intros y Hin Hyv; apply in_map_iff in Hin; destruct Hin as (x & <- & Hin);
      destruct (Hf x) as (_ & _ & _ & -> & Hxv); auto.
Qed.

Lemma genesis_ok proof id time bits : best_tip_ok (genesis_tree proof id time bits).
Proof.
  unfold genesis_tree. exists [], []. cbn [t_blocks t_tip app k_valid]. repeat split.
  - intros b [].
  - intros b [].
Qed.

Lemma finish_accept_inserts proof st hd c :
  fst (finish_accept proof st hd c) = st \/
  fst (finish_accept proof st hd c) =
    fst (insert_header proof st (h_id hd) (h_parent hd) (h_time hd) (h_bits hd)).
Proof.
  unfold finish_accept. destruct c; try (left; reflexivity).
  right. destruct (insert_header proof st (h_id hd) (h_parent hd) (h_time hd) (h_bits hd)).
  reflexivity.
Qed.

Lemma btc_accept_inserts p : accept_inserts btc_block_proof (btc_accept p).
Proof. intros st hd. unfold btc_accept. apply finish_accept_inserts. Qed.

Lemma vbk_accept_inserts coef p : accept_inserts vbk_block_proof (vbk_accept coef p).
Proof. intros st hd. unfold vbk_accept. apply finish_accept_inserts. Qed.

Theorem pow_best_chain_btc : forall p ops gid gtime gbits,
  best_tip_ok (run (btc_accept p) (genesis_tree btc_block_proof gid gtime gbits) ops).
Proof.
  intros. apply (run_invariant _ _ _ (btc_accept_inserts p) (best_tip_step _)), genesis_ok.
Qed.

Theorem pow_best_chain_vbk : forall coef p ops gid gtime gbits,
  best_tip_ok (run (vbk_accept coef p) (genesis_tree vbk_block_proof gid gtime gbits) ops).
Proof.
  intros. apply (run_invariant _ _ _ (vbk_accept_inserts coef p) (best_tip_step _)), genesis_ok.
Qed.

(** sum of the block proofs over a list of blocks *)
Definition wsum (proof : Z -> Z) (l : list blk) : Z :=
  fold_right (fun x acc => proof (k_bits x) + acc) 0 l.

(** every stored block's chainWork is the (mod 2^256) sum of the block proofs
    over its ancestor chain, the chain being looked up among the blocks inserted
    before it (the suffix of the newest-first list) *)
Definition work_sum_ok (proof : Z -> Z) (st : tree) : Prop :=
  forall pre b post, t_blocks st = pre ++ b :: post ->
    k_work b = u256 (wsum proof (b :: chain_of post (k_parent b))).

Lemma u256_add_idemp_r a b : u256 (a + u256 b) = u256 (a + b).
Proof. unfold u256. apply Zplus_mod_idemp_r. Qed.

(** [find_blk] returns the first occurrence, which is where [chain_of] starts *)
Lemma find_blk_chain bs id pb :
  find_blk bs id = Some pb ->
  exists pre post, bs = pre ++ pb :: post /\
                   chain_of bs id = pb :: chain_of post (k_parent pb).
Proof.
  induction bs as [|x r IH]; cbn [find_blk chain_of]; intros H; [discriminate|].
  destruct (k_id x =? id).
  - injection H as ->. exists [], r. split; reflexivity.
  - destruct (IH H) as (pre & post & -> & E).
    exists (x :: pre), post. split; [reflexivity|exact E].
Qed.

Lemma chain_of_map (f : blk -> blk) bs :
  (forall x, k_id (f x) = k_id x) -> (forall x, k_parent (f x) = k_parent x) ->
  forall id, chain_of (map f bs) id = map f (chain_of bs id).
Proof.
  intros Hi Hp. induction bs as [|x r IH]; intros id; cbn [map chain_of]; [reflexivity|].
  rewrite Hi, Hp. destruct (k_id x =? id); cbn [map]; rewrite IH; reflexivity.
Qed.

Lemma wsum_map proof (f : blk -> blk) l :
  (forall x, k_bits (f x) = k_bits x) -> wsum proof (map f l) = wsum proof l.
Proof.
  intros Hb. induction l as [|x r IH]; cbn [map wsum fold_right]; [reflexivity|].
  fold (wsum proof (map f r)). fold (wsum proof r). rewrite Hb, IH. reflexivity.
Qed.

Lemma work_sum_blocks proof st st' :
  t_blocks st' = t_blocks st -> work_sum_ok proof st -> work_sum_ok proof st'.
Proof. intros E H pre b post Hs. apply (H pre b post). rewrite <- E. exact Hs. Qed.

Lemma work_sum_step proof st st' : tstep proof st st' -> work_sum_ok proof st -> work_sum_ok proof st'.
Proof.
  intros [c _ | nb pb Hp _ Hw | f Hf _] Hok.
  - eapply work_sum_blocks; [apply determine_blocks | exact Hok].
  - apply (work_sum_blocks _ (mkTree (nb :: t_blocks st) (t_tip st))).
    { cbv zeta. destruct (k_valid nb); [apply determine_blocks | reflexivity]. }
    intros pre b post Hs. cbn [t_blocks] in Hs. destruct pre as [|x pre']; cbn [app] in Hs.
    + injection Hs as <- <-. destruct (find_blk_chain _ _ _ Hp) as (pre1 & post1 & E1 & Ec).
      rewrite Hw, Ec, (Hok pre1 pb post1 E1), u256_add_idemp_r. reflexivity.
    + injection Hs as _ Hs. apply (Hok pre' b post Hs).
  - intros pre y post Hs. cbn [t_blocks] in Hs.
    apply map_eq_app in Hs. destruct Hs as (pre0 & l2 & E & _ & Hs).
    apply map_eq_cons in Hs. destruct Hs as (y0 & post0 & -> & <- & <-).
    destruct (Hf y0) as (_ & Hpar & _ & Hwork & _).
    rewrite Hwork, Hpar, chain_of_map by (intros x; apply (Hf x)).
    change (f y0 :: map f (chain_of post0 (k_parent y0)))
      with (map f (y0 :: chain_of post0 (k_parent y0))).
    rewrite wsum_map by (intros x; apply (Hf x)).
    apply (Hok pre0 y0 post0 E).
Qed.

Lemma genesis_sum proof id time bits :
  (forall z, 0 <= proof z < two256) ->
  work_sum_ok proof (genesis_tree proof id time bits).
Proof.
  intros Hr pre b post Hs. unfold genesis_tree in Hs. cbn [t_blocks] in Hs.
  destruct pre as [|x pre']; cbn [app] in Hs.
  - injection Hs as <- <-. cbn [k_work k_parent k_bits chain_of wsum fold_right].
    rewrite Z.add_0_r. symmetry. apply u256_small. apply Hr.
  - injection Hs as _ Hs. destruct pre'; discriminate.
Qed.

Lemma btc_block_proof_range z : 0 <= btc_block_proof z < two256.
Proof.
  unfold btc_block_proof. destruct (fromBits z) as [[t n] o].
  destruct (n || o || (t =? 0)).
  - split; [lia|reflexivity].
  - unfold u256. apply Z.mod_pos_bound. reflexivity.
Qed.

Lemma vbk_block_proof_range z : 0 <= vbk_block_proof z < two256.
Proof.
  unfold vbk_block_proof. pose proof (target_of_range z) as H. unfold target_of in H.
  destruct (fromBits z) as [[t n] o]. cbn [fst] in H.
  destruct (n || o || (t =? 0)).
  - split; [lia|reflexivity].
  - exact H.
Qed.

Theorem chainwork_sum_btc : forall p ops gid gtime gbits,
  work_sum_ok btc_block_proof
    (run (btc_accept p) (genesis_tree btc_block_proof gid gtime gbits) ops).
Proof.
  intros. apply (run_invariant _ _ _ (btc_accept_inserts p) (work_sum_step _)).
  apply genesis_sum, btc_block_proof_range.
Qed.

Theorem chainwork_sum_vbk : forall coef p ops gid gtime gbits,
  work_sum_ok vbk_block_proof
    (run (vbk_accept coef p) (genesis_tree vbk_block_proof gid gtime gbits) ops).
Proof.
  intros. apply (run_invariant _ _ _ (vbk_accept_inserts coef p) (work_sum_step _)).
  apply genesis_sum, vbk_block_proof_range.
Qed.

(** the best tip's chain work is the sum over (one of) its ancestor chains *)
Corollary tip_work_sum proof st :
  best_tip_ok st -> work_sum_ok proof st ->
  exists older, k_work (t_tip st) =
                u256 (wsum proof (t_tip st :: chain_of older (k_parent (t_tip st)))).
Proof.
  intros (nw & od & E & _) Hs. exists od. apply (Hs nw (t_tip st) od E).
Qed.

(** * Non-vacuity: a reachable state with a fork, a tie and an invalidation *)

Definition demo_proof (bits : Z) : Z := bits.
Definition demo_accept (st : tree) (hd : hdr) : tree * code :=
  finish_accept demo_proof st hd COk.
Definition demo_hdr (id parent bits : Z) : hdr := mkHdr id parent 0 bits true 0 0 0.

Lemma demo_accept_inserts : accept_inserts demo_proof demo_accept.
Proof. intros st hd. unfold demo_accept. apply finish_accept_inserts. Qed.

(** genesis 1 (work 5); 2 on 1 (work 8); 3 on 1 (work 8, a tie: tip stays 2);
    4 on 3 (work 9: tip switches); invalidating 2 (off-chain) keeps the tip *)
Example demo_run :
  let st := run demo_accept (genesis_tree demo_proof 1 0 5)
                [OpAccept (demo_hdr 2 1 3); OpAccept (demo_hdr 3 1 3);
                 OpAccept (demo_hdr 4 3 1); OpInvalidate 2 [2; 4]] in
  (k_id (t_tip st), k_work (t_tip st),
   map (fun b => (k_id b, k_work b, k_valid b)) (t_blocks st))
  = (4, 9, [(4, 9, true); (3, 8, true); (2, 8, false); (1, 5, true)]).
Proof. vm_compute. reflexivity. Qed.

Example demo_tie :
  k_id (t_tip (run demo_accept (genesis_tree demo_proof 1 0 5)
                   [OpAccept (demo_hdr 2 1 3); OpAccept (demo_hdr 3 1 3)])) = 2.
Proof. vm_compute. reflexivity. Qed.
