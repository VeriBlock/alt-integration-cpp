(** acceptBlockHeader's verdict is COk exactly when every rule holds. *)
From Coq Require Import ZArith Bool List.
From VB Require Import Arith.CompactDefs Pow.PowBase Pow.BtcDefs Pow.VbkDefs Pow.BestChainDefs Pow.AcceptDefs.
Import ListNotations.
Local Open Scope Z_scope.

Lemma insert_header_flag proof st id parent time bits :
  snd (insert_header proof st id parent time bits) = true <->
  exists pb, find_blk (t_blocks st) parent = Some pb /\ k_valid pb = true.
Proof.
  unfold insert_header. destruct (find_blk (t_blocks st) parent) as [pb|].
  - split.
    + intros H. exists pb. split; [reflexivity|].
      destruct (find_blk (t_blocks st) id), (k_valid pb); (reflexivity || discriminate H).
    + intros (pb' & [= <-] & ->). destruct (find_blk (t_blocks st) id); reflexivity.
  - split; [discriminate | intros (pb & H & _); discriminate H].
Qed.

Lemma finish_accept_ok proof st hd c :
  snd (finish_accept proof st hd c) = COk <->
  c = COk /\ snd (insert_header proof st (h_id hd) (h_parent hd) (h_time hd) (h_bits hd)) = true.
Proof.
  unfold finish_accept.
  destruct c; cbn [snd]; try (split; [discriminate | intros [H _]; discriminate H]).
  destruct (insert_header proof st (h_id hd) (h_parent hd) (h_time hd) (h_bits hd)) as [st' [|]];
    cbn [snd]; split; [tauto | tauto | discriminate | intros [_ H]; discriminate H].
Qed.

Lemma accept_iff_gen proof st hd c (A B : Prop) (R : blk -> Prop) :
  (c = COk <-> A /\ B /\ exists pb, find_blk (t_blocks st) (h_parent hd) = Some pb /\ R pb) ->
  (snd (finish_accept proof st hd c) = COk <->
   A /\ B /\ exists pb, find_blk (t_blocks st) (h_parent hd) = Some pb /\ k_valid pb = true /\ R pb).
Proof.
  intros Hc. rewrite finish_accept_ok, insert_header_flag, Hc. split.
  - intros ((HA & HB & pb & Hf & HR) & pb' & Hf' & Hv). rewrite Hf in Hf'. injection Hf' as <-.
    split; [exact HA|]. split; [exact HB|]. exists pb. auto.
  - intros (HA & HB & pb & Hf & Hv & HR). split; [|exists pb; auto].
    split; [exact HA|]. split; [exact HB|]. exists pb. auto.
Qed.

Definition btc_rules (p : BtcParams) (st : tree) (hd : hdr) : Prop :=
  h_pow hd = true /\ btc_target_ok p (h_bits hd) = true /\
  exists pb, find_blk (t_blocks st) (h_parent hd) = Some pb /\ k_valid pb = true /\
    let chain := map to_bidx (chain_of (t_blocks st) (h_parent hd)) in
    btc_next_work p (k_height pb) chain (h_time hd) = Ok (h_bits hd) /\
    btc_check_time p chain (h_time hd) (h_now hd) = TimeOk.

Definition vbk_rules (coef : Z -> Z -> option Z) (p : VbkParams) (st : tree) (hd : hdr) : Prop :=
  h_pow hd = true /\ vbk_target_ok p (h_bits hd) = true /\
  exists pb, find_blk (t_blocks st) (h_parent hd) = Some pb /\ k_valid pb = true /\
    let chain := map to_bidx (chain_of (t_blocks st) (h_parent hd)) in
    vbk_check_time p chain (h_time hd) (h_now hd) = Ok TimeOk /\
    vbk_next_work coef p (k_height pb) chain = Ok (h_bits hd) /\
    vbk_validate_keystones p (k_height pb) chain (h_ks1 hd) (h_ks2 hd) = Ok true.

Lemma btc_precheck_ok p st hd :
  btc_precheck p st hd = COk <->
  h_pow hd = true /\ btc_target_ok p (h_bits hd) = true /\
  exists pb, find_blk (t_blocks st) (h_parent hd) = Some pb /\
    let chain := map to_bidx (chain_of (t_blocks st) (h_parent hd)) in
    btc_next_work p (k_height pb) chain (h_time hd) = Ok (h_bits hd) /\
    btc_check_time p chain (h_time hd) (h_now hd) = TimeOk.
Proof.
  unfold btc_precheck. cbv zeta. split.
  - destruct (btc_target_ok p (h_bits hd)), (h_pow hd); try discriminate. cbn [andb negb].
    destruct (find_blk (t_blocks st) (h_parent hd)) as [pb|]; [|discriminate].
    destruct (btc_next_work p (k_height pb) _ (h_time hd)) as [w| | |] eqn:Ew; try discriminate.
    destruct (Z.eqb_spec (h_bits hd) w) as [<-|]; [|discriminate]. cbn [negb].
    destruct (btc_check_time p _ (h_time hd) (h_now hd)) eqn:Et; try discriminate.
    intros _. split; [reflexivity|]. split; [reflexivity|]. exists pb. auto.
  - intros (-> & -> & pb & -> & -> & ->). cbn [andb negb]. rewrite Z.eqb_refl. reflexivity.
Qed.

Theorem btc_accept_iff_rules : forall p st hd,
  snd (btc_accept p st hd) = COk <-> btc_rules p st hd.
Proof. intros p st hd. apply accept_iff_gen, btc_precheck_ok. Qed.

Lemma vbk_precheck_ok coef p st hd :
  vbk_precheck coef p st hd = COk <->
  h_pow hd = true /\ vbk_target_ok p (h_bits hd) = true /\
  exists pb, find_blk (t_blocks st) (h_parent hd) = Some pb /\
    let chain := map to_bidx (chain_of (t_blocks st) (h_parent hd)) in
    vbk_check_time p chain (h_time hd) (h_now hd) = Ok TimeOk /\
    vbk_next_work coef p (k_height pb) chain = Ok (h_bits hd) /\
    vbk_validate_keystones p (k_height pb) chain (h_ks1 hd) (h_ks2 hd) = Ok true.
Proof.
  unfold vbk_precheck. cbv zeta. split.
  - destruct (vbk_target_ok p (h_bits hd)), (h_pow hd); try discriminate. cbn [andb negb].
    destruct (find_blk (t_blocks st) (h_parent hd)) as [pb|]; [|discriminate].
    destruct (vbk_check_time p _ (h_time hd) (h_now hd)) as [[| |]| | |] eqn:Et; try discriminate.
    destruct (vbk_next_work coef p (k_height pb) _) as [w| | |] eqn:Ew; try discriminate.
    destruct (Z.eqb_spec (h_bits hd) w) as [<-|]; [|discriminate]. cbn [negb].
    destruct (vbk_validate_keystones p (k_height pb) _ (h_ks1 hd) (h_ks2 hd)) as [[|]| | |] eqn:Ek; try discriminate.
    intros _. split; [reflexivity|]. split; [reflexivity|]. exists pb. auto.
  - intros (-> & -> & pb & -> & -> & -> & ->). cbn [andb negb]. rewrite Z.eqb_refl. reflexivity.
Qed.

Theorem vbk_accept_iff_rules : forall coef p st hd,
  snd (vbk_accept coef p st hd) = COk <-> vbk_rules coef p st hd.
Proof. intros coef p st hd. apply accept_iff_gen, vbk_precheck_ok. Qed.

(** a rejected header changes nothing unless its parent is invalid (then it is stored as a failed child) *)
Lemma btc_reject_keeps_state : forall p st hd,
  snd (btc_accept p st hd) <> COk -> snd (btc_accept p st hd) <> CBadChain -> fst (btc_accept p st hd) = st.
Proof.
  intros p st hd. unfold btc_accept, finish_accept.
  destruct (btc_precheck p st hd); cbn [fst snd]; try reflexivity.
  destruct (insert_header btc_block_proof st (h_id hd) (h_parent hd) (h_time hd) (h_bits hd)) as [st' [|]];
    cbn [fst snd]; congruence.
Qed.

Example btc_rules_satisfiable :
  let p := mkBtcParams (2 ^ 248 - 1) 16 2 false false 7200 in
  let st := genesis_tree btc_block_proof 1 1000 536936447 in
  btc_rules p st (mkHdr 2 1 1001 536936447 true 5000 0 0).
Proof.
  cbv zeta. split; [reflexivity|]. split; [vm_compute; reflexivity|].
  eexists. split; [reflexivity|]. split; [reflexivity|]. split; reflexivity.
Qed.
