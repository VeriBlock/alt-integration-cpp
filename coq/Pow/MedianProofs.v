(** The sort-based medians of the PoW models (BtcDefs.btc_mtp,
    VbkDefs.vbk_min_timestamp) are the order statistics of BtcSpec.kth_smallest:
    the upper median (k = n/2) for BTC, the lower median (k = (n-1)/2) for VBK. *)
From Coq Require Import ZArith Lia Bool List Permutation Sorted.
From VB Require Import Arith.CompactDefs Gen.ChainParams Pow.PowBase Pow.BtcDefs Pow.VbkDefs Pow.BtcSpec.
Import ListNotations.
Local Open Scope Z_scope.
Ltac Zify.zify_post_hook ::= Z.div_mod_to_equations.

Lemma insert_perm x l : Permutation (insert x l) (x :: l).
Proof.
  induction l as [|y r IH]; cbn [insert]; [apply Permutation_refl|].
  destruct (x <=? y); [apply Permutation_refl|].
  eapply perm_trans; [apply perm_skip, IH|apply perm_swap].
Qed.

Lemma isort_perm l : Permutation (isort l) l.
Proof.
  induction l as [|x r IH]; cbn [isort]; [apply perm_nil|].
  eapply perm_trans; [apply insert_perm|apply perm_skip, IH].
Qed.

Lemma isort_length l : length (isort l) = length l.
Proof. apply Permutation_length, isort_perm. Qed.

Lemma insert_sorted x l : StronglySorted Z.le l -> StronglySorted Z.le (insert x l).
Proof.
  induction l as [|y r IH]; intros Hs; cbn [insert].
  - constructor; constructor.
  - inversion Hs as [|? ? Hr Hy]; subst.
    destruct (Z.leb_spec x y) as [Hxy|Hxy].
    + constructor; [exact Hs|]. constructor; [exact Hxy|].
      rewrite Forall_forall in Hy |- *. intros z Hz. specialize (Hy z Hz). lia.
    + constructor; [apply IH, Hr|].
      rewrite Forall_forall in Hy |- *. intros z Hz.
      apply (Permutation_in _ (insert_perm x r)) in Hz.
      destruct Hz as [<-|Hz]; [lia|apply Hy, Hz].
Qed.

Lemma isort_sorted l : StronglySorted Z.le (isort l).
Proof.
  induction l as [|x r IH]; cbn [isort]; [constructor|apply insert_sorted, IH].
Qed.

Lemma zlen_cons {A} (x : A) l : zlen (x :: l) = 1 + zlen l.
Proof. unfold zlen. cbn [length]. lia. Qed.

Lemma zlen_nonneg {A} (l : list A) : 0 <= zlen l.
Proof. unfold zlen. lia. Qed.

Lemma zlen_filter_cons (f : Z -> bool) x l :
  zlen (filter f (x :: l)) = (if f x then 1 else 0) + zlen (filter f l).
Proof. cbn [filter]. destruct (f x); [apply zlen_cons|lia]. Qed.

Lemma count_lt_cons m x l : count_lt m (x :: l) = (if x <? m then 1 else 0) + count_lt m l.
Proof. apply zlen_filter_cons. Qed.

Lemma count_le_cons m x l : count_le m (x :: l) = (if x <=? m then 1 else 0) + count_le m l.
Proof. apply zlen_filter_cons. Qed.

Lemma count_lt_nonneg m l : 0 <= count_lt m l.
Proof. apply zlen_nonneg. Qed.

Lemma count_le_nonneg m l : 0 <= count_le m l.
Proof. apply zlen_nonneg. Qed.

Lemma count_lt_all_ge a l : Forall (Z.le a) l -> count_lt a l = 0.
Proof.
  induction 1 as [|x r Hx _ IH]; [reflexivity|].
  rewrite count_lt_cons, IH, (proj2 (Z.ltb_ge x a) Hx). reflexivity.
Qed.

Lemma sorted_nth_kth s : StronglySorted Z.le s -> forall k d, (k < length s)%nat ->
  count_lt (nth k s d) s <= Z.of_nat k < count_le (nth k s d) s.
Proof.
  induction 1 as [|a r Hs IH Ha]; intros k d Hk; cbn [length] in Hk; [lia|].
  rewrite count_lt_cons, count_le_cons.
  destruct k as [|k]; cbn [nth].
  - rewrite Z.ltb_irrefl, Z.leb_refl, (count_lt_all_ge a r Ha).
    pose proof (count_le_nonneg a r). lia.
  - assert (Hk' : (k < length r)%nat) by lia.
    specialize (IH k d Hk').
    assert (Hm : a <= nth k r d).
    { rewrite Forall_forall in Ha. apply Ha, nth_In, Hk'. }
    rewrite (proj2 (Z.leb_le _ _) Hm). destruct (a <? nth k r d); lia.
Qed.

Lemma zlen_filter_perm (f : Z -> bool) l l' :
  Permutation l l' -> zlen (filter f l) = zlen (filter f l').
Proof.
  induction 1 as [|x l l' _ IH|x y l|l l' l'' _ IH1 _ IH2].
  - reflexivity.
  - now rewrite !zlen_filter_cons, IH.
  - rewrite !zlen_filter_cons. lia.
  - congruence.
Qed.

Lemma kth_smallest_perm k l l' m : Permutation l l' -> kth_smallest k l m -> kth_smallest k l' m.
Proof.
  intros HP [Hin Hc]. split; [apply (Permutation_in _ HP), Hin|].
  unfold count_lt, count_le in *. now rewrite <- !(zlen_filter_perm _ l l' HP).
Qed.

Theorem isort_nth_kth l k d : (k < length l)%nat ->
  kth_smallest (Z.of_nat k) l (nth k (isort l) d).
Proof.
  intros Hk. apply (kth_smallest_perm _ (isort l)); [apply isort_perm|].
  rewrite <- isort_length in Hk. split; [apply nth_In, Hk|].
  apply sorted_nth_kth; [apply isort_sorted|exact Hk].
Qed.

Lemma zlen_filter_mono (f g : Z -> bool) l :
  (forall x, f x = true -> g x = true) -> zlen (filter f l) <= zlen (filter g l).
Proof.
  intros Hfg. induction l as [|x r IH]; [reflexivity|].
  rewrite !zlen_filter_cons. specialize (Hfg x).
  destruct (f x), (g x); [lia | discriminate (Hfg eq_refl) | lia | lia].
Qed.

Lemma count_le_lt_mono m1 m2 l : m1 < m2 -> count_le m1 l <= count_lt m2 l.
Proof.
  intros H. apply zlen_filter_mono.
  intros x Hx. apply Z.leb_le in Hx. apply Z.ltb_lt. lia.
Qed.

Lemma kth_smallest_unique k l m1 m2 : kth_smallest k l m1 -> kth_smallest k l m2 -> m1 = m2.
Proof.
  intros [_ H1] [_ H2].
  destruct (Z.lt_trichotomy m1 m2) as [H|[H|H]]; [|exact H|].
  - pose proof (count_le_lt_mono m1 m2 l H). lia.
  - pose proof (count_le_lt_mono m2 m1 l H). lia.
Qed.

(** getMedianTimePast is the upper median of the window *)

Lemma window_nonempty (n : Z) (chain : list bidx) : 0 < n -> chain <> [] ->
  (0 < length (map x_time (firstn (Z.to_nat n) chain)))%nat.
Proof.
  intros Hn Hc. rewrite map_length, firstn_length.
  destruct chain as [|b r]; [congruence|]. cbn [length]. lia.
Qed.

Theorem mtp_spec : forall chain, chain <> [] ->
  let ts := map x_time (firstn (Z.to_nat btc_median_time_span) chain) in
  kth_smallest (zlen ts / 2) ts (btc_mtp chain).
Proof.
  intros chain Hc ts. unfold btc_mtp. fold ts.
  pose proof (window_nonempty btc_median_time_span chain eq_refl Hc) as Hlen. fold ts in Hlen.
  unfold zlen. change 2 with (Z.of_nat 2). rewrite <- Nat2Z.inj_div.
  apply isort_nth_kth. apply Nat.div_lt; lia.
Qed.

(** the VBK minimum timestamp is the lower median of the window; the
    function never asserts or throws on a non-empty chain *)

(** the index the code picks among [i] sorted values *)
Lemma lower_median_index i : (if i mod 2 =? 0 then i / 2 - 1 else i / 2) = (i - 1) / 2.
Proof. destruct (Z.eqb_spec (i mod 2) 0); lia. Qed.

Theorem vbk_min_timestamp_spec : forall chain, chain <> [] ->
  let ts := map x_time (firstn (Z.to_nat vbk_history_for_timestamp_average) chain) in
  exists m, vbk_min_timestamp chain = Ok m /\ kth_smallest ((zlen ts - 1) / 2) ts m.
Proof.
  intros chain Hc ts. unfold vbk_min_timestamp. fold ts.
  pose proof (window_nonempty vbk_history_for_timestamp_average chain eq_refl Hc) as Hlen. fold ts in Hlen.
  rewrite lower_median_index, (proj2 (Z.eqb_neq (zlen ts) 0)) by (unfold zlen; lia).
  set (k := Z.to_nat ((zlen ts - 1) / 2)).
  assert (Hk : (zlen ts - 1) / 2 = Z.of_nat k /\ (k < length ts)%nat) by (unfold k, zlen; lia).
  destruct Hk as [Hk Hkl]. rewrite Hk.
  exists (nth k (isort ts) 0). split; [|apply isort_nth_kth, Hkl].
  unfold znth_error. rewrite (proj2 (Z.ltb_ge _ 0)), Nat2Z.id by lia.
  rewrite (nth_error_nth' _ 0) by (rewrite isort_length; exact Hkl). reflexivity.
Qed.
