(** The wire types of transaction.hpp / block.hpp satisfy [codec_ok]: OutPoint, TxIn, TxOut, ScriptWitness,
    Transaction (both stream versions, with the witness flag format), BlockHeader, Block. *)
From Coq Require Import ZArith List Bool Strings.Byte.
From VB Require Import Bfi.BfiDefs Bfi.BfiProofs.
Import ListNotations.
Local Open Scope N_scope.

Lemma codec_ok_ext : forall A (c : codec A) (wf wf' : A -> Prop),
  codec_ok c wf -> (forall a, wf a <-> wf' a) -> codec_ok c wf'.
Proof.
  intros A c wf wf' (R & S & C) E. split; [|split].
  - intros a tl H. apply R, E, H.
  - exact S.
  - intros bs a rest H. destruct (C bs a rest H) as [W B]. split; [apply E, W | exact B].
Qed.

Lemma outpoint_ok : codec_ok c_outpoint wf_outpoint.
Proof.
  unfold c_outpoint.
  apply (map_iso_ok _ _ _ _ _ _ _ (pair_ok _ _ _ _ _ _ (blob_ok 32) (uint_ok 4))); intros []; reflexivity.
Qed.

Lemma core_ok : codec_ok c_core wf_core.
Proof.
  apply (codec_ok_ext _ _ _ _ (pair_ok _ _ _ _ _ _ (pair_ok _ _ _ _ _ _ outpoint_ok bytes_ok) (uint_ok 4))).
  intros [[o s] q]. unfold wf_core, wf_pair. cbn [fst snd]. tauto.
Qed.

Lemma core_of_txin_of : forall c w, core_of (txin_of c w) = c.
Proof. intros [[o s] q] w. reflexivity. Qed.

Lemma txin_ok : codec_ok c_txin wf_txin.
Proof.
  apply (map_ok _ _ _ _ _ _ _ core_ok).
  - intros [p s q w] [H1 H2]. cbn [ti_wit] in H2. subst w. split; [exact H1 | reflexivity].
  - intros c H. unfold wf_txin. rewrite core_of_txin_of. auto.
Qed.

Lemma txout_ok : codec_ok c_txout wf_txout.
Proof.
  unfold c_txout.
  apply (map_iso_ok _ _ _ _ _ _ _ (pair_ok _ _ _ _ _ _ (sint_ok 8) bytes_ok)); intros []; reflexivity.
Qed.

Lemma wstack_ok : codec_ok c_wstack wf_wstack.
Proof. apply vec_ok, bytes_ok. Qed.

Lemma header_ok : codec_ok c_header wf_header.
Proof.
  unfold c_header. eapply map_iso_ok.
  - repeat apply pair_ok; first [apply uint_ok | apply blob_ok | apply sint_ok].
  - intros []. reflexivity.
  - intros [[[[[v p] m] t] b] n]. reflexivity.
  - intros h. unfold wf_header, wf_pair. cbn [fst snd]. tauto.
Qed.

Lemma zip_in_id : forall l, zip_in (map core_of l) (map ti_wit l) = l.
Proof.
  induction l as [|[p s q w] l IH]; [reflexivity|].
  cbn [map zip_in hd tl]. now rewrite IH.
Qed.

Lemma zip_in_proj : forall cs ws, length ws = length cs ->
  map core_of (zip_in cs ws) = cs /\ map ti_wit (zip_in cs ws) = ws.
Proof.
  induction cs as [|c cs IH]; intros [|w ws] L; try discriminate L; [split; reflexivity|].
  destruct (IH ws) as [E1 E2]; [now injection L|].
  cbn [zip_in hd tl map]. rewrite core_of_txin_of, E1, E2. destruct c as [[o s] q]. split; reflexivity.
Qed.

Definition nils (cs : list txin_core) : list (list (list byte)) := map (fun _ => []) cs.

Lemma nils_length : forall cs, length (nils cs) = length cs.
Proof. intro cs. apply map_length. Qed.

Lemma has_witness_nils : forall cs, has_witness (nils cs) = false.
Proof. induction cs as [|c cs IH]; [reflexivity | exact IH]. Qed.

Lemma no_witness_nils : forall ws cs, has_witness ws = false -> length cs = length ws -> ws = nils cs.
Proof.
  induction ws as [|w ws IH]; intros [|c cs] H L; try discriminate L; [reflexivity|].
  apply orb_false_iff in H. destruct H as [H1 H2]. destruct w; [|discriminate H1].
  cbn [nils map]. f_equal. apply IH; [exact H2 | now injection L].
Qed.

Lemma wf_vec_nil : forall A (w : A -> Prop), wf_vec w [].
Proof. intros. split; [discriminate | constructor]. Qed.

Lemma wstack_nils : forall cs, Forall wf_wstack (nils cs).
Proof. intro cs. apply Forall_forall. intros w H. apply in_map_iff in H. destruct H as (_ & <- & _). apply wf_vec_nil. Qed.

Lemma enc_vec_nil : forall A (c : codec A), enc (c_vec c) [] = [x00].
Proof. reflexivity. Qed.

Lemma enc_u8_1 : enc c_u8 1 = [x01]. Proof. reflexivity. Qed.

Lemma dec_u8_cons : forall b r, dec c_u8 (b :: r) = Ok (Byte.to_N b) r.
Proof. intros. apply read_le1_cons. Qed.

Lemma finish_zero : forall allow ver cores vout bs,
  dec_tx_finish allow ver cores vout 0 bs =
  bind (dec c_u32 bs) (fun lt r => Ok (mk_tx (zip_in cores (nils cores)) vout ver lt) r).
Proof. reflexivity. Qed.

Lemma finish_witness : forall ver cores vout wits lt tl,
  length wits = length cores -> Forall wf_wstack wits -> has_witness wits = true -> wf_uint 4 lt ->
  dec_tx_finish true ver cores vout 1 (enc_all c_wstack wits ++ enc c_u32 lt ++ tl)
  = Ok (mk_tx (zip_in cores wits) vout ver lt) tl.
Proof.
  intros ver cores vout wits lt tl L W F Hl. unfold dec_tx_finish, c_u32.
  change (N.testbit 1 0 && true) with true. cbv iota.
  rewrite <- L, (dec_rep_enc_all _ _ _ wstack_ok wits _ W). cbn [bind]. rewrite F. cbn [bind fst snd].
  change (N.lxor 1 1 =? 0) with true. cbv iota. now rewrite (proj1 (uint_ok 4)).
Qed.

Lemma finish_flagged_inv : forall allow ver cores vout flags bs t rest, flags <> 0 ->
  dec_tx_finish allow ver cores vout flags bs = Ok t rest ->
  exists wits lt, flags = 1 /\ allow = true /\ t = mk_tx (zip_in cores wits) vout ver lt /\
    length wits = length cores /\ Forall wf_wstack wits /\ has_witness wits = true /\ wf_uint 4 lt /\
    bs = enc_all c_wstack wits ++ enc c_u32 lt ++ rest.
Proof.
  intros allow ver cores vout flags bs t rest NZ H. unfold dec_tx_finish in H.
  apply bind_ok in H. destruct H as ([wits fl] & r & H1 & H2). cbn [fst snd] in H2.
  destruct (N.eqb_spec fl 0) as [->|]; [|discriminate].
  apply bind_ok in H2. destruct H2 as (lt & r' & H2 & [= <- <-]).
  apply (proj2 (proj2 (uint_ok 4))) in H2. destruct H2 as [Wl ->].
  destruct (N.testbit flags 0 && allow) eqn:F.
  - apply andb_true_iff in F. destruct F as [_ ->].
    apply bind_ok in H1. destruct H1 as (ws & r1 & H1 & H4).
    destruct (has_witness ws) eqn:HW; [|discriminate]. injection H4 as -> E ->.
    apply (dec_rep_inv _ _ _ wstack_ok) in H1. destruct H1 as (W & -> & L).
    apply N.lxor_eq in E. exists wits, lt. auto 10.
  - injection H1 as _ E _. contradiction.
Qed.

Lemma tx_round_trip : forall allow t tl, wf_tx allow t -> dec_tx allow (enc_tx allow t ++ tl) = Ok t tl.
Proof.
  intros allow [vin vout ver lt] tl (Wv & Wc & Ww & Wo & Wl & Wx).
  cbn [tx_vin tx_vout tx_version tx_locktime] in *.
  pose proof (proj1 (sint_ok 4)) as R32. pose proof (proj1 (uint_ok 4)) as RL.
  pose proof (proj1 (vec_ok _ _ _ core_ok)) as RC. pose proof (proj1 (vec_ok _ _ _ txout_ok)) as RO.
  unfold enc_tx, dec_tx, c_i32. cbn [tx_vin tx_vout tx_version tx_locktime].
  pose proof (zip_in_id vin) as Z.
  set (cores := map core_of vin) in *. set (wits := map ti_wit vin) in *.
  assert (L : length wits = length cores) by (unfold wits, cores; now rewrite !map_length).
  rewrite <- !app_assoc, R32 by exact Wv. cbn [bind].
  destruct (allow && has_witness wits) eqn:F.
  - apply andb_true_iff in F. destruct F as [-> F].
    rewrite <- !app_assoc, (RC [] _) by apply wf_vec_nil. cbn [bind is_nil andb].
    rewrite enc_u8_1. cbn [app]. rewrite dec_u8_cons. cbn [bind].
    change (Byte.to_N x01 =? 0) with false. cbv iota. change (Byte.to_N x01) with 1.
    rewrite RC by exact Wc. cbn [bind]. rewrite RO by exact Wo. cbn [bind].
    rewrite finish_witness, Z by assumption. reflexivity.
  - assert (N0 : wits = nils cores).
    { apply no_witness_nils; [|now rewrite L]. destruct allow; [exact F | exact Wx]. }
    cbn [app]. rewrite RC by exact Wc. cbn [bind].
    destruct (is_nil cores && allow) eqn:B.
    + (* no inputs: the zero count of vout is read as the flag byte *)
      apply andb_true_iff in B. destruct B as [B ->]. unfold cores in *.
      destruct vin as [|i vin']; [|discriminate B].
      rewrite (Wx eq_refl), enc_vec_nil. cbn [app]. rewrite dec_u8_cons. cbn [bind].
      change (Byte.to_N x00 =? 0) with true. cbv iota. change (Byte.to_N x00) with 0.
      rewrite finish_zero, RL by exact Wl. reflexivity.
    + rewrite RO by exact Wo. cbn [bind]. rewrite finish_zero, RL, <- N0, Z by exact Wl. reflexivity.
Qed.

Lemma enc_tx_parts : forall allow cores wits vout ver lt, length wits = length cores ->
  enc_tx allow (mk_tx (zip_in cores wits) vout ver lt) =
  enc c_i32 ver ++ (if allow && has_witness wits then [x00; x01] else []) ++ enc (c_vec c_core) cores
  ++ enc (c_vec c_txout) vout ++ (if allow && has_witness wits then enc_all c_wstack wits else []) ++ enc c_u32 lt.
Proof.
  intros allow cores wits vout ver lt L. unfold enc_tx. cbn [tx_vin tx_vout tx_version tx_locktime].
  destruct (zip_in_proj cores wits L) as [-> ->]. reflexivity.
Qed.

Lemma wf_tx_parts : forall (allow : bool) cores wits vout ver lt, length wits = length cores ->
  wf_sint 4 ver -> wf_vec wf_core cores -> Forall wf_wstack wits -> wf_vec wf_txout vout -> wf_uint 4 lt ->
  (if allow then cores = [] -> vout = [] else has_witness wits = false) ->
  wf_tx allow (mk_tx (zip_in cores wits) vout ver lt).
Proof.
  intros allow cores wits vout ver lt L Wv Wc Ww Wo Wl Wx. unfold wf_tx. cbn [tx_vin tx_vout tx_version tx_locktime].
  destruct (zip_in_proj cores wits L) as [-> ->]. repeat (split; [assumption|]).
  destruct allow; [|exact Wx]. intros Z. apply Wx. destruct cores; [reflexivity | discriminate Z].
Qed.

Lemma tx_canonical : forall allow bs t rest, dec_tx allow bs = Ok t rest ->
  wf_tx allow t /\ bs = enc_tx allow t ++ rest.
Proof.
  intros allow bs t rest H. unfold dec_tx in H.
  pose proof (proj2 (proj2 (sint_ok 4))) as C32. pose proof (proj2 (proj2 (uint_ok 1))) as C8.
  pose proof (proj2 (proj2 (uint_ok 4))) as CL.
  pose proof (proj2 (proj2 (vec_ok _ _ _ core_ok))) as CC. pose proof (proj2 (proj2 (vec_ok _ _ _ txout_ok))) as CO.
  apply bind_ok in H. destruct H as (ver & r0 & H0 & H). apply C32 in H0. destruct H0 as [Wv ->].
  apply bind_ok in H. destruct H as (cores & r1 & H1 & H). apply CC in H1. destruct H1 as [Wc ->].
  destruct (is_nil cores && allow) eqn:B.
  - apply andb_true_iff in B. destruct B as [B ->]. destruct cores; [clear B|discriminate B].
    apply bind_ok in H. destruct H as (flags & r2 & H2 & H). apply C8 in H2. destruct H2 as [_ ->].
    destruct (N.eqb_spec flags 0) as [->|NZ].
    + rewrite finish_zero in H. apply bind_ok in H. destruct H as (lt & r & Hl & [= <- <-]).
      apply CL in Hl. destruct Hl as [Wl ->].
      split; [apply (wf_tx_parts true [] []); auto using wf_vec_nil|].
      rewrite (enc_tx_parts true [] []) by reflexivity. cbn [andb has_witness existsb]. rewrite <- !app_assoc. reflexivity.
    + apply bind_ok in H. destruct H as (cores' & r3 & H3 & H). apply CC in H3. destruct H3 as [Wc' ->].
      apply bind_ok in H. destruct H as (vout & r4 & H4 & H). apply CO in H4. destruct H4 as [Wo ->].
      apply finish_flagged_inv in H; [|exact NZ].
      destruct H as (wits & lt & -> & _ & -> & L & Ww & HW & Wl & ->).
      split.
      * apply wf_tx_parts; auto. intros ->. destruct wits; discriminate.
      * rewrite enc_tx_parts, HW by exact L. cbn [andb]. rewrite <- !app_assoc. reflexivity.
  - apply bind_ok in H. destruct H as (vout & r2 & H2 & H). apply CO in H2. destruct H2 as [Wo ->].
    rewrite finish_zero in H. apply bind_ok in H. destruct H as (lt & r & Hl & [= <- <-]).
    apply CL in Hl. destruct Hl as [Wl ->].
    split.
    + apply wf_tx_parts; auto using nils_length, wstack_nils.
      destruct allow; [|apply has_witness_nils]. intros ->. discriminate B.
    + rewrite enc_tx_parts, has_witness_nils, andb_false_r by apply nils_length. rewrite <- !app_assoc. reflexivity.
Qed.

Lemma tx_ok : forall allow, codec_ok (c_tx allow) (wf_tx allow).
Proof. intro allow. exact (conj (tx_round_trip allow) (conj (fun _ => eq_refl) (tx_canonical allow))). Qed.

Lemma block_ok : forall allow, codec_ok (c_block allow) (wf_block allow).
Proof.
  intro allow. unfold c_block.
  apply (map_iso_ok _ _ _ _ _ _ _ (pair_ok _ _ _ _ _ _ header_ok (vec_ok _ _ _ (tx_ok allow)))); intros []; reflexivity.
Qed.

(** the round-trip premise on transactions is needed: with witnesses allowed, a transaction without inputs but
    with an output is written in the plain format and read back as the extended-format marker *)
Example tx_empty_vin_with_output_refuted :
  let t := mk_tx [] [mk_txout 1%Z []] 1%Z 0 in
  dec_tx true (enc_tx true t) <> Ok t [] /\ dec_tx false (enc_tx false t) = Ok t [].
Proof. cbv zeta. split; [vm_compute; discriminate | vm_compute; reflexivity]. Qed.

(** the premises are satisfiable by a transaction with a witness, and by one without under both stream versions
    (well-formedness obtained from the decoder through tx_canonical) *)
Example tx_nontrivial :
  let o := mk_outpoint (repeat x11 32) 1 in
  let tw := mk_tx [mk_txin o [xaa] 4294967295 [[xff; x4c]; []]; mk_txin o [] 0 []] [mk_txout (-5)%Z [xbb]] 2%Z 7 in
  let tp := mk_tx [mk_txin o [xaa] 4294967295 []] [mk_txout 4999990000%Z (repeat xcc 253)] 1%Z 0 in
  wf_tx true tw /\ wf_tx true tp /\ wf_tx false tp /\
  dec_tx true (enc_tx true tw ++ [x01]) = Ok tw [x01] /\ enc_tx true tp = enc_tx false tp.
Proof.
  cbv zeta.
  match goal with |- wf_tx true ?tw /\ wf_tx true ?tp /\ _ =>
    assert (H1 : dec_tx true (enc_tx true tw ++ [x01]) = Ok tw [x01]) by (vm_compute; reflexivity);
    assert (H2 : dec_tx true (enc_tx true tp) = Ok tp []) by (vm_compute; reflexivity);
    assert (H3 : dec_tx false (enc_tx false tp) = Ok tp []) by (vm_compute; reflexivity)
  end.
  split; [exact (proj1 (tx_canonical _ _ _ _ H1))|].
  split; [exact (proj1 (tx_canonical _ _ _ _ H2))|].
  split; [exact (proj1 (tx_canonical _ _ _ _ H3))|].
  split; [exact H1 | vm_compute; reflexivity].
Qed.
