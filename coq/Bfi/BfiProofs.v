(** Proofs about the BFI wire-format model (BfiDefs.v): bytes, little-endian integers, the two stream reads,
    compact size, the codec combinators and the primitive codecs. *)
From Coq Require Import NArith ZArith List Lia Strings.Byte.
From VB Require Import Bfi.BfiDefs.
Import ListNotations.
Local Open Scope N_scope.

Lemma to_N_lt : forall b, Byte.to_N b < 256.
Proof. intro b. pose proof (Byte.to_N_bounded b). lia. Qed.

Lemma byte_of_to_N : forall b, byte_of_N (Byte.to_N b) = b.
Proof.
  intro b. unfold byte_of_N. rewrite N.mod_small by apply to_N_lt. now rewrite Byte.of_to_N.
Qed.

Lemma to_N_byte_of : forall n, Byte.to_N (byte_of_N n) = n mod 256.
Proof.
  intro n. unfold byte_of_N.
  destruct (Byte.of_N (n mod 256)) eqn:E.
  - now apply Byte.to_of_N.
  - apply Byte.of_N_None_iff in E. pose proof (N.mod_lt n 256). lia.
Qed.

Lemma le_bytes_length : forall k n, length (le_bytes k n) = k.
Proof. induction k; intro n; cbn [le_bytes length]; [reflexivity | now rewrite IHk]. Qed.

Lemma blen_le_bytes : forall k n, blen (le_bytes k n) = N.of_nat k.
Proof. intros. unfold blen. now rewrite le_bytes_length. Qed.

Lemma blen_app : forall a b, blen (a ++ b) = blen a + blen b.
Proof. intros. unfold blen. rewrite app_length. lia. Qed.

Lemma pow256_succ : forall k : nat, 256 ^ N.of_nat (S k) = 256 * 256 ^ N.of_nat k.
Proof. intro k. rewrite Nat2N.inj_succ. apply N.pow_succ_r'. Qed.

Lemma pow256_pos : forall k : nat, 0 < 256 ^ N.of_nat k.
Proof. intro k. apply N.neq_0_lt_0. apply N.pow_nonzero. lia. Qed.

Lemma le_val_bytes : forall k n, le_val (le_bytes k n) = n mod 256 ^ N.of_nat k.
Proof.
  induction k; intro n; cbn [le_bytes le_val].
  - symmetry. apply N.mod_1_r.
  - rewrite IHk, to_N_byte_of, pow256_succ. symmetry. apply N.mod_mul_r; [lia|].
    apply N.neq_0_lt_0, pow256_pos.
Qed.

Lemma le_val_lt : forall bs, le_val bs < 256 ^ N.of_nat (length bs).
Proof.
  induction bs as [|b r IH]; cbn [le_val length]; [reflexivity|].
  rewrite pow256_succ. pose proof (to_N_lt b). lia.
Qed.

Lemma le_bytes_val : forall bs, le_bytes (length bs) (le_val bs) = bs.
Proof.
  induction bs as [|b r IH]; [reflexivity|]. cbn [le_val length le_bytes].
  pose proof (to_N_lt b) as Hb. rewrite (N.mul_comm 256). f_equal.
  - rewrite <- (byte_of_to_N b) at 2. unfold byte_of_N. now rewrite N.mod_add by lia.
  - rewrite N.div_add, N.div_small by lia. exact IH.
Qed.

Lemma take_spec : forall k bs,
  take k bs = if (length bs <? k)%nat then None else Some (firstn k bs, skipn k bs).
Proof.
  induction k as [|k IH]; intros [|b r]; try reflexivity.
  cbn [take length firstn skipn]. rewrite IH.
  change (S (length r) <? S k)%nat with (length r <? k)%nat.
  destruct (length r <? k)%nat; reflexivity.
Qed.

Lemma take_n_take : forall bs n, take_n n bs = take (N.to_nat n) bs.
Proof.
  induction bs as [|b r IH]; intros n; cbn [take_n]; destruct (N.eqb_spec n 0) as [->|Hn]; try reflexivity.
  all: replace (N.to_nat n) with (S (N.to_nat (N.pred n))) by lia; cbn [take].
  - reflexivity.
  - now rewrite IH.
Qed.

Lemma take_n_spec : forall bs n,
  take_n n bs = if blen bs <? n then None else Some (firstn (N.to_nat n) bs, skipn (N.to_nat n) bs).
Proof.
  intros bs n. rewrite take_n_take, take_spec. unfold blen.
  destruct (Nat.ltb_spec (length bs) (N.to_nat n)), (N.ltb_spec (N.of_nat (length bs)) n); (reflexivity || lia).
Qed.

Lemma read_le_eq : forall k bs,
  read_le k bs = if (length bs <? k)%nat then Err EEof else Ok (le_val (firstn k bs)) (skipn k bs).
Proof. intros. unfold read_le. rewrite take_spec. destruct (length bs <? k)%nat; reflexivity. Qed.

Lemma read_bytes_eq : forall n bs,
  read_bytes n bs = if blen bs <? n then Err EEof else Ok (firstn (N.to_nat n) bs) (skipn (N.to_nat n) bs).
Proof. intros. unfold read_bytes. rewrite take_n_spec. destruct (blen bs <? n); reflexivity. Qed.

Lemma read_le_eof_or_ok : forall k bs, (length bs < k)%nat -> read_le k bs = Err EEof.
Proof. intros k bs H. rewrite read_le_eq. now rewrite (proj2 (Nat.ltb_lt _ _) H). Qed.

Lemma take_app : forall h t, take (length h) (h ++ t) = Some (h, t).
Proof. induction h as [|b h IH]; intro t; cbn [take length app]; [reflexivity | now rewrite IH]. Qed.

Lemma take_inv : forall k bs h t, take k bs = Some (h, t) -> bs = h ++ t /\ length h = k.
Proof.
  intros k bs h t H. rewrite take_spec in H. destruct (Nat.ltb_spec (length bs) k); [discriminate|].
  injection H as <- <-. split; [symmetry; apply firstn_skipn | rewrite firstn_length; lia].
Qed.

Lemma read_le_app : forall k n tl, read_le k (le_bytes k n ++ tl) = Ok (n mod 256 ^ N.of_nat k) tl.
Proof.
  intros k n tl. unfold read_le. rewrite <- (le_bytes_length k n) at 1. now rewrite take_app, le_val_bytes.
Qed.

Lemma read_le_inv : forall k bs v r, read_le k bs = Ok v r ->
  bs = le_bytes k v ++ r /\ v < 256 ^ N.of_nat k.
Proof.
  intros k bs v r H. unfold read_le in H. destruct (take k bs) as [[h t]|] eqn:E; [|discriminate].
  injection H as <- <-. apply take_inv in E. destruct E as [-> <-].
  split; [now rewrite le_bytes_val | apply le_val_lt].
Qed.

Lemma read_bytes_app : forall l tl, read_bytes (blen l) (l ++ tl) = Ok l tl.
Proof. intros l tl. unfold read_bytes, blen. now rewrite take_n_take, Nat2N.id, take_app. Qed.

Lemma read_bytes_inv : forall n bs l r, read_bytes n bs = Ok l r -> bs = l ++ r /\ blen l = n.
Proof.
  intros n bs l r H. unfold read_bytes in H. rewrite take_n_take in H.
  destruct (take (N.to_nat n) bs) as [[h t]|] eqn:E; [|discriminate].
  injection H as <- <-. apply take_inv in E. destruct E as [-> E]. unfold blen. split; [reflexivity | lia].
Qed.

Lemma bind_ok : forall A B (r : res A) (f : A -> list byte -> res B) b rest,
  bind r f = Ok b rest -> exists a r', r = Ok a r' /\ f a r' = Ok b rest.
Proof. intros A B [a r'|e] f b rest H; [|discriminate]. exists a, r'. split; [reflexivity | exact H]. Qed.

Lemma b255 : Byte.to_N (byte_of_N 255) = 255. Proof. reflexivity. Qed.

Lemma p1 : 256 ^ N.of_nat 1 = 256. Proof. reflexivity. Qed.
Lemma p2 : 256 ^ N.of_nat 2 = 65536. Proof. reflexivity. Qed.
Lemma p4 : 256 ^ N.of_nat 4 = 4294967296. Proof. reflexivity. Qed.
Lemma p8 : 256 ^ N.of_nat 8 = 18446744073709551616. Proof. reflexivity. Qed.

Lemma read_le1_cons : forall b r, read_le 1 (b :: r) = Ok (Byte.to_N b) r.
Proof. intros. unfold read_le. cbn [take le_val]. f_equal. lia. Qed.

Lemma compact_size_length : forall n, blen (write_compact n) = size_of_compact n.
Proof.
  intro n. unfold write_compact, size_of_compact, blen.
  destruct (n <? 253); [|destruct (n <=? 65535); [|destruct (n <=? 4294967295)]];
    cbn [length]; now rewrite le_bytes_length.
Qed.

(** the writer by ranges of the value (8-byte form: never read back, MAX_SIZE is smaller) *)
Lemma write_compact_1 : forall n, n < 253 -> write_compact n = [byte_of_N n].
Proof. intros n H. unfold write_compact. now rewrite (proj2 (N.ltb_lt _ _) H). Qed.

Lemma write_compact_2 : forall n, 253 <= n <= 65535 -> write_compact n = byte_of_N 253 :: le_bytes 2 n.
Proof.
  intros n [H1 H2]. unfold write_compact. now rewrite (proj2 (N.ltb_ge _ _) H1), (proj2 (N.leb_le _ _) H2).
Qed.

Lemma write_compact_4 : forall n, 65536 <= n <= 4294967295 ->
  write_compact n = byte_of_N 254 :: le_bytes 4 n.
Proof.
  intros n [H1 H2]. unfold write_compact.
  rewrite (proj2 (N.ltb_ge n 253)), (proj2 (N.leb_gt n 65535)), (proj2 (N.leb_le _ _) H2) by lia. reflexivity.
Qed.

Definition max_size_check (v : N) (r : list byte) : res N := if MAX_SIZE <? v then Err ETooLarge else Ok v r.

Lemma max_size_check_ok : forall v r n rest, max_size_check v r = Ok n rest <-> v = n /\ r = rest /\ n <= MAX_SIZE.
Proof.
  intros v r n rest. unfold max_size_check. destruct (N.ltb_spec MAX_SIZE v); split.
  - discriminate.
  - intros (-> & _ & Hn). lia.
  - intros [= <- <-]. auto.
  - now intros (-> & -> & _).
Qed.

Lemma read_compact_small : forall b r, Byte.to_N b < 253 -> read_compact (b :: r) = max_size_check (Byte.to_N b) r.
Proof.
  intros b r H. unfold read_compact. rewrite read_le1_cons. cbn [bind]. now rewrite (proj2 (N.ltb_lt _ _) H).
Qed.

Lemma read_compact_253 : forall r, read_compact (byte_of_N 253 :: r) = bind (read_le_min 2 253 r) max_size_check.
Proof. reflexivity. Qed.
Lemma read_compact_254 : forall r, read_compact (byte_of_N 254 :: r) = bind (read_le_min 4 65536 r) max_size_check.
Proof. reflexivity. Qed.
Lemma read_compact_255 : forall r,
  read_compact (byte_of_N 255 :: r) = bind (read_le_min 8 4294967296 r) max_size_check.
Proof. reflexivity. Qed.

Lemma read_le_min_inv : forall k lo bs v r, read_le_min k lo bs = Ok v r ->
  bs = le_bytes k v ++ r /\ v < 256 ^ N.of_nat k /\ lo <= v.
Proof.
  intros k lo bs v r H. apply bind_ok in H. destruct H as (v' & r' & E & H).
  destruct (N.ltb_spec v' lo); [discriminate|]. injection H as <- <-.
  apply read_le_inv in E. destruct E. auto.
Qed.

Lemma tagged_app : forall k lo n tl, lo <= n < 256 ^ N.of_nat k -> n <= MAX_SIZE ->
  bind (read_le_min k lo (le_bytes k n ++ tl)) max_size_check = Ok n tl.
Proof.
  intros k lo n tl [H1 H2] Hm. unfold read_le_min. rewrite read_le_app, N.mod_small by exact H2. cbn [bind].
  rewrite (proj2 (N.ltb_ge _ _) H1). cbn [bind]. now apply max_size_check_ok.
Qed.

Lemma tagged_inv : forall k lo bs n rest, bind (read_le_min k lo bs) max_size_check = Ok n rest ->
  bs = le_bytes k n ++ rest /\ lo <= n < 256 ^ N.of_nat k /\ n <= MAX_SIZE.
Proof.
  intros k lo bs n rest H. apply bind_ok in H. destruct H as (v & r & H & Hc).
  apply max_size_check_ok in Hc. destruct Hc as (-> & -> & Hm).
  apply read_le_min_inv in H. destruct H as (-> & Hv & Hlo). auto.
Qed.

Lemma compact_round_trip : forall n tl, n <= MAX_SIZE -> read_compact (write_compact n ++ tl) = Ok n tl.
Proof.
  intros n tl Hn. pose proof Hn as Hn'. unfold MAX_SIZE in Hn'.
  destruct (N.ltb_spec n 253); [|destruct (N.leb_spec n 65535)].
  - rewrite write_compact_1 by assumption. cbn [app].
    rewrite read_compact_small; rewrite to_N_byte_of, N.mod_small by lia; [|assumption].
    now apply max_size_check_ok.
  - rewrite write_compact_2 by lia. cbn [app]. rewrite read_compact_253. apply tagged_app; [rewrite p2; lia | exact Hn].
  - rewrite write_compact_4 by lia. cbn [app]. rewrite read_compact_254. apply tagged_app; [rewrite p4; lia | exact Hn].
Qed.

Lemma compact_canonical : forall bs n rest, read_compact bs = Ok n rest ->
  n <= MAX_SIZE /\ bs = write_compact n ++ rest.
Proof.
  intros [|b r1] n rest H; [discriminate|].
  pose proof (to_N_lt b) as Hb. rewrite <- (byte_of_to_N b) in H |- *.
  assert (Hcase : Byte.to_N b < 253 \/ Byte.to_N b = 253 \/ Byte.to_N b = 254 \/ Byte.to_N b = 255) by lia.
  destruct Hcase as [Hs|[E|[E|E]]].
  - rewrite byte_of_to_N in H. rewrite read_compact_small in H by exact Hs.
    apply max_size_check_ok in H. destruct H as (<- & <- & Hm).
    rewrite write_compact_1 by exact Hs. split; [exact Hm | reflexivity].
  - rewrite E, read_compact_253 in H. apply tagged_inv in H. destruct H as (-> & Hr & Hm). rewrite p2 in Hr.
    rewrite E, write_compact_2 by lia. split; [exact Hm | reflexivity].
  - rewrite E, read_compact_254 in H. apply tagged_inv in H. destruct H as (-> & Hr & Hm). rewrite p4 in Hr.
    rewrite E, write_compact_4 by lia. split; [exact Hm | reflexivity].
  - (* the nine-byte form holds at least 2^32, above MAX_SIZE *)
    rewrite E, read_compact_255 in H. apply tagged_inv in H. destruct H as (_ & Hr & Hm).
    unfold MAX_SIZE in Hm. lia.
Qed.

Lemma codec_injective : forall A (c : codec A) wf, codec_ok c wf -> forall x y r r',
  wf x -> wf y -> enc c x ++ r = enc c y ++ r' -> x = y /\ r = r'.
Proof.
  intros A c wf (R & _ & _) x y r r' Hx Hy E.
  pose proof (R x r Hx) as P. rewrite E, (R y r' Hy) in P. injection P as <- <-. auto.
Qed.

Lemma codec_reencode_stable : forall A (c : codec A) wf, codec_ok c wf -> forall bs x rest tl,
  dec c bs = Ok x rest -> dec c (enc c x ++ tl) = Ok x tl.
Proof. intros A c wf (R & _ & C) bs x rest tl H. apply C in H. apply R, H. Qed.

Lemma pair_ok : forall A B (ca : codec A) (cb : codec B) wa wb, codec_ok ca wa -> codec_ok cb wb ->
  codec_ok (c_pair ca cb) (wf_pair wa wb).
Proof.
  intros A B ca cb wa wb (Ra & Sa & Ca) (Rb & Sb & Cb). unfold codec_ok, c_pair, wf_pair. cbn [enc dec ssize].
  split; [|split].
  - intros [a b] tl [Ha Hb]. cbn [fst snd] in *. rewrite <- app_assoc, Ra by exact Ha. cbn [bind].
    now rewrite Rb by exact Hb.
  - intros [a b]. cbn [fst snd]. now rewrite blen_app, Sa, Sb.
  - intros bs x rest H.
    apply bind_ok in H. destruct H as (a & r & Ea & H). apply bind_ok in H. destruct H as (b & r' & Eb & H).
    injection H as <- <-. apply Ca in Ea. apply Cb in Eb. destruct Ea as [Wa ->], Eb as [Wb ->]. cbn [fst snd].
    split; [split; assumption | apply app_assoc].
Qed.

Lemma map_ok : forall A B (f : A -> B) (g : B -> A) (c : codec A) (wa : A -> Prop) (wb : B -> Prop),
  codec_ok c wa ->
  (forall b, wb b -> wa (g b) /\ f (g b) = b) ->
  (forall a, wa a -> wb (f a) /\ g (f a) = a) ->
  codec_ok (c_map f g c) wb.
Proof.
  intros A B f g c wa wb (R & S & C) Hb Ha. unfold codec_ok, c_map. cbn [enc dec ssize]. split; [|split].
  - intros b tl Wb. destruct (Hb b Wb) as [W E]. rewrite R by exact W. cbn [bind]. now rewrite E.
  - intro b. apply S.
  - intros bs b rest H. apply bind_ok in H. destruct H as (x & r & E & H). injection H as <- <-.
    apply C in E. destruct E as [W ->]. destruct (Ha x W) as [Wb E]. split; [exact Wb | now rewrite E].
Qed.

Lemma map_iso_ok : forall A B (f : A -> B) (g : B -> A) (c : codec A) (wa : A -> Prop) (wb : B -> Prop),
  codec_ok c wa -> (forall b, f (g b) = b) -> (forall a, g (f a) = a) -> (forall b, wb b <-> wa (g b)) ->
  codec_ok (c_map f g c) wb.
Proof.
  intros A B f g c wa wb Hc Hfg Hgf W. apply (map_ok _ _ f g c wa wb Hc).
  - intros b Hb. split; [apply W, Hb | apply Hfg].
  - intros a Ha. split; [apply W; rewrite Hgf; exact Ha | apply Hgf].
Qed.

Lemma prefixed_ok : forall A (len : A -> N) (benc : A -> list byte) (bdec : N -> list byte -> res A)
    (bsize : A -> N) (wf : A -> Prop),
  (forall a, wf a -> len a <= MAX_SIZE) ->
  (forall a tl, wf a -> bdec (len a) (benc a ++ tl) = Ok a tl) ->
  (forall a, bsize a = blen (benc a)) ->
  (forall n bs a rest, n <= MAX_SIZE -> bdec n bs = Ok a rest -> wf a /\ bs = benc a ++ rest /\ len a = n) ->
  codec_ok (mk_codec (fun a => write_compact (len a) ++ benc a)
                     (fun bs => bind (read_compact bs) bdec)
                     (fun a => size_of_compact (len a) + bsize a)) wf.
Proof.
  intros A len benc bdec bsize wf Hlen R S C. unfold codec_ok. cbn [enc dec ssize]. split; [|split].
  - intros a tl W. rewrite <- app_assoc, compact_round_trip by apply Hlen, W. cbn [bind]. apply R, W.
  - intro a. now rewrite blen_app, compact_size_length, S.
  - intros bs a rest H. apply bind_ok in H. destruct H as (n & r & E & H).
    apply compact_canonical in E. destruct E as [Hn ->].
    apply (C n r a rest Hn) in H. destruct H as (W & -> & <-). split; [exact W | apply app_assoc].
Qed.

Lemma uint_ok : forall k, codec_ok (c_uint k) (wf_uint k).
Proof.
  intro k. unfold codec_ok, c_uint, wf_uint. cbn [enc dec ssize]. split; [|split].
  - intros a tl Ha. now rewrite read_le_app, N.mod_small.
  - intro a. now rewrite blen_le_bytes.
  - intros bs a rest H. apply read_le_inv in H. tauto.
Qed.

Lemma wrap_mod : forall P z : Z, (- P <= 2 * z < P)%Z -> (z mod P = if z <? 0 then z + P else z)%Z.
Proof.
  intros P z H. destruct (Z.ltb_spec z 0).
  - symmetry. apply (Z.mod_unique z P (-1)); lia.
  - apply Z.mod_small. lia.
Qed.

Lemma signed_unsigned : forall k z, wf_sint k z -> to_signed k (to_unsigned k z) = z.
Proof.
  intros k z H. unfold wf_sint, to_signed, to_unsigned in *. rewrite wrap_mod by exact H.
  set (P := 256 ^ N.of_nat k) in *.
  destruct (Z.ltb_spec z 0).
  - destruct (N.ltb_spec (2 * Z.to_N (z + Z.of_N P)) P); lia.
  - destruct (N.ltb_spec (2 * Z.to_N z) P); lia.
Qed.

Lemma unsigned_signed : forall k n, n < 256 ^ N.of_nat k -> to_unsigned k (to_signed k n) = n /\ wf_sint k (to_signed k n).
Proof.
  intros k n H. unfold wf_sint, to_signed, to_unsigned in *. set (P := 256 ^ N.of_nat k) in *.
  destruct (N.ltb_spec (2 * n) P); (split; [rewrite wrap_mod by lia | lia]).
  - destruct (Z.ltb_spec (Z.of_N n) 0); lia.
  - destruct (Z.ltb_spec (Z.of_N n - Z.of_N P) 0); lia.
Qed.

Lemma to_unsigned_lt : forall k z, to_unsigned k z < 256 ^ N.of_nat k.
Proof.
  intros k z. unfold to_unsigned. pose proof (pow256_pos k) as Hp. set (P := 256 ^ N.of_nat k) in *.
  pose proof (Z.mod_pos_bound z (Z.of_N P)). lia.
Qed.

Lemma sint_ok : forall k, codec_ok (c_sint k) (wf_sint k).
Proof.
  intro k. apply (map_ok _ _ (to_signed k) (to_unsigned k) (c_uint k) (wf_uint k)); [apply uint_ok | |].
  - intros z W. split; [apply to_unsigned_lt | apply signed_unsigned, W].
  - intros n W. destruct (unsigned_signed k n W). auto.
Qed.

Lemma compact_ok : codec_ok c_compact wf_compact.
Proof. exact (conj compact_round_trip (conj (fun n => eq_sym (compact_size_length n)) compact_canonical)). Qed.

Lemma compact_injective : forall n m r r', n <= MAX_SIZE -> m <= MAX_SIZE ->
  write_compact n ++ r = write_compact m ++ r' -> n = m /\ r = r'.
Proof. exact (codec_injective _ _ _ compact_ok). Qed.

Lemma blob_ok : forall k, codec_ok (c_blob k) (wf_blob k).
Proof.
  intro k. unfold codec_ok, c_blob, wf_blob. cbn [enc dec ssize]. split; [|split].
  - intros a tl <-. apply read_bytes_app.
  - reflexivity.
  - intros bs a rest H. apply read_bytes_inv in H. destruct H as [-> H]. unfold blen in H. split; [lia | reflexivity].
Qed.

Lemma bytes_ok : codec_ok c_bytes wf_bytes.
Proof.
  apply (prefixed_ok _ blen (fun l => l) read_bytes blen wf_bytes).
  - auto.
  - intros a tl _. apply read_bytes_app.
  - reflexivity.
  - intros n bs a rest Hn H. apply read_bytes_inv in H. destruct H as [-> <-]. auto.
Qed.

Lemma dec_rep_app : forall A (d : list byte -> res A) n m bs,
  dec_rep d (n + m) bs =
  bind (dec_rep d n bs) (fun l1 r1 => bind (dec_rep d m r1) (fun l2 r2 => Ok (l1 ++ l2) r2)).
Proof.
  intros A d. induction n as [|n IH]; intros m bs; cbn [Nat.add dec_rep bind].
  - destruct (dec_rep d m bs); reflexivity.
  - destruct (d bs) as [a r|]; cbn [bind]; [|reflexivity].
    rewrite IH. destruct (dec_rep d n r) as [l1 r1|]; cbn [bind]; [|reflexivity].
    destruct (dec_rep d m r1); reflexivity.
Qed.

Lemma dec_pos_rep : forall A (d : list byte -> res A) p bs, dec_pos d p bs = dec_rep d (Pos.to_nat p) bs.
Proof.
  intros A d. induction p as [q IH|q IH|]; intro bs; cbn [dec_pos].
  - rewrite Pos2Nat.inj_xI. replace (2 * Pos.to_nat q)%nat with (Pos.to_nat q + Pos.to_nat q)%nat by lia.
    cbn [dec_rep]. destruct (d bs) as [a r|]; cbn [bind]; [|reflexivity].
    rewrite dec_rep_app, <- IH. destruct (dec_pos d q r) as [l1 r1|]; cbn [bind]; [|reflexivity].
    rewrite <- IH. destruct (dec_pos d q r1); reflexivity.
  - rewrite Pos2Nat.inj_xO. replace (2 * Pos.to_nat q)%nat with (Pos.to_nat q + Pos.to_nat q)%nat by lia.
    rewrite dec_rep_app, <- IH.
    destruct (dec_pos d q bs) as [l1 r1|]; cbn [bind]; [|reflexivity]. now rewrite <- IH.
  - change (Pos.to_nat 1) with 1%nat. cbn [dec_rep]. destruct (d bs); reflexivity.
Qed.

Lemma dec_count_rep : forall A (d : list byte -> res A) n bs, dec_count d n bs = dec_rep d (N.to_nat n) bs.
Proof. intros A d [|p] bs; [reflexivity|]. cbn [dec_count N.to_nat]. apply dec_pos_rep. Qed.

Lemma dec_rep_enc_all : forall A (c : codec A) wf, codec_ok c wf -> forall l tl, Forall wf l ->
  dec_rep (dec c) (length l) (enc_all c l ++ tl) = Ok l tl.
Proof.
  intros A c wf [R _] l tl. unfold enc_all. induction 1 as [|a l Ha Hl IH]; [reflexivity|].
  cbn [map concat length dec_rep]. rewrite <- app_assoc, R by exact Ha. cbn [bind]. now rewrite IH.
Qed.

Lemma dec_rep_inv : forall A (c : codec A) wf, codec_ok c wf -> forall n bs l rest,
  dec_rep (dec c) n bs = Ok l rest -> Forall wf l /\ bs = enc_all c l ++ rest /\ length l = n.
Proof.
  intros A c wf (_ & _ & C). unfold enc_all. induction n as [|n IH]; intros bs l rest H; cbn [dec_rep] in H.
  - injection H as <- <-. auto.
  - apply bind_ok in H. destruct H as (a & r & E & H). apply bind_ok in H. destruct H as (l' & r' & E' & H).
    injection H as <- <-. apply C in E. destruct E as [Ha ->]. apply IH in E'. destruct E' as (Hl & -> & <-).
    cbn [map concat length]. rewrite <- app_assoc. auto.
Qed.

Lemma size_all_len : forall A (c : codec A) wf, codec_ok c wf -> forall l, size_all c l = blen (enc_all c l).
Proof.
  intros A c wf (_ & S & _) l. unfold enc_all, size_all. induction l as [|a l IH]; [reflexivity|].
  cbn [fold_right map concat]. now rewrite blen_app, IH, S.
Qed.

Lemma vec_ok : forall A (c : codec A) wf, codec_ok c wf -> codec_ok (c_vec c) (wf_vec wf).
Proof.
  intros A c wf Hc.
  apply (prefixed_ok _ nlen (enc_all c) (dec_count (dec c)) (size_all c) (wf_vec wf)).
  - now intros l [Hn _].
  - intros l tl [_ Hl]. unfold nlen. rewrite dec_count_rep, Nat2N.id. now apply (dec_rep_enc_all _ c wf).
  - apply (size_all_len _ c wf Hc).
  - intros n bs l rest Hn H. rewrite dec_count_rep in H. apply (dec_rep_inv _ c wf Hc) in H.
    destruct H as (Hl & -> & L). unfold wf_vec, nlen. rewrite L, N2Nat.id. auto.
Qed.

(** the seeded writer (`nSize <= 253` takes the one-byte branch) violates all three compact-size facts at 253 *)
Example compact_le253_refuted :
  ~ (forall n tl, n <= MAX_SIZE -> read_compact (write_compact_le253 n ++ tl) = Ok n tl) /\
  ~ (forall n, blen (write_compact_le253 n) = size_of_compact n) /\
  ~ (forall n, n <= MAX_SIZE -> exists rest, read_compact (write_compact_le253 n) = Ok n rest).
Proof.
  assert (L : 253 <= MAX_SIZE) by discriminate.
  split; [|split]; intro H.
  - discriminate (H 253 [] L).
  - discriminate (H 253).
  - destruct (H 253 L) as [rest E]. discriminate E.
Qed.

(** the premises of the codec theorems are satisfiable by non-trivial values: a vector of byte vectors with an
    empty and a 253-byte element (3-byte prefix) decodes back, with the tail untouched *)
Example vec_bytes_nontrivial :
  let v := [[x01; x02]; []; repeat xff 253] in
  wf_vec wf_bytes v /\
  dec (c_vec c_bytes) (enc (c_vec c_bytes) v ++ [xaa]) = Ok v [xaa] /\
  ssize (c_vec c_bytes) v = 261 /\ blen (enc (c_vec c_bytes) v) = 261.
Proof.
  cbv zeta. split; [|split; [|split]]; [| vm_compute; reflexivity ..].
  split; [|repeat constructor]; discriminate.
Qed.
