(** C09 — the height arithmetic: the read set of an ATV check lies inside the window finalization retains
    iff preserve >= settle + 2*ki (containing block above the final block; + 1 if the final block itself counts). *)
From Coq Require Import ZArith List Bool Lia.
From VB Require Import Score.KeystoneDefs Store.TransparentDefs.
Import ListNotations.
Local Open Scope Z_scope.

Lemma keystone_bounds ki he : 0 < ki -> 0 <= he ->
  0 <= atv_second_keystone ki he <= atv_first_keystone ki he /\
  he - 2 * ki - 1 <= atv_second_keystone ki he /\
  he - ki - 1 <= atv_first_keystone ki he <= Z.max 0 (he - 2).
Proof.
  intros Hk Hh. unfold atv_second_keystone, atv_first_keystone, m_previousKeystone.
  pose proof (Z.mul_div_le (he - 2) ki Hk) as Hle. pose proof (Z.mul_succ_div_gt (he - 2) ki Hk) as Hgt.
  rewrite Z.mul_succ_r in Hgt. set (q := ki * ((he - 2) / ki)) in *. clearbody q.
  destruct (Z.leb_spec he (1 + 1 * ki)); destruct (Z.leb_spec he (1 + 0 * ki)); lia.
Qed.

(* every block the check touches explicitly is in the interval [second keystone .. containing block] *)
Lemma atv_read_marks_in_reads ki hc he h :
  0 < ki -> 1 <= he -> he <= hc -> In h (atv_read_marks ki hc he) -> atv_reads ki hc he h.
Proof.
  intros Hk H1 Hc Hin. unfold atv_reads. pose proof (keystone_bounds ki he Hk ltac:(lia)) as K.
  unfold atv_read_marks in Hin. cbn [In] in Hin.
  destruct Hin as [<-|[<-|[<-|[<-|[<-|[]]]]]]; lia.
Qed.

Lemma reads_within_window strict ki settle preserve :
  0 < ki -> least_preserve strict ki settle <= preserve -> reads_in_window strict ki settle preserve.
Proof.
  intros Hk Hp rootH tipH maxReorg hc he h (Hr & Hm & Hre & Hec & Hs & Hf) [Hlo Hhi] Hroot.
  pose proof (keystone_bounds ki he Hk ltac:(lia)) as K.
  unfold retained_low. unfold least_preserve in Hp.
  set (hf := final_height rootH tipH maxReorg) in *. clearbody hf.
  destruct strict; lia.
Qed.

Lemma second_keystone_witness ki : 0 < ki -> atv_second_keystone ki (3 * ki + 1) = ki.
Proof.
  intros Hk. unfold atv_second_keystone, m_previousKeystone.
  destruct (Z.leb_spec (3 * ki + 1) (1 + 1 * ki)); [lia|].
  assert (Hq : (3 * ki + 1 - 2) / ki = 2).
  { symmetry. apply (Z.div_unique (3 * ki + 1 - 2) ki 2 (ki - 1)); lia. }
  rewrite Hq. lia.
Qed.

(* a miss for every smaller window: endorsed block 3*ki + 1 (previous keystones 2*ki and ki), containing block
   settle above it, final block = containing block (or the block below it when strict) *)
Lemma window_miss_below strict ki settle preserve :
  0 < ki -> 0 <= settle -> preserve < least_preserve strict ki settle ->
  let he := 3 * ki + 1 in
  let hc := he + settle in
  let hf := if strict then hc - 1 else hc in
  window_miss strict ki settle preserve 0 (hf + settle + 1) (settle + 1) hc he.
Proof.
  intros Hk Hs Hp he hc hf. unfold window_miss, atv_situation, retained_low, final_height.
  subst he. rewrite (second_keystone_witness ki Hk). unfold least_preserve in Hp.
  subst hf hc. destruct strict; repeat split; lia.
Qed.

Lemma least_bound_tight strict ki settle :
  0 < ki -> 0 <= settle ->
  exists rootH tipH maxReorg hc he,
    window_miss strict ki settle (least_preserve strict ki settle - 1) rootH tipH maxReorg hc he.
Proof.
  intros Hk Hs. do 5 eexists. apply (window_miss_below strict ki settle); lia.
Qed.

Lemma window_miss_not_in_window strict ki settle preserve rootH tipH maxReorg hc he :
  0 < ki ->
  window_miss strict ki settle preserve rootH tipH maxReorg hc he -> ~ reads_in_window strict ki settle preserve.
Proof.
  intros Hk (Hsit & Hr & Hlt) Hw.
  pose proof Hsit as (H0 & Hm & Hre & Hec & Hs & Hf).
  pose proof (keystone_bounds ki he Hk ltac:(lia)) as K.
  (* the second keystone is itself a read: it is at most he *)
  assert (Hrd : atv_reads ki hc he (atv_second_keystone ki he)) by (unfold atv_reads; lia).
  specialize (Hw rootH tipH maxReorg hc he _ Hsit Hrd Hr). lia.
Qed.

Lemma reads_in_window_iff strict ki settle preserve :
  0 < ki -> 0 <= settle ->
  (reads_in_window strict ki settle preserve <-> least_preserve strict ki settle <= preserve).
Proof.
  intros Hk Hs. split.
  - intros Hw. destruct (Z.le_gt_cases (least_preserve strict ki settle) preserve) as [H|H]; [exact H|].
    exfalso. exact (window_miss_not_in_window _ _ _ _ _ _ _ _ _ Hk (window_miss_below strict ki settle preserve Hk Hs H) Hw).
  - apply reads_within_window. exact Hk.
Qed.

(* the relation the parameters assert (preserve >= settle), at equality, never suffices *)
Lemma preserve_equals_settle_misses strict ki settle :
  0 < ki -> 0 <= settle ->
  (exists rootH tipH maxReorg hc he, window_miss strict ki settle settle rootH tipH maxReorg hc he) /\
  ~ reads_in_window strict ki settle settle.
Proof.
  intros Hk Hs.
  assert (Hp : settle < least_preserve strict ki settle) by (unfold least_preserve; destruct strict; lia).
  pose proof (window_miss_below strict ki settle settle Hk Hs Hp) as Hm. cbv zeta in Hm.
  split; [do 5 eexists; exact Hm|].
  exact (window_miss_not_in_window _ _ _ _ _ _ _ _ _ Hk Hm).
Qed.

(* the parameters of corpus/C09/F12_ctx_keystone_dealloc.json: ki 3, settle = preserve = 4, maxReorg 8; at tip 20 the
   final block is 12 and the new root 8; block 13 may carry an ATV endorsing block 9 whose previous keystones are
   6 and 3 *)
Lemma preserve_equals_settle_concrete :
  final_height 0 20 8 = 12 /\ retained_low 0 20 8 4 = 8 /\
  atv_first_keystone 3 9 = 6 /\ atv_second_keystone 3 9 = 3 /\
  window_miss true 3 4 4 0 20 8 13 9.
Proof. vm_compute. repeat split; congruence. Qed.

Lemma payout_reads_within_window delay avg preserve rootH tipH maxReorg h :
  0 <= preserve -> maxReorg <= tipH -> delay - 1 + avg <= maxReorg + preserve ->
  payout_reads delay avg tipH h -> rootH <= h -> retained_low rootH tipH maxReorg preserve <= h.
Proof. unfold payout_reads, retained_low, final_height. lia. Qed.

Lemma payout_bound_tight delay avg maxReorg preserve :
  1 <= delay -> 0 <= avg -> 0 <= maxReorg -> 0 <= preserve -> maxReorg + preserve < delay - 1 + avg ->
  let tipH := delay + avg + maxReorg in
  let h := tipH - (delay - 1) - avg in
  maxReorg <= tipH /\ payout_reads delay avg tipH h /\ 0 <= h /\ h < retained_low 0 tipH maxReorg preserve.
Proof. intros. subst tipH h. unfold payout_reads, retained_low, final_height. lia. Qed.
