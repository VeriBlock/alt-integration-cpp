(** C10 — the endorsement-recovery window of load accepts exactly the endorsements the LIVE rule accepts
    (AddEndorsement: `containing.height - endorsed.height > settlementInterval` => expired); a window
    shortened by one rejects storage written by a valid instance. *)
From Coq Require Import NArith List Bool.
From VB Require Import Store.SaveLoadDefs.
Import ListNotations.
Local Open Scope N_scope.

Definition live_rule (si : N) (m : store) (x : N * pers) : Prop :=
  forall e, In e (p_ce (snd x)) ->
  exists eb, lookup m (snd e) = Some eb /\ p_height (snd x) - p_height (b_pers eb) <= si.

Lemma recover_check_iff_live_rule si m x :
  recover_check (window_start si) m x = true <-> live_rule si m x.
Proof.
  unfold recover_check, live_rule, window_start. rewrite forallb_forall. split.
  (* h - si <= e and h - e <= si both say h <= e + si *)
  - intros H e He. specialize (H e He). destruct (lookup m (snd e)) as [eb|]; [|discriminate].
    exists eb. split; [reflexivity|]. apply N.le_sub_le_add_l, N.le_sub_le_add_r, N.leb_le, H.
  - intros H e He. destruct (H e He) as (eb & -> & Hle). apply N.leb_le, N.le_sub_le_add_r, N.le_sub_le_add_l, Hle.
Qed.

(* with the check passed, the windowed load is the load the other theorems talk about *)
Lemma load_blocks_w_sound P w l : forall m m', load_blocks_w P w l m = Some m' -> load_blocks P l m = Some m'.
Proof.
  induction l as [|x r IH]; intros m m' H; cbn [load_blocks_w load_blocks] in *; [exact H|].
  destruct (load_block P m x) as [m1|]; [|discriminate].
  destruct (recover_check w m1 x); [|discriminate].
  destruct (recover_block m1 x) as [m2|]; [|discriminate]. exact (IH m2 m' H).
Qed.

Lemma load_blocks_w_complete P w l : forall m m',
  load_blocks P l m = Some m' ->
  (forall x m1, In x l -> recover_check w m1 x = true) ->
  load_blocks_w P w l m = Some m'.
Proof.
  induction l as [|x r IH]; intros m m' H Hc; cbn [load_blocks_w load_blocks] in *; [exact H|].
  destruct (load_block P m x) as [m1|]; [|discriminate].
  rewrite (Hc x m1 (or_introl eq_refl)).
  destruct (recover_block m1 x) as [m2|]; [|discriminate].
  apply IH; [exact H|]. intros y my Hy. apply Hc. now right.
Qed.

(* an endorsement exactly at the boundary (distance = si = 6) satisfies the live rule and passes the real window,
   but the window shortened by one rejects it: loadTrees would refuse storage written by a valid instance *)
Definition boundary_store : store :=
  [(4, mkBlock (mkPers None 4 (mkStatus 4 false false false false true true false) [] [] 0) false [] false)].
Definition boundary_block : N * pers :=
  (10, mkPers (Some 9) 10 (mkStatus 4 false false false false true true false) [7] [(100, 4)] 0).

Lemma recovery_window_short_refuted :
  live_rule 6 boundary_store boundary_block /\
  recover_check (window_start 6) boundary_store boundary_block = true /\
  recover_check (window_start_short 6) boundary_store boundary_block = false.
Proof.
  split; [|split; vm_compute; reflexivity].
  apply recover_check_iff_live_rule. vm_compute. reflexivity.
Qed.
