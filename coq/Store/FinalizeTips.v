(** C09 — which tips the isBlockOutdated-based erasure of finalizeBlockImpl keeps.
    When no outdated off-chain tip has an unsaved block on its branch, the final block is not lowered during
    the erasure and exactly the outdated off-chain tips go; in particular every tip that descends from the
    final block stays.  The carved-out situation (an outdated tip whose branch holds a dirty block: the final
    block is lowered to the branch's fork point, yet the tip is erased) is known finding tips-dirty-fork-erased;
    [tips_dirty_fork_erased_refuted] is the corpus witness corpus/C09/F10_dirty_fork_erased_from_tips.json. *)
From Coq Require Import NArith List Bool.
From VB Require Import Store.FinalizeDefs Store.FinalizeProofs.
Import ListNotations.
Local Open Scope N_scope.

Definition erasable (fuel : nat) (t : ftree) (fin tp : N) : bool :=
  negb (on_chain t tp) && outdated fuel fuel t fin tp.

(* no outdated off-chain tip has an unsaved block between itself and the active chain *)
Definition no_dirty_outdated_forks (fuel : nat) (t : ftree) (fin : N) (tips : list N) : Prop :=
  forall tp, In tp tips -> erasable fuel t fin tp = true -> snd (walk_to_chain fuel t tp false) = false.

Lemma erase_tips_clean fuel t fin : forall tips,
  no_dirty_outdated_forks fuel t fin tips ->
  erase_tips fuel t tips fin = (filter (fun tp => negb (erasable fuel t fin tp)) tips, fin).
Proof.
  induction tips as [|tp r IH]; intros H; cbn [erase_tips filter]; [reflexivity|].
  assert (Hr : no_dirty_outdated_forks fuel t fin r).
  { intros x Hx. apply H. now right. }
  fold (erasable fuel t fin tp). destruct (erasable fuel t fin tp) eqn:E; cbn [negb].
  - pose proof (H tp (or_introl eq_refl) E) as Hd.
    destruct (walk_to_chain fuel t tp false) as [w d]. cbn [snd] in Hd. subst d. exact (IH Hr).
  - rewrite (IH Hr). reflexivity.
Qed.

Lemma tips_kept_except_dirty_forks fuel t fin tips tp :
  no_dirty_outdated_forks fuel t fin tips ->
  In tp tips -> descends fuel t tp fin = true ->
  In tp (fst (erase_tips fuel t tips fin)) /\ snd (erase_tips fuel t tips fin) = fin.
Proof.
  intros H Hin Hd. rewrite (erase_tips_clean fuel t fin tips H). cbn [fst snd]. split; [|reflexivity].
  apply filter_In. split; [exact Hin|]. unfold erasable.
  rewrite (outdated_descendant fuel fuel t fin tp Hd), andb_false_r. reflexivity.
Qed.

(* the exception: chain 0..12, saved forks 13,14,15 from block 3, UNSAVED fork 16 from block 1;
   finalizeBlocks(maxReorg 8, preserve 12): the final block becomes 1 (lowered from 4), block 16 descends from
   it, is still in the tree - and is not among the tips *)
Definition f10_tree : ftree :=
  let mk := fun (i : N) => (i, mkF (if i =? 0 then None else Some (i - 1)) i false (i =? 0) []) in
  mkT (map mk [0;1;2;3;4;5;6;7;8;9;10;11;12]
       ++ [(13, mkF (Some 3) 4 false false []); (14, mkF (Some 3) 4 false false []);
           (15, mkF (Some 3) 4 false false []); (16, mkF (Some 1) 2 true false [])])
      [0;1;2;3;4;5;6;7;8;9;10;11;12] [16; 12; 13; 14; 15] [].

Lemma tips_dirty_fork_erased_refuted :
  let t' := finalizeBlocks 40 f10_tree 8 12 1000000 in
  highest_final t' = Some 1 /\ descends 40 t' 16 1 = true /\ flookup (t_blocks t') 16 <> None /\
  ~ In 16 (t_tips t') /\ In 13 (t_tips t').
Proof.
  vm_compute. repeat split; try discriminate; auto.
  intros [H|[H|[H|[H|[]]]]]; discriminate.
Qed.
