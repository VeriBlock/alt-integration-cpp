(** C09 — the known finding ctx-keystone-dealloc on the model, and non-vacuity of the transparency theorems.
    Tree: Store/TransparentDefs.v [chain20] (active chain 0..20, fork 113 on block 12); ki = 3, settle = 4. *)
From Coq Require Import ZArith NArith List Bool.
From VB Require Import Score.KeystoneDefs Store.FinalizeDefs Store.FinalizeProofs
  Store.FinalizeOutdated Store.FinalizeWindow Store.TransparentDefs Store.TransparentProofs.
Import ListNotations.
Local Open Scope N_scope.

(* preserve = settle = 4, maxReorg = 8 (the parameters of corpus/C09/F12_ctx_keystone_dealloc.json): at tip 20 block 12
   is final and block 8 the new root.  The fork block 113 (parent 12) is not outdated; it may carry an ATV that
   endorses block 9 (113 is at height 13, 13 - 9 <= 4).  The honest context info of block 9 names the keystones 6
   and 3; both are deallocated, so the finalizing instance computes (9, None, None) and rejects the ATV
   (bad-sf-context) that the never-finalizing instance accepts. *)
Lemma preserve_equals_settle_refuted_tree :
  let t := chain20 in
  let t' := finalizeBlocks 40 t 8 4 1000000 in
  let ctx := f_honest_ctx 40 t 3 9 in
  t_chain t' = [8;9;10;11;12;13;14;15;16;17;18;19;20] /\ highest_final t' = Some 12 /\
  descends 40 t' 113 12 = true /\ outdated 40 40 t' 12 113 = false /\
  ctx = (9, Some 6, Some 3) /\
  prevks 9 3 0 = 6 /\ prevks 9 3 1 = 3 /\ flookup (t_blocks t') 6 = None /\ flookup (t_blocks t') 3 = None /\
  f_check_atv 40 t 3 4 113 9 ctx = AOk /\
  f_check_atv 40 t' 3 4 113 9 ctx = ASfContext /\
  f_honest_ctx 40 t' 3 9 = (9, None, None) /\
  f_check_atv 40 t 3 4 13 9 ctx = AOk /\ f_check_atv 40 t' 3 4 13 9 ctx = ASfContext.
Proof. vm_compute. repeat split; reflexivity. Qed.

(* tightness on the tree: maxReorg 7 makes block 13 final at tip 20; block 14 may endorse block 10 = 3*ki + 1 whose
   keystones are 6 and 3.  preserve = settle + 2*ki - 1 = 9 leaves the new root at 4 and the check differs;
   preserve = settle + 2*ki = 10 leaves it at 3 and the check agrees *)
Lemma least_bound_tight_tree :
  let t := chain20 in
  let ctx := f_honest_ctx 40 t 3 10 in
  ctx = (10, Some 6, Some 3) /\
  highest_final (finalizeBlocks 40 t 7 9 1000000) = Some 13 /\
  root_of (finalizeBlocks 40 t 7 9 1000000) = 4 /\ root_of (finalizeBlocks 40 t 7 10 1000000) = 3 /\
  f_check_atv 40 t 3 4 14 10 ctx = AOk /\
  f_check_atv 40 (finalizeBlocks 40 t 7 9 1000000) 3 4 14 10 ctx = ASfContext /\
  f_check_atv 40 (finalizeBlocks 40 t 7 10 1000000) 3 4 14 10 ctx = AOk.
Proof. vm_compute. repeat split; reflexivity. Qed.

Definition chain_is_pathb (fuel : nat) (t : ftree) : bool :=
  forallb (fun x => forallb (fun y => implb (height_of t x <=? height_of t y) (descends fuel t y x)) (t_chain t)) (t_chain t).

Lemma chain_is_pathb_sound fuel t : chain_is_pathb fuel t = true -> chain_is_path t.
Proof.
  intros H x y Hx Hy Hle. unfold chain_is_pathb in H.
  rewrite forallb_forall in H. specialize (H x Hx). rewrite forallb_forall in H. specialize (H y Hy).
  apply N.leb_le in Hle. rewrite Hle in H. exact (descends_anc fuel t y x H).
Qed.

Definition root_lowestb (t : ftree) : bool := forallb (fun x => height_of t (root_of t) <=? height_of t x) (t_chain t).
Lemma root_lowestb_sound t : root_lowestb t = true -> root_lowest t.
Proof. intros H x Hx. unfold root_lowestb in H. rewrite forallb_forall in H. apply N.leb_le. exact (H x Hx). Qed.

Definition fuel_okb (fuel : nat) (t : ftree) : bool :=
  forallb (fun kb => (N.to_nat (f_height (snd kb)) <=? fuel)%nat) (t_blocks t).
Lemma fuel_okb_sound fuel t : fuel_okb fuel t = true -> fuel_ok fuel t.
Proof.
  intros H id b Hb. unfold fuel_okb in H. rewrite forallb_forall in H.
  specialize (H (id, b) (flookup_In _ _ _ Hb)). cbn [snd] in H. apply Nat.leb_le. exact H.
Qed.

(* non-vacuity: the hypotheses of the transparency theorems hold for chain20, final block 13, preserve 10 *)
Example chain20_side_conditions :
  wf_tree chain20 /\ chain_is_path chain20 /\ root_lowest chain20 /\ fuel_ok 40 chain20 /\
  (13 =? root_of chain20) = false /\
  erase_tips 40 chain20 (t_tips chain20) (lowest_dirty 40 chain20 13 13) = ([20], 13) /\
  In 13 (t_chain chain20) /\
  chain_at chain20 (N.max (height_of chain20 (root_of chain20)) (height_of chain20 13 - 10)) = Some 3 /\
  anc chain20 13 14 /\ anc chain20 10 14.
Proof.
  split; [apply wf_treeb_sound; vm_compute; reflexivity|].
  split; [apply (chain_is_pathb_sound 40); vm_compute; reflexivity|].
  split; [apply root_lowestb_sound; vm_compute; reflexivity|].
  split; [apply fuel_okb_sound; vm_compute; reflexivity|].
  split; [vm_compute; reflexivity|].
  split; [vm_compute; reflexivity|].
  split; [vm_compute; auto 20|].
  split; [vm_compute; reflexivity|].
  split; apply (descends_anc 40); vm_compute; reflexivity.
Qed.

(* the ATV theorem applied (not computed): whatever context an ATV in block 14 endorsing block 10 carries, the
   verdict is the same after finalizing block 13 with preserve = settle + 2*ki = 10 *)
Example transparent_atv_check_applies ctx :
  f_check_atv 40 (finalizeBlockImpl 40 chain20 13 10) 3 4 14 10 ctx = f_check_atv 40 chain20 3 4 14 10 ctx.
Proof.
  destruct chain20_side_conditions as (Hwf & Hpath & Hlow & Hfuel & Hroot & He & Hfin & Hc & Ha1 & Ha2).
  apply (finalize_transparent_atv_check 40 chain20 13 10 [20] 13 3 Hwf Hpath Hlow Hfuel Hroot He Hfin Hc true);
    try assumption; vm_compute; try reflexivity; discriminate.
Qed.

(* the generic theorem applied with preserve = settle + 2*ki + 1 = 11 to a reader of the read set: the context info
   createFromPrevious computes for block 10, read off the blocks 9, 6 and 3 directly *)
Definition ctx_reader (t : ftree) : option (N * option N) :=
  match flookup (t_blocks t) 9, flookup (t_blocks t) 6, flookup (t_blocks t) 3 with
  | Some b9, Some b6, Some b3 => Some (f_height b9 + f_height b6 + f_height b3, f_parent b3)
  | _, _, _ => None
  end.

Example chain20_side_conditions_11 :
  chain_at chain20 (N.max (height_of chain20 (root_of chain20)) (height_of chain20 13 - 11)) = Some 2 /\
  atv_read_ids chain20 3 14 10 9 /\ atv_read_ids chain20 3 14 10 6 /\ atv_read_ids chain20 3 14 10 3.
Proof.
  split; [vm_compute; reflexivity|].
  repeat split; try (apply (descends_anc 40); vm_compute; reflexivity); vm_compute; discriminate.
Qed.

Lemma ctx_reader_reads_only : reads_only (atv_read_ids chain20 3 14 10) ctx_reader.
Proof.
  destruct chain20_side_conditions_11 as (_ & R9 & R6 & R3).
  intros t1 t2 H. unfold ctx_reader.
  pose proof (H 9 R9) as H9. pose proof (H 6 R6) as H6. pose proof (H 3 R3) as H3.
  destruct (flookup (t_blocks t1) 9) as [a9|], (flookup (t_blocks t2) 9) as [b9|]; try discriminate;
  destruct (flookup (t_blocks t1) 6) as [a6|], (flookup (t_blocks t2) 6) as [b6|]; try discriminate;
  destruct (flookup (t_blocks t1) 3) as [a3|], (flookup (t_blocks t2) 3) as [b3|]; try discriminate;
    try reflexivity.
  cbn [option_map] in H9, H6, H3. unfold fcore in *. congruence.
Qed.

Example transparent_reads_applies :
  ctx_reader (finalizeBlockImpl 40 chain20 13 11) = ctx_reader chain20 /\ ctx_reader chain20 = Some (18, Some 2).
Proof.
  destruct chain20_side_conditions as (Hwf & Hpath & Hlow & Hfuel & Hroot & He & Hfin & _ & Ha1 & Ha2).
  destruct chain20_side_conditions_11 as (Hc & _).
  split; [|vm_compute; reflexivity].
  apply (finalize_transparent_reads 40 chain20 13 11 [20] 13 2 Hwf Hpath Hlow Hfuel Hroot He Hfin Hc ctx_reader true 3 4 14 10);
    try assumption; try exact ctx_reader_reads_only; vm_compute; try reflexivity; discriminate.
Qed.

(* ... and with one block less (preserve = 10) the same reader does see the cut pprev of the new root 3 *)
Example transparent_reads_tight :
  ctx_reader (finalizeBlockImpl 40 chain20 13 10) = Some (18, None).
Proof. vm_compute. reflexivity. Qed.
