(** C09 — main theorems about the finalization model: final_monotone over operation histories,
    what finalizeBlockImpl retains, and the partial transparency statement. *)
From Coq Require Import NArith List Bool.
From VB Require Import Store.FinalizeDefs Store.FinalizeProofs.
Import ListNotations.
Local Open Scope N_scope.

(* the blocks that survive deallocateTree: [keep] of finalizeBlockImpl, with the ACTUAL final block [fin] *)
Definition kept (fuel : nat) (t : ftree) (fin newRoot id : N) : bool :=
  descends fuel t id newRoot && negb (negb (newRoot =? root_of t) && under_sibling fuel t fin id).

Definition retain (newRoot : N) (newly : list N) (id : N) (b : fblock) : fblock :=
  mkF (if id =? newRoot then None else f_parent b) (f_height b) (f_dirty b)
      (f_final b || existsb (N.eqb id) newly) (f_pl b).

Lemma finalize_view fuel t idx preserve :
  (idx =? root_of t) = false ->
  forall tips' fin newRoot,
  erase_tips fuel t (t_tips t) (lowest_dirty fuel t idx idx) = (tips', fin) ->
  chain_at t (N.max (height_of t (root_of t)) (height_of t fin - preserve)) = Some newRoot ->
  exists newly,
  (forall id, flookup (t_blocks (finalizeBlockImpl fuel t idx preserve)) id =
              if kept fuel t fin newRoot id then option_map (retain newRoot newly id) (flookup (t_blocks t) id)
              else None) /\
  t_chain (finalizeBlockImpl fuel t idx preserve) =
  filter (fun id => N.max (height_of t (root_of t)) (height_of t fin - preserve) <=? height_of t id) (t_chain t).
Proof.
  intros Hroot tips' fin newRoot He Hc. unfold finalizeBlockImpl. rewrite Hroot, He, Hc.
  cbn [t_blocks t_chain]. set (newly := unfinal_path _ _ fin). exists newly. split; [|reflexivity]. intros id.
  rewrite flookup_mark_final, flookup_set_parent_none, (flookup_filter _ (kept fuel t fin newRoot)) by reflexivity.
  destruct (kept fuel t fin newRoot id); [|reflexivity].
  destruct (flookup (t_blocks t) id) as [[p h d f pl]|]; [|reflexivity]. cbn [option_map]. unfold retain.
  destruct (id =? newRoot), (existsb _ _); cbn; rewrite ?orb_true_r, ?orb_false_r; reflexivity.
Qed.

Definition fin_or_gone (t : ftree) (b : N) : Prop :=
  (In b (t_chain t) /\ is_final t b = true) \/ flookup (t_blocks t) b = None.

Lemma fin_or_gone_map t t' b g :
  (forall x, f_final x = true -> f_final (g x) = true) ->
  flookup (t_blocks t') b = option_map g (flookup (t_blocks t) b) ->
  (In b (t_chain t) -> is_final t b = true -> In b (t_chain t')) ->
  fin_or_gone t b -> fin_or_gone t' b.
Proof.
  intros Hg Hl Hc [[Hin Hf]|Hn]; [left|right; rewrite Hl, Hn; reflexivity].
  split; [exact (Hc Hin Hf)|]. unfold is_final in *. rewrite Hl.
  destruct (flookup (t_blocks t) b); [exact (Hg _ Hf)|discriminate].
Qed.

Lemma finalizeBlockImpl_monotone fuel t idx preserve b :
  fin_or_gone t b -> fin_or_gone (finalizeBlockImpl fuel t idx preserve) b.
Proof.
  destruct (idx =? root_of t) eqn:Hroot.
  - unfold finalizeBlockImpl. rewrite Hroot. destruct (is_final t idx); [auto|].
    eapply fin_or_gone_map; [|exact (flookup_mark_final [idx] (t_blocks t) b)|auto].
    intros x Hx. destruct (existsb _ _); [reflexivity|exact Hx].
  - destruct (erase_tips fuel t (t_tips t) (lowest_dirty fuel t idx idx)) as [tips' fin] eqn:He.
    destruct (chain_at t (N.max (height_of t (root_of t)) (height_of t fin - preserve))) as [newRoot|] eqn:Hc.
    2:{ unfold finalizeBlockImpl. rewrite Hroot, He, Hc. auto. }
    destruct (finalize_view fuel t idx preserve Hroot tips' fin newRoot He Hc) as (newly & Hl & Hch).
    destruct (kept fuel t fin newRoot b) eqn:Hk; [|intros _; right; rewrite Hl, Hk; reflexivity].
    apply (fin_or_gone_map t _ b (retain newRoot newly b)).
    + intros x Hx. cbn [retain f_final]. now rewrite Hx.
    + rewrite Hl, Hk. reflexivity.
    + (* a surviving block descends from the new root, so it is not below it *)
      intros Hin _. rewrite Hch. apply filter_In. split; [exact Hin|]. apply N.leb_le.
      rewrite <- (proj2 (chain_at_find t _ _ Hc)). apply (descends_height fuel).
      apply andb_true_iff in Hk. exact (proj1 Hk).
Qed.

Lemma finalizeBlocks_monotone fuel t m p h b :
  fin_or_gone t b -> fin_or_gone (finalizeBlocks fuel t m p h) b.
Proof.
  intros H. unfold finalizeBlocks. destruct (_ <? m); [exact H|].
  destruct (chain_at t _) as [fi|]; [|exact H]. destruct (h <=? _); [exact H|].
  apply finalizeBlockImpl_monotone. exact H.
Qed.

Inductive fop :=
| FSetTip (to : N)                                  (* setState / comparePopScore switching the tip *)
| FFinalize (maxReorg preserve maxFinH : N)         (* finalizeBlocks (public call or automatic in overrideTip) *)
| FAdd (id parent : N) (pl : list N)                (* acceptBlockHeader + acceptBlock of a new block *)
| FSaved.                                           (* saveTrees: dirty bits cleared *)

Definition fstep (fuel : nat) (t : ftree) (o : fop) : fres :=
  match o with
  | FSetTip to => setTip fuel t to
  | FFinalize m p h => FOk (finalizeBlocks fuel t m p h)
  | FAdd id parent pl =>
    match flookup (t_blocks t) id with
    | Some _ => FOk t
    | None => match flookup (t_blocks t) parent with
              | None => FAbort
              | Some pb => FOk (mkT (t_blocks t ++ [(id, mkF (Some parent) (f_height pb + 1) true false pl)])
                                    (t_chain t) (t_tips t ++ [id]) (t_fpidx t))
              end
    end
  | FSaved => FOk (mkT (map (fun kb => (fst kb, mkF (f_parent (snd kb)) (f_height (snd kb)) false (f_final (snd kb)) (f_pl (snd kb))))
                            (t_blocks t)) (t_chain t) (t_tips t) (t_fpidx t))
  end.

Fixpoint frun (fuel : nat) (ops : list fop) (t : ftree) : fres :=
  match ops with
  | [] => FOk t
  | o :: r => match fstep fuel t o with FOk t' => frun fuel r t' | FAbort => FAbort end
  end.

(* the hash of a deallocated block is not accepted again (its parent is gone as well) *)
Definition never_readds (b : N) (ops : list fop) : bool :=
  forallb (fun o => match o with FAdd id _ _ => negb (id =? b) | _ => true end) ops.

Lemma fstep_monotone fuel t o t' b :
  (match o with FAdd id _ _ => negb (id =? b) | _ => true end) = true ->
  fstep fuel t o = FOk t' -> fin_or_gone t b -> fin_or_gone t' b.
Proof.
  intros Hno Hs. destruct o as [to|m p h|id parent pl|]; cbn [fstep] in Hs.
  - apply (fin_or_gone_map t t' b (fun x => x)); [auto| |exact (setTip_keeps_final fuel t to t' b Hs)].
    destruct (setTip_ok fuel t to t' Hs) as [-> _]. cbn [t_blocks]. destruct (flookup _ b); reflexivity.
  - injection Hs as <-. apply finalizeBlocks_monotone.
  - destruct (flookup (t_blocks t) id); [injection Hs as <-; auto|].
    destruct (flookup (t_blocks t) parent) as [pb|]; [|discriminate]. injection Hs as <-.
    apply negb_true_iff, N.eqb_neq in Hno.
    apply (fin_or_gone_map t _ b (fun x => x)); [auto| |auto].
    cbn [t_blocks]. rewrite flookup_app_none by congruence. destruct (flookup _ b); reflexivity.
  - injection Hs as <-.
    eapply fin_or_gone_map; [|apply flookup_map_fst; reflexivity|auto]. auto.
Qed.

Lemma frun_monotone fuel ops b : forall t t',
  never_readds b ops = true -> frun fuel ops t = FOk t' -> fin_or_gone t b -> fin_or_gone t' b.
Proof.
  induction ops as [|o r IH]; intros t t' Hn Hr H; cbn [frun] in Hr.
  - injection Hr as <-. exact H.
  - cbn [never_readds forallb] in Hn. apply andb_true_iff in Hn. destruct Hn as [Hn1 Hn2].
    destruct (fstep fuel t o) as [t1|] eqn:E; [|discriminate].
    exact (IH t1 t' Hn2 Hr (fstep_monotone fuel t o t1 b Hn1 E H)).
Qed.

(* once a block of the active chain is finalized, after ANY history of tip switches, finalizations, block
   additions and saves that does not abort (assertBlockCanBeUnapplied) it is still on the active chain and
   final — or it has been deallocated behind the root of the chain *)
Lemma final_monotone fuel ops : forall t t' b,
  never_readds b ops = true ->
  In b (t_chain t) -> is_final t b = true ->
  frun fuel ops t = FOk t' ->
  (In b (t_chain t') /\ is_final t' b = true) \/ flookup (t_blocks t') b = None.
Proof.
  intros t t' b Hn Hin Hf Hr. exact (frun_monotone fuel ops b t t' Hn Hr (or_introl (conj Hin Hf))).
Qed.

(* finalization leaves the retained part of the tree untouched: every block that descends from the new root
   and is not under a sibling of the final block keeps its height, payload ids, dirty bit and (except for the
   new root itself) its parent; so every walk (getAncestor, getForkBlock, duplicate search along the chain)
   that stays above the new root sees the same blocks before and after.
   GAP to the full statement (same answers of setState/comparePopScore/payouts for all later candidates):
   POP command execution is not part of this model; on the real library it is NOT transparent under the
   asserted relation preserve >= settlement alone (known finding ctx-keystone-dealloc: CheckPublicationData
   needs two keystones below the endorsed block), see corpus/C09/F12_ctx_keystone_dealloc.json. *)
Lemma finalize_transparent_partial fuel t idx preserve :
  (idx =? root_of t) = false ->
  forall tips' fin newRoot,
  erase_tips fuel t (t_tips t) (lowest_dirty fuel t idx idx) = (tips', fin) ->
  chain_at t (N.max (height_of t (root_of t)) (height_of t fin - preserve)) = Some newRoot ->
  forall id b,
  flookup (t_blocks t) id = Some b ->
  descends fuel t id newRoot = true ->
  (negb (newRoot =? root_of t) && under_sibling fuel t fin id) = false ->
  exists b', flookup (t_blocks (finalizeBlockImpl fuel t idx preserve)) id = Some b' /\
             f_height b' = f_height b /\ f_pl b' = f_pl b /\ f_dirty b' = f_dirty b /\
             (id <> newRoot -> f_parent b' = f_parent b).
Proof.
  intros Hroot tips' fin newRoot He Hc id b Hl Hd Hs.
  destruct (finalize_view fuel t idx preserve Hroot tips' fin newRoot He Hc) as (newly & Hv & _).
  exists (retain newRoot newly id b). rewrite Hv, Hl. unfold kept. rewrite Hd, Hs. repeat split.
  intros Hne. apply N.eqb_neq in Hne. cbn. rewrite Hne. reflexivity.
Qed.

(* non-vacuity: a 12-block chain with a side fork; finalization with maxReorg 4, preserve 2 moves the root,
   deallocates the fork and fills the finalized payload index; the old tip is still the tip *)
Definition chain12 : ftree :=
  let mk := fun (i : N) => (i, mkF (if i =? 0 then None else Some (i - 1)) i false (i =? 0) [100 + i]) in
  mkT (map mk [0;1;2;3;4;5;6;7;8;9;10;11;12] ++ [(20, mkF (Some 3) 4 false false [200])])
      [0;1;2;3;4;5;6;7;8;9;10;11;12] [12; 20] [].

Example finalize_example :
  let t' := finalizeBlocks 30 chain12 4 2 1000 in
  t_chain t' = [6;7;8;9;10;11;12] /\ is_final t' 8 = true /\ is_final t' 9 = false /\
  flookup (t_blocks t') 20 = None /\ flookup (t_blocks t') 5 = None /\ t_tips t' = [12] /\
  In (103, 3) (t_fpidx t') /\ In (108, 8) (t_fpidx t') /\
  cmp_shortcut 30 t' 99 = Some 1.
Proof. vm_compute. repeat split; auto 20. Qed.

(* the finalized payload index never loses an entry, and every payload id of an active-chain block that
   finalizeBlockImpl deallocates (not yet final blocks below the new root, fix 057feaed) is in it afterwards *)
Lemma retained fuel t idx preserve :
  (forall x, In x (t_fpidx t) -> In x (t_fpidx (finalizeBlockImpl fuel t idx preserve))) /\
  ((idx =? root_of t) = false ->
   forall tips' fin newRoot rp id b p,
   erase_tips fuel t (t_tips t) (lowest_dirty fuel t idx idx) = (tips', fin) ->
   chain_at t (N.max (height_of t (root_of t)) (height_of t fin - preserve)) = Some newRoot ->
   parent_of t newRoot = Some rp ->
   In id (unfinal_path fuel t rp) -> flookup (t_blocks t) id = Some b -> In p (f_pl b) ->
   In (p, id) (t_fpidx (finalizeBlockImpl fuel t idx preserve))).
Proof.
  unfold finalizeBlockImpl. split.
  - intros x Hx. destruct (idx =? root_of t).
    + destruct (is_final t idx); [exact Hx|]. apply add_payloads_incl. exact Hx.
    + destruct (erase_tips fuel t (t_tips t) (lowest_dirty fuel t idx idx)) as [tips' fin].
      destruct (chain_at t _) as [newRoot|]; [|exact Hx].
      cbn [t_fpidx]. do 2 apply add_payloads_incl. exact Hx.
  - intros Hroot tips' fin newRoot rp id b p He Hc Hp Hin Hl Hpl. rewrite Hroot, He, Hc, Hp. cbn [t_fpidx].
    apply add_payloads_incl. exact (add_payloads_has t _ _ id b p Hin Hl Hpl).
Qed.

(* isBlockOutdated: descendants of the final block are never outdated; blocks strictly below it or on its
   height (and different) always are *)
Lemma outdated_cases rec fuel t fin cand b :
  flookup (t_blocks t) cand = Some b ->
  (descends fuel t cand fin = true -> outdated rec fuel t fin cand = false) /\
  (height_of t cand < height_of t fin -> outdated rec fuel t fin cand = true) /\
  (height_of t cand = height_of t fin -> cand <> fin -> outdated rec fuel t fin cand = true).
Proof.
  intros Hl. split; [apply outdated_descendant|]. split; [apply outdated_below|].
  exact (outdated_parallel rec fuel t fin cand b Hl).
Qed.
