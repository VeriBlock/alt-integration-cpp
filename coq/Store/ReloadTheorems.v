(** C10 — reload equivalence, main theorems.
    [reload_equiv]: for every history whose operations meet the caller guarantees [pre] (ReloadEquiv.v), with saves
      at any positions, load of the accumulated storage SUCCEEDS and the loaded state is [equiv]alent to the live one.
      The invariant that makes load succeed is [wf] (ReloadEquiv.v; [step_wf], [run_wf] in ReloadWf.v).  It excludes
      every failure branch of [load]:
        load_block bad-prev / bad-height   - wf_parent
        recover_block no-endorsed          - wf_ce
        LoadFail 2, blocks without a tip   - the storage of a save always has a tip
        LoadFail 3, tip not loaded         - wf_tip
        loadTip changing persisted fields  - wf_tip + level_ok + wf_parent (the stored chain is ACTIVE and fully valid)
    [reload_continues]: the reloaded instance follows the live one op for op over any guarded follow-up history:
      same outcome (Done / the same Abort code) and equivalent states.
    [unguarded_reload_refuted]: without the guarantees the statement is false in the model (free arguments).
    The example history at the end meets the premises by computation (ReloadGuardB.v). *)
From Coq Require Import NArith List Bool Permutation.
From VB Require Import Store.SaveLoadDefs Store.SaveLoadTheorems.
From VB Require Import Store.ReloadEquiv Store.ReloadWf Store.ReloadLoad Store.ReloadCont Store.ReloadGuardB.
From VB Require Import Store.ChainWorkDefs Store.ChainWorkProofs Store.ReloadChainWork.
Import ListNotations.
Local Open Scope N_scope.

Lemma guarded_app h1 : forall h2 s st,
  guarded (h1 ++ h2) s st <->
  guarded h1 s st /\ match run prims_fixed h1 s st with Done s1 st1 => guarded h2 s1 st1 | Abort _ => True end.
Proof.
  induction h1 as [|o r IH]; intros h2 s st; cbn [app guarded run].
  - tauto.
  - destruct (step prims_fixed o s st) as [s1 st1|w].
    + rewrite IH. tauto.
    + tauto.
Qed.

Lemma reload_equiv h s st :
  guarded h init storage0 ->
  run prims_fixed (h ++ [OSave]) init storage0 = Done s st ->
  wf s /\ st = full_dump s /\
  exists s', load prims_fixed st = Loaded s' /\ equiv s s' /\
             (forall id b, lookup (blocks s') id = Some b -> b_dirty b = false /\ deleted b = false).
Proof.
  intros HG HR.
  assert (HG' : guarded (h ++ [OSave]) init storage0).
  { apply guarded_app. split; [exact HG|]. destruct (run prims_fixed h init storage0) as [s1 st1|w]; [|exact I].
    cbn [guarded pre]. split; [exact I|]. destruct (step prims_fixed OSave s1 st1); exact I. }
  pose proof (run_wf _ _ _ _ _ wf_init HG' HR) as HW.
  destruct (save_load_roundtrip h s st HR) as [Hst _].
  split; [exact HW|]. split; [exact Hst|]. rewrite Hst. exact (load_of_wf s HW).
Qed.

(* chain work (memory only): what load recomputes from the accumulated storage is, for every tree block of the live
   state, the sum of the block proofs along its parent path in the live tree *)
Lemma reload_equiv_chainwork (proof : N -> N) h s st :
  guarded h init storage0 ->
  run prims_fixed (h ++ [OSave]) init storage0 = Done s st ->
  forall id b, vis (blocks s) id = Some b ->
  exists w, has_work proof (pvis s) id w /\
            work_of (load_work proof (filter (fun x => negb (s_deleted (p_status (snd x)))) (st_blocks st))) id = w.
Proof.
  intros HG HR id b V. destruct (reload_equiv h s st HG HR) as (HW & -> & _).
  exact (reload_chainwork_all proof s HW id b V).
Qed.

Lemma run_equiv h : forall s st s' st',
  wf s -> guarded h s st -> equiv s s' ->
  match run prims_fixed h s st with
  | Done s1 _ => exists s1' st1', run prims_fixed h s' st' = Done s1' st1' /\ equiv s1 s1'
  | Abort w => run prims_fixed h s' st' = Abort w
  end.
Proof.
  induction h as [|o r IH]; intros s st s' st' HW HG HE; cbn [run guarded] in *.
  - eexists _, _. split; [reflexivity|exact HE].
  - destruct HG as [HP HG]. pose proof (step_equiv o s st s' st' HW HP HE) as H1.
    destruct (step prims_fixed o s st) as [s1 st1|w] eqn:E.
    + destruct H1 as (s1' & st1' & E' & HE1). rewrite E'.
      exact (IH s1 st1 s1' st1' (step_wf o s st s1 st1 HW HP E) HG HE1).
    + rewrite H1. reflexivity.
Qed.

(* what equivalent states show through getBlockIndex / getBestChain().tip() *)
Definition observe (s : state) (id : N) : option (pers * bool) :=
  option_map (fun b => (b_pers b, b_final b)) (vis (blocks s) id).

Lemma equiv_observe s s' : equiv s s' ->
  tip s = tip s' /\ (forall id, observe s id = observe s' id) /\
  (forall id b b', vis (blocks s) id = Some b -> vis (blocks s') id = Some b' -> Permutation (b_by b) (b_by b')).
Proof.
  intros HE. destruct (equiv_vis s s' HE) as [Ht Hv]. split; [exact Ht|]. split.
  - intros id. specialize (Hv id). unfold observe, osim in *.
    destruct (vis (blocks s) id) as [b|], (vis (blocks s') id) as [b'|]; cbn [option_map].
    + destruct Hv as (H1 & H2 & _). rewrite H1, H2. reflexivity.
    + destruct Hv.
    + destruct Hv.
    + reflexivity.
  - intros id b b' V V'. specialize (Hv id). rewrite V, V' in Hv. exact (proj2 (proj2 Hv)).
Qed.

Lemma reload_continues h h2 s st s' :
  guarded ((h ++ [OSave]) ++ h2) init storage0 ->
  run prims_fixed (h ++ [OSave]) init storage0 = Done s st ->
  load prims_fixed st = Loaded s' ->
  equiv s s' /\
  forall st',
  match run prims_fixed h2 s st with
  | Done s1 _ => exists s1' st1', run prims_fixed h2 s' st' = Done s1' st1' /\ equiv s1 s1'
  | Abort w => run prims_fixed h2 s' st' = Abort w
  end.
Proof.
  intros HG HR HL. apply guarded_app in HG. destruct HG as [HG1 HG2]. rewrite HR in HG2.
  apply guarded_app in HG1. destruct HG1 as [HG0 _].
  destruct (reload_equiv h s st HG0 HR) as (HW & _ & s0 & HL0 & HE & _).
  rewrite HL in HL0. injection HL0 as <-.
  split; [exact HE|]. intros st'. exact (run_equiv h2 s st s' st' HW HG2 HE).
Qed.

(* an endorsement of a block that does not exist: saved, and load fails (recoverEndorsements: no-endorsed) *)
Lemma unguarded_reload_refuted :
  exists s st, run prims_fixed ([OApply 0 4 [(1, 99)]] ++ [OSave]) init storage0 = Done s st /\
               load prims_fixed st = LoadFail 1.
Proof. eexists _, _. split; [vm_compute; reflexivity|]. vm_compute. reflexivity. Qed.

(* unapply-then-save-then-setTip: load succeeds, but loadTip re-activates the stored tip: not equivalent *)
Lemma save_between_unapply_and_settip_refuted :
  exists s st s' b b', run prims_fixed ([OInsertHeader 1 0; OApply 1 4 []; OSetTip 1; OUnapply 1] ++ [OSave]) init storage0 = Done s st /\
    load prims_fixed st = Loaded s' /\ lookup (blocks s) 1 = Some b /\ lookup (blocks s') 1 = Some b' /\
    s_active (bstatus b) = false /\ s_active (bstatus b') = true.
Proof.
  eexists _, _, _, _, _. split; [vm_compute; reflexivity|]. split; [vm_compute; reflexivity|].
  split; [vm_compute; reflexivity|]. split; [vm_compute; reflexivity|]. split; vm_compute; reflexivity.
Qed.

Definition canon (s : state) : N * list (N * block) :=
  (tip s, fold_left (fun acc kb => if deleted (snd kb) then acc else insert acc (fst kb) (unsetDirty (snd kb))) (blocks s) []).

(* forks (2 | 3 under 1, 4-6 under 2, 5-7 under 3), invalidation with descendants and a block inserted under an
   invalid parent, re-validation, FAILED_POP, payload ids set and removed, refcounts, endorsements, removal and
   re-adding of blocks, two reorgs, a save in the middle *)
Definition hist1 : list op :=
  [OInsertHeader 1 0; OSetPayloads 1 [10]; OConnect 1; OApply 1 4 [(100, 0)]; OSetTip 1;
   OInsertHeader 2 1; OInsertHeader 3 1; OSetPayloads 3 [11]; OConnect 3;
   OSave;
   OInsertHeader 4 2; OInvalidate 2 FFailedBlock [4]; OInsertHeader 6 4;
   OApply 3 4 [(101, 1); (102, 0)]; OSetTip 3; OAddRef 1;
   OInsertHeader 5 3; OSetPayloads 5 [12]; OConnect 5; ORemovePayloads 5; ORemoveSubtree [5]; OInsertHeader 5 3;
   OInsertHeader 7 5; ORemoveSubtree [7];
   OSetTip 1; OUnapply 3; ORevalidate 2 FFailedBlock [4; 6]; OInvalidate 6 FFailedPop [];
   OApply 2 4 [(103, 1)]; OSetTip 2].
Definition hist2 : list op :=
  [OSetTip 1; OUnapply 2; OApply 3 4 [(104, 0)]; OSetTip 3; OInsertHeader 7 5; OInsertHeader 8 3; ORemoveRef 1; OSave].

Example hist_guarded : guarded ((hist1 ++ [OSave]) ++ hist2) init storage0.
Proof. apply guarded_b_sound. vm_compute. reflexivity. Qed.

(* the state just before the last save has unsaved blocks; the reloaded state is the live one up to dirty bits, map
   order and the removed index 7 *)
Example reload_example :
  exists s0 st0 s st s',
    run prims_fixed hist1 init storage0 = Done s0 st0 /\ dirty_ids s0 = [0; 1; 2; 3; 4; 6; 5; 7] /\
    run prims_fixed (hist1 ++ [OSave]) init storage0 = Done s st /\
    load prims_fixed st = Loaded s' /\
    canon s0 = canon s' /\ canon s = canon s' /\
    map fst (blocks s) = [0; 1; 2; 3; 4; 6; 5; 7] /\ map fst (blocks s') = [0; 1; 3; 2; 5; 4; 6].
Proof.
  eexists _, _, _, _, _. split; [vm_compute; reflexivity|]. split; [vm_compute; reflexivity|].
  split; [vm_compute; reflexivity|]. split; [vm_compute; reflexivity|]. split; [vm_compute; reflexivity|].
  split; [vm_compute; reflexivity|]. split; vm_compute; reflexivity.
Qed.

(* the follow-up history (reorg, a new endorsement, re-adding the removed block 7, a new block, save) gives the same
   canonical state and the same storage on the live and on the reloaded instance *)
Example reload_continues_example :
  exists s st s' s1 st1 s1' st1',
    run prims_fixed (hist1 ++ [OSave]) init storage0 = Done s st /\ load prims_fixed st = Loaded s' /\
    run prims_fixed hist2 s st = Done s1 st1 /\ run prims_fixed hist2 s' st = Done s1' st1' /\
    canon s1 = canon s1' /\ st1 = st1'.
Proof.
  eexists _, _, _, _, _, _, _. split; [vm_compute; reflexivity|]. split; [vm_compute; reflexivity|].
  split; [vm_compute; reflexivity|]. split; [vm_compute; reflexivity|]. split; vm_compute; reflexivity.
Qed.
