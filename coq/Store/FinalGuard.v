(** C09 — the final-block guard of the POP state machine, as coded, and the variant without it.

    Sources modelled (read from /repo):
      include/veriblock/pop/blockchain/pop/pop_state_machine.hpp
          internal::assertBlockCanBeUnapplied : VBK_ASSERT_MSG(!index.finalized, "cannot unapply finalized block")
          PopStateMachine::unapplyBlock / unapply(from, to): walks from the tip DOWN to the fork point and calls
          unapplyBlock on every block; the assertion is the first statement of unapplyBlock
      include/veriblock/pop/assert.hpp
          VBK_ASSERT_MSG       : checked in EVERY build (-> std::terminate)
          VBK_ASSERT_MSG_DEBUG : expands to nothing when NDEBUG is defined (every Release build)
      include/veriblock/pop/blockchain/base_block_tree.hpp
          removeSubtree(b) / invalidateSubtree(b): `if (activeChain_.contains(&b)) setState(b.pprev)` first; the rest
          of both functions marks / flags the subtree of b, which is off the active chain after that setState

    [guard = true]  is the code as it is: the check is a VBK_ASSERT_MSG, so the outcome of unapplying a finalized
                    block is an explicit abort in every build.
    [guard = false] is the same code with the check compiled out (a VBK_ASSERT_MSG_DEBUG in a Release build).

    Store/FinalizeDefs.v [setTip] is the guarded walk ([setTip_g_true]); Store/FinalizeProofs.v
    [setTip_keeps_final] and Store/FinalizeTheorems.v [final_monotone] are therefore statements about every build
    of the code as it is.  This file adds the walk itself (which block stops it, nothing above it is lost), the
    removeSubtree / invalidateSubtree entry, histories that contain them, and the refutation for [guard = false]. *)
From Coq Require Import NArith List Bool.
From VB Require Import Store.FinalizeDefs Store.FinalizeProofs Store.FinalizeTheorems.
Import ListNotations.
Local Open Scope N_scope.

(* PopStateMachine::unapply: [tipfirst] = the blocks to unapply, tip first *)
Inductive ures := UOk | UAbort (at_ : N).

Fixpoint unapply_walk (guard : bool) (t : ftree) (tipfirst : list N) : ures :=
  match tipfirst with
  | [] => UOk
  | x :: r => if guard && is_final t x then UAbort x else unapply_walk guard t r
  end.

(* setState(to) with the walk spelled out; for [guard = true] this is [setTip] *)
Definition setTip_g (guard : bool) (fuel : nat) (t : ftree) (to : N) : fres :=
  match flookup (t_blocks t) to with
  | None => FAbort
  | Some _ =>
    let newc := path_to fuel t to [] in
    let keep := common_prefix (t_chain t) newc in
    let dropped := skipn (length keep) (t_chain t) in
    match unapply_walk guard t (rev dropped) with
    | UAbort _ => FAbort
    | UOk => match keep with
             | [] => FAbort
             | _ => FOk (mkT (t_blocks t) newc (t_tips t) (t_fpidx t))
             end
    end
  end.

(* the state change of removeSubtree(a) / invalidateSubtree(a): an active block is first left by
   setState(a.pprev); "cannot remove / invalidate the root block" is an assertion of both *)
Definition unapplyFrom (guard : bool) (fuel : nat) (t : ftree) (a : N) : fres :=
  match parent_of t a with
  | None => FAbort
  | Some p => if on_chain t a then setTip_g guard fuel t p else FOk t
  end.

Inductive gop :=
| GOp (o : fop)
| GUnapplyFrom (a : N).                  (* removeSubtree(a) / invalidateSubtree(a) *)

Definition gstep (guard : bool) (fuel : nat) (t : ftree) (o : gop) : fres :=
  match o with
  | GOp (FSetTip to) => setTip_g guard fuel t to
  | GOp o' => fstep fuel t o'
  | GUnapplyFrom a => unapplyFrom guard fuel t a
  end.

Fixpoint grun (guard : bool) (fuel : nat) (ops : list gop) (t : ftree) : fres :=
  match ops with
  | [] => FOk t
  | o :: r => match gstep guard fuel t o with FOk t' => grun guard fuel r t' | FAbort => FAbort end
  end.

Definition g_never_readds (b : N) (ops : list gop) : bool :=
  forallb (fun o => match o with GOp (FAdd id _ _) => negb (id =? b) | _ => true end) ops.

Lemma unapply_walk_true t l : unapply_walk true t l = UOk <-> existsb (is_final t) l = false.
Proof.
  induction l as [|x r IH]; cbn [unapply_walk existsb andb]; [tauto|].
  destruct (is_final t x); cbn [orb]; [split; discriminate|exact IH].
Qed.

Lemma unapply_walk_false t l : unapply_walk false t l = UOk.
Proof. induction l as [|x r IH]; cbn [unapply_walk andb]; [reflexivity|exact IH]. Qed.

(* the walk stops AT a finalized block and at the first one from the tip: nothing below it is unapplied *)
Lemma unapply_walk_stops t l x :
  unapply_walk true t l = UAbort x ->
  is_final t x = true /\ exists above below, l = above ++ x :: below /\ existsb (is_final t) above = false.
Proof.
  induction l as [|y r IH]; cbn [unapply_walk andb]; [discriminate|].
  destruct (is_final t y) eqn:E.
  - intros H. injection H as <-. split; [exact E|]. exists [], r. split; reflexivity.
  - intros H. destruct (IH H) as (Hf & above & below & -> & Ha). split; [exact Hf|].
    exists (y :: above), below. split; [reflexivity|]. cbn [existsb]. rewrite E, Ha. reflexivity.
Qed.

Lemma existsb_rev {A} (f : A -> bool) l : existsb f (rev l) = existsb f l.
Proof.
  induction l as [|x r IH]; cbn [rev existsb]; [reflexivity|].
  rewrite existsb_app, IH. cbn [existsb]. rewrite orb_false_r. apply orb_comm.
Qed.

Lemma setTip_g_true fuel t to : setTip_g true fuel t to = setTip fuel t to.
Proof.
  unfold setTip_g, setTip. destruct (flookup (t_blocks t) to); [|reflexivity].
  set (dropped := skipn _ (t_chain t)).
  pose proof (unapply_walk_true t (rev dropped)) as W. rewrite existsb_rev in W.
  destruct (existsb (is_final t) dropped).
  - destruct (unapply_walk true t (rev dropped)); [|reflexivity]. destruct W as [W _]. discriminate (W eq_refl).
  - rewrite (proj2 W eq_refl). reflexivity.
Qed.

(* setState / removeSubtree / invalidateSubtree of the code as it is: success never drops a finalized block *)
Lemma setTip_g_keeps_final fuel t to t' b :
  setTip_g true fuel t to = FOk t' -> In b (t_chain t) -> is_final t b = true -> In b (t_chain t').
Proof. rewrite setTip_g_true. apply setTip_keeps_final. Qed.

Lemma unapplyFrom_true fuel t a t' :
  unapplyFrom true fuel t a = FOk t' -> t' = t \/ exists p, setTip fuel t p = FOk t'.
Proof.
  unfold unapplyFrom. destruct (parent_of t a) as [p|]; [|discriminate].
  destruct (on_chain t a); [rewrite setTip_g_true; eauto|intros [= <-]; auto].
Qed.

Lemma unapplyFrom_keeps_final fuel t a t' b :
  unapplyFrom true fuel t a = FOk t' -> In b (t_chain t) -> is_final t b = true ->
  In b (t_chain t') /\ t_blocks t' = t_blocks t.
Proof.
  intros H Hin Hf. destruct (unapplyFrom_true fuel t a t' H) as [->|[p Hp]]; [auto|].
  split; [exact (setTip_keeps_final fuel t p t' b Hp Hin Hf)|].
  destruct (setTip_ok fuel t p t' Hp) as [-> _]. reflexivity.
Qed.

Lemma setTip_g_aborts_on_final fuel t to b :
  In b (t_chain t) -> is_final t b = true ->
  ~ In b (common_prefix (t_chain t) (path_to fuel t to [])) ->
  setTip_g true fuel t to = FAbort.
Proof.
  intros Hin Hf Hnot. rewrite setTip_g_true. destruct (setTip fuel t to) as [t'|] eqn:E; [|reflexivity].
  destruct (Hnot (proj2 (setTip_ok fuel t to t' E) b Hin Hf)).
Qed.

(* [final_monotone] for histories with direct setState, remove and invalidate calls *)
Lemma gstep_monotone fuel t o t' b :
  (match o with GOp (FAdd id _ _) => negb (id =? b) | _ => true end) = true ->
  gstep true fuel t o = FOk t' -> fin_or_gone t b -> fin_or_gone t' b.
Proof.
  intros Hno Hs H. destruct o as [o|a].
  - apply (fstep_monotone fuel t o t' b); [destruct o; exact Hno| |exact H].
    destruct o; try exact Hs. cbn [fstep]. rewrite <- setTip_g_true. exact Hs.
  - destruct (unapplyFrom_true fuel t a t' Hs) as [->|[p Hp]]; [exact H|].
    exact (fstep_monotone fuel t (FSetTip p) t' b eq_refl Hp H).
Qed.

Lemma grun_monotone fuel ops b : forall t t',
  g_never_readds b ops = true -> grun true fuel ops t = FOk t' -> fin_or_gone t b -> fin_or_gone t' b.
Proof.
  induction ops as [|o r IH]; intros t t' Hn Hr H; cbn [grun] in Hr.
  - injection Hr as <-. exact H.
  - cbn [g_never_readds forallb] in Hn. apply andb_true_iff in Hn. destruct Hn as [Hn1 Hn2].
    destruct (gstep true fuel t o) as [t1|] eqn:E; [|discriminate].
    exact (IH t1 t' Hn2 Hr (gstep_monotone fuel t o t1 b Hn1 E H)).
Qed.

Lemma guarded_history_keeps_final fuel ops : forall t t' b,
  g_never_readds b ops = true ->
  In b (t_chain t) -> is_final t b = true ->
  grun true fuel ops t = FOk t' ->
  (In b (t_chain t') /\ is_final t' b = true) \/ flookup (t_blocks t') b = None.
Proof.
  intros t t' b Hn Hin Hf Hr. exact (grun_monotone fuel ops b t t' Hn Hr (or_introl (conj Hin Hf))).
Qed.

(* the demo of seeded/C09-6: main chain 0..20, a stale fork 105 <- 106 on top of block 4, everything saved *)
Definition stale_fork_tree : ftree :=
  let mk := fun (i : N) => (i, mkF (if i =? 0 then None else Some (i - 1)) i false (i =? 0) [100 + i]) in
  mkT (map mk [0;1;2;3;4;5;6;7;8;9;10;11;12;13;14;15;16;17;18;19;20]
       ++ [(105, mkF (Some 4) 5 false false []); (106, mkF (Some 105) 6 false false [])])
      [0;1;2;3;4;5;6;7;8;9;10;11;12;13;14;15;16;17;18;19;20] [20; 106] [].

(* without the guard the statement is false.  History of seeded/C09-6 (maxReorgBlocks 11, preserve 10):
   finalization at tip 20 makes 0..9 final and keeps the root (9 - 10 < 0), so the stale fork 105 <- 106 on
   block 4 is still in memory.  The code as it is aborts on setState(106), removeSubtree(7),
   invalidateSubtree(9) (and names block 9, the highest finalized block, as the one that stopped the walk);
   with the check compiled out all three "succeed" and finalized blocks are off the active chain. *)
Definition stale_fork_final : ftree := finalizeBlocks 40 stale_fork_tree 11 10 1000000.

Example stale_fork_final_shape :
  highest_final stale_fork_final = Some 9 /\ root_of stale_fork_final = 0 /\ tip_of stale_fork_final = 20 /\
  flookup (t_blocks stale_fork_final) 106 <> None /\ cmp_shortcut 40 stale_fork_final 106 = Some 1.
Proof. vm_compute. repeat split; discriminate. Qed.

Example guard_fires_on_direct_paths :
  setTip_g true 40 stale_fork_final 106 = FAbort /\
  setTip 40 stale_fork_final 106 = FAbort /\
  unapplyFrom true 40 stale_fork_final 7 = FAbort /\
  unapplyFrom true 40 stale_fork_final 9 = FAbort /\
  unapply_walk true stale_fork_final (rev [5;6;7;8;9;10;11;12;13;14;15;16;17;18;19;20]) = UAbort 9 /\
  (* controls: a tip switch / removal that leaves every finalized block active still works *)
  (exists t', setTip_g true 40 stale_fork_final 15 = FOk t' /\ t_chain t' = [0;1;2;3;4;5;6;7;8;9;10;11;12;13;14;15]) /\
  (exists t', unapplyFrom true 40 stale_fork_final 10 = FOk t' /\ tip_of t' = 9).
Proof. vm_compute. repeat split; try reflexivity; eexists; split; reflexivity. Qed.

Lemma final_guard_debug_only_refuted :
  (exists t', setTip_g false 40 stale_fork_final 106 = FOk t' /\
              t_chain t' = [0;1;2;3;4;105;106] /\
              is_final t' 9 = true /\ ~ In 9 (t_chain t') /\ is_final t' 5 = true /\ ~ In 5 (t_chain t')) /\
  (exists t', unapplyFrom false 40 stale_fork_final 7 = FOk t' /\
              tip_of t' = 6 /\ is_final t' 7 = true /\ ~ In 7 (t_chain t') /\ is_final t' 9 = true /\ ~ In 9 (t_chain t')) /\
  (exists t', grun false 40 [GOp (FFinalize 11 10 1000000); GOp (FSetTip 106)] stale_fork_tree = FOk t' /\
              In 9 (t_chain stale_fork_final) /\ is_final t' 9 = true /\ ~ In 9 (t_chain t') /\
              flookup (t_blocks t') 9 <> None) /\
  grun true 40 [GOp (FFinalize 11 10 1000000); GOp (FSetTip 106)] stale_fork_tree = FAbort.
Proof.
  split; [|split; [|split]].
  - eexists. split; [vm_compute; reflexivity|]. vm_compute. repeat split; try reflexivity; intuition discriminate.
  - eexists. split; [vm_compute; reflexivity|]. vm_compute. repeat split; try reflexivity; intuition discriminate.
  - eexists. split; [vm_compute; reflexivity|]. vm_compute. repeat split; try reflexivity; try discriminate; auto 20.
    intuition discriminate.
  - vm_compute. reflexivity.
Qed.
