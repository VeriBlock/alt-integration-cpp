(** C10 — reload equivalence: definitions (state equivalence, well-formedness invariant of reachable states,
    caller guarantees of the tree operations) and basic lemmas.

    What is compared.  [equiv s s'] relates the live state [s] and a reloaded state [s']:
      - same tip (= stored best block; the active chain is the set of BLOCK_ACTIVE blocks, part of the status word);
      - every block of [s'] is a block of [s] with the same persisted projection [b_pers] (parent link, height, full
        status word, payload ids, containing endorsements, refcount), the same memory-only finalized mark [b_final] and
        the same memory-only endorsedBy list [b_by] as a multiset (load rebuilds it in height order, the live list is in
        order of application);
      - every block of [s] that is not BLOCK_DELETED is a block of [s'].
    Ignored: the dirty bit, the position of a block in the block map, and removed blocks: a block removed by
    removeSubtree stays in the live map as a BLOCK_DELETED index (hidden by getBlockIndex, skipped by
    loadBlocksAndTip), the reloaded instance does not have it.  [equiv_vis] is the symmetric reading: both states show
    the same blocks through getBlockIndex.

    The operations of SaveLoadDefs take their block lists (descendants, removed subtree, endorsements, tip) as FREE
    arguments.  For unconstrained arguments load does not even succeed ([unguarded_reload_refuted] in
    ReloadTheorems.v: an endorsement of a block that does not exist).  [pre s o] states what the C++ callers guarantee for
    each operation (what the real traversals compute / what the code asserts); [guarded h s st] says that every
    operation of the history satisfies [pre] in the state it is executed in.  Two of the guarantees are restrictions
    of the real API rather than facts about the callers, and are stated here because the theorem would be false without:
      - a removed block that carried BLOCK_FAILED_BLOCK, or whose BLOCK_FAILED_CHILD mark is stale, is not re-added
        (the live instance resurrects the removed index with these marks, a reloaded instance creates a fresh index);
      - BLOCK_ACTIVE and the tip change in the order setTip-then-unapply / apply-then-setTip, so that at EVERY position
        where a save may be placed the tip is an active block (in the code both happen inside one call).
    Not modelled at all (hence not part of [equiv]): VBK/BTC block-of-proof back pointers, the payload index, tips_
    sets, finalization of the reloaded tree; chain work is modelled separately (ChainWorkDefs, see
    [reload_chainwork]). *)
From Coq Require Import NArith List Bool Permutation.
From VB Require Import Store.SaveLoadDefs Store.SaveLoadProofs.
Import ListNotations.
Local Open Scope N_scope.

Definition deleted (b : block) : bool := s_deleted (bstatus b).
Definition visb (b : block) : option block := if deleted b then None else Some b.
(* getBlockIndex: a BLOCK_DELETED index is not a block of the tree *)
Definition vis (m : store) (id : N) : option block := match lookup m id with Some b => visb b | None => None end.
Definition visible (m : store) (id : N) : Prop := vis m id <> None.

Definition bsim (b b' : block) : Prop :=
  b_pers b = b_pers b' /\ b_final b = b_final b' /\ Permutation (b_by b) (b_by b').

Definition ssim (m m' : store) : Prop :=
  (forall id b', lookup m' id = Some b' -> exists b, lookup m id = Some b /\ bsim b b') /\
  (forall id b, vis m id = Some b -> lookup m' id <> None).

Definition equiv (s s' : state) : Prop := tip s = tip s' /\ ssim (blocks s) (blocks s').

Definition osim (o o' : option block) : Prop :=
  match o, o' with Some b, Some b' => bsim b b' | None, None => True | _, _ => False end.

(* what block [b] contributes to the endorsedBy list of block [k] *)
Definition contrib (k : N) (b : block) : list N :=
  if deleted b then [] else map fst (filter (fun e => snd e =? k) (p_ce (b_pers b))).
Definition inc (m : store) (k : N) : list N := flat_map (fun kb => contrib k (snd kb)) m.

Definition final_ok (b : block) : Prop :=
  b_final b = match p_parent (b_pers b) with None => true | Some _ => false end.
(* a removed index is exactly what deleteTemporarily leaves *)
Definition deleted_form (b : block) : Prop :=
  deleted b = true ->
  p_pl (b_pers b) = [] /\ p_ce (b_pers b) = [] /\ p_ref (b_pers b) = 0 /\ b_by b = [] /\
  s_level (bstatus b) = 0 /\ s_boot (bstatus b) = false /\ s_fpop (bstatus b) = false /\
  s_haspl (bstatus b) = false /\ s_active (bstatus b) = false.
(* every index of the tree is at least VALID_TREE; an ACTIVE one is fully valid *)
Definition level_ok (b : block) : Prop :=
  deleted b = false -> 1 <= s_level (bstatus b) /\ (s_active (bstatus b) = true -> 4 <= s_level (bstatus b)).
Definition ce_nodup (b : block) : Prop := NoDup (map fst (p_ce (b_pers b))).
Definition local_ok (b : block) : Prop := final_ok b /\ deleted_form b /\ level_ok b /\ ce_nodup b.

Record wf (s : state) : Prop := mkWf {
  wf_nodup : NoDup (map fst (blocks s));
  wf_local : forall id b, lookup (blocks s) id = Some b -> local_ok b;
  wf_parent : forall id b par, lookup (blocks s) id = Some b -> p_parent (b_pers b) = Some par ->
     exists pb, lookup (blocks s) par = Some pb /\ p_height (b_pers b) = p_height (b_pers pb) + 1 /\
       (deleted b = false -> deleted pb = false /\ (s_active (bstatus b) = true -> s_active (bstatus pb) = true));
  wf_ce : forall id b e, vis (blocks s) id = Some b -> In e (p_ce (b_pers b)) ->
     exists eb, vis (blocks s) (snd e) = Some eb /\ p_height (b_pers eb) < p_height (b_pers b);
  (* endorsedBy is the multiset of the containing endorsements that point to the block *)
  wf_by : forall id b, vis (blocks s) id = Some b -> Permutation (b_by b) (inc (blocks s) id);
  wf_tip : exists b, vis (blocks s) (tip s) = Some b /\ s_active (bstatus b) = true }.

Definition pre (s : state) (o : op) : Prop :=
  let m := blocks s in
  match o with
  | OInsertHeader id parent =>
      visible m parent /\
      (forall b, lookup m id = Some b -> deleted b = true ->          (* re-adding a removed block *)
         p_parent (b_pers b) = Some parent /\ s_fblock (bstatus b) = false /\
         s_fchild (bstatus b) = parent_failed m parent)
  | OSetPayloads id _ => visible m id
  | OConnect id => visible m id
  | OApply id lvl es =>
      exists b, vis m id = Some b /\ s_fpop (bstatus b) = false /\ 4 <= lvl /\
        (forall par, p_parent (b_pers b) = Some par -> exists pb, vis m par = Some pb /\ s_active (bstatus pb) = true) /\
        NoDup (map fst (p_ce (b_pers b) ++ es)) /\
        (forall e, In e es -> exists eb, vis m (snd e) = Some eb /\ p_height (b_pers eb) < p_height (b_pers b))
  | OUnapply id =>
      visible m id /\ id <> tip s /\
      (forall c bc, vis m c = Some bc -> p_parent (b_pers bc) = Some id -> s_active (bstatus bc) = false)
  | OInvalidate id reason desc => (reason = FFailedBlock \/ reason = FFailedPop) /\ visible m id /\ Forall (visible m) desc
  | ORevalidate id reason desc => (reason = FFailedBlock \/ reason = FFailedPop) /\ visible m id /\ Forall (visible m) desc
  | ORemoveSubtree ids =>
      (forall id, In id ids -> exists b, vis m id = Some b /\ s_active (bstatus b) = false /\ p_ce (b_pers b) = []) /\
      (forall c bc, vis m c = Some bc ->
         (forall par, p_parent (b_pers bc) = Some par -> In par ids -> In c ids) /\
         (forall e, In e (p_ce (b_pers bc)) -> ~ In (snd e) ids))
  | ORemovePayloads id => exists b, vis m id = Some b /\ s_active (bstatus b) = false
  | OAddRef id => visible m id
  | ORemoveRef id => visible m id
  | OSetTip id => exists b, vis m id = Some b /\ s_active (bstatus b) = true
  | OSave => True
  end.

Fixpoint guarded (h : list op) (s : state) (st : storage) : Prop :=
  match h with
  | [] => True
  | o :: r => pre s o /\ match step prims_fixed o s st with Done s' st' => guarded r s' st' | Abort _ => True end
  end.

Lemma lookup_upd m k f id :
  lookup (upd m k f) id = option_map (fun b => if k =? id then f b else b) (lookup m id).
Proof.
  destruct (N.eq_dec k id) as [->|Hne].
  - rewrite lookup_upd_same, N.eqb_refl. reflexivity.
  - rewrite lookup_upd_other by exact Hne. apply N.eqb_neq in Hne. rewrite Hne.
    destruct (lookup m id); reflexivity.
Qed.

Lemma lookup_upd_set m k f b id :
  lookup m k = Some b -> lookup (upd m k f) id = if k =? id then Some (f b) else lookup m id.
Proof.
  intros L. rewrite lookup_upd. destruct (N.eqb_spec k id) as [<-|_]; [rewrite L; reflexivity|].
  destruct (lookup m id); reflexivity.
Qed.

Lemma upd_comm m a f b g : a <> b -> upd (upd m a f) b g = upd (upd m b g) a f.
Proof.
  intros H. induction m as [|[k v] r IH]; cbn [upd]; [reflexivity|].
  destruct (k =? a) eqn:Ea, (k =? b) eqn:Eb; cbn [upd]; rewrite ?Ea, ?Eb, ?IH; try reflexivity.
  apply N.eqb_eq in Ea, Eb. congruence.
Qed.

Lemma existsb_In x (l : list N) : existsb (N.eqb x) l = true <-> In x l.
Proof.
  rewrite existsb_exists. split.
  - intros (y & Hy & E). apply N.eqb_eq in E. subst y. exact Hy.
  - intros H. exists x. split; [exact H|apply N.eqb_refl].
Qed.

(* erase_last_item_if removes one occurrence *)
Lemma remove_last_perm x l : In x l -> Permutation l (x :: remove_last_n x l).
Proof.
  induction l as [|y r IH]; intros H; [destruct H|]. cbn [remove_last_n].
  destruct (existsb (N.eqb x) r) eqn:E.
  - apply existsb_In in E. apply (Permutation_trans (l' := y :: x :: remove_last_n x r)); [apply perm_skip; exact (IH E)|apply perm_swap].
  - destruct H as [->|H]; [|apply existsb_In in H; congruence].
    rewrite N.eqb_refl. apply Permutation_refl.
Qed.

Lemma vis_Some m id b : vis m id = Some b <-> lookup m id = Some b /\ deleted b = false.
Proof.
  unfold vis, visb. destruct (lookup m id) as [b0|]; [|split; [discriminate|intros [H _]; discriminate]].
  destruct (deleted b0) eqn:E; split.
  - discriminate.
  - intros [H1 H2]. injection H1 as <-. congruence.
  - intros H. injection H as <-. auto.
  - intros [H1 _]. exact H1.
Qed.

Lemma vis_lookup m id b : vis m id = Some b -> lookup m id = Some b.
Proof. intros V. exact (proj1 (proj1 (vis_Some m id b) V)). Qed.

Lemma lookup_vis m id b : lookup m id = Some b -> deleted b = false -> vis m id = Some b.
Proof. intros L D. exact (proj2 (vis_Some m id b) (conj L D)). Qed.

Lemma visible_iff m id : visible m id <-> exists b, vis m id = Some b.
Proof.
  unfold visible. destruct (vis m id) as [b|]; split; intros H; try congruence.
  - eauto.
  - destruct H as [b H]. discriminate.
Qed.

Lemma bsim_refl b : bsim b b.
Proof. repeat split. apply Permutation_refl. Qed.

Lemma bsim_deleted b b' : bsim b b' -> deleted b = deleted b'.
Proof. intros (H & _). unfold deleted, bstatus. rewrite H. reflexivity. Qed.

Lemma ssim_vis m m' : ssim m m' -> forall id, osim (vis m id) (vis m' id).
Proof.
  intros [H1 H2] id. unfold osim.
  destruct (vis m' id) as [b'|] eqn:E'.
  - apply vis_Some in E'. destruct E' as [L' D']. destruct (H1 id b' L') as (b & L & S).
    assert (D : deleted b = false) by (rewrite (bsim_deleted _ _ S); exact D').
    rewrite (lookup_vis m id b L D). exact S.
  - destruct (vis m id) as [b|] eqn:E; [|exact I].
    pose proof (H2 id b E) as Hn. destruct (lookup m' id) as [b'|] eqn:L'; [|congruence].
    destruct (H1 id b' L') as (b0 & L & S). apply vis_Some in E. destruct E as [L0 D0].
    rewrite L0 in L. injection L as <-.
    assert (D' : deleted b' = false) by (rewrite <- (bsim_deleted _ _ S); exact D0).
    rewrite (lookup_vis m' id b' L' D') in E'. discriminate.
Qed.

Lemma equiv_vis s s' : equiv s s' -> tip s = tip s' /\ forall id, osim (vis (blocks s) id) (vis (blocks s') id).
Proof. intros [Ht Hs]. split; [exact Ht|apply ssim_vis; exact Hs]. Qed.

Lemma inc_upd_split m j f b k :
  lookup m j = Some b ->
  exists A B, inc m k = A ++ contrib k b ++ B /\ inc (upd m j f) k = A ++ contrib k (f b) ++ B.
Proof.
  unfold inc. induction m as [|[k0 v] r IH]; cbn [lookup upd flat_map snd]; [discriminate|].
  destruct (k0 =? j) eqn:E; intros H.
  - injection H as ->. exists [], (flat_map (fun kb => contrib k (snd kb)) r). cbn [flat_map snd app]. split; reflexivity.
  - destruct (IH H) as (A & B & H1 & H2). exists (contrib k v ++ A), B. cbn [flat_map snd].
    rewrite H1, H2, <- !app_assoc. split; reflexivity.
Qed.

Lemma inc_upd_perm m j f b k X Y :
  lookup m j = Some b ->
  Permutation (contrib k b ++ X) (contrib k (f b) ++ Y) ->
  Permutation (inc m k ++ X) (inc (upd m j f) k ++ Y).
Proof.
  intros L HP. destruct (inc_upd_split m j f b k L) as (A & B & -> & ->).
  rewrite <- !app_assoc. apply Permutation_app_head.
  apply (Permutation_trans (l' := B ++ contrib k b ++ X)).
  { rewrite !app_assoc. apply Permutation_app_tail. apply Permutation_app_comm. }
  apply (Permutation_trans (l' := B ++ contrib k (f b) ++ Y)).
  { apply Permutation_app_head. exact HP. }
  rewrite !app_assoc. apply Permutation_app_tail. apply Permutation_app_comm.
Qed.

Lemma inc_upd_same m j f k :
  (forall b, lookup m j = Some b -> contrib k (f b) = contrib k b) -> inc (upd m j f) k = inc m k.
Proof.
  intros H. destruct (lookup m j) as [b|] eqn:L.
  - destruct (inc_upd_split m j f b k L) as (A & B & -> & ->). rewrite (H b eq_refl). reflexivity.
  - rewrite upd_fix by congruence. reflexivity.
Qed.

Lemma inc_app m1 m2 k : inc (m1 ++ m2) k = inc m1 k ++ inc m2 k.
Proof. unfold inc. apply flat_map_app. Qed.

Lemma filter_snd_nil (l : list endorsement) k :
  (forall e, In e l -> snd e <> k) -> map fst (filter (fun e => snd e =? k) l) = [].
Proof.
  induction l as [|e l IH]; intros H; cbn [filter map]; [reflexivity|].
  destruct (snd e =? k) eqn:E.
  - apply N.eqb_eq in E. exfalso. exact (H e (or_introl eq_refl) E).
  - apply IH. intros e' He'. apply H. now right.
Qed.

Lemma inc_nil m k :
  (forall id b e, vis m id = Some b -> In e (p_ce (b_pers b)) -> snd e <> k) -> NoDup (map fst m) -> inc m k = [].
Proof.
  unfold inc. induction m as [|[k0 v] r IH]; intros H Hnd; cbn [flat_map snd]; [reflexivity|].
  cbn [map fst] in Hnd. inversion Hnd as [|? ? Hn Hnd']; subst.
  rewrite IH; [|intros id b e Hv; apply (H id b e)|exact Hnd'].
  - rewrite app_nil_r. unfold contrib. destruct (deleted v) eqn:D; [reflexivity|].
    assert (Hv : vis ((k0, v) :: r) k0 = Some v).
    { apply vis_Some. cbn [lookup]. rewrite N.eqb_refl. auto. }
    apply filter_snd_nil. intros e He. exact (H k0 v e Hv He).
  - unfold vis in *. cbn [lookup]. destruct (k0 =? id) eqn:E; [|exact Hv].
    apply N.eqb_eq in E. subst id. exfalso.
    destruct (lookup r k0) eqn:L; [|discriminate]. apply Hn. exact (lookup_in_keys _ _ _ L).
Qed.
