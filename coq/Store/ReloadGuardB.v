(** C10 — an executable (boolean) version of the caller guarantees [pre] / [guarded] of ReloadEquiv.v, sound
    w.r.t. the propositional one: used to show by computation that concrete histories meet the premises of the
    reload theorems. *)
From Coq Require Import NArith List Bool.
From VB Require Import Store.SaveLoadDefs Store.SaveLoadProofs Store.ReloadEquiv.
Import ListNotations.
Local Open Scope N_scope.

Fixpoint nodup_b (l : list N) : bool :=
  match l with [] => true | x :: r => negb (existsb (N.eqb x) r) && nodup_b r end.

Lemma nodup_b_sound l : nodup_b l = true -> NoDup l.
Proof.
  induction l as [|x r IH]; cbn [nodup_b]; intros H; [constructor|].
  apply andb_true_iff in H. destruct H as [H1 H2]. constructor; [|exact (IH H2)].
  intros Hin. apply existsb_In in Hin. rewrite Hin in H1. discriminate.
Qed.

Definition mem_b (x : N) (l : list N) : bool := existsb (N.eqb x) l.
Lemma mem_b_false x l : mem_b x l = false -> ~ In x l.
Proof. intros H Hin. apply existsb_In in Hin. unfold mem_b in H. congruence. Qed.
Lemma mem_b_true x l : mem_b x l = true -> In x l.
Proof. apply existsb_In. Qed.

Definition visible_b (m : store) (id : N) : bool := match vis m id with Some _ => true | None => false end.
Lemma visible_b_sound m id : visible_b m id = true -> visible m id.
Proof. unfold visible_b, visible. destruct (vis m id); [discriminate|discriminate]. Qed.

Definition all_vis (m : store) (P : N -> block -> bool) : bool :=
  forallb (fun kb => deleted (snd kb) || P (fst kb) (snd kb)) m.

Lemma all_vis_sound m P : all_vis m P = true -> forall c bc, vis m c = Some bc -> P c bc = true.
Proof.
  intros H c bc V. apply vis_Some in V. destruct V as [L D].
  unfold all_vis in H. rewrite forallb_forall in H. specialize (H (c, bc) (lookup_In m c bc L)).
  cbn [fst snd] in H. rewrite D in H. exact H.
Qed.

Definition reason_b (f : flag) : bool := match f with FFailedBlock | FFailedPop => true | _ => false end.

Definition pre_b (s : state) (o : op) : bool :=
  let m := blocks s in
  match o with
  | OInsertHeader id parent =>
      visible_b m parent &&
      match lookup m id with
      | Some b => if deleted b
                  then match p_parent (b_pers b) with Some p => p =? parent | None => false end
                       && negb (s_fblock (bstatus b)) && Bool.eqb (s_fchild (bstatus b)) (parent_failed m parent)
                  else true
      | None => true
      end
  | OSetPayloads id _ => visible_b m id
  | OConnect id => visible_b m id
  | OApply id lvl es =>
      match vis m id with
      | None => false
      | Some b =>
        negb (s_fpop (bstatus b)) && (4 <=? lvl) &&
        match p_parent (b_pers b) with
        | None => true
        | Some par => match vis m par with Some pb => s_active (bstatus pb) | None => false end
        end &&
        nodup_b (map fst (p_ce (b_pers b) ++ es)) &&
        forallb (fun e => match vis m (snd e) with
                          | Some eb => p_height (b_pers eb) <? p_height (b_pers b)
                          | None => false
                          end) es
      end
  | OUnapply id =>
      visible_b m id && negb (id =? tip s) &&
      all_vis m (fun _ bc => match p_parent (b_pers bc) with
                             | Some par => negb (par =? id) || negb (s_active (bstatus bc))
                             | None => true
                             end)
  | OInvalidate id reason desc => reason_b reason && visible_b m id && forallb (visible_b m) desc
  | ORevalidate id reason desc => reason_b reason && visible_b m id && forallb (visible_b m) desc
  | ORemoveSubtree ids =>
      forallb (fun id => match vis m id with
                         | Some b => negb (s_active (bstatus b)) && match p_ce (b_pers b) with [] => true | _ => false end
                         | None => false
                         end) ids &&
      all_vis m (fun c bc =>
                   match p_parent (b_pers bc) with
                   | Some par => negb (mem_b par ids) || mem_b c ids
                   | None => true
                   end &&
                   forallb (fun e => negb (mem_b (snd e) ids)) (p_ce (b_pers bc)))
  | ORemovePayloads id => match vis m id with Some b => negb (s_active (bstatus b)) | None => false end
  | OAddRef id => visible_b m id
  | ORemoveRef id => visible_b m id
  | OSetTip id => match vis m id with Some b => s_active (bstatus b) | None => false end
  | OSave => true
  end.

Lemma invalidate_b_sound m id reason desc :
  reason_b reason && visible_b m id && forallb (visible_b m) desc = true ->
  (reason = FFailedBlock \/ reason = FFailedPop) /\ visible m id /\ Forall (visible m) desc.
Proof.
  intros H. apply andb_prop in H as [H H3]. apply andb_prop in H as [H1 H2].
  split; [destruct reason; try discriminate; auto|]. split; [apply visible_b_sound; exact H2|].
  apply Forall_forall. intros x Hx. apply visible_b_sound. exact (proj1 (forallb_forall _ _) H3 x Hx).
Qed.

Lemma pre_b_sound s o : pre_b s o = true -> pre s o.
Proof.
  destruct s as [m t]. destruct o; cbn [pre_b pre blocks tip]; intros H.
  - (* OInsertHeader *)
    apply andb_prop in H as [H1 H2]. split; [apply visible_b_sound; exact H1|].
    intros b L D. rewrite L, D in H2. apply andb_prop in H2 as [H2 H3]. apply andb_prop in H2 as [H2 H4].
    destruct (p_parent (b_pers b)) as [p|]; [|discriminate]. apply N.eqb_eq in H2. subst p.
    split; [reflexivity|]. split; [apply negb_true_iff; exact H4|apply eqb_prop; exact H3].
  - apply visible_b_sound; exact H.
  - apply visible_b_sound; exact H.
  - (* OApply *)
    destruct (vis m id) as [b|]; [|discriminate]. exists b. split; [reflexivity|].
    apply andb_prop in H as [H H5]. apply andb_prop in H as [H H4]. apply andb_prop in H as [H H3].
    apply andb_prop in H as [H1 H2]. rewrite forallb_forall in H5.
    split; [apply negb_true_iff; exact H1|]. split; [apply N.leb_le; exact H2|]. split; [|split].
    + intros par Hp. rewrite Hp in H3. destruct (vis m par) as [pb|]; [|discriminate]. exists pb. auto.
    + apply nodup_b_sound. exact H4.
    + intros e He. specialize (H5 e He).
      destruct (vis m (snd e)) as [eb|]; [|discriminate]. exists eb. split; [reflexivity|apply N.ltb_lt; exact H5].
  - (* OUnapply *)
    apply andb_prop in H as [H H3]. apply andb_prop in H as [H1 H2].
    split; [apply visible_b_sound; exact H1|]. split.
    + apply negb_true_iff in H2. apply N.eqb_neq. exact H2.
    + intros c bc V Hp. pose proof (all_vis_sound m _ H3 c bc V) as H4. cbn beta in H4. rewrite Hp in H4.
      rewrite N.eqb_refl in H4. cbn [negb orb] in H4. apply negb_true_iff. exact H4.
  - exact (invalidate_b_sound m id reason desc H).
  - exact (invalidate_b_sound m id reason desc H).
  - (* ORemoveSubtree *)
    apply andb_prop in H as [H1 H2]. split.
    + intros id Hid. rewrite forallb_forall in H1. specialize (H1 id Hid).
      destruct (vis m id) as [b|]; [|discriminate]. exists b. split; [reflexivity|].
      apply andb_prop in H1 as [Ha Hc]. split; [apply negb_true_iff; exact Ha|].
      destruct (p_ce (b_pers b)); [reflexivity|discriminate].
    + intros c bc V. pose proof (all_vis_sound m _ H2 c bc V) as H3. cbn beta in H3.
      apply andb_prop in H3 as [H3 H4]. split.
      * intros par Hp Hin. rewrite Hp in H3. apply orb_true_iff in H3. destruct H3 as [H3|H3].
        -- apply negb_true_iff in H3. exfalso. exact (mem_b_false _ _ H3 Hin).
        -- apply mem_b_true. exact H3.
      * intros e He. rewrite forallb_forall in H4. specialize (H4 e He). apply negb_true_iff in H4.
        apply mem_b_false. exact H4.
  - (* ORemovePayloads *)
    destruct (vis m id) as [b|]; [|discriminate]. exists b. split; [reflexivity|apply negb_true_iff; exact H].
  - apply visible_b_sound; exact H.
  - apply visible_b_sound; exact H.
  - destruct (vis m id) as [b|]; [|discriminate]. exists b. auto.
  - exact I.
Qed.

Fixpoint guarded_b (h : list op) (s : state) (st : storage) : bool :=
  match h with
  | [] => true
  | o :: r => pre_b s o && match step prims_fixed o s st with Done s' st' => guarded_b r s' st' | Abort _ => true end
  end.

Lemma guarded_b_sound h : forall s st, guarded_b h s st = true -> guarded h s st.
Proof.
  induction h as [|o r IH]; intros s st H; cbn [guarded_b guarded] in *; [exact I|].
  apply andb_true_iff in H. destruct H as [H1 H2]. split; [apply pre_b_sound; exact H1|].
  destruct (step prims_fixed o s st); [apply IH; exact H2|exact I].
Qed.
