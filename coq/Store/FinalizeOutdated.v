(** C09 — isBlockOutdated(final, candidate) is exactly "candidate does not descend from final"
    on well-formed trees (heights follow parents). *)
From Coq Require Import NArith List Bool Lia.
From VB Require Import Store.FinalizeDefs Store.FinalizeProofs.
Import ListNotations.
Local Open Scope N_scope.

Definition wf_tree (t : ftree) : Prop :=
  forall id b, flookup (t_blocks t) id = Some b ->
  match f_parent b with
  | Some p => exists pb, flookup (t_blocks t) p = Some pb /\ f_height b = f_height pb + 1
  | None => True
  end.

Lemma wf_parent t x b p : wf_tree t -> flookup (t_blocks t) x = Some b -> f_parent b = Some p ->
  exists pb, flookup (t_blocks t) p = Some pb /\ height_of t x = height_of t p + 1.
Proof.
  intros Hwf Hx Hp. pose proof (Hwf x b Hx) as Hw. rewrite Hp in Hw. destruct Hw as (pb & Hpb & Hh).
  exists pb. split; [exact Hpb|]. now rewrite (height_of_lookup t x b Hx), (height_of_lookup t p pb Hpb).
Qed.

Lemma fork_walk_spec fuel t : wf_tree t -> forall a b x ba,
  flookup (t_blocks t) a = Some ba -> fork_walk fuel t a b = Some x ->
  (x = a /\ a = b) \/ height_of t x < height_of t a.
Proof.
  intros Hwf. induction fuel as [|f IH]; intros a b x ba Ha H; cbn [fork_walk] in H;
    destruct (a =? b) eqn:E; try discriminate;
    try (injection H as <-; apply N.eqb_eq in E; left; split; [reflexivity|exact E]).
  unfold parent_of in H. rewrite Ha in H. destruct (f_parent ba) as [pa|] eqn:Ep; [|discriminate].
  destruct (match flookup (t_blocks t) b with Some b0 => f_parent b0 | None => None end) as [pb|]; [|discriminate].
  destruct (wf_parent t a ba pa Hwf Ha Ep) as (pba & Hpa & Hh).
  right. destruct (IH pa pb x pba Hpa H) as [[-> _]|H1]; lia.
Qed.

Lemma outdated_iff_not_descends r fuel t fin cand bf bc :
  wf_tree t -> flookup (t_blocks t) fin = Some bf -> flookup (t_blocks t) cand = Some bc ->
  outdated (S r) fuel t fin cand = negb (descends fuel t cand fin).
Proof.
  intros Hwf Hf Hc. destruct (descends fuel t cand fin) eqn:T1; [exact (outdated_descendant _ fuel t fin cand T1)|].
  cbn [negb]. unfold descends in T1.
  destruct (N.lt_trichotomy (height_of t cand) (height_of t fin)) as [Hlt|[Heq|Hgt]].
  - exact (outdated_below _ fuel t fin cand Hlt).
  - apply (outdated_parallel _ fuel t fin cand bc Hc Heq). intros ->.
    rewrite (ancestor_at_self fuel t fin bf Hf) in T1. cbn [opt_eqb] in T1. rewrite N.eqb_refl in T1. discriminate.
  - (* the candidate is higher: the fork block of the two lies below the final block *)
    rewrite outdated_eq. unfold descends. rewrite T1, (ancestor_at_below fuel t fin _ Hgt).
    rewrite (proj2 (N.ltb_ge _ _)), (proj2 (N.eqb_neq _ _)) by lia. cbn [andb opt_eqb].
    unfold fork_block. rewrite N.min_l by lia. rewrite (ancestor_at_self fuel t fin bf Hf).
    destruct (ancestor_at fuel t cand (height_of t fin)) as [cb|]; [|reflexivity].
    destruct (fork_walk fuel t fin cb) as [fk|] eqn:Ew; [|reflexivity].
    destruct (fork_walk_spec fuel t Hwf fin cb fk bf Hf Ew) as [[-> <-]|Hl].
    + cbn [opt_eqb] in T1. rewrite N.eqb_refl in T1. discriminate.
    + apply outdated_below. exact Hl.
Qed.

Definition wf_treeb (t : ftree) : bool :=
  forallb (fun kb => match f_parent (snd kb) with
                     | Some p => match flookup (t_blocks t) p with
                                 | Some pb => f_height (snd kb) =? f_height pb + 1
                                 | None => false
                                 end
                     | None => true
                     end) (t_blocks t).

Lemma wf_treeb_sound t : wf_treeb t = true -> wf_tree t.
Proof.
  intros H id b Hl. unfold wf_treeb in H. rewrite forallb_forall in H.
  specialize (H (id, b) (flookup_In _ _ _ Hl)). cbn [snd] in H.
  destruct (f_parent b) as [p|]; [|exact I].
  destruct (flookup (t_blocks t) p) as [pb|]; [|discriminate].
  exists pb. split; [reflexivity|]. apply N.eqb_eq. exact H.
Qed.

Definition tree14 : ftree :=
  let mk := fun (i : N) => (i, mkF (if i =? 0 then None else Some (i - 1)) i false (i =? 0) [100 + i]) in
  mkT (map mk [0;1;2;3;4;5;6;7;8] ++ [(20, mkF (Some 3) 4 false false [200]); (21, mkF (Some 20) 5 false false [])])
      [0;1;2;3;4;5;6;7;8] [8; 21] [].

Example wf_tree14 : wf_tree tree14 /\ outdated 1 30 tree14 5 21 = true /\ outdated 1 30 tree14 3 21 = false.
Proof. split; [apply wf_treeb_sound; vm_compute; reflexivity|]. vm_compute. auto. Qed.
