(** C09 — transparency of window-local reads: every block that is an ancestor (or self) of a descendant of the final
    block and lies at or above the new root is retained by finalizeBlockImpl with unchanged height, payload ids,
    dirty bit and (above the new root) pprev (Store/FinalizeWindow.v [cone_lookup]); hence getAncestor walks that end
    at or above the new root, the context info of CheckPublicationData and the whole ATV check answer the same
    before and after finalization as soon as the read set lies inside the retained window
    (Store/TransparentArith.v: preserve >= settle + 2*ki). *)
From Coq Require Import ZArith NArith List Bool Lia.
From VB Require Import Score.KeystoneDefs Store.FinalizeDefs Store.FinalizeProofs
  Store.FinalizeOutdated Store.FinalizeWindow Store.TransparentDefs Store.TransparentArith.
Import ListNotations.
Local Open Scope N_scope.

Definition root_lowest (t : ftree) : Prop := forall x, In x (t_chain t) -> height_of t (root_of t) <= height_of t x.

Definition fuel_ok (fuel : nat) (t : ftree) : Prop :=
  forall id b, flookup (t_blocks t) id = Some b -> (N.to_nat (f_height b) <= fuel)%nat.

Lemma prevks_bounds ki he : 0 < ki -> he <= prevks he ki 1 + 2 * ki + 1 /\ prevks he ki 1 <= prevks he ki 0.
Proof.
  intros Hk. pose proof (keystone_bounds (Z.of_N ki) (Z.of_N he) ltac:(lia) ltac:(lia)) as K.
  unfold prevks, atv_second_keystone, atv_first_keystone in *. cbn [Z.of_N] in *. lia.
Qed.

(* [hf], [hc], [he] are the heights of the final, the containing and the endorsed block; the third hypothesis is
   preserve >= settle + 2*ki + d with the final block strictly below the containing one, or one more *)
Lemma window_low ki settle preserve rootH hf hc he d :
  0 < ki -> hc <= he + settle -> hf + settle + 2 * ki + d + 1 <= hc + preserve ->
  rootH + d <= prevks he ki 1 ->
  N.max rootH (hf - preserve) + d <= prevks he ki 1.
Proof. intros Hk Hs Hp Hr. pose proof (proj1 (prevks_bounds ki he Hk)). lia. Qed.

(* the read set of the ATV check as block ids of the never-finalizing tree: the ancestors of the containing block
   down to the second previous keystone of the endorsed block *)
Definition atv_read_ids (t : ftree) (ki c e : N) (id : N) : Prop :=
  anc t id c /\ prevks (height_of t e) ki 1 <= height_of t id.

(* the readers are compared on [t] and on any tree [t'] with [same_cone]; the finalized tree is one ([cone_lookup]) *)
Section Window.
Variables (fuel : nat) (t t' : ftree) (fin newRoot : N).
Hypothesis Hwf : wf_tree t.
Hypothesis Hsame : same_cone t fin newRoot t'.

(* getAncestor(h) for h at or above the new root *)
Lemma ancestor_at_transparent : forall f x h, cone t fin newRoot x -> height_of t newRoot <= h ->
  ancestor_at f t' x h = ancestor_at f t x h.
Proof.
  induction f as [|f IH]; intros x h Hg Hh; destruct (cone_exists t fin newRoot x Hg) as [b Hb];
    destruct (Hsame x b Hg Hb) as (b' & Hb' & Hhe & _ & _ & Hpar);
    cbn [ancestor_at]; rewrite Hb, Hb', Hhe; [reflexivity|].
  destruct (f_height b <? h) eqn:E1; [reflexivity|]. destruct (f_height b =? h) eqn:E2; [reflexivity|].
  apply N.ltb_ge in E1. apply N.eqb_neq in E2. rewrite <- (height_of_lookup t x b Hb) in E1, E2.
  rewrite Hpar by (intros ->; lia). destruct (f_parent b) as [p|] eqn:Hp; [|reflexivity].
  destruct (wf_parent t x b p Hwf Hb Hp) as (pb & Hpb & Hhp).
  apply IH; [|exact Hh].
  apply (cone_anc t fin newRoot Hwf x p Hg (anc_step t p x b p Hb Hp (anc_refl t p pb Hpb))). lia.
Qed.

(* createFromPrevious(prev): the lower keystone target at or above the new root *)
Lemma create_from_previous_transparent ki p :
  0 < ki -> cone t fin newRoot p -> height_of t newRoot <= prevks (height_of t p + 1) ki 1 ->
  f_create_from_previous fuel t' ki (Some p) = f_create_from_previous fuel t ki (Some p).
Proof.
  intros Hk Hg H1. destruct (cone_exists t fin newRoot p Hg) as [pb Hb].
  destruct (Hsame p pb Hg Hb) as (pb' & Hb' & Hhe & _).
  rewrite (height_of_lookup t p pb Hb) in H1. pose proof (proj2 (prevks_bounds ki (f_height pb + 1) Hk)) as H0.
  unfold f_create_from_previous. rewrite Hb, Hb', Hhe.
  rewrite (ancestor_at_transparent fuel p _ Hg) by lia.
  destruct (ancestor_at fuel t p (prevks (f_height pb + 1) ki 0)) as [k|] eqn:Ek; [|reflexivity].
  destruct (ancestor_at_spec t fuel p _ k Ek) as [Ha Hh].
  rewrite (ancestor_at_transparent fuel k _ (cone_anc t fin newRoot Hwf p k Hg Ha ltac:(lia)) H1). reflexivity.
Qed.

Lemma check_atv_transparent ki settle c e ctx :
  0 < ki -> cone t fin newRoot c -> cone t fin newRoot e ->
  height_of t newRoot < height_of t e -> height_of t newRoot <= prevks (height_of t e) ki 1 ->
  f_check_atv fuel t' ki settle c e ctx = f_check_atv fuel t ki settle c e ctx.
Proof.
  intros Hk Hgc Hge Hlt H1.
  destruct (cone_exists t fin newRoot e Hge) as [eb Heb]. destruct (cone_exists t fin newRoot c Hgc) as [cb Hcb].
  destruct (Hsame e eb Hge Heb) as (eb' & Heb' & Hhe & _ & _ & Hpar).
  destruct (Hsame c cb Hgc Hcb) as (cb' & Hcb' & Hhc & _).
  pose proof (height_of_lookup t e eb Heb) as Hhe'.
  unfold f_check_atv. rewrite Heb, Heb', Hcb, Hcb', Hhe, Hhc, Hpar by (intros ->; lia).
  rewrite (ancestor_at_transparent fuel c (f_height eb) Hgc) by lia.
  destruct (f_parent eb) as [p|] eqn:Hp; [|reflexivity].
  destruct (wf_parent t e eb p Hwf Heb Hp) as (pb & Hpb & Hh).
  rewrite (create_from_previous_transparent ki p Hk); [reflexivity| |rewrite <- Hh; exact H1].
  apply (cone_anc t fin newRoot Hwf e p Hge (anc_step t p e eb p Heb Hp (anc_refl t p pb Hpb))). lia.
Qed.

(* any reader of blocks that lie strictly above the new root (pprev included) *)
Lemma reads_only_transparent {A} (R : N -> Prop) (f : ftree -> A) :
  reads_only R f -> (forall id, R id -> cone t fin newRoot id /\ height_of t newRoot < height_of t id) ->
  f t' = f t.
Proof.
  intros Hro HR. apply Hro. intros id Hid. destruct (HR id Hid) as [Hg Hlt].
  destruct (cone_exists t fin newRoot id Hg) as [b Hb].
  destruct (Hsame id b Hg Hb) as (b' & Hb' & H1 & H2 & H3 & H4).
  rewrite Hb, Hb'. cbn [option_map]. unfold fcore. rewrite H1, H2, H3, H4 by (intros ->; lia). reflexivity.
Qed.

End Window.

Section Main.
Variables (fuel : nat) (t : ftree) (idx preserve : N) (tips' : list N) (fin newRoot : N).
Hypothesis Hwf : wf_tree t.
Hypothesis Hpath : chain_is_path t.
Hypothesis Hlow : root_lowest t.
Hypothesis Hfuel : fuel_ok fuel t.
Hypothesis Hroot : (idx =? root_of t) = false.
Hypothesis He : erase_tips fuel t (t_tips t) (lowest_dirty fuel t idx idx) = (tips', fin).
Hypothesis Hfin : In fin (t_chain t).
Hypothesis Hc : chain_at t (N.max (height_of t (root_of t)) (height_of t fin - preserve)) = Some newRoot.

Lemma newRoot_facts :
  height_of t newRoot = N.max (height_of t (root_of t)) (height_of t fin - preserve) /\ anc t newRoot fin.
Proof.
  destruct (chain_at_find t _ _ Hc) as [Hnr Hnh]. split; [exact Hnh|].
  apply (Hpath newRoot fin Hnr Hfin). pose proof (Hlow fin Hfin). lia.
Qed.

(* a block that is not outdated is in the retained cone *)
Lemma descendant_cone c : anc t fin c -> cone t fin newRoot c.
Proof.
  intros Hfc. destruct (anc_exists_r t fin c Hfc) as [cb Hcb].
  split; [exact (anc_trans t _ _ _ (proj2 newRoot_facts) Hfc)|]. exists c. split; [exact Hfc|exact (anc_refl t c cb Hcb)].
Qed.

(* the ATV check as coded answers the same on the finalized and on the never-finalized tree *)
Lemma finalize_transparent_atv_check (strict : bool) ki settle c e ctx :
  0 < ki ->
  settle + 2 * ki + (if strict then 0 else 1) <= preserve ->
  anc t fin c ->                                                     (* the containing block is not outdated *)
  (if strict then height_of t fin < height_of t c else True) ->      (* ... and is not the final block itself *)
  anc t e c -> height_of t c - height_of t e <= settle ->            (* the settlement rule *)
  height_of t (root_of t) < height_of t e ->
  height_of t (root_of t) <= prevks (height_of t e) ki 1 ->          (* the keystones exist before finalization *)
  f_check_atv fuel (finalizeBlockImpl fuel t idx preserve) ki settle c e ctx = f_check_atv fuel t ki settle c e ctx.
Proof.
  intros Hk Hp Hfc Hst Hec Hs Hre Hrk.
  pose proof (proj1 newRoot_facts) as Hnh. pose proof (descendant_cone c Hfc) as Hgc.
  pose proof (anc_height t e c Hwf Hec) as Hle. pose proof (anc_height t fin c Hwf Hfc) as Hfle.
  assert (B1 : height_of t newRoot + 0 <= prevks (height_of t e) ki 1).
  { rewrite Hnh. apply (window_low ki settle preserve _ _ (height_of t c)); [exact Hk|lia|destruct strict; lia|lia]. }
  assert (B2 : height_of t newRoot < height_of t e) by (rewrite Hnh; destruct strict; lia).
  apply (check_atv_transparent fuel t _ fin newRoot Hwf (cone_lookup fuel t idx preserve tips' fin newRoot Hwf Hfuel Hroot He Hc)
           ki settle c e ctx Hk Hgc); [|exact B2|lia].
  apply (cone_anc t fin newRoot Hwf c e Hgc Hec). lia.
Qed.

(* ... and so does ANY function that looks at the tree only through the read set (height, pprev, dirty bit and
   payload ids of its blocks) - one more preserved block because such a reader may follow the pprev of the lowest
   block, which finalization cuts at the new root *)
Lemma finalize_transparent_reads {A} (f : ftree -> A) (strict : bool) ki settle c e :
  0 < ki ->
  settle + 2 * ki + (if strict then 1 else 2) <= preserve ->
  anc t fin c ->
  (if strict then height_of t fin < height_of t c else True) ->
  anc t e c -> height_of t c - height_of t e <= settle ->
  height_of t (root_of t) < prevks (height_of t e) ki 1 ->
  reads_only (atv_read_ids t ki c e) f ->
  f (finalizeBlockImpl fuel t idx preserve) = f t.
Proof.
  intros Hk Hp Hfc Hst Hec Hs Hrk Hro.
  pose proof (proj1 newRoot_facts) as Hnh. pose proof (descendant_cone c Hfc) as Hgc.
  pose proof (anc_height t e c Hwf Hec) as Hle. pose proof (anc_height t fin c Hwf Hfc) as Hfle.
  assert (Hlt : height_of t newRoot + 1 <= prevks (height_of t e) ki 1).
  { rewrite Hnh. apply (window_low ki settle preserve _ _ (height_of t c)); [exact Hk|lia|destruct strict; lia|lia]. }
  apply (reads_only_transparent t _ fin newRoot (cone_lookup fuel t idx preserve tips' fin newRoot Hwf Hfuel Hroot He Hc)
           (atv_read_ids t ki c e) f Hro).
  intros id [Ha Hh]. split; [|lia]. apply (cone_anc t fin newRoot Hwf c id Hgc Ha). lia.
Qed.

End Main.
