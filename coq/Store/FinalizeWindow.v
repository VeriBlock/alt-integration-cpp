(** C09 — what finalizeBlockImpl retains.  A block of the [cone] (it descends from the new root and is an
    ancestor-or-self of a descendant of the final block) survives with unchanged height, payload ids, dirty bit and
    (except for the new root) parent; the active chain at or above the new root (= max(old root, final - preserve))
    lies in the cone. *)
From Coq Require Import NArith List Bool Lia.
From VB Require Import Store.FinalizeDefs Store.FinalizeProofs Store.FinalizeTheorems Store.FinalizeOutdated.
Import ListNotations.
Local Open Scope N_scope.

Inductive anc (t : ftree) (a : N) : N -> Prop :=
| anc_refl b : flookup (t_blocks t) a = Some b -> anc t a a
| anc_step x bx p : flookup (t_blocks t) x = Some bx -> f_parent bx = Some p -> anc t a p -> anc t a x.

Lemma anc_exists_r t a x : anc t a x -> exists bx, flookup (t_blocks t) x = Some bx.
Proof. destruct 1 as [b Hb|x bx p Hx Hp Ha]; [exists b; exact Hb|exists bx; exact Hx]. Qed.

Lemma anc_trans t a b c : anc t a b -> anc t b c -> anc t a c.
Proof.
  intros Hab Hbc. induction Hbc as [bb Hb|x bx p Hx Hp Hbp IH]; [exact Hab|].
  exact (anc_step t a x bx p Hx Hp IH).
Qed.

Lemma anc_height t a x : wf_tree t -> anc t a x -> height_of t a <= height_of t x.
Proof.
  intros Hwf H. induction H as [b Hb|x bx p Hx Hp Ha IH]; [lia|].
  destruct (wf_parent t x bx p Hwf Hx Hp) as (pb & _ & Hh). lia.
Qed.

Lemma anc_linear t a b x : wf_tree t -> anc t a x -> anc t b x -> height_of t a <= height_of t b -> anc t a b.
Proof.
  intros Hwf Ha Hb. induction Hb as [bb Hbb|x bx p Hx Hp Hbp IH]; intros Hle; [exact Ha|].
  inversion Ha as [ba Hba Heq|x' bx' p' Hx' Hp' Hap]; subst.
  - exfalso. pose proof (anc_height t b p Hwf Hbp) as Hh.
    destruct (wf_parent t x bx p Hwf Hx Hp) as (pb & _ & Hhx). lia.
  - rewrite Hx in Hx'. injection Hx' as <-. rewrite Hp in Hp'. injection Hp' as <-.
    exact (IH Hap Hle).
Qed.

Lemma ancestor_at_spec t : forall fuel x h y, ancestor_at fuel t x h = Some y -> anc t y x /\ height_of t y = h.
Proof.
  induction fuel as [|f IH]; intros x h y H; cbn [ancestor_at] in H;
    destruct (flookup (t_blocks t) x) as [b|] eqn:Hx; try discriminate;
    destruct (f_height b <? h); try discriminate;
    destruct (f_height b =? h) eqn:E2.
  1,3: injection H as <-; apply N.eqb_eq in E2; rewrite (height_of_lookup t x b Hx);
       split; [exact (anc_refl t x b Hx)|exact E2].
  - discriminate.
  - destruct (f_parent b) as [p|] eqn:Hp; [|discriminate].
    destruct (IH p h y H) as [Ha Hh]. split; [exact (anc_step t y x b p Hx Hp Ha)|exact Hh].
Qed.

Lemma anc_ancestor_at t a x : wf_tree t -> anc t a x ->
  forall fuel, (N.to_nat (height_of t x) <= fuel)%nat -> ancestor_at fuel t x (height_of t a) = Some a.
Proof.
  intros Hwf H. induction H as [b Hb|x bx p Hx Hp Ha IH]; intros fuel Hf; [exact (ancestor_at_self fuel t a b Hb)|].
  destruct (wf_parent t x bx p Hwf Hx Hp) as (pb & _ & Hh).
  pose proof (anc_height t a p Hwf Ha) as Hle.
  destruct fuel as [|f]; [lia|].
  cbn [ancestor_at]. rewrite Hx, <- (height_of_lookup t x bx Hx), Hp.
  rewrite (proj2 (N.ltb_ge _ _)), (proj2 (N.eqb_neq _ _)) by lia. apply IH. lia.
Qed.

Lemma descends_anc fuel t x a : descends fuel t x a = true -> anc t a x.
Proof.
  intros H. apply opt_eqb_Some in H. exact (proj1 (ancestor_at_spec t fuel x _ a H)).
Qed.

Lemma anc_descends fuel t a x : wf_tree t -> anc t a x -> (N.to_nat (height_of t x) <= fuel)%nat ->
  descends fuel t x a = true.
Proof. intros Hwf H Hf. apply opt_eqb_Some. exact (anc_ancestor_at t a x Hwf H fuel Hf). Qed.

Definition chain_is_path (t : ftree) : Prop :=
  forall x y, In x (t_chain t) -> In y (t_chain t) -> height_of t x <= height_of t y -> anc t x y.

Section Cone.
Variables (fuel : nat) (t : ftree) (idx preserve : N) (tips' : list N) (fin newRoot : N).
Hypothesis Hwf : wf_tree t.
Hypothesis Hfuel : forall id b, flookup (t_blocks t) id = Some b -> (N.to_nat (f_height b) <= fuel)%nat.

Definition cone (x : N) : Prop := anc t newRoot x /\ exists y, anc t fin y /\ anc t x y.

Lemma cone_exists x : cone x -> exists b, flookup (t_blocks t) x = Some b.
Proof. intros [Hnx _]. exact (anc_exists_r t newRoot x Hnx). Qed.

Lemma cone_anc x y : cone x -> anc t y x -> height_of t newRoot <= height_of t y -> cone y.
Proof.
  intros (Hnx & z & Hfz & Hxz) Ha Hh. split; [exact (anc_linear t newRoot y x Hwf Hnx Ha Hh)|].
  exists z. split; [exact Hfz|exact (anc_trans t y x z Ha Hxz)].
Qed.

(* of the ancestors of [y] the one at the final block's height is the final block itself, not a sibling of it *)
Lemma cone_kept x : cone x -> kept fuel t fin newRoot x = true.
Proof.
  intros Hx. destruct (cone_exists x Hx) as [b Hb]. destruct Hx as (Hnx & y & Hfy & Hxy).
  assert (Hfx : (N.to_nat (height_of t x) <= fuel)%nat).
  { rewrite (height_of_lookup t x b Hb). exact (Hfuel x b Hb). }
  unfold kept. rewrite (anc_descends fuel t newRoot x Hwf Hnx Hfx).
  assert (Hs : under_sibling fuel t fin x = false); [|rewrite Hs, andb_false_r; reflexivity].
  unfold under_sibling. destruct (N.le_gt_cases (height_of t fin) (height_of t x)) as [Hge|Hlt].
  - rewrite (anc_ancestor_at t fin x Hwf (anc_linear t fin x y Hwf Hfy Hxy Hge) fuel Hfx).
    unfold sibling_of. rewrite N.eqb_refl. reflexivity.
  - rewrite (ancestor_at_below fuel t x _ Hlt). reflexivity.
Qed.

Hypothesis Hroot : (idx =? root_of t) = false.
Hypothesis He : erase_tips fuel t (t_tips t) (lowest_dirty fuel t idx idx) = (tips', fin).
Hypothesis Hc : chain_at t (N.max (height_of t (root_of t)) (height_of t fin - preserve)) = Some newRoot.

Definition same_cone (t' : ftree) : Prop :=
  forall x b, cone x -> flookup (t_blocks t) x = Some b ->
  exists b', flookup (t_blocks t') x = Some b' /\ f_height b' = f_height b /\ f_pl b' = f_pl b /\
             f_dirty b' = f_dirty b /\ (x <> newRoot -> f_parent b' = f_parent b).

Lemma cone_lookup : same_cone (finalizeBlockImpl fuel t idx preserve).
Proof.
  intros x b Hx Hb. pose proof (cone_kept x Hx) as Hk. apply andb_true_iff in Hk. destruct Hk as [Hd Hs].
  apply negb_true_iff in Hs.
  exact (finalize_transparent_partial fuel t idx preserve Hroot tips' fin newRoot He Hc x b Hb Hd Hs).
Qed.

End Cone.

Lemma preserved_window fuel t idx preserve :
  wf_tree t -> chain_is_path t ->
  (forall id b, flookup (t_blocks t) id = Some b -> (N.to_nat (f_height b) <= fuel)%nat) ->
  (idx =? root_of t) = false ->
  forall tips' fin newRoot,
  erase_tips fuel t (t_tips t) (lowest_dirty fuel t idx idx) = (tips', fin) ->
  In fin (t_chain t) ->
  chain_at t (N.max (height_of t (root_of t)) (height_of t fin - preserve)) = Some newRoot ->
  forall c b,
  In c (t_chain t) -> flookup (t_blocks t) c = Some b ->
  N.max (height_of t (root_of t)) (height_of t fin - preserve) <= height_of t c ->
  exists b', flookup (t_blocks (finalizeBlockImpl fuel t idx preserve)) c = Some b' /\
             f_height b' = f_height b /\ f_pl b' = f_pl b /\ f_dirty b' = f_dirty b /\
             (c <> newRoot -> f_parent b' = f_parent b) /\
             In c (t_chain (finalizeBlockImpl fuel t idx preserve)).
Proof.
  intros Hwf Hpath Hfuel Hroot tips' fin newRoot He Hfin Hc c b Hcin Hb Hle.
  destruct (chain_at_find t _ _ Hc) as [Hnr Hnh].
  (* below the final block as its ancestor, else as its descendant *)
  assert (Hcone : cone t fin newRoot c).
  { split; [apply (Hpath newRoot c Hnr Hcin); lia|].
    destruct (N.le_gt_cases (height_of t fin) (height_of t c)) as [Hge|Hlt].
    - exists c. split; [exact (Hpath fin c Hfin Hcin Hge)|exact (anc_refl t c b Hb)].
    - exists fin. split; [exact (Hpath fin fin Hfin Hfin (N.le_refl _))|apply (Hpath c fin Hcin Hfin); lia]. }
  destruct (cone_lookup fuel t idx preserve tips' fin newRoot Hwf Hfuel Hroot He Hc c b Hcone Hb)
    as (b' & H1 & H2 & H3 & H4 & H5).
  exists b'. repeat split; try assumption.
  destruct (finalize_view fuel t idx preserve Hroot tips' fin newRoot He Hc) as (_ & _ & Hch).
  rewrite Hch. apply filter_In. split; [exact Hcin|]. apply N.leb_le. exact Hle.
Qed.

(* The model keeps the REQUESTED block [idx] and the ACTUALLY finalized block [fin] (lowered to the lowest unsaved
   block / to the fork point of an unsaved outdated branch) apart, as the code does.  Of the descendants of the new
   root only those under a sibling of [fin] are deallocated, never forks next to [idx] above [fin]. *)
Lemma only_siblings_of_actual_final fuel t idx preserve :
  (idx =? root_of t) = false ->
  forall tips' fin newRoot,
  erase_tips fuel t (t_tips t) (lowest_dirty fuel t idx idx) = (tips', fin) ->
  chain_at t (N.max (height_of t (root_of t)) (height_of t fin - preserve)) = Some newRoot ->
  forall id b,
  flookup (t_blocks t) id = Some b ->
  descends fuel t id newRoot = true ->
  flookup (t_blocks (finalizeBlockImpl fuel t idx preserve)) id = None ->
  under_sibling fuel t fin id = true /\ (newRoot =? root_of t) = false.
Proof.
  intros Hroot tips' fin newRoot He Hc id b Hb Hd Hgone.
  destruct (negb (newRoot =? root_of t) && under_sibling fuel t fin id) eqn:E.
  - apply andb_true_iff in E. destruct E as [E1 E2]. split; [exact E2|]. apply negb_true_iff. exact E1.
  - destruct (finalize_transparent_partial fuel t idx preserve Hroot tips' fin newRoot He Hc id b Hb Hd E) as (b' & Hl & _).
    congruence.
Qed.
