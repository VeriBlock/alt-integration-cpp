(** C10 — reload equivalence, load half: loading the full dump of a well-formed state ([wf], ReloadEquiv) succeeds
    (no failure branch of load / load_blocks / load_block / recover_block is taken) and yields a state that is
    [equiv] to the dumped one, all of whose blocks are clean and not BLOCK_DELETED.

    loadBlockForward + recoverEndorsements over a parent-before-child list ([topo_ok]) build, for every listed block,
    exactly [bspec p (incoming l k)] ([load_blocks_matches]); loadTip changes nothing when every ACTIVE block is fully
    valid and has an ACTIVE parent ([activate_noop]); [inc] (ReloadEquiv) of the live map is [incoming] of the live
    stored list, up to order. *)
From Coq Require Import NArith List Bool Permutation.
From VB Require Import Store.SaveLoadDefs Store.SaveLoadProofs Store.SaveLoadTheorems Store.LoadProofs Store.LoadSort Store.ReloadEquiv.
Import ListNotations.
Local Open Scope N_scope.

Lemma sorted_NoDup {A} (l : list (N * A)) : sorted l -> NoDup (map fst l).
Proof.
  induction l as [|[k v] r IH]; intros Hs; cbn [map fst]; [constructor|].
  cbn [sorted] in Hs. destruct Hs as [Hh Hr]. constructor; [|exact (IH Hr)].
  apply lookup_None_notin. apply sorted_lookup_lt; [exact Hr|].
  destruct r as [|[k1 v1] r']; [exact I|exact Hh].
Qed.

Lemma NoDup_keys_filter {A} (f : N * A -> bool) (l : list (N * A)) :
  NoDup (map fst l) -> NoDup (map fst (filter f l)).
Proof.
  induction l as [|x r IH]; intros H; cbn [filter map]; [constructor|].
  cbn [map] in H. inversion H as [|? ? Hn Hr]; subst.
  destruct (f x); [|exact (IH Hr)]. cbn [map]. constructor; [|exact (IH Hr)].
  intros Hin. apply Hn. apply in_map_iff in Hin. destruct Hin as (y & Hy & Hin).
  apply in_map_iff. exists y. split; [exact Hy|]. apply filter_In in Hin. exact (proj1 Hin).
Qed.

Definition fin_of (p : pers) : bool := match p_parent p with None => true | Some _ => false end.
(* the reloaded index of a stored projection [p] whose recovered endorsedBy list is [l]: clean, finalized iff no parent *)
Definition bspec (p : pers) (l : list N) : block := mkBlock p false l (fin_of p).

(* the endorsement ids, in list order, of the containing endorsements of [acc] that point to [k] *)
Definition incoming (acc : list (N * pers)) (k : N) : list N :=
  flat_map (fun x => map fst (filter (fun e => snd e =? k) (p_ce (snd x)))) acc.

Definition matches (m : store) (acc : list (N * pers)) : Prop :=
  forall k, lookup m k = match lookup acc k with Some p => Some (bspec p (incoming acc k)) | None => None end.

Definition closed (acc : list (N * pers)) : Prop :=
  forall x e, In x acc -> In e (p_ce (snd x)) -> lookup acc (snd e) <> None.

Lemma incoming_app a1 a2 k : incoming (a1 ++ a2) k = incoming a1 k ++ incoming a2 k.
Proof. unfold incoming. apply flat_map_app. Qed.

Lemma incoming_one id p k : incoming [(id, p)] k = map fst (filter (fun e => snd e =? k) (p_ce p)).
Proof. unfold incoming. cbn [flat_map snd]. apply app_nil_r. Qed.

Lemma incoming_nil acc k :
  (forall x e, In x acc -> In e (p_ce (snd x)) -> snd e <> k) -> incoming acc k = [].
Proof.
  unfold incoming. induction acc as [|x r IH]; intros H; cbn [flat_map]; [reflexivity|].
  rewrite IH; [|intros y e Hy; apply H; now right]. rewrite app_nil_r.
  apply filter_snd_nil. intros e He. exact (H x e (or_introl eq_refl) He).
Qed.

Lemma raise1_block p f : lvl_ok p = true ->
  unsetDirty (raiseValidity 1 (mkBlock p true [] f)) = mkBlock p false [] f.
Proof. intros H. rewrite raiseValidity_fix by exact H. reflexivity. Qed.

Lemma load_block_matches m acc id p :
  matches m acc -> lookup acc id = None -> lvl_ok p = true ->
  match p_parent p with
  | None => True
  | Some par => exists pp, lookup acc par = Some pp /\ p_height p = p_height pp + 1
  end ->
  load_block prims_fixed m (id, p) = Some (m ++ [(id, bspec p [])]) /\ lookup m id = None.
Proof.
  intros Hm Hn Hl Hp.
  assert (Hmid : lookup m id = None) by (rewrite (Hm id), Hn; reflexivity).
  split; [|exact Hmid].
  unfold load_block, bspec, fin_of. cbn [p_raise prims_fixed]. destruct (p_parent p) as [par|].
  - destruct Hp as (pp & Hpp & Hh). rewrite (Hm par), Hpp. unfold bspec. cbn [b_pers].
    rewrite Hh, N.eqb_refl. cbn [negb]. rewrite (raise1_block p false Hl). reflexivity.
  - rewrite Hmid, (raise1_block p true Hl). reflexivity.
Qed.

Definition add_many (k : N) (ces : list endorsement) (b : block) : block :=
  mkBlock (b_pers b) (b_dirty b) (b_by b ++ map fst (filter (fun e => snd e =? k) ces)) (b_final b).

Lemma recover_block_by m x :
  (forall e, In e (p_ce (snd x)) -> lookup m (snd e) <> None) ->
  exists m', recover_block m x = Some m' /\ forall k, lookup m' k = option_map (add_many k (p_ce (snd x))) (lookup m k).
Proof.
  unfold recover_block. generalize (p_ce (snd x)) as ces. intros ces. revert m.
  induction ces as [|e r IH]; intros m H; cbn [fold_left].
  - exists m. split; [reflexivity|]. intros k. destruct (lookup m k) as [b|]; cbn [option_map]; [|reflexivity].
    unfold add_many. cbn [filter map]. rewrite app_nil_r. destruct b; reflexivity.
  - pose proof (H e (or_introl eq_refl)) as He.
    destruct (lookup m (snd e)) as [eb|] eqn:Ee; [|congruence].
    set (m1 := upd m (snd e) _).
    assert (H1 : forall k, lookup m1 k = option_map (fun b => if snd e =? k then add_by (fst e) b else b) (lookup m k)).
    { intros k. unfold m1. apply lookup_upd. }
    destruct (IH m1) as (m' & Hf & Hk).
    { intros e' He'. rewrite H1. specialize (H e' (or_intror He')).
      destruct (lookup m (snd e')); [discriminate|congruence]. }
    exists m'. split; [exact Hf|]. intros k. rewrite Hk, H1.
    destruct (lookup m k) as [b|]; cbn [option_map]; [|reflexivity].
    unfold add_many. cbn [filter]. destruct (snd e =? k); cbn [map]; [|reflexivity].
    unfold add_by. cbn [b_pers b_dirty b_by b_final]. rewrite <- app_assoc. reflexivity.
Qed.

Lemma load_blocks_matches l : forall m acc,
  matches m acc -> closed acc -> topo_ok acc l ->
  exists m', load_blocks prims_fixed l m = Some m' /\ matches m' (acc ++ l).
Proof.
  induction l as [|[id p] r IH]; intros m acc Hm Hc Ht; cbn [load_blocks].
  - exists m. split; [reflexivity|]. rewrite app_nil_r. exact Hm.
  - cbn [topo_ok] in Ht. destruct Ht as (Hn & Hl & Hp & Hce & Hr).
    destruct (load_block_matches m acc id p Hm Hn Hl Hp) as [Hlb Hmid]. rewrite Hlb.
    set (m1 := m ++ [(id, bspec p [])]).
    assert (Hm1 : forall k, lookup m1 k = if id =? k then Some (bspec p []) else lookup m k).
    { intros k. apply lookup_app_new. exact Hmid. }
    assert (Ha1 : forall k, lookup (acc ++ [(id, p)]) k = if id =? k then Some p else lookup acc k).
    { intros k. apply lookup_app_new. exact Hn. }
    destruct (recover_block_by m1 (id, p)) as (m2 & Hf & Hk2).
    { cbn [snd]. intros e He. specialize (Hce e He). rewrite Ha1 in Hce. rewrite Hm1. destruct (id =? snd e); [discriminate|].
      rewrite (Hm (snd e)). destruct (lookup acc (snd e)); [discriminate|congruence]. }
    cbn [snd] in Hk2. rewrite Hf.
    destruct (IH m2 (acc ++ [(id, p)])) as (m' & Hlb' & Hk').
    { intros k. rewrite Hk2, Hm1, Ha1, incoming_app, incoming_one.
      destruct (id =? k) eqn:E.
      - apply N.eqb_eq in E. subst k. cbn [option_map].
        rewrite (incoming_nil acc id).
        + reflexivity.
        + intros x e Hx He Heq. apply (Hc x e Hx He). rewrite Heq. exact Hn.
      - rewrite (Hm k). destruct (lookup acc k) as [q|]; cbn [option_map]; reflexivity. }
    { intros x e Hx He. apply in_app_or in Hx. destruct Hx as [Hx|[<-|[]]].
      - pose proof (Hc x e Hx He) as H. destruct (lookup acc (snd e)) as [q|] eqn:Eq; [|congruence].
        rewrite (lookup_app_l acc _ (snd e) q Eq). discriminate.
      - cbn [snd] in He. exact (Hce e He). }
    { exact Hr. }
    exists m'. split; [exact Hlb'|]. rewrite <- app_assoc in Hk'. exact Hk'.
Qed.

Definition act_closed (m : store) : Prop :=
  forall k b, lookup m k = Some b -> s_active (bstatus b) = true ->
    4 <= s_level (bstatus b) /\
    forall par pb, p_parent (b_pers b) = Some par -> lookup m par = Some pb -> s_active (bstatus pb) = true.

Lemma activate_noop fuel : forall m t,
  act_closed m -> (forall b, lookup m t = Some b -> s_active (bstatus b) = true) ->
  activate_chain prims_fixed fuel m t = m.
Proof.
  induction fuel as [|f IH]; intros m t Hc Ht; cbn [activate_chain]; [reflexivity|].
  destruct (lookup m t) as [b|] eqn:E; [|reflexivity].
  cbn [p_raise prims_fixed].
  assert (Hu : upd m t (fun b0 => raiseValidity 4 (setFlag FActive b0)) = m).
  { apply upd_fix. intros b0 Hb0. rewrite E in Hb0. injection Hb0 as <-.
    pose proof (Ht b eq_refl) as Ha. destruct (Hc t b E Ha) as [H4 _].
    apply activate_keeps; [exact Ha|]. apply orb_true_iff. right. apply N.leb_le. exact H4. }
  rewrite Hu. destruct (p_parent (b_pers b)) as [par|] eqn:Ep; [|reflexivity].
  apply IH; [exact Hc|]. intros pb Hpb. destruct (Hc t b E (Ht b eq_refl)) as [_ Hp]. exact (Hp par pb Ep Hpb).
Qed.

Definition livef (x : N * pers) : bool := negb (s_deleted (p_status (snd x))).
Definition dumpD (s : state) : list (N * pers) := st_blocks (full_dump s).
Definition dumpL (s : state) : list (N * pers) := filter livef (dumpD s).
Definition dumpS (s : state) : list (N * pers) := sort_by_height (dumpL s).
Definition proj (kb : N * block) : N * pers := (fst kb, b_pers (snd kb)).

Lemma load_unfold s :
  load prims_fixed (full_dump s) =
    match load_blocks prims_fixed (dumpS s) [] with
    | None => LoadFail 1
    | Some m => match lookup m (tip s) with
                | None => LoadFail 3
                | Some _ => Loaded (mkState (activate_chain prims_fixed (length m) m (tip s)) (tip s))
                end
    end.
Proof. reflexivity. Qed.

Lemma keys_proj (m : store) : map fst (map proj m) = map fst m.
Proof. rewrite map_map. apply map_ext. intros [k b]. reflexivity. Qed.

Lemma inc_incoming m k : inc m k = incoming (filter livef (map proj m)) k.
Proof.
  unfold inc, incoming. induction m as [|[k0 v] r IH]; cbn [map filter flat_map]; [reflexivity|].
  unfold contrib at 1. unfold livef at 1, proj at 1. cbn [fst snd].
  change (s_deleted (p_status (b_pers v))) with (deleted v).
  destruct (deleted v); cbn [negb flat_map snd]; rewrite IH; reflexivity.
Qed.

Section WF.
Variable s : state.
Hypothesis Hwf : wf s.

Lemma dumpD_lookup id : lookup (dumpD s) id = option_map b_pers (lookup (blocks s) id).
Proof.
  unfold dumpD, full_dump. cbn [st_blocks]. rewrite full_dump_lookup by exact (wf_nodup _ Hwf).
  destruct (lookup (blocks s) id); reflexivity.
Qed.

Lemma dumpD_nodup : NoDup (map fst (dumpD s)).
Proof. apply sorted_NoDup. unfold dumpD, full_dump. cbn [st_blocks]. apply full_dump_sorted. exact I. Qed.

Lemma dumpL_nodup : NoDup (map fst (dumpL s)).
Proof. apply NoDup_keys_filter. exact dumpD_nodup. Qed.

Lemma dumpL_In id p : In (id, p) (dumpL s) <-> exists b, vis (blocks s) id = Some b /\ b_pers b = p.
Proof.
  unfold dumpL. rewrite filter_In. unfold livef. cbn [snd]. split.
  - intros [Hin Hf]. apply (In_lookup _ _ _ dumpD_nodup) in Hin. rewrite dumpD_lookup in Hin.
    destruct (lookup (blocks s) id) as [b|] eqn:L; [|discriminate]. injection Hin as <-.
    exists b. split; [|reflexivity]. apply vis_Some. split; [exact L|]. apply negb_true_iff. exact Hf.
  - intros (b & V & <-). apply vis_Some in V. destruct V as [L D]. split; [|apply negb_true_iff; exact D].
    apply lookup_In. rewrite dumpD_lookup, L. reflexivity.
Qed.

Lemma dumpL_lookup k : lookup (dumpL s) k = option_map b_pers (vis (blocks s) k).
Proof.
  destruct (vis (blocks s) k) as [b|] eqn:V.
  - apply (In_lookup _ _ _ dumpL_nodup). apply dumpL_In. eauto.
  - destruct (lookup (dumpL s) k) as [p|] eqn:E; [|reflexivity].
    apply lookup_In, dumpL_In in E. destruct E as (b & V' & _). congruence.
Qed.

Lemma dumpL_consistent : consistent_list (dumpL s).
Proof.
  split; [exact dumpL_nodup|]. intros id p Hin. apply dumpL_In in Hin. destruct Hin as (b & V & <-).
  destruct (proj1 (vis_Some _ _ _) V) as [Hl Hd].
  destruct (wf_local _ Hwf id b Hl) as (_ & _ & Hlev & _). destruct (Hlev Hd) as [H1 _].
  split.
  { unfold lvl_ok. apply orb_true_iff. right. apply N.leb_le. exact H1. }
  split.
  { destruct (p_parent (b_pers b)) as [par|] eqn:Ep; [|exact I].
    destruct (wf_parent _ Hwf id b par Hl Ep) as (pb & Hpb & Hh & Hdd). destruct (Hdd Hd) as [Hpd _].
    exists (b_pers pb). split; [|exact Hh]. apply dumpL_In. exists pb. split; [apply vis_Some; auto|reflexivity]. }
  intros e He. right. destruct (wf_ce _ Hwf id b e V He) as (eb & Hv & Hlt).
  exists (b_pers eb). split; [|exact Hlt]. apply dumpL_In. eauto.
Qed.

Lemma dumpS_lookup k : lookup (dumpS s) k = option_map b_pers (vis (blocks s) k).
Proof.
  rewrite <- dumpL_lookup. symmetry. apply lookup_perm; [exact dumpL_nodup|apply Permutation_sym; apply sort_perm].
Qed.

Lemma dumpS_topo : topo_ok [] (dumpS s).
Proof. apply sort_is_topological. exact dumpL_consistent. Qed.

Lemma liveV_perm : Permutation (filter livef (map proj (blocks s))) (dumpL s).
Proof.
  apply NoDup_Permutation.
  - apply (NoDup_map_inv fst). apply NoDup_keys_filter. rewrite keys_proj. exact (wf_nodup _ Hwf).
  - apply (NoDup_map_inv fst). exact dumpL_nodup.
  - intros [id p]. rewrite dumpL_In, filter_In, in_map_iff. unfold livef, proj. cbn [snd]. split.
    + intros [([k b] & Heq & Hin) Hf]. cbn [fst snd] in Heq. injection Heq as -> <-.
      exists b. split; [|reflexivity]. apply vis_Some. split; [|apply negb_true_iff; exact Hf].
      apply In_lookup; [exact (wf_nodup _ Hwf)|exact Hin].
    + intros (b & V & <-). apply vis_Some in V. destruct V as [L D]. split; [|apply negb_true_iff; exact D].
      exists (id, b). split; [reflexivity|apply lookup_In; exact L].
Qed.

Lemma by_perm id b : vis (blocks s) id = Some b -> Permutation (b_by b) (incoming (dumpS s) id).
Proof.
  intros V. apply (Permutation_trans (wf_by _ Hwf id b V)).
  rewrite inc_incoming. unfold incoming. apply Permutation_flat_map.
  apply (Permutation_trans liveV_perm). apply Permutation_sym. apply sort_perm.
Qed.

Section Loaded.
Variable m' : store.
Hypothesis Hmm : matches m' (dumpS s).

Lemma loaded_lookup k :
  lookup m' k = option_map (fun b => bspec (b_pers b) (incoming (dumpS s) k)) (vis (blocks s) k).
Proof. rewrite (Hmm k), dumpS_lookup. destruct (vis (blocks s) k); reflexivity. Qed.

Lemma loaded_act_closed : act_closed m'.
Proof.
  intros k b' Hl Ha. rewrite loaded_lookup in Hl.
  destruct (vis (blocks s) k) as [b|] eqn:V; [|discriminate]. injection Hl as <-.
  destruct (proj1 (vis_Some _ _ _) V) as [Hb Hd]. change (s_active (bstatus b) = true) in Ha.
  destruct (wf_local _ Hwf k b Hb) as (_ & _ & Hlev & _). destruct (Hlev Hd) as [_ H4].
  split; [exact (H4 Ha)|]. intros par pb Hp Hpb. change (p_parent (b_pers b) = Some par) in Hp.
  destruct (wf_parent _ Hwf k b par Hb Hp) as (pb0 & Hpb0 & _ & Hdd). destruct (Hdd Hd) as [Hpd Hact].
  rewrite loaded_lookup, (lookup_vis _ _ _ Hpb0 Hpd) in Hpb. injection Hpb as <-. exact (Hact Ha).
Qed.

End Loaded.
End WF.

Lemma load_of_wf s : wf s ->
  exists s', load prims_fixed (full_dump s) = Loaded s' /\ equiv s s' /\
             (forall id b, lookup (blocks s') id = Some b -> b_dirty b = false /\ deleted b = false).
Proof.
  intros Hwf.
  destruct (load_blocks_matches (dumpS s) [] []) as (m' & Hlb & Hmm).
  { intros k. reflexivity. }
  { intros x e []. }
  { apply dumpS_topo. exact Hwf. }
  cbn [app] in Hmm.
  pose proof (loaded_lookup s Hwf m' Hmm) as HL.
  assert (HB : forall id b', lookup m' id = Some b' ->
            exists b, vis (blocks s) id = Some b /\ b' = bspec (b_pers b) (incoming (dumpS s) id)).
  { intros id b' Hb'. rewrite (HL id) in Hb'. destruct (vis (blocks s) id) as [b|]; [|discriminate].
    injection Hb' as <-. eauto. }
  exists (mkState m' (tip s)).
  destruct (wf_tip _ Hwf) as (bt & Hvt & Hat).
  split.
  { rewrite load_unfold, Hlb, (HL (tip s)), Hvt. cbn [option_map].
    rewrite activate_noop; [reflexivity|exact (loaded_act_closed s Hwf m' Hmm)|].
    intros b Hb. rewrite (HL (tip s)), Hvt in Hb. injection Hb as <-. exact Hat. }
  split.
  { split; [reflexivity|]. cbn [blocks]. split.
    - intros id b' Hb'. destruct (HB id b' Hb') as (b & V & ->). destruct (proj1 (vis_Some _ _ _) V) as [Hb _].
      exists b. split; [exact Hb|]. split; [reflexivity|]. split.
      + exact (proj1 (wf_local _ Hwf id b Hb)).
      + exact (by_perm s Hwf id b V).
    - intros id b Hv. rewrite (HL id), Hv. discriminate. }
  cbn [blocks]. intros id b' Hb'. destruct (HB id b' Hb') as (b & V & ->).
  split; [reflexivity|exact (proj2 (proj1 (vis_Some _ _ _) V))].
Qed.
