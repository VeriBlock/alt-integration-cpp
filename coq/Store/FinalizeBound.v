(** C09 — VBK finalization is bounded by the lowest VBK height that references the BTC tip. *)
From Coq Require Import NArith List Bool Lia.
From VB Require Import Store.FinalizeDefs.
Import ListNotations.
Local Open Scope N_scope.

Lemma fold_min_le r : forall x, fold_left N.min r x <= x /\ forall y, In y r -> fold_left N.min r x <= y.
Proof.
  induction r as [|a r IH]; intros x; cbn [fold_left]; [split; [lia|intros ? []]|].
  destruct (IH (N.min x a)) as [H1 H2]. split; [lia|]. intros y [<-|Hy]; [lia|exact (H2 y Hy)].
Qed.

(* min_or_default is a lower bound of every element - also for a single-element container and when the
   minimum is the first element *)
Lemma min_or_default_le l d y : In y l -> min_or_default l d <= y.
Proof.
  destruct l as [|x r]; [intros []|]. cbn [min_or_default]. destruct (fold_min_le r x) as [H1 H2].
  intros [<-|Hy]; [exact H1|exact (H2 y Hy)].
Qed.

Lemma finalizeBlocks_respects_bound fuel t maxReorg preserve maxFinH fi :
  (height_of t (tip_of t) <? maxReorg) = false ->
  chain_at t (N.max (height_of t (root_of t)) (height_of t (tip_of t) - maxReorg)) = Some fi ->
  maxFinH <= height_of t fi ->
  finalizeBlocks fuel t maxReorg preserve maxFinH = t.
Proof.
  intros H1 H2 H3. unfold finalizeBlocks. rewrite H1, H2.
  apply N.leb_le in H3. rewrite H3. reflexivity.
Qed.

(* hence: with ANY reference of the BTC tip at or below the requested VBK block, VBK finalization does nothing *)
Lemma vbk_finalization_bounded fuel t maxReorg preserve refs fi r :
  (height_of t (tip_of t) <? maxReorg) = false ->
  chain_at t (N.max (height_of t (root_of t)) (height_of t (tip_of t) - maxReorg)) = Some fi ->
  In r refs -> r <= height_of t fi ->
  vbk_finalizeBlocks fuel t maxReorg preserve refs = t.
Proof.
  intros H1 H2 Hr Hle. unfold vbk_finalizeBlocks.
  apply (finalizeBlocks_respects_bound fuel t maxReorg preserve _ fi H1 H2).
  pose proof (min_or_default_le refs 2147483647 r Hr). lia.
Qed.

(* the `it == c.begin()` variant loses the bound for every single-element container (the bootstrap BTC tip {0}) *)
Lemma min_or_default_first_bug_refuted :
  min_or_default [0] 2147483647 = 0 /\ min_or_default_first_bug [0] 2147483647 = 2147483647 /\
  min_or_default [5; 9] 2147483647 = 5 /\ min_or_default_first_bug [5; 9] 2147483647 = 2147483647.
Proof. vm_compute. auto. Qed.
