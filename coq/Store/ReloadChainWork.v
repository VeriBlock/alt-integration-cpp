(** C10 — chain work after a reload, for the saved state of ANY guarded history: the work that loadBlockForward
    recomputes for a tree block is the sum of the block proofs along its parent path in the LIVE tree (which is what
    onBlockInserted accumulated in the running instance, ChainWorkProofs.fold_work_spec), and every tree block of a
    well-formed state has such a path. *)
From Coq Require Import NArith List Bool Lia.
From VB Require Import Store.SaveLoadDefs.
From VB Require Import Store.ChainWorkDefs Store.ChainWorkProofs Store.ReloadEquiv Store.ReloadLoad.
Import ListNotations.
Local Open Scope N_scope.

Definition pvis (s : state) (k : N) : option pers := option_map b_pers (vis (blocks s) k).

Section CW.
Variable proof : N -> N.

Lemma reload_chainwork s : wf s ->
  forall id w, has_work proof (pvis s) id w -> work_of (load_work proof (dumpL s)) id = w.
Proof.
  intros HW id w H. unfold load_work. fold (dumpS s).
  destruct (fold_work_spec proof (dumpS s) (topo_ok_pbc _ _ (dumpS_topo s HW))) as [K W].
  unfold work_of. destruct (lookup (fold_left (add_work proof false) (dumpS s) []) id) as [x|] eqn:E.
  - apply W in E. apply (has_work_ext proof _ (pvis s) (dumpS_lookup s HW)) in E.
    exact (has_work_fun proof _ _ _ E _ H).
  - apply K in E. rewrite (dumpS_lookup s HW) in E. fold (pvis s id) in E. inversion H; congruence.
Qed.

Lemma has_work_total s : wf s ->
  forall n id b, vis (blocks s) id = Some b -> (N.to_nat (p_height (b_pers b)) < n)%nat ->
  exists w, has_work proof (pvis s) id w.
Proof.
  intros HW. induction n as [|n IH]; intros id b V Hn; [lia|].
  assert (Hp : pvis s id = Some (b_pers b)) by (unfold pvis; rewrite V; reflexivity).
  destruct (p_parent (b_pers b)) as [par|] eqn:Ep.
  - pose proof V as V0. apply vis_Some in V0. destruct V0 as [L D].
    destruct (wf_parent _ HW id b par L Ep) as (pb & Lp & Hh & Hd). destruct (Hd D) as [Dp _].
    destruct (IH par pb) as [w Hw]; [apply vis_Some; auto|lia|].
    exists (proof id + w). exact (hw_child proof (pvis s) id (b_pers b) par w Hp Ep Hw).
  - exists (proof id). exact (hw_root proof (pvis s) id (b_pers b) Hp Ep).
Qed.

Lemma reload_chainwork_all s : wf s ->
  forall id b, vis (blocks s) id = Some b ->
  exists w, has_work proof (pvis s) id w /\ work_of (load_work proof (dumpL s)) id = w.
Proof.
  intros HW id b V. destruct (has_work_total s HW (S (N.to_nat (p_height (b_pers b)))) id b V) as [w Hw]; [lia|].
  exists w. split; [exact Hw|exact (reload_chainwork s HW id w Hw)].
Qed.

End CW.
