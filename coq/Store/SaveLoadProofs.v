(** C10 — the dirty-flag discipline of SaveLoadDefs: every mutator with a setDirty() returns its block or a dirty
    one, and updating blocks by such mutators keeps the invariant "a clean block is stored with exactly its current
    persisted projection". *)
From Coq Require Import NArith List Bool.
From VB Require Import Store.SaveLoadDefs.
Import ListNotations.
Local Open Scope N_scope.

Lemma NoDup_snoc {A} (l : list A) x : NoDup l -> ~ In x l -> NoDup (l ++ [x]).
Proof. intros Hl Hx. apply (NoDup_Add (Add_app x l [])). rewrite app_nil_r. split; assumption. Qed.

Lemma lookup_upd_same m k f : lookup (upd m k f) k = option_map f (lookup m k).
Proof.
  induction m as [|[k' v] r IH]; cbn [upd lookup option_map]; [reflexivity|].
  destruct (k' =? k) eqn:E; cbn [lookup]; rewrite E; [reflexivity|exact IH].
Qed.

Lemma lookup_upd_other m k f k' : k <> k' -> lookup (upd m k f) k' = lookup m k'.
Proof.
  intros Hne. induction m as [|[k0 v] r IH]; cbn [upd lookup]; [reflexivity|].
  destruct (N.eqb_spec k0 k) as [->|_]; cbn [lookup]; [|rewrite IH; reflexivity].
  destruct (N.eqb_spec k k'); [contradiction|reflexivity].
Qed.

Lemma keys_upd m k f : map fst (upd m k f) = map fst m.
Proof.
  induction m as [|[k' v] r IH]; cbn [upd map fst]; [reflexivity|].
  destruct (k' =? k); cbn [map fst]; [reflexivity|now rewrite IH].
Qed.

Lemma upd_fix m k f : (forall b, lookup m k = Some b -> f b = b) -> upd m k f = m.
Proof.
  induction m as [|[k' v] r IH]; cbn [upd lookup]; [reflexivity|]. intros H.
  destruct (k' =? k); [rewrite (H v eq_refl)|rewrite (IH H)]; reflexivity.
Qed.

Lemma lookup_In {A} (m : list (N * A)) k v : lookup m k = Some v -> In (k, v) m.
Proof.
  induction m as [|[k' v'] r IH]; cbn [lookup]; [discriminate|].
  destruct (N.eqb_spec k' k) as [->|_]; [intros [= ->]; now left|intros H; right; exact (IH H)].
Qed.

Lemma lookup_in_keys {A} (m : list (N * A)) k v : lookup m k = Some v -> In k (map fst m).
Proof. intros H. exact (in_map fst m (k, v) (lookup_In m k v H)). Qed.

Lemma lookup_None_iff {A} (m : list (N * A)) k : lookup m k = None <-> ~ In k (map fst m).
Proof.
  induction m as [|[k' v] r IH]; cbn [lookup map fst In]; [tauto|].
  destruct (N.eqb_spec k' k); [split; [discriminate|intros H; destruct H; now left]|tauto].
Qed.

Lemma lookup_None_notin {A} (m : list (N * A)) k : lookup m k = None -> ~ In k (map fst m).
Proof. apply lookup_None_iff. Qed.

Lemma notin_lookup_None {A} (m : list (N * A)) k : ~ In k (map fst m) -> lookup m k = None.
Proof. apply lookup_None_iff. Qed.

Lemma In_lookup {A} (m : list (N * A)) k v : NoDup (map fst m) -> In (k, v) m -> lookup m k = Some v.
Proof.
  induction m as [|[k' v'] r IH]; cbn [map fst lookup In]; [tauto|].
  intros [Hn Hnd]%NoDup_cons_iff [[= -> ->]|Hin]; [now rewrite N.eqb_refl|].
  destruct (N.eqb_spec k' k) as [->|_]; [destruct Hn; exact (in_map fst r (k, v) Hin)|exact (IH Hnd Hin)].
Qed.

Lemma lookup_head {A} k (v : A) r : lookup ((k, v) :: r) k = Some v.
Proof. cbn [lookup]. now rewrite N.eqb_refl. Qed.

Lemma lookup_app {A} (m1 m2 : list (N * A)) k :
  lookup (m1 ++ m2) k = match lookup m1 k with Some v => Some v | None => lookup m2 k end.
Proof.
  induction m1 as [|[k' v'] r IH]; cbn [lookup app]; [reflexivity|]. destruct (k' =? k); [reflexivity|exact IH].
Qed.

Lemma lookup_app_l {A} (m1 m2 : list (N * A)) k v : lookup m1 k = Some v -> lookup (m1 ++ m2) k = Some v.
Proof. intros H. now rewrite lookup_app, H. Qed.

Lemma lookup_app_new {A} (m : list (N * A)) id v k : lookup m id = None ->
  lookup (m ++ [(id, v)]) k = (if id =? k then Some v else lookup m k).
Proof.
  intros Hn. rewrite lookup_app. cbn [lookup].
  destruct (N.eqb_spec id k) as [<-|_]; [now rewrite Hn|]. destruct (lookup m k); reflexivity.
Qed.

Lemma lookup_insert {A} (m : list (N * A)) k v k' :
  lookup (insert m k v) k' = if k =? k' then Some v else lookup m k'.
Proof.
  induction m as [|[k0 v0] r IH]; cbn [insert lookup]; [reflexivity|].
  destruct (k <? k0); cbn [lookup]; [reflexivity|].
  destruct (N.eqb_spec k k0) as [<-|Hne]; cbn [lookup]; [destruct (k =? k'); reflexivity|].
  rewrite IH. destruct (N.eqb_spec k0 k') as [<-|_]; [|reflexivity].
  destruct (N.eqb_spec k k0); [contradiction|reflexivity].
Qed.

(* sorted (strictly increasing keys) association lists are canonical *)
Fixpoint sorted {A} (l : list (N * A)) : Prop :=
  match l with
  | [] => True
  | (k, _) :: r => match r with [] => True | (k', _) :: _ => k < k' end /\ sorted r
  end.

Lemma sorted_insert {A} (m : list (N * A)) k v : sorted m -> sorted (insert m k v).
Proof.
  induction m as [|[k0 v0] r IH]; cbn [insert]; [cbn; tauto|].
  intros Hs. destruct (N.ltb_spec k k0) as [Hlt|Hge]; [exact (conj Hlt Hs)|].
  destruct (N.eqb_spec k k0) as [<-|Hne]; [exact Hs|].
  destruct Hs as [Hh Hr]. split; [|exact (IH Hr)].
  assert (Hlt : k0 < k) by (apply N.le_neq; split; [exact Hge|intros E; exact (Hne (eq_sym E))]).
  destruct r as [|[k1 v1] r']; cbn [insert]; [exact Hlt|].
  destruct (k <? k1); [exact Hlt|]. destruct (k =? k1); [exact Hlt|exact Hh].
Qed.

Lemma sorted_lookup_lt {A} (m : list (N * A)) k0 :
  sorted m -> (match m with [] => True | (k, _) :: _ => k0 < k end) -> lookup m k0 = None.
Proof.
  induction m as [|[k v] r IH]; [reflexivity|].
  intros [Hh Hr] Hlt. cbn [lookup]. destruct (N.eqb_spec k k0) as [->|_]; [destruct (N.lt_irrefl _ Hlt)|].
  apply IH; [exact Hr|]. destruct r as [|[k1 v1] r']; [exact I|exact (N.lt_trans _ _ _ Hlt Hh)].
Qed.

Lemma sorted_head_le {A} k v (r : list (N * A)) k' v' :
  sorted ((k, v) :: r) -> lookup ((k, v) :: r) k' = Some v' -> k <= k'.
Proof.
  intros Hs Hl. destruct (N.le_gt_cases k k') as [H|H]; [exact H|].
  rewrite (sorted_lookup_lt _ k' Hs H) in Hl. discriminate.
Qed.

Lemma sorted_ext {A} (m1 m2 : list (N * A)) :
  sorted m1 -> sorted m2 -> (forall k, lookup m1 k = lookup m2 k) -> m1 = m2.
Proof.
  revert m2. induction m1 as [|[k1 v1] r1 IH]; intros [|[k2 v2] r2] S1 S2 H; [reflexivity| | |].
  - specialize (H k2). rewrite lookup_head in H. discriminate.
  - specialize (H k1). rewrite lookup_head in H. discriminate.
  - (* each head key is found in the other list, hence not below its head *)
    assert (k1 = k2) as <-.
    { apply N.le_antisymm; [apply (sorted_head_le _ _ _ _ v2 S1); rewrite H|apply (sorted_head_le _ _ _ _ v1 S2); rewrite <- H];
        apply lookup_head. }
    pose proof (H k1) as H1. rewrite !lookup_head in H1. injection H1 as <-.
    f_equal. apply IH; [exact (proj2 S1)|exact (proj2 S2)|].
    intros k. specialize (H k). cbn [lookup] in H. destruct (N.eqb_spec k1 k) as [E|_]; [subst k|exact H].
    now rewrite (sorted_lookup_lt r1 k1 (proj2 S1) (proj1 S1)), (sorted_lookup_lt r2 k1 (proj2 S2) (proj1 S2)).
Qed.

(* f "marks": whenever the result is clean, the input was clean and the persisted projection is unchanged *)
Definition marks_at (f : block -> block) (b : block) : Prop :=
  b_dirty (f b) = false -> b_dirty b = false /\ b_pers (f b) = b_pers b.
Definition marks (f : block -> block) : Prop := forall b, marks_at f b.

Lemma marks_id : marks (fun b => b).
Proof. intros b H. split; [exact H|reflexivity]. Qed.

Lemma marks_at_comp f g b : marks_at f b -> marks g -> marks_at (fun b => g (f b)) b.
Proof.
  intros Hf Hg H. destruct (Hg (f b) H) as [H1 H2]. destruct (Hf H1) as [H3 H4].
  split; [exact H3|congruence].
Qed.

Lemma marks_at_dirty f b : b_dirty (f b) = true -> marks_at f b.
Proof. intros E H. congruence. Qed.

(* The shape of every mutator of the code that has a setDirty(): it returns the block as it is, or a dirty one
   (`if (newStatus == status) return; ...; setDirty();`). *)
Definition dirties (f : block -> block) : Prop := forall b, f b = b \/ b_dirty (f b) = true.

Lemma dirties_marks f : dirties f -> marks f.
Proof. intros Hf b. unfold marks_at. destruct (Hf b) as [->|E]; [auto|congruence]. Qed.

Lemma dirties_keeps f b : dirties f -> b_dirty b = true -> b_dirty (f b) = true.
Proof. intros Hf H. destruct (Hf b) as [->|E]; assumption. Qed.

Lemma dirties_comp f g : dirties f -> dirties g -> dirties (fun b => g (f b)).
Proof. intros Hf Hg b. destruct (Hg (f b)) as [E|E]; [rewrite E; apply Hf|right; exact E]. Qed.

Lemma dirties_setDirty g : dirties (fun b => setDirty (g b)).
Proof. intros b. right. reflexivity. Qed.

Lemma dirties_setStatus s : dirties (setStatus s).
Proof. intros b. unfold setStatus. destruct (status_eqb s (bstatus b)); [left|right]; reflexivity. Qed.
Lemma dirties_setFlag f : dirties (setFlag f).
Proof. intros b. apply dirties_setStatus. Qed.
Lemma dirties_unsetFlag f : dirties (unsetFlag f).
Proof. intros b. apply dirties_setStatus. Qed.
Lemma dirties_restore : dirties restore.
Proof. exact (dirties_unsetFlag FDeleted). Qed.
Lemma dirties_raiseValidity n : dirties (raiseValidity n).
Proof.
  intros b. unfold raiseValidity. destruct (s_fpop (bstatus b)); [now left|].
  destruct (s_level (bstatus b) <? n); [now right|now left].
Qed.
Lemma dirties_lowerValidity n : dirties (lowerValidity n).
Proof.
  intros b. unfold lowerValidity. destruct (s_fpop (bstatus b)); [now left|].
  destruct (n <? s_level (bstatus b)); [now right|now left].
Qed.
Lemma dirties_eraseBy e : dirties (eraseBy e).
Proof. intros b. unfold eraseBy. destruct (existsb (N.eqb e) (b_by b)); [now right|now left]. Qed.
Lemma dirties_setPayloads l : dirties (setPayloads l).
Proof. exact (dirties_setDirty _). Qed.
Lemma dirties_insertCE e : dirties (insertCE e).
Proof. exact (dirties_setDirty _). Qed.
Lemma dirties_removeCE e : dirties (removeCE e).
Proof. exact (dirties_setDirty _). Qed.
Lemma dirties_insertBy e : dirties (insertBy e).
Proof. exact (dirties_setDirty _). Qed.
Lemma dirties_addRef : dirties addRef.
Proof. exact (dirties_setDirty _). Qed.
Lemma dirties_removeRef : dirties removeRef.
Proof. exact (dirties_setDirty _). Qed.
Lemma dirties_deleteTemporarily : dirties deleteTemporarily.
Proof. intros b. right. reflexivity. Qed.

Create HintDb dirty discriminated.
#[export] Hint Resolve dirties_comp dirties_setFlag dirties_unsetFlag dirties_restore dirties_setPayloads dirties_insertCE
  dirties_removeCE dirties_insertBy dirties_eraseBy dirties_addRef dirties_removeRef dirties_deleteTemporarily : dirty.

(* what the theorems need from the two validity mutators *)
Definition prims_ok (P : prims) : Prop := (forall n, dirties (p_raise P n)) /\ (forall n, dirties (p_lower P n)).

Lemma prims_fixed_ok : prims_ok prims_fixed.
Proof. exact (conj dirties_raiseValidity dirties_lowerValidity). Qed.

(* unsetting a flag that is set changes the status word, hence marks the block *)
Lemma status_eqb_put_flag_neq f s : get_flag f s = true -> status_eqb (put_flag f false s) s = false.
Proof.
  unfold status_eqb. destruct f; cbn [get_flag]; intros E;
    cbn [put_flag s_level s_boot s_fblock s_fpop s_fchild s_haspl s_active s_deleted];
    rewrite E; cbn [eqb]; rewrite ?andb_false_r; reflexivity.
Qed.

Lemma dirty_unsetFlag_set f b : get_flag f (bstatus b) = true -> b_dirty (unsetFlag f b) = true.
Proof.
  intros H. unfold unsetFlag, setStatus. rewrite (status_eqb_put_flag_neq f _ H). reflexivity.
Qed.

Definition Inv (s : state) (st : storage) : Prop :=
  NoDup (map fst (blocks s)) /\
  (forall id b, lookup (blocks s) id = Some b -> b_dirty b = false -> lookup (st_blocks st) id = Some (b_pers b)) /\
  (forall id p, lookup (st_blocks st) id = Some p -> In id (map fst (blocks s))) /\
  sorted (st_blocks st).

Lemma Inv_tip m t t' st : Inv (mkState m t) st -> Inv (mkState m t') st.
Proof. intros H. exact H. Qed.

Lemma Inv_upd m t st k f :
  Inv (mkState m t) st -> (forall b, lookup m k = Some b -> marks_at f b) -> Inv (mkState (upd m k f) t) st.
Proof.
  intros (Hnd & Hc & Hk & Hs) Hm. unfold Inv. cbn [blocks] in *. rewrite keys_upd.
  split; [exact Hnd|]. split; [|split; [exact Hk|exact Hs]].
  intros id b Hl Hd. destruct (N.eq_dec k id) as [->|Hne].
  - rewrite lookup_upd_same in Hl. destruct (lookup m id) as [b0|] eqn:E; [|discriminate].
    injection Hl as <-. destruct (Hm b0 eq_refl Hd) as [H1 H2]. rewrite H2. exact (Hc id b0 E H1).
  - rewrite lookup_upd_other in Hl by exact Hne. exact (Hc id b Hl Hd).
Qed.

Lemma Inv_upd_dirties m t st k f : Inv (mkState m t) st -> dirties f -> Inv (mkState (upd m k f) t) st.
Proof. intros H Hf. apply Inv_upd; [exact H|]. intros b _. exact (dirties_marks f Hf b). Qed.
#[export] Hint Resolve Inv_upd_dirties : dirty.

Lemma Inv_fold {A} (g : store -> A -> store) t st :
  (forall m x, Inv (mkState m t) st -> Inv (mkState (g m x) t) st) ->
  forall l m, Inv (mkState m t) st -> Inv (mkState (fold_left g l m) t) st.
Proof. intros Hg l. induction l as [|x r IH]; intros m H; cbn [fold_left]; [exact H|]. exact (IH _ (Hg m x H)). Qed.

Lemma Inv_upd_many m t st ks f : Inv (mkState m t) st -> dirties f -> Inv (mkState (upd_many m ks f) t) st.
Proof. intros H Hf. apply Inv_fold; auto with dirty. Qed.

Lemma Inv_apply_endorsements m t st id es :
  Inv (mkState m t) st -> Inv (mkState (apply_endorsements m id es) t) st.
Proof. apply Inv_fold. auto with dirty. Qed.

Lemma Inv_unapply_endorsements m t st id :
  Inv (mkState m t) st -> Inv (mkState (unapply_endorsements m id) t) st.
Proof. unfold unapply_endorsements. destruct (lookup m id); [apply Inv_fold; auto with dirty|tauto]. Qed.
#[export] Hint Resolve Inv_upd_many Inv_apply_endorsements Inv_unapply_endorsements : dirty.

Lemma Inv_append m t st id nb :
  Inv (mkState m t) st -> lookup m id = None -> b_dirty nb = true -> Inv (mkState (m ++ [(id, nb)]) t) st.
Proof.
  intros (Hnd & Hc & Hk & Hs) Hn Hd. unfold Inv. cbn [blocks] in *. rewrite map_app.
  split; [exact (NoDup_snoc _ id Hnd (lookup_None_notin m id Hn))|]. split; [|split; [|exact Hs]].
  - intros id' b. rewrite (lookup_app_new m id nb id' Hn).
    destruct (id =? id'); [intros [= <-]; congruence|apply Hc].
  - intros id' p Hl. apply in_or_app. left. exact (Hk id' p Hl).
Qed.
