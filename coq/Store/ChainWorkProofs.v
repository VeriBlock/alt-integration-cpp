(** C10 — load recomputes the chain work of every block to the value the running instance holds, for every tree
    and arbitrary bootstrap flags; the variant that restarts the sum at BLOCK_BOOTSTRAP blocks does not. *)
From Coq Require Import NArith List Bool Permutation.
From VB Require Import Store.SaveLoadDefs Store.SaveLoadProofs Store.LoadProofs Store.LoadSort
  Store.ChainWorkDefs.
Import ListNotations.
Local Open Scope N_scope.

(* parent-before-child order: every block is new and its parent (if any) has been processed *)
Fixpoint pbc (acc l : list (N * pers)) : Prop :=
  match l with
  | [] => True
  | (id, p) :: r =>
    lookup acc id = None /\
    match p_parent p with None => True | Some par => lookup acc par <> None end /\
    pbc (acc ++ [(id, p)]) r
  end.

Lemma topo_ok_pbc l : forall acc, topo_ok acc l -> pbc acc l.
Proof.
  induction l as [|[id p] r IH]; intros acc H; cbn [pbc topo_ok] in *; [exact I|].
  destruct H as (H1 & _ & H3 & _ & H5). split; [exact H1|]. split; [|exact (IH _ H5)].
  destruct (p_parent p) as [par|]; [|exact I]. destruct H3 as (pp & Hpp & _). congruence.
Qed.

Section Spec.
Variable proof : N -> N.

(* the specification: the work of a block is the sum of the proofs along its parent path down to the root *)
Inductive has_work (view : N -> option pers) : N -> N -> Prop :=
| hw_root id p : view id = Some p -> p_parent p = None -> has_work view id (proof id)
| hw_child id p par w : view id = Some p -> p_parent p = Some par -> has_work view par w ->
                        has_work view id (proof id + w).

Lemma has_work_fun view id w1 : has_work view id w1 -> forall w2, has_work view id w2 -> w1 = w2.
Proof.
  induction 1 as [id p Hv Hp|id p par w Hv Hp Hw IH]; intros w2 H2; inversion H2; subst; try congruence.
  assert (par0 = par) by congruence. subst par0. f_equal. apply IH. assumption.
Qed.

Lemma has_work_ext v1 v2 : (forall k, v1 k = v2 k) -> forall id w, has_work v1 id w -> has_work v2 id w.
Proof.
  intros E id w H. induction H as [id p Hv Hp|id p par w Hv Hp Hw IH].
  - apply (hw_root v2 id p); [rewrite <- E; exact Hv|exact Hp].
  - apply (hw_child v2 id p par w); [rewrite <- E; exact Hv|exact Hp|exact IH].
Qed.

Definition WInv (full acc : list (N * pers)) (w : work_map) : Prop :=
  (forall k, lookup w k = None <-> lookup acc k = None) /\
  (forall k x, lookup w k = Some x -> has_work (lookup full) k x).

Lemma add_work_fold full : forall l acc w,
  full = acc ++ l -> pbc acc l -> WInv full acc w -> WInv full full (fold_left (add_work proof false) l w).
Proof.
  induction l as [|[id p] r IH]; intros acc w Hf Hp Hi; cbn [fold_left].
  - rewrite app_nil_r in Hf. subst acc. exact Hi.
  - destruct Hp as (Hnew & Hpar & Hrest). destruct Hi as [Hk Hw].
    assert (Hwn : lookup w id = None) by (apply Hk; exact Hnew).
    assert (Hfull : lookup full id = Some p).
    { rewrite Hf, lookup_app, Hnew. apply lookup_head. }
    apply (IH (acc ++ [(id, p)])); [rewrite <- app_assoc; exact Hf|exact Hrest|].
    assert (Hx : exists x, add_work proof false w (id, p) = w ++ [(id, x)] /\ has_work (lookup full) id x).
    { unfold add_work. cbn [andb]. destruct (p_parent p) as [par|] eqn:Ep; eexists; (split; [reflexivity|]).
      - unfold work_of. destruct (lookup w par) as [wp|] eqn:Ewp; [|destruct (Hpar (proj1 (Hk par) Ewp))].
        exact (hw_child (lookup full) id p par wp Hfull Ep (Hw par wp Ewp)).
      - exact (hw_root (lookup full) id p Hfull Ep). }
    destruct Hx as (x & -> & Hx). split; intros k.
    + rewrite (lookup_app_new w id x k Hwn), (lookup_app_new acc id p k Hnew).
      destruct (id =? k); [split; discriminate|apply Hk].
    + rewrite (lookup_app_new w id x k Hwn). destruct (N.eqb_spec id k) as [<-|_]; [intros y [= <-]; exact Hx|apply Hw].
Qed.

Lemma fold_work_spec l : pbc [] l -> WInv l l (fold_left (add_work proof false) l []).
Proof.
  intros H. apply (add_work_fold l l [] []); [reflexivity|exact H|].
  split; [intros k; cbn [lookup]; tauto|intros k x Hx; discriminate].
Qed.

Lemma WInv_work_of full w id x : WInv full full w -> has_work (lookup full) id x -> work_of w id = x.
Proof.
  intros [K W] H. unfold work_of. destruct (lookup w id) as [y|] eqn:E.
  - exact (has_work_fun _ _ _ (W id y E) _ H).
  - apply K in E. inversion H; congruence.
Qed.

Lemma work_order_independent l1 l2 :
  (forall k, lookup l1 k = lookup l2 k) -> pbc [] l1 -> pbc [] l2 ->
  forall id, work_of (live_work proof l1) id = work_of (live_work proof l2) id.
Proof.
  intros E H1 H2 id. destruct (fold_work_spec l1 H1) as [K1 W1]. pose proof (fold_work_spec l2 H2) as I2.
  unfold work_of at 1. destruct (lookup (live_work proof l1) id) as [x|] eqn:E1.
  - symmetry. apply (WInv_work_of l2 _ id x I2), (has_work_ext (lookup l1)); [exact E|exact (W1 id x E1)].
  - apply K1 in E1. rewrite E in E1. apply (proj1 I2) in E1. unfold work_of, live_work. now rewrite E1.
Qed.

(* load . save restores the chain work of EVERY block: [stored] is any structurally consistent block set (unique
   ids, parents present one below - bootstrap flags arbitrary) listed in the order the running instance inserted
   the blocks; the restarted instance processes the height-sorted list *)
Lemma chainwork_restored stored :
  consistent_list stored -> pbc [] stored ->
  forall id, work_of (load_work proof stored) id = work_of (live_work proof stored) id.
Proof.
  intros Hc Hp id. unfold load_work, live_work. apply work_order_independent.
  - intros k. symmetry. apply lookup_perm; [exact (proj1 Hc)|apply Permutation_sym; apply sort_perm].
  - apply topo_ok_pbc. apply sort_is_topological. exact Hc.
  - exact Hp.
Qed.

End Spec.

(* the hypotheses are satisfiable by a non-trivial value, and the theorem's conclusion is what one expects *)
Example chainwork_example :
  consistent_list boot2_chain /\ pbc [] boot2_chain /\
  load_work (fun _ => 1) boot2_chain = [(0, 1); (1, 2); (2, 3)].
Proof.
  split; [|split; [cbn; repeat split; discriminate|vm_compute; reflexivity]].
  split.
  - cbn. repeat constructor; cbn; intuition discriminate.
  - intros id p [H|[H|[H|[]]]]; injection H as <- <-; (split; [reflexivity|]); cbn [p_parent p_ce sp_block];
      (split; [|intros e []]); try exact I.
    + exists (sp_block None 0 true). split; [now left|reflexivity].
    + exists (sp_block (Some 0) 1 true). split; [right; now left|reflexivity].
Qed.

(* the variant that skips `+= pprev->chainWork` for BLOCK_BOOTSTRAP blocks: with a 2-block bootstrap chain the
   reloaded work of the second bootstrap block and of every descendant differs from the live one *)
Lemma chainwork_restart_at_bootstrap_refuted :
  work_of (live_work (fun _ => 1) boot2_chain) 1 = 2 /\ work_of (load_work_restart (fun _ => 1) boot2_chain) 1 = 1 /\
  work_of (live_work (fun _ => 1) boot2_chain) 2 = 3 /\ work_of (load_work_restart (fun _ => 1) boot2_chain) 2 = 2.
Proof. vm_compute. repeat split. Qed.
