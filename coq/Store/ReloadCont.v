(** C10 — equivalent states stay equivalent under every operation of the model, with equal outcomes
    (Done / the same Abort code): the reloaded instance follows the live one op for op. *)
From Coq Require Import NArith List Bool Permutation.
From VB Require Import Store.SaveLoadDefs Store.SaveLoadProofs Store.SaveLoadTheorems Store.ReloadEquiv.
Import ListNotations.
Local Open Scope N_scope.

Lemma existsb_perm x l l' : Permutation l l' -> existsb (N.eqb x) l = existsb (N.eqb x) l'.
Proof.
  intros HP. apply eq_true_iff_eq. rewrite !existsb_In.
  split; apply Permutation_in; [exact HP|apply Permutation_sym; exact HP].
Qed.

Lemma remove_last_absent x l : existsb (N.eqb x) l = false -> remove_last_n x l = l.
Proof.
  induction l as [|y r IH]; intros H; cbn [remove_last_n existsb] in *; [reflexivity|].
  apply orb_false_iff in H. destruct H as [H1 H2]. rewrite H2, N.eqb_sym, H1. reflexivity.
Qed.

Lemma remove_last_perm_compat x l l' : Permutation l l' -> Permutation (remove_last_n x l) (remove_last_n x l').
Proof.
  intros HP. pose proof (existsb_perm x l l' HP) as E'. destruct (existsb (N.eqb x) l) eqn:E; symmetry in E'.
  - apply existsb_In in E, E'. apply (Permutation_cons_inv (a := x)).
    apply (Permutation_trans (Permutation_sym (remove_last_perm x l E))).
    apply (Permutation_trans HP). apply remove_last_perm. exact E'.
  - rewrite (remove_last_absent x l E), (remove_last_absent x l' E'). exact HP.
Qed.

Definition respects (f : block -> block) : Prop := forall b b', bsim b b' -> bsim (f b) (f b').
Definition keeps_deleted (f : block -> block) : Prop := forall b, deleted b = true -> deleted (f b) = true.

Ltac resp_start :=
  intros [p d y fi] [p' d' y' fi'] (Hp & Hf & Hy); cbn [b_pers b_final b_by] in Hp, Hf, Hy; subst p' fi'.
Ltac resp_done :=
  unfold bsim; cbn [b_pers b_final b_by setDirty rawStatus with_pers]; repeat split; try reflexivity; try assumption.

Lemma respects_setStatus_of (g : status -> status) : respects (fun b => setStatus (g (bstatus b)) b).
Proof.
  resp_start. unfold setStatus, bstatus. cbn [b_pers].
  destruct (status_eqb (g (p_status p)) (p_status p)); resp_done.
Qed.
Lemma respects_setFlag fl : respects (setFlag fl).
Proof. exact (respects_setStatus_of (put_flag fl true)). Qed.
Lemma respects_unsetFlag fl : respects (unsetFlag fl).
Proof. exact (respects_setStatus_of (put_flag fl false)). Qed.
Lemma respects_raise n : respects (raiseValidity n).
Proof.
  resp_start. unfold raiseValidity, bstatus. cbn [b_pers].
  destruct (s_fpop (p_status p)); [resp_done|]. destruct (s_level (p_status p) <? n); resp_done.
Qed.
Lemma respects_lower n : respects (lowerValidity n).
Proof.
  resp_start. unfold lowerValidity, bstatus. cbn [b_pers].
  destruct (s_fpop (p_status p)); [resp_done|]. destruct (n <? s_level (p_status p)); resp_done.
Qed.
Lemma respects_setPayloads l : respects (setPayloads l).
Proof. resp_start. unfold setPayloads. resp_done. Qed.
Lemma respects_clearPayloads : respects clearPayloads.
Proof. resp_start. unfold clearPayloads. resp_done. Qed.
Lemma respects_insertCE e : respects (insertCE e).
Proof. resp_start. unfold insertCE. resp_done. Qed.
Lemma respects_removeCE e : respects (removeCE e).
Proof. resp_start. unfold removeCE. resp_done. Qed.
Lemma respects_addRef : respects addRef.
Proof. resp_start. unfold addRef. resp_done. Qed.
Lemma respects_removeRef : respects removeRef.
Proof. resp_start. unfold removeRef. resp_done. Qed.
Lemma respects_insertBy e : respects (insertBy e).
Proof. resp_start. unfold insertBy. resp_done. cbn [b_by]. apply Permutation_app_tail. exact Hy. Qed.
Lemma respects_eraseBy e : respects (eraseBy e).
Proof.
  resp_start. unfold eraseBy. cbn [b_by]. rewrite (existsb_perm e y y' Hy).
  destruct (existsb (N.eqb e) y'); resp_done. cbn [b_by]. apply remove_last_perm_compat. exact Hy.
Qed.
Lemma respects_deleteTemporarily : respects deleteTemporarily.
Proof. resp_start. unfold deleteTemporarily, setNullAddon, bstatus. cbn [b_pers b_dirty b_by b_final]. resp_done. Qed.
Lemma respects_unsetDirty : respects unsetDirty.
Proof. resp_start. unfold unsetDirty. resp_done. Qed.

Lemma keeps_deleted_status f : (forall b, bstatus (f b) = bstatus b) -> keeps_deleted f.
Proof. intros H b D. unfold deleted. rewrite H. exact D. Qed.

Lemma keeps_deleted_setStatus_of (g : status -> status) :
  (forall s, s_deleted s = true -> s_deleted (g s) = true) -> keeps_deleted (fun b => setStatus (g (bstatus b)) b).
Proof. intros H b D. unfold setStatus. destruct (status_eqb _ _); [exact D|exact (H _ D)]. Qed.
Lemma keeps_deleted_setFlag fl : keeps_deleted (setFlag fl).
Proof. apply keeps_deleted_setStatus_of. intros s D. destruct fl; try exact D; reflexivity. Qed.
Lemma keeps_deleted_unsetFlag fl : fl <> FDeleted -> keeps_deleted (unsetFlag fl).
Proof. intros Hfl. apply keeps_deleted_setStatus_of. intros s D. destruct fl; try exact D; congruence. Qed.
Lemma keeps_deleted_raise n : keeps_deleted (raiseValidity n).
Proof.
  intros b D. unfold raiseValidity. destruct (s_fpop (bstatus b)); [exact D|].
  destruct (s_level (bstatus b) <? n); exact D.
Qed.
Lemma keeps_deleted_eraseBy e : keeps_deleted (eraseBy e).
Proof. apply keeps_deleted_status. intros b. unfold eraseBy. destruct (existsb (N.eqb e) (b_by b)); reflexivity. Qed.

Lemma ssim_pointwise (F : N -> block -> block) m m' m1 m1' :
  ssim m m' ->
  (forall id, lookup m1 id = option_map (F id) (lookup m id)) ->
  (forall id, lookup m1' id = option_map (F id) (lookup m' id)) ->
  (forall id, respects (F id)) -> (forall id, keeps_deleted (F id) \/ lookup m' id <> None) ->
  ssim m1 m1'.
Proof.
  intros [H1 H2] E E' Hf Hk. split.
  - intros id b1' L'. rewrite E' in L'. destruct (lookup m' id) as [b'|] eqn:Lb; [|discriminate].
    injection L' as <-. destruct (H1 id b' Lb) as (b & L & S).
    exists (F id b). rewrite E, L. split; [reflexivity|apply Hf; exact S].
  - intros id b1 V. apply vis_Some in V. destruct V as [L D]. rewrite E in L.
    destruct (lookup m id) as [b|] eqn:Lb; [|discriminate]. injection L as <-.
    assert (Hn : lookup m' id <> None).
    { destruct (Hk id) as [K|K]; [|exact K]. apply (H2 id b). apply vis_Some. split; [exact Lb|].
      destruct (deleted b) eqn:Db; [rewrite (K b Db) in D; discriminate|reflexivity]. }
    rewrite E'. destruct (lookup m' id); [discriminate|congruence].
Qed.

Lemma ssim_upd m m' k f :
  ssim m m' -> respects f -> (keeps_deleted f \/ lookup m' k <> None) -> ssim (upd m k f) (upd m' k f).
Proof.
  intros H Hf Hk. apply (ssim_pointwise (fun id b => if k =? id then f b else b) m m' _ _ H); try (intros; apply lookup_upd).
  - intros id b b' S. destruct (k =? id); [apply Hf|]; exact S.
  - intros id. destruct (N.eqb_spec k id) as [<-|_]; [exact Hk|left; exact (fun b D => D)].
Qed.

Lemma ssim_upd_many ks : forall m m' f,
  ssim m m' -> respects f -> keeps_deleted f -> ssim (upd_many m ks f) (upd_many m' ks f).
Proof.
  unfold upd_many. induction ks as [|k r IH]; intros m m' f H Hf Hk; cbn [fold_left]; [exact H|].
  apply IH; [|exact Hf|exact Hk]. apply ssim_upd; [exact H|exact Hf|left; exact Hk].
Qed.

Lemma ssim_set m m' m1 m1' id nb nb' :
  ssim m m' ->
  (forall k, lookup m1 k = if id =? k then Some nb else lookup m k) ->
  (forall k, lookup m1' k = if id =? k then Some nb' else lookup m' k) ->
  bsim nb nb' -> ssim m1 m1'.
Proof.
  intros [H1 H2] E E' S. split.
  - intros k b1' L'. rewrite E' in L'. rewrite E. destruct (id =? k); [injection L' as <-; eauto|exact (H1 k b1' L')].
  - intros k b1 V. rewrite E'. apply vis_Some in V. destruct V as [L D]. rewrite E in L.
    destruct (id =? k); [discriminate|]. apply (H2 k b1). apply vis_Some. auto.
Qed.

Lemma ssim_lookup_vis m m' id b : ssim m m' -> vis m id = Some b ->
  exists b', lookup m' id = Some b' /\ bsim b b' /\ deleted b' = false.
Proof.
  intros HS V. pose proof (ssim_vis m m' HS id) as HO. rewrite V in HO. unfold osim in HO.
  destruct (vis m' id) as [b'|] eqn:V'; [|destruct HO]. apply vis_Some in V'. destruct V' as [L' D'].
  exists b'. auto.
Qed.

Lemma ssim_none m m' id : ssim m m' -> lookup m id = None -> lookup m' id = None.
Proof.
  intros [H1 _] L. destruct (lookup m' id) as [b'|] eqn:E; [|reflexivity].
  destruct (H1 id b' E) as (b & L0 & _). congruence.
Qed.

Lemma ssim_apply_endorsements es : forall m m' id,
  ssim m m' -> ssim (apply_endorsements m id es) (apply_endorsements m' id es).
Proof.
  unfold apply_endorsements. induction es as [|e r IH]; intros m m' id H; cbn [fold_left]; [exact H|].
  apply IH. apply ssim_upd; [|apply respects_insertBy|left; apply keeps_deleted_status; reflexivity].
  apply ssim_upd; [exact H|apply respects_insertCE|left; apply keeps_deleted_status; reflexivity].
Qed.

Lemma ssim_unapply_fold l : forall m m' id,
  ssim m m' ->
  ssim (fold_left (fun m e => upd (upd m (snd e) (eraseBy (fst e))) id (removeCE (fst e))) l m)
       (fold_left (fun m e => upd (upd m (snd e) (eraseBy (fst e))) id (removeCE (fst e))) l m').
Proof.
  induction l as [|e r IH]; intros m m' id H; cbn [fold_left]; [exact H|].
  apply IH. apply ssim_upd; [|apply respects_removeCE|left; apply keeps_deleted_status; reflexivity].
  apply ssim_upd; [exact H|apply respects_eraseBy|left; apply keeps_deleted_eraseBy].
Qed.

(* the live instance resurrects the removed index, the reloaded one creates a fresh index: the same block, because a
   removed index keeps nothing but parent, height and the failure marks that [pre] fixes *)
Lemma restored_is_fresh b par fc :
  deleted b = true -> deleted_form b -> final_ok b ->
  p_parent (b_pers b) = Some par -> s_fblock (bstatus b) = false -> s_fchild (bstatus b) = fc ->
  bsim (raiseValidity 1 (restore b)) (raiseValidity 1 (restore (newBlock (Some par) (p_height (b_pers b)) fc))).
Proof.
  destruct b as [[pa h [lv bo fb fp fc0 hp ac de] pl ce rf] d y fi]. unfold deleted, deleted_form, final_ok, bstatus.
  cbn [b_pers b_by b_final p_parent p_height p_status p_pl p_ce p_ref
       s_level s_boot s_fblock s_fpop s_fchild s_haspl s_active s_deleted].
  intros D DF F P Hfb Hfc. destruct (DF D) as (-> & -> & -> & -> & -> & -> & -> & -> & ->). subst.
  destruct fc; unfold bsim; repeat split; apply Permutation_refl.
Qed.

Lemma done_equiv m1 m1' t st' :
  ssim m1 m1' -> exists s1' st1', Done (mkState m1' t) st' = Done s1' st1' /\ equiv (mkState m1 t) s1'.
Proof. intros H. eexists _, _. split; [reflexivity|]. split; [reflexivity|exact H]. Qed.

Lemma step_equiv o s st s' st' :
  wf s -> pre s o -> equiv s s' ->
  match step prims_fixed o s st with
  | Done s1 _ => exists s1' st1', step prims_fixed o s' st' = Done s1' st1' /\ equiv s1 s1'
  | Abort w => step prims_fixed o s' st' = Abort w
  end.
Proof.
  intros HW HP [Ht HS]. destruct s as [m t], s' as [m' t']. cbn [tip blocks] in Ht, HS. subst t'.
  destruct o; cbn [step blocks tip p_raise p_lower prims_fixed]; cbn [pre blocks tip] in HP.
  - (* insertBlockHeader *)
    destruct HP as [Hpar Hre]. apply visible_iff in Hpar. destruct Hpar as [pb Vp].
    destruct (ssim_lookup_vis m m' parent pb HS Vp) as (pb' & Lp' & (Epers & _) & _).
    pose proof (vis_lookup _ _ _ Vp) as Lp. rewrite Lp, Lp'. unfold bstatus. rewrite <- Epers.
    destruct (lookup m id) as [b|] eqn:L; [destruct (s_deleted (p_status (b_pers b))) eqn:D|].
    + destruct (lookup m' id) as [b'|] eqn:L'.
      * (* resurrected by both *)
        destruct (proj1 HS id b' L') as (b0 & L0 & S0). rewrite L in L0. injection L0 as <-.
        pose proof (bsim_deleted _ _ S0) as D'. unfold deleted, bstatus in D'. rewrite <- D', D.
        apply done_equiv, ssim_upd; [exact HS| |right; congruence].
        intros x x' S. apply respects_raise, respects_unsetFlag, S.
      * (* resurrected by the live instance, new for the reloaded one *)
        apply done_equiv.
        apply (ssim_set m m' _ _ id _ _ HS (fun k => lookup_upd_set m id _ b k L) (fun k => lookup_app_new m' id _ k L')).
        destruct (Hre b eq_refl D) as (Hpa & Hfb & Hfc).
        destruct (wf_local _ HW id b L) as (Hfin & Hdf & _ & _).
        destruct (wf_parent _ HW id b parent L Hpa) as (pb0 & Lpb0 & Hh & _).
        cbn [blocks] in Lpb0. rewrite Lp in Lpb0. injection Lpb0 as <-. rewrite <- Hh.
        apply restored_is_fresh; try assumption. unfold parent_failed in Hfc. rewrite Lp in Hfc. exact Hfc.
    + (* duplicate *)
      destruct (ssim_lookup_vis m m' id b HS (lookup_vis m id b L D)) as (b' & L' & _ & D').
      rewrite L'. unfold deleted, bstatus in D'. rewrite D'. apply done_equiv. exact HS.
    + (* new for both *)
      pose proof (ssim_none m m' id HS L) as L'. rewrite L'. apply done_equiv.
      exact (ssim_set m m' _ _ id _ _ HS (fun k => lookup_app_new m id _ k L) (fun k => lookup_app_new m' id _ k L')
               (bsim_refl _)).
  - (* setPayloads *)
    apply visible_iff in HP. destruct HP as [b V]. destruct (ssim_lookup_vis m m' id b HS V) as (b' & L' & S & _).
    rewrite (vis_lookup _ _ _ V), L'. unfold bstatus. rewrite <- (proj1 S).
    destruct (s_haspl (p_status (b_pers b))); [reflexivity|].
    apply done_equiv, ssim_upd; [exact HS| |right; congruence].
    intros x x' Sx. apply respects_setFlag, respects_setPayloads, Sx.
  - (* connectBlock *)
    apply done_equiv, ssim_upd; [exact HS|apply respects_raise|left; apply keeps_deleted_raise].
  - (* applyBlock *)
    apply done_equiv, ssim_upd; [apply ssim_apply_endorsements; exact HS| |left].
    + intros x x' Sx. apply respects_setFlag, respects_raise, Sx.
    + intros x D. apply keeps_deleted_setFlag, keeps_deleted_raise, D.
  - (* unapplyBlock *)
    destruct HP as (Hv & _ & _). apply visible_iff in Hv. destruct Hv as [b V].
    destruct (ssim_lookup_vis m m' id b HS V) as (b' & L' & S & _).
    apply done_equiv, ssim_upd; [|apply respects_unsetFlag|left; apply keeps_deleted_unsetFlag; discriminate].
    unfold unapply_endorsements. rewrite (vis_lookup _ _ _ V), L', <- (proj1 S).
    apply ssim_unapply_fold. exact HS.
  - (* invalidate *)
    apply done_equiv, ssim_upd_many; [|apply respects_setFlag|apply keeps_deleted_setFlag].
    apply ssim_upd; [exact HS|apply respects_setFlag|left; apply keeps_deleted_setFlag].
  - (* revalidate *)
    destruct HP as (Hr & _ & _).
    apply done_equiv, ssim_upd_many; [|apply respects_unsetFlag|apply keeps_deleted_unsetFlag; discriminate].
    apply ssim_upd; [exact HS|apply respects_unsetFlag|left; apply keeps_deleted_unsetFlag; destruct Hr; subst; discriminate].
  - (* removeSubtree *)
    apply done_equiv, ssim_upd_many; [exact HS|apply respects_deleteTemporarily|exact (fun _ _ => eq_refl)].
  - (* removeAllPayloads *)
    destruct HP as (b & V & _). destruct (ssim_lookup_vis m m' id b HS V) as (b' & L' & S & _).
    rewrite (vis_lookup _ _ _ V), L'. unfold bstatus. rewrite <- (proj1 S).
    destruct (s_haspl (p_status (b_pers b))); cbn [negb]; [|reflexivity].
    apply done_equiv, ssim_upd; [exact HS| |right; congruence].
    intros x x' Sx. apply respects_lower, respects_unsetFlag, respects_clearPayloads, Sx.
  - (* addRef *)
    apply done_equiv, ssim_upd; [exact HS|apply respects_addRef|left; apply keeps_deleted_status; reflexivity].
  - (* removeRef *)
    apply done_equiv, ssim_upd; [exact HS|apply respects_removeRef|left; apply keeps_deleted_status; reflexivity].
  - (* setTip *)
    apply done_equiv. exact HS.
  - (* saveTree *)
    unfold save. cbn [blocks tip]. apply done_equiv.
    apply (ssim_pointwise (fun _ => unsetDirty) m m' _ _ HS); try (intros; apply lookup_map_unsetDirty).
    + intros _. apply respects_unsetDirty.
    + intros k. left. apply keeps_deleted_status. reflexivity.
Qed.
