(** C10 — what the reload correspondence compares is fixed by the reload theorems: for every guarded history with
    saves anywhere, the observation [load_obs] of the accumulated storage succeeds and shows, under every id, the
    observation of the live state at that save (tip, parent, height, status word, payload ids, containing
    endorsements, refcount, finalized mark; endorsedBy up to order); a crash after any completed save shows the
    state of that save. *)
From Coq Require Import NArith List Bool Permutation.
From VB Require Import Store.SaveLoadDefs Store.SaveLoadProofs.
From VB Require Import Store.ReloadEquiv Store.ReloadTheorems Store.ReloadObsDefs.
Import ListNotations.
Local Open Scope N_scope.

Lemma tree_block_vis s id : tree_block s id = vis (blocks s) id.
Proof. unfold tree_block, vis, visb, deleted. destruct (lookup (blocks s) id); reflexivity. Qed.

Lemma equiv_obs s s' : equiv s s' ->
  tip s' = tip s /\ (forall id, obs_at s' id = obs_at s id) /\ (forall id, Permutation (by_at s' id) (by_at s id)).
Proof.
  intros HE. destruct (equiv_vis s s' HE) as [Ht Hv]. split; [symmetry; exact Ht|]. split.
  - intros id. specialize (Hv id). unfold obs_at. rewrite !tree_block_vis. unfold osim in Hv.
    destruct (vis (blocks s) id) as [b|], (vis (blocks s') id) as [b'|]; cbn [option_map]; try contradiction; [|reflexivity].
    destruct Hv as (H1 & H2 & _). unfold obs_block. rewrite H1, H2. reflexivity.
  - intros id. specialize (Hv id). unfold by_at. rewrite !tree_block_vis. unfold osim in Hv.
    destruct (vis (blocks s) id) as [b|], (vis (blocks s') id) as [b'|]; try contradiction; [|apply Permutation_refl].
    apply Permutation_sym. exact (proj2 (proj2 Hv)).
Qed.

Definition obs_agree (x y : N * list (N * option bobs * list N)) : Prop :=
  fst x = fst y /\
  Forall2 (fun a b => fst (fst a) = fst (fst b) /\ snd (fst a) = snd (fst b) /\ Permutation (snd a) (snd b)) (snd x) (snd y).

Lemma obs_state_agree s s' ids : equiv s s' -> obs_agree (obs_state s' ids) (obs_state s ids).
Proof.
  intros HE. destruct (equiv_obs s s' HE) as (Ht & Ho & Hb). split; [exact Ht|].
  cbn [snd obs_state]. induction ids as [|i r IH]; cbn [map]; constructor; [|exact IH].
  cbn [fst snd]. split; [reflexivity|]. split; [apply Ho|apply Hb].
Qed.

Lemma equiv_ids s s' : equiv s s' -> forall id, In id (obs_ids s') -> lookup (blocks s) id <> None.
Proof.
  intros [_ [H1 _]] id HI. unfold obs_ids in HI. apply in_map_iff in HI. destruct HI as ([k b] & <- & HI).
  apply filter_In in HI. destruct HI as [HI _]. cbn [fst].
  destruct (lookup (blocks s') k) as [b'|] eqn:Hb'.
  - destruct (H1 k b' Hb') as (b0 & Hb0 & _). rewrite Hb0. discriminate.
  - elim (lookup_None_notin _ _ Hb'). exact (in_map fst _ _ HI).
Qed.

Theorem reload_obs h s st ids :
  guarded h init storage0 ->
  run prims_fixed (h ++ [OSave]) init storage0 = Done s st ->
  exists o, load_obs prims_fixed st ids = inl o /\
            exists ids', obs_agree o (obs_state s (ids ++ ids')) /\ forall id, In id ids' -> lookup (blocks s) id <> None.
Proof.
  intros HG HR. destruct (reload_equiv h s st HG HR) as (_ & _ & s' & HL & HE & _).
  unfold load_obs. rewrite HL. eexists. split; [reflexivity|].
  exists (filter (fun k => negb (existsb (N.eqb k) ids)) (obs_ids s')). split; [exact (obs_state_agree s s' _ HE)|].
  intros id HI. apply filter_In in HI. exact (equiv_ids s s' HE id (proj1 HI)).
Qed.

(* crash after any completed save: the storage written up to that save loads to the observation of that moment,
   whatever ran afterwards without completing a save is lost, nothing else *)
Theorem crash_obs h1 h2 s1 st1 ids :
  guarded (h1 ++ [OSave] ++ h2) init storage0 ->
  run prims_fixed (h1 ++ [OSave]) init storage0 = Done s1 st1 ->
  exists o, load_obs prims_fixed st1 ids = inl o /\
            exists ids', obs_agree o (obs_state s1 (ids ++ ids')) /\ forall id, In id ids' -> lookup (blocks s1) id <> None.
Proof.
  intros HG HR. apply guarded_app in HG. destruct HG as [HG _]. exact (reload_obs h1 s1 st1 ids HG HR).
Qed.

(* the premises are met by the fork/invalidate/remove/re-add/endorse/reorg history of ReloadTheorems.v (hist_guarded),
   and the observation is not trivial: it shows blocks with containing endorsements and endorsedBy entries *)
Example reload_obs_example :
  guarded ((hist1 ++ [OSave]) ++ hist2) init storage0 /\
  match run prims_fixed (hist1 ++ [OSave]) init storage0 with
  | Done s st => match load_obs prims_fixed st [] with
                 | inl o => fst o = tip s /\ (3 <=? N.of_nat (length (snd o))) = true /\
                            existsb (fun x => match snd (fst x) with Some b => negb (match o_ce b with [] => true | _ => false end) | None => false end) (snd o) = true /\
                            existsb (fun x => negb (match snd x with [] => true | _ => false end)) (snd o) = true
                 | inr _ => False
                 end
  | Abort _ => False
  end.
Proof.
  split; [exact hist_guarded|].
  vm_compute. repeat split.
Qed.
