(** C10 — loadBlockForward + recoverEndorsements over any parent-before-child order (the order the height sort
    of loadTree produces, LoadSort.v) succeed and restore exactly the stored persisted projections, and loadTip
    changes nothing on a stored chain that is ACTIVE and fully valid.  PARTIAL: the
    endorsedBy lists and the dirty bits of the loaded state are not described here (ReloadLoad.v does that for
    well-formed states; the reload oracle and the model/implementation comparison of `load` cover the rest). *)
From Coq Require Import NArith List Bool.
From VB Require Import Store.SaveLoadDefs Store.SaveLoadProofs Store.SaveLoadTheorems.
Import ListNotations.
Local Open Scope N_scope.

(* the persisted view of an in-memory store *)
Definition pv (m : store) (k : N) : option pers := option_map b_pers (lookup m k).

(* raiseValidity(VALID_TREE) at load leaves a stored index alone iff it is FAILED_POP or at least VALID_TREE *)
Definition lvl_ok (p : pers) : bool := s_fpop (p_status p) || (1 <=? s_level (p_status p)).

(* parent-before-child order: every block is new, its parent (if any) is already loaded one below, and the
   endorsed block of each containing endorsement is already loaded or is the block itself *)
Fixpoint topo_ok (acc : list (N * pers)) (l : list (N * pers)) : Prop :=
  match l with
  | [] => True
  | (id, p) :: r =>
    lookup acc id = None /\ lvl_ok p = true /\
    match p_parent p with
    | None => True
    | Some par => exists pp, lookup acc par = Some pp /\ p_height p = p_height pp + 1
    end /\
    (forall e, In e (p_ce p) -> lookup (acc ++ [(id, p)]) (snd e) <> None) /\
    topo_ok (acc ++ [(id, p)]) r
  end.

Lemma raiseValidity_fix n b : (s_fpop (bstatus b) || (n <=? s_level (bstatus b))) = true -> raiseValidity n b = b.
Proof.
  unfold raiseValidity. destruct (s_fpop (bstatus b)); [reflexivity|]. cbn [orb]. intros H.
  destruct (N.ltb_spec (s_level (bstatus b)) n) as [Hlt|_]; [|reflexivity].
  apply N.leb_le in H. destruct (N.lt_irrefl _ (N.lt_le_trans _ _ _ Hlt H)).
Qed.

Lemma load_block_spec m acc id p :
  (forall k, pv m k = lookup acc k) ->
  lookup acc id = None -> lvl_ok p = true ->
  match p_parent p with
  | None => True
  | Some par => exists pp, lookup acc par = Some pp /\ p_height p = p_height pp + 1
  end ->
  exists b, load_block prims_fixed m (id, p) = Some (m ++ [(id, b)]) /\ b_pers b = p /\ lookup m id = None.
Proof.
  intros Hv Hn Hl Hp.
  assert (Hm : lookup m id = None).
  { pose proof (Hv id) as H. unfold pv in H. rewrite Hn in H. destruct (lookup m id); [discriminate|reflexivity]. }
  unfold load_block. cbn [p_raise prims_fixed].
  assert (Hb : forall f, b_pers (unsetDirty (raiseValidity 1 (mkBlock p true [] f))) = p).
  { intros f. rewrite raiseValidity_fix by exact Hl. reflexivity. }
  destruct (p_parent p) as [par|].
  - destruct Hp as (pp & Hpp & Hh). pose proof (Hv par) as H. unfold pv in H. rewrite Hpp in H.
    destruct (lookup m par) as [pb|]; [|discriminate]. injection H as ->.
    rewrite Hh, N.eqb_refl. eexists. split; [reflexivity|]. split; [apply Hb|exact Hm].
  - rewrite Hm. eexists. split; [reflexivity|]. split; [apply Hb|reflexivity].
Qed.

Definition add_by (e : N) (b : block) : block := mkBlock (b_pers b) (b_dirty b) (b_by b ++ [e]) (b_final b).

Lemma pv_upd_same_pers m k f : (forall b, b_pers (f b) = b_pers b) -> forall k', pv (upd m k f) k' = pv m k'.
Proof.
  intros Hf k'. unfold pv. destruct (N.eq_dec k k') as [->|Hne].
  - rewrite lookup_upd_same. destruct (lookup m k'); cbn [option_map]; [now rewrite Hf|reflexivity].
  - rewrite lookup_upd_other by exact Hne. reflexivity.
Qed.

Lemma recover_block_spec m x :
  (forall e, In e (p_ce (snd x)) -> pv m (snd e) <> None) ->
  exists m', recover_block m x = Some m' /\ forall k, pv m' k = pv m k.
Proof.
  unfold recover_block. revert m.
  induction (p_ce (snd x)) as [|e r IH]; intros m H; cbn [fold_left]; [exists m; auto|].
  pose proof (H e (or_introl eq_refl)) as He. unfold pv in He.
  destruct (lookup m (snd e)) as [eb|]; [clear He|destruct (He eq_refl)].
  assert (Hpv : forall k, pv (upd m (snd e) (add_by (fst e))) k = pv m k) by (apply pv_upd_same_pers; reflexivity).
  destruct (IH (upd m (snd e) (add_by (fst e)))) as (m' & Hf & Hk).
  { intros e' He'. rewrite Hpv. apply H. now right. }
  exists m'. split; [exact Hf|]. intros k. now rewrite Hk.
Qed.

Lemma load_blocks_topological l : forall m acc,
  (forall k, pv m k = lookup acc k) -> topo_ok acc l ->
  exists m', load_blocks prims_fixed l m = Some m' /\ forall k, pv m' k = lookup (acc ++ l) k.
Proof.
  induction l as [|[id p] r IH]; intros m acc Hv Ht; cbn [load_blocks].
  - exists m. split; [reflexivity|]. intros k. rewrite app_nil_r. apply Hv.
  - destruct Ht as (Hn & Hl & Hp & Hce & Hr).
    destruct (load_block_spec m acc id p Hv Hn Hl Hp) as (b & -> & Hb & Hm).
    assert (Hv1 : forall k, pv (m ++ [(id, b)]) k = lookup (acc ++ [(id, p)]) k).
    { intros k. unfold pv. rewrite (lookup_app_new m id b k Hm), (lookup_app_new acc id p k Hn), <- Hb, <- Hv.
      destruct (id =? k); reflexivity. }
    destruct (recover_block_spec (m ++ [(id, b)]) (id, p)) as (m2 & -> & Hk2).
    { intros e He. rewrite Hv1. exact (Hce e He). }
    destruct (IH m2 (acc ++ [(id, p)])) as (m' & Hlb' & Hk'); [intros k; now rewrite Hk2|exact Hr|].
    exists m'. split; [exact Hlb'|]. intros k. now rewrite Hk', <- app_assoc.
Qed.

Example topo_example :
  let st := mkStatus 2 false false false false true false false in
  topo_ok [] [(0, mkPers None 0 (mkStatus 4 true false false false false true false) [] [] 0);
              (1, mkPers (Some 0) 1 st [10] [] 0); (2, mkPers (Some 1) 2 st [11] [(100, 1)] 0)].
Proof.
  intros st. set (p0 := mkPers None 0 _ [] [] 0). set (p1 := mkPers (Some 0) 1 st [10] [] 0).
  set (p2 := mkPers (Some 1) 2 st [11] [(100, 1)] 0). repeat split.
  - intros e [].
  - exists p0. split; reflexivity.
  - intros e [].
  - exists p1. split; reflexivity.
  - intros e [<-|[]]. discriminate.
Qed.

(* the active chain as stored: every block from the tip down is ACTIVE and fully valid (or FAILED_POP, where
   raiseValidity refuses) - then loadTip's setFlag(ACTIVE)/raiseValidity(CAN_BE_APPLIED) change nothing persisted *)
Fixpoint chain_ok (fuel : nat) (view : N -> option pers) (t : N) : bool :=
  match fuel with
  | O => true
  | S f => match view t with
           | None => true
           | Some p => s_active (p_status p) && (s_fpop (p_status p) || (4 <=? s_level (p_status p))) &&
                       match p_parent p with None => true | Some par => chain_ok f view par end
           end
  end.

Lemma chain_ok_ext fuel : forall v1 v2 t, (forall k, v1 k = v2 k) -> chain_ok fuel v1 t = chain_ok fuel v2 t.
Proof.
  induction fuel as [|f IH]; intros v1 v2 t H; cbn [chain_ok]; [reflexivity|].
  rewrite H. destruct (v2 t) as [p|]; [|reflexivity]. destruct (p_parent p); [|reflexivity].
  rewrite (IH v1 v2 n H). reflexivity.
Qed.

Lemma status_eqb_refl s : status_eqb s s = true.
Proof. unfold status_eqb. rewrite N.eqb_refl, !eqb_reflx. reflexivity. Qed.

Lemma activate_keeps b :
  s_active (bstatus b) = true -> (s_fpop (bstatus b) || (4 <=? s_level (bstatus b))) = true ->
  raiseValidity 4 (setFlag FActive b) = b.
Proof.
  intros Ha Hl.
  assert (Hp : put_flag FActive true (bstatus b) = bstatus b).
  { destruct (bstatus b). cbn in Ha |- *. now rewrite Ha. }
  unfold setFlag, setStatus. rewrite Hp, status_eqb_refl. exact (raiseValidity_fix 4 b Hl).
Qed.

Lemma activate_chain_fix fuel : forall m t,
  chain_ok fuel (pv m) t = true -> activate_chain prims_fixed fuel m t = m.
Proof.
  induction fuel as [|f IH]; intros m t H; cbn [activate_chain]; [reflexivity|].
  cbn [chain_ok] in H. unfold pv in H at 1.
  destruct (lookup m t) as [b|] eqn:E; [|reflexivity]. cbn [option_map] in H.
  apply andb_true_iff in H. destruct H as [[H1 H2]%andb_true_iff H3].
  rewrite upd_fix.
  - destruct (p_parent (b_pers b)) as [par|]; [exact (IH m par H3)|reflexivity].
  - intros b0 Hb0. rewrite E in Hb0. injection Hb0 as <-. exact (activate_keeps b H1 H2).
Qed.

(* PARTIAL: that the height sort of the live stored blocks is a
   parent-before-child order ([topo_ok]) and that the stored chain is consistent ([chain_ok]) are premises,
   and the endorsedBy lists / dirty bits of the result are not described. *)
Lemma load_restores_persisted_partial st t :
  let live := filter (fun x => negb (s_deleted (p_status (snd x)))) (st_blocks st) in
  st_tip st = Some t ->
  topo_ok [] (sort_by_height live) ->
  lookup (sort_by_height live) t <> None ->
  (forall fuel, chain_ok fuel (lookup (sort_by_height live)) t = true) ->
  exists s', load prims_fixed st = Loaded s' /\ tip s' = t /\
             forall k, pv (blocks s') k = lookup (sort_by_height live) k.
Proof.
  intros live Ht Htopo Htip Hchain. unfold load. fold live.
  destruct (load_blocks_topological (sort_by_height live) [] []) as (m & -> & Hv); [reflexivity|exact Htopo|].
  rewrite Ht. cbn [app] in Hv.
  destruct (lookup m t) as [bt|] eqn:E; [|destruct Htip; rewrite <- Hv; unfold pv; now rewrite E].
  rewrite activate_chain_fix by (rewrite (chain_ok_ext _ _ _ t Hv); apply Hchain).
  eexists. split; [reflexivity|]. split; [reflexivity|exact Hv].
Qed.

(* composition with save_load_roundtrip: for ANY history and ANY placement of saves, loading the storage
   accumulated by the incremental saves succeeds and yields the tip and, for every block id, exactly the
   persisted projection of the live non-deleted block at the last save.  PARTIAL: the two structural
   premises about the saved state (parent-before-child height order, consistent stored chain) are assumed,
   endorsedBy lists are not described. *)
Lemma reload_equiv_partial h s st :
  run prims_fixed (h ++ [OSave]) init storage0 = Done s st ->
  let live := filter (fun x => negb (s_deleted (p_status (snd x)))) (st_blocks (full_dump s)) in
  topo_ok [] (sort_by_height live) ->
  lookup (sort_by_height live) (tip s) <> None ->
  (forall fuel, chain_ok fuel (lookup (sort_by_height live)) (tip s) = true) ->
  exists s', load prims_fixed st = Loaded s' /\ tip s' = tip s /\
             forall k, pv (blocks s') k = lookup (sort_by_height live) k.
Proof.
  intros Hrun. destruct (save_load_roundtrip h s st Hrun) as [-> _].
  exact (load_restores_persisted_partial (full_dump s) (tip s) eq_refl).
Qed.

(* the storage the F9 history leaves on the repaired code loads, and the reloaded child is connected (258) *)
Example reload_f9_fixed :
  exists s st s', run prims_fixed f9_history init storage0 = Done s st /\ load prims_fixed st = Loaded s' /\
    option_map (fun p => status_word (p_status p)) (pv (blocks s') 2) = Some 258.
Proof. eexists _, _, _. split; [vm_compute; reflexivity|]. split; [vm_compute; reflexivity|reflexivity]. Qed.
