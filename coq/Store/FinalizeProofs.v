(** C09 — proofs about the finalization model (FinalizeDefs). *)
From Coq Require Import NArith List Bool Lia.
From VB Require Import Store.FinalizeDefs.
Import ListNotations.
Local Open Scope N_scope.

Lemma existsb_eqb_In (x : N) (l : list N) : existsb (N.eqb x) l = true <-> In x l.
Proof.
  rewrite existsb_exists. split.
  - intros (y & Hy & E). apply N.eqb_eq in E. now subst.
  - intros H. exists x. split; [exact H|apply N.eqb_refl].
Qed.

Lemma opt_eqb_Some o x : opt_eqb o (Some x) = true <-> o = Some x.
Proof.
  destruct o as [y|]; cbn [opt_eqb]; [rewrite N.eqb_eq|]; split; congruence.
Qed.

Lemma flookup_In {A} (m : list (N * A)) k v : flookup m k = Some v -> In (k, v) m.
Proof.
  induction m as [|[k' v'] r IH]; cbn [flookup]; [discriminate|].
  destruct (k' =? k) eqn:E; intros H.
  - apply N.eqb_eq in E. subst k'. injection H as ->. now left.
  - right. exact (IH H).
Qed.

Lemma flookup_map_fst {A} (g : N * A -> N * A) (m : list (N * A)) k :
  (forall kb, fst (g kb) = fst kb) -> flookup (map g m) k = option_map (fun v => snd (g (k, v))) (flookup m k).
Proof.
  intros Hg. induction m as [|[k' v] r IH]; cbn [map flookup option_map]; [reflexivity|].
  pose proof (Hg (k', v)) as H1. destruct (g (k', v)) as [k2 v2] eqn:Eg. cbn [fst] in H1. subst k2.
  destruct (k' =? k) eqn:E; [|exact IH]. apply N.eqb_eq in E. subst k'. cbn [option_map]. rewrite Eg. reflexivity.
Qed.

Lemma flookup_filter {A} (P : N * A -> bool) (keep : N -> bool) (m : list (N * A)) k :
  (forall kb, P kb = keep (fst kb)) -> flookup (filter P m) k = if keep k then flookup m k else None.
Proof.
  intros HP. induction m as [|[k' v] r IH]; cbn [filter flookup]; [destruct (keep k); reflexivity|].
  rewrite HP. cbn [fst]. destruct (k' =? k) eqn:E.
  - apply N.eqb_eq in E. subst k'. destruct (keep k); [cbn [flookup]; rewrite N.eqb_refl; reflexivity|exact IH].
  - destruct (keep k'); [cbn [flookup]; rewrite E|]; exact IH.
Qed.

Lemma flookup_app_none {A} (m : list (N * A)) k x v : k <> x -> flookup (m ++ [(x, v)]) k = flookup m k.
Proof.
  intros Hne. induction m as [|[k' v'] r IH]; cbn [app flookup].
  - destruct (x =? k) eqn:E; [apply N.eqb_eq in E; congruence|reflexivity].
  - destruct (k' =? k); [reflexivity|exact IH].
Qed.

Lemma flookup_mark_final ids bl k :
  flookup (mark_final ids bl) k =
  option_map (fun b => if existsb (N.eqb k) ids then mkF (f_parent b) (f_height b) (f_dirty b) true (f_pl b) else b)
             (flookup bl k).
Proof.
  unfold mark_final. rewrite flookup_map_fst.
  - destruct (flookup bl k); cbn [option_map fst snd]; [|reflexivity]. destruct (existsb (N.eqb k) ids); reflexivity.
  - intros [k' v]. cbn [fst snd]. destruct (existsb (N.eqb k') ids); reflexivity.
Qed.

Lemma flookup_set_parent_none id bl k :
  flookup (set_parent_none id bl) k =
  option_map (fun b => if k =? id then mkF None (f_height b) (f_dirty b) (f_final b) (f_pl b) else b) (flookup bl k).
Proof.
  unfold set_parent_none. rewrite flookup_map_fst.
  - destruct (flookup bl k); cbn [option_map fst snd]; [|reflexivity]. destruct (k =? id); reflexivity.
  - intros [k' v]. cbn [fst snd]. destruct (k' =? id); reflexivity.
Qed.

Lemma height_of_lookup t id b : flookup (t_blocks t) id = Some b -> height_of t id = f_height b.
Proof. unfold height_of. now intros ->. Qed.

Lemma chain_at_find t h x : chain_at t h = Some x -> In x (t_chain t) /\ height_of t x = h.
Proof.
  intros H. apply find_some in H. destruct H as [H1 H2]. apply N.eqb_eq in H2. auto.
Qed.

Lemma ancestor_at_below fuel t id h : height_of t id < h -> ancestor_at fuel t id h = None.
Proof.
  unfold height_of. intros H. apply N.ltb_lt in H.
  destruct fuel; cbn [ancestor_at]; destruct (flookup (t_blocks t) id); try rewrite H; reflexivity.
Qed.

Lemma ancestor_at_self fuel t id b :
  flookup (t_blocks t) id = Some b -> ancestor_at fuel t id (height_of t id) = Some id.
Proof.
  intros H. rewrite (height_of_lookup t id b H).
  destruct fuel; cbn [ancestor_at]; rewrite H, N.ltb_irrefl, N.eqb_refl; reflexivity.
Qed.

Lemma descends_height fuel t x a : descends fuel t x a = true -> height_of t a <= height_of t x.
Proof.
  intros H. destruct (N.le_gt_cases (height_of t a) (height_of t x)) as [Hle|Hgt]; [exact Hle|].
  unfold descends in H. rewrite (ancestor_at_below fuel t x _ Hgt) in H. discriminate.
Qed.

(* only the last step, the recursion on the fork block, looks at [rec] *)
Lemma outdated_eq rec fuel t fin cand :
  outdated rec fuel t fin cand =
  if descends fuel t cand fin then false
  else if height_of t cand <? height_of t fin then true
  else if (height_of t cand =? height_of t fin) && negb (fin =? cand) then true
  else if descends fuel t fin cand then false
  else match fork_block fuel t fin cand with
       | None => true
       | Some fk => match rec with O => true | S r => outdated r fuel t fin fk end
       end.
Proof. destruct rec; reflexivity. Qed.

Lemma outdated_descendant rec fuel t fin cand :
  descends fuel t cand fin = true -> outdated rec fuel t fin cand = false.
Proof. intros H. rewrite outdated_eq, H. reflexivity. Qed.

Lemma outdated_below rec fuel t fin cand :
  height_of t cand < height_of t fin -> outdated rec fuel t fin cand = true.
Proof.
  intros Hlt. rewrite outdated_eq. unfold descends at 1. rewrite (ancestor_at_below fuel t cand _ Hlt).
  apply N.ltb_lt in Hlt. rewrite Hlt. reflexivity.
Qed.

Lemma outdated_parallel rec fuel t fin cand b :
  flookup (t_blocks t) cand = Some b -> height_of t cand = height_of t fin -> cand <> fin ->
  outdated rec fuel t fin cand = true.
Proof.
  intros Hl Hh Hne. rewrite outdated_eq. unfold descends at 1.
  rewrite <- Hh, (ancestor_at_self fuel t cand b Hl), N.ltb_irrefl, N.eqb_refl. cbn [opt_eqb].
  apply N.eqb_neq in Hne. rewrite Hne. rewrite N.eqb_sym in Hne. rewrite Hne. reflexivity.
Qed.

Lemma common_prefix_skipn a : forall b, common_prefix a b ++ skipn (length (common_prefix a b)) a = a.
Proof.
  induction a as [|x ra IH]; intros [|y rb]; cbn [common_prefix]; try reflexivity.
  destruct (x =? y); [|reflexivity]. cbn [length skipn app]. now rewrite IH.
Qed.

Lemma common_prefix_incl_r a : forall b x, In x (common_prefix a b) -> In x b.
Proof.
  induction a as [|y ra IH]; intros [|z rb] x; cbn [common_prefix]; try (intros []).
  destruct (y =? z) eqn:E; [|intros []]. apply N.eqb_eq in E. subst z.
  intros [->|H]; [now left|right; exact (IH rb x H)].
Qed.

(* the second part: assertBlockCanBeUnapplied has passed every dropped block *)
Lemma setTip_ok fuel t to t' : setTip fuel t to = FOk t' ->
  t' = mkT (t_blocks t) (path_to fuel t to []) (t_tips t) (t_fpidx t) /\
  forall b, In b (t_chain t) -> is_final t b = true -> In b (common_prefix (t_chain t) (path_to fuel t to [])).
Proof.
  unfold setTip. destruct (flookup (t_blocks t) to); [|discriminate].
  pose proof (common_prefix_skipn (t_chain t) (path_to fuel t to [])) as Hs.
  destruct (existsb (is_final t) (skipn _ (t_chain t))) eqn:Ef; [discriminate|].
  destruct (common_prefix (t_chain t) (path_to fuel t to [])) as [|k0 kr]; [discriminate|].
  intros [= <-]. split; [reflexivity|]. intros b Hin Hf.
  rewrite <- Hs in Hin. apply in_app_or in Hin. destruct Hin as [Hin|Hin]; [exact Hin|].
  assert (existsb (is_final t) (skipn (length (k0 :: kr)) (t_chain t)) = true) by (apply existsb_exists; eauto).
  congruence.
Qed.

Lemma setTip_keeps_final fuel t to t' b :
  setTip fuel t to = FOk t' -> In b (t_chain t) -> is_final t b = true -> In b (t_chain t').
Proof.
  intros H Hin Hf. destruct (setTip_ok fuel t to t' H) as [-> Hk].
  exact (common_prefix_incl_r _ _ b (Hk b Hin Hf)).
Qed.

Lemma add_payloads_incl t ids : forall idx x, In x idx -> In x (add_payloads t ids idx).
Proof.
  unfold add_payloads. induction ids as [|i r IH]; intros idx x Hx; cbn [fold_left]; [exact Hx|].
  apply IH. apply in_or_app. now left.
Qed.

Lemma add_payloads_has t ids : forall idx id b p,
  In id ids -> flookup (t_blocks t) id = Some b -> In p (f_pl b) -> In (p, id) (add_payloads t ids idx).
Proof.
  unfold add_payloads. induction ids as [|i r IH]; intros idx id b p Hin Hl Hp; cbn [fold_left]; [destruct Hin|].
  destruct Hin as [->|Hin]; [|exact (IH _ id b p Hin Hl Hp)].
  apply (add_payloads_incl t r). apply in_or_app. right. rewrite Hl. exact (in_map (fun p => (p, id)) _ p Hp).
Qed.

(* TIP_IS_FINAL (2): when the active-chain block next to the fork point is final, comparePopScore answers
   "tip wins" before any payload of the candidate is touched *)
Lemma cmp_refuses_next_final fuel t cand fk nx :
  fork_block fuel t (tip_of t) cand = Some fk ->
  chain_at t (height_of t fk + 1) = Some nx -> is_final t nx = true ->
  cmp_shortcut fuel t cand = Some 1.
Proof.
  intros Hf Hc Hn. unfold cmp_shortcut. destruct (flookup (t_blocks t) cand); [|reflexivity].
  destruct (tip_of t =? cand); [reflexivity|].
  destruct (is_final t (tip_of t) && (height_of t cand <=? height_of t (tip_of t))); [reflexivity|].
  destruct (on_chain t cand); [reflexivity|]. rewrite Hf, Hc, Hn. reflexivity.
Qed.

(* chain invariant: heights along the active chain are consecutive and the finalized blocks form a prefix *)
Fixpoint consecutive (t : ftree) (l : list N) : Prop :=
  match l with
  | [] => True
  | x :: r => match r with [] => True | y :: _ => height_of t y = height_of t x + 1 end /\ consecutive t r
  end.
Fixpoint final_prefix (t : ftree) (l : list N) : Prop :=   (* once a block is not final no later one is *)
  match l with
  | [] => True
  | x :: r => (is_final t x = false -> forall y, In y r -> is_final t y = false) /\ final_prefix t r
  end.

Lemma consecutive_heights t l : consecutive t l ->
  forall x, In x l -> height_of t (hd 0 l) <= height_of t x.
Proof.
  induction l as [|a r IH]; intros Hc x Hin; [destruct Hin|].
  cbn [hd]. destruct Hin as [->|Hin]; [lia|].
  cbn [consecutive] in Hc. destruct Hc as [Hh Hr]. specialize (IH Hr x Hin).
  destruct r as [|y r']; [destruct Hin|]. cbn [hd] in IH. lia.
Qed.

Lemma final_below t l : consecutive t l -> final_prefix t l ->
  forall f x, In f l -> is_final t f = true -> In x l -> height_of t x <= height_of t f -> is_final t x = true.
Proof.
  induction l as [|a r IH]; intros Hc Hp f x Hf Hff Hx Hle; [destruct Hf|].
  cbn [consecutive final_prefix] in *. destruct Hc as [Hh Hcr], Hp as [Hpa Hpr].
  destruct Hx as [->|Hx].
  - destruct (is_final t x) eqn:E; [reflexivity|].
    destruct Hf as [->|Hf]; [congruence|]. rewrite (Hpa eq_refl f Hf) in Hff. discriminate.
  - destruct Hf as [->|Hf]; [|exact (IH Hcr Hpr f x Hf Hff Hx Hle)].
    (* f is the head, x is later: x is higher than f *)
    exfalso. pose proof (consecutive_heights t r Hcr x Hx) as H1.
    destruct r as [|y r']; [destruct Hx|]. cbn [hd] in H1. lia.
Qed.

Lemma cmp_refuses_below_final fuel t cand fk f nx :
  consecutive t (t_chain t) -> final_prefix t (t_chain t) ->
  In f (t_chain t) -> is_final t f = true ->
  fork_block fuel t (tip_of t) cand = Some fk ->
  height_of t fk < height_of t f ->
  chain_at t (height_of t fk + 1) = Some nx ->
  cmp_shortcut fuel t cand = Some 1.
Proof.
  intros Hc Hp Hf Hff Hfk Hlt Hnx.
  apply (cmp_refuses_next_final fuel t cand fk nx Hfk Hnx).
  destruct (chain_at_find t _ _ Hnx) as [Hin Hh].
  apply (final_below t (t_chain t) Hc Hp f nx Hf Hff Hin). lia.
Qed.
