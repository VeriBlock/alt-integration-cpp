(** C10 — reload equivalence: the invariant [wf] (ReloadEquiv) holds initially and is preserved by every operation
    that meets its caller guarantees [pre]: [step_wf], [run_wf].
    All operations but removeSubtree and insertBlockHeader are sequences of single-block updates that keep the
    block's parent, height and BLOCK_DELETED bit: [wfm_upd], [byok_upd_same]. *)
From Coq Require Import NArith List Bool Lia Permutation.
From VB Require Import Store.SaveLoadDefs Store.SaveLoadProofs Store.ReloadEquiv.
Import ListNotations.
Local Open Scope N_scope.

(* applyBlock / unapplyBlock break the endorsedBy clause between their two updates per endorsement *)
Record wfm (m : store) (t : N) : Prop := mkWfm {
  wm_nodup : NoDup (map fst m);
  wm_local : forall id b, lookup m id = Some b -> local_ok b;
  wm_parent : forall id b par, lookup m id = Some b -> p_parent (b_pers b) = Some par ->
     exists pb, lookup m par = Some pb /\ p_height (b_pers b) = p_height (b_pers pb) + 1 /\
       (deleted b = false -> deleted pb = false /\ (s_active (bstatus b) = true -> s_active (bstatus pb) = true));
  wm_ce : forall id b e, vis m id = Some b -> In e (p_ce (b_pers b)) ->
     exists eb, vis m (snd e) = Some eb /\ p_height (b_pers eb) < p_height (b_pers b);
  wm_tip : exists b, vis m t = Some b /\ s_active (bstatus b) = true }.

Definition byok (m : store) : Prop := forall id b, vis m id = Some b -> Permutation (b_by b) (inc m id).

Lemma wf_split m t : wf (mkState m t) <-> wfm m t /\ byok m.
Proof.
  split.
  - intros [H1 H2 H3 H4 H5 H6]. split; [constructor; assumption|exact H5].
  - intros [[H1 H2 H3 H4 H6] H5]. constructor; assumption.
Qed.

Lemma vis_upd m k f b id :
  lookup m k = Some b -> deleted (f b) = deleted b ->
  vis (upd m k f) id = option_map (fun b => if k =? id then f b else b) (vis m id).
Proof.
  intros L H. unfold vis, visb. rewrite lookup_upd. destruct (lookup m id) as [b0|] eqn:L0; [|reflexivity].
  cbn [option_map]. destruct (N.eqb_spec k id) as [->|_]; [|destruct (deleted b0); reflexivity].
  rewrite L in L0. injection L0 as <-. rewrite H. destruct (deleted b); reflexivity.
Qed.

Definition act_step (m : store) (t k : N) (b b' : block) : Prop :=
  s_active (bstatus b') = s_active (bstatus b) \/
  (s_active (bstatus b') = true /\
   forall par pb, p_parent (b_pers b) = Some par -> lookup m par = Some pb -> s_active (bstatus pb) = true) \/
  (s_active (bstatus b') = false /\ k <> t /\
   forall c bc, vis m c = Some bc -> p_parent (b_pers bc) = Some k -> s_active (bstatus bc) = false).

Lemma wfm_upd m t k f b :
  wfm m t -> lookup m k = Some b ->
  p_parent (b_pers (f b)) = p_parent (b_pers b) ->
  p_height (b_pers (f b)) = p_height (b_pers b) ->
  deleted (f b) = deleted b ->
  local_ok (f b) ->
  act_step m t k b (f b) ->
  (forall e, In e (p_ce (b_pers (f b))) ->
     In e (p_ce (b_pers b)) \/ exists eb, vis m (snd e) = Some eb /\ p_height (b_pers eb) < p_height (b_pers b)) ->
  wfm (upd m k f) t.
Proof.
  intros [W1 W2 W3 W4 W5] L Hp Hh Hd Hl Hact Hce.
  pose proof (fun id => lookup_upd_set m k f b id L) as HL.
  pose proof (fun id => vis_upd m k f b id L Hd) as HV.
  assert (Hk : forall b0, vis m k = Some b0 -> b0 = b) by (intros b0 V; apply vis_lookup in V; congruence).
  assert (Hkeep : forall j bj, vis m j = Some bj ->
            exists bj', vis (upd m k f) j = Some bj' /\ p_height (b_pers bj') = p_height (b_pers bj)).
  { intros j bj V. rewrite HV, V. cbn [option_map]. destruct (N.eqb_spec k j) as [<-|_]; [|eauto].
    rewrite (Hk bj V). eauto. }
  constructor.
  - rewrite keys_upd. exact W1.
  - intros id b0. rewrite HL. destruct (k =? id); [|apply W2]. intros H. injection H as <-. exact Hl.
  - intros id b0 par. rewrite HL. destruct (N.eqb_spec k id) as [<-|Hne].
    + intros H. injection H as <-. rewrite Hp, Hh, Hd. intros Hpar.
      destruct (W3 k b par L Hpar) as (pb & Lp & Hhp & Hrest).
      assert (Hkp : k <> par) by (intros ->; rewrite L in Lp; injection Lp as <-; lia).
      exists pb. rewrite HL. apply N.eqb_neq in Hkp. rewrite Hkp. split; [exact Lp|]. split; [exact Hhp|].
      intros Hdel. destruct (Hrest Hdel) as [Hdp Hpa]. split; [exact Hdp|]. intros Ha.
      destruct Hact as [E|[[_ Hup]|[E _]]]; [rewrite E in Ha; exact (Hpa Ha)|exact (Hup par pb Hpar Lp)|congruence].
    + intros L0 Hpar. destruct (W3 id b0 par L0 Hpar) as (pb & Lp & Hhp & Hrest).
      rewrite HL. destruct (N.eqb_spec k par) as [<-|_]; [|eauto].
      rewrite L in Lp. injection Lp as <-. exists (f b). rewrite Hh, Hd. split; [reflexivity|]. split; [exact Hhp|].
      intros Hdel. destruct (Hrest Hdel) as [Hdp Hpa]. split; [exact Hdp|]. intros Ha.
      destruct Hact as [E|[[E _]|[_ [_ Hdown]]]]; [rewrite E; exact (Hpa Ha)|exact E|].
      rewrite (Hdown id b0 (lookup_vis m id b0 L0 Hdel) Hpar) in Ha. discriminate.
  - intros id b0 e. rewrite HV. destruct (vis m id) as [b1|] eqn:V1; [|discriminate]. cbn [option_map].
    intros E He. injection E as <-.
    assert (Hold : exists eb, vis m (snd e) = Some eb /\
                     p_height (b_pers eb) < p_height (b_pers (if k =? id then f b1 else b1))).
    { destruct (N.eqb_spec k id) as [<-|_]; [|exact (W4 id b1 e V1 He)].
      pose proof (Hk b1 V1); subst b1. rewrite Hh. destruct (Hce e He) as [Hin|Hex]; [exact (W4 k b e V1 Hin)|exact Hex]. }
    destruct Hold as (eb & Ve & Hlt). destruct (Hkeep _ _ Ve) as (eb' & Ve' & Hh').
    exists eb'. rewrite Hh'. auto.
  - destruct W5 as (bt & Vt & At). rewrite HV, Vt. cbn [option_map]. eexists. split; [reflexivity|].
    destruct (N.eqb_spec k t) as [<-|_]; [|exact At]. pose proof (Hk bt Vt); subst bt.
    destruct Hact as [E|[[E _]|[_ [Hne _]]]]; congruence.
Qed.

Lemma byok_upd_same m k f b :
  lookup m k = Some b -> b_by (f b) = b_by b -> p_ce (b_pers (f b)) = p_ce (b_pers b) -> deleted (f b) = deleted b ->
  byok m -> byok (upd m k f).
Proof.
  intros L Hb Hc Hd B id b0. rewrite (vis_upd m k f b id L Hd).
  rewrite inc_upd_same by (intros x Lx; rewrite L in Lx; injection Lx as <-; unfold contrib; rewrite Hc, Hd; reflexivity).
  destruct (vis m id) as [b1|] eqn:V; [|discriminate]. cbn [option_map]. intros E. injection E as <-.
  destruct (N.eqb_spec k id) as [<-|_]; [|exact (B id b1 V)].
  pose proof (B k b1 V) as P. apply vis_lookup in V. rewrite L in V. injection V as <-. rewrite Hb. exact P.
Qed.

(* kept by every update other than the endorsement updates of applyBlock / unapplyBlock *)
Definition same_struct (b b' : block) : Prop :=
  p_parent (b_pers b') = p_parent (b_pers b) /\ p_height (b_pers b') = p_height (b_pers b) /\
  p_ce (b_pers b') = p_ce (b_pers b) /\ b_by b' = b_by b /\ b_final b' = b_final b.

Lemma wf_upd1 m t k f b :
  wf (mkState m t) -> lookup m k = Some b -> same_struct b (f b) -> deleted (f b) = deleted b -> local_ok (f b) ->
  act_step m t k b (f b) -> wf (mkState (upd m k f) t).
Proof.
  intros W L (Sp & Sh & Sc & Sb & _) Hd Hl Hact. apply wf_split in W. destruct W as [W B]. apply wf_split. split.
  - apply (wfm_upd m t k f b W L Sp Sh Hd Hl Hact). intros e He. left. rewrite <- Sc. exact He.
  - exact (byok_upd_same m k f b L Sb Sc Hd B).
Qed.

(* [b'] differs from [b] only in what the tree-shape clauses of [wf] ignore: dirty bit, payload ids, refcount,
   failure and HAS_PAYLOADS flags, the validity level within [level_ok] *)
Definition nrel (b b' : block) : Prop :=
  same_struct b b' /\ deleted b' = deleted b /\ s_active (bstatus b') = s_active (bstatus b) /\
  (local_ok b -> local_ok b').

Lemma nrel_refl b : nrel b b.
Proof. split; [repeat split|]. auto. Qed.

Lemma nrel_trans b1 b2 b3 : nrel b1 b2 -> nrel b2 b3 -> nrel b1 b3.
Proof.
  intros ((A1 & A2 & A3 & A4 & A5) & A6 & A7 & A8) ((B1 & B2 & B3 & B4 & B5) & B6 & B7 & B8).
  unfold nrel, same_struct. rewrite B1, B2, B3, B4, B5, B6, B7. split; [repeat split; assumption|auto].
Qed.

Lemma wf_upd m t k f :
  wf (mkState m t) -> (forall b, lookup m k = Some b -> nrel b (f b)) -> wf (mkState (upd m k f) t).
Proof.
  intros W H. destruct (lookup m k) as [b|] eqn:L; [|rewrite upd_fix by congruence; exact W].
  destruct (H b eq_refl) as (S & Nd & Na & Nl).
  apply (wf_upd1 m t k f b W L S Nd); [exact (Nl (wf_local _ W k b L))|left; exact Na].
Qed.

Lemma wf_upd_many m t ks f :
  wf (mkState m t) -> (forall b, nrel b (f b)) -> wf (mkState (upd_many m ks f) t).
Proof.
  intros W H. unfold upd_many. revert m W. induction ks as [|k r IH]; intros m W; cbn [fold_left]; [exact W|].
  apply IH. apply wf_upd; [exact W|]. intros b _. apply H.
Qed.

Lemma visible_lookup m id : visible m id -> exists b, lookup m id = Some b /\ deleted b = false.
Proof. intros H. apply visible_iff in H. destruct H as [b V]. exists b. apply vis_Some. exact V. Qed.

Lemma wf_upd_vis m t k f :
  wf (mkState m t) -> visible m k -> (forall b, deleted b = false -> nrel b (f b)) -> wf (mkState (upd m k f) t).
Proof.
  intros W V H. apply wf_upd; [exact W|]. intros b L. apply H.
  destruct (visible_lookup m k V) as (b0 & L0 & D). congruence.
Qed.

Lemma local_ok_live b :
  deleted b = false -> final_ok b ->
  1 <= s_level (bstatus b) -> (s_active (bstatus b) = true -> 4 <= s_level (bstatus b)) -> ce_nodup b -> local_ok b.
Proof. intros D F L1 L4 C. split; [exact F|]. split; [intros Hd; congruence|]. split; [intros _; auto|exact C]. Qed.

Lemma nrel_status b s :
  deleted b = false -> s_deleted s = false -> s_active s = s_active (bstatus b) ->
  (level_ok b -> 1 <= s_level s /\ (s_active s = true -> 4 <= s_level s)) ->
  nrel b (setDirty (rawStatus s b)).
Proof.
  intros D Ds Da Hl. split; [repeat split|]. split; [rewrite D; exact Ds|]. split; [exact Da|].
  intros (F & _ & Lv & C). destruct (Hl Lv) as [L1 L4]. apply local_ok_live; assumption.
Qed.

Lemma nrel_setFlag fl v b :
  deleted b = false -> fl = FFailedBlock \/ fl = FFailedPop \/ fl = FHasPayloads ->
  nrel b (setStatus (put_flag fl v (bstatus b)) b).
Proof.
  intros D Hf. unfold setStatus. destruct (status_eqb _ _); [apply nrel_refl|].
  destruct Hf as [-> | [-> | ->]]; (apply nrel_status; [exact D|exact D|reflexivity|intros Lv; exact (Lv D)]).
Qed.

(* BLOCK_FAILED_CHILD is not looked at even in a removed index *)
Lemma nrel_fchild v b : nrel b (setStatus (put_flag FFailedChild v (bstatus b)) b).
Proof.
  unfold setStatus. destruct (status_eqb _ _); [apply nrel_refl|].
  split; [repeat split|]. repeat (split; [reflexivity|]). exact (fun H => H).
Qed.

Lemma nrel_raise n b : deleted b = false -> nrel b (raiseValidity n b).
Proof.
  intros D. unfold raiseValidity. destruct (s_fpop (bstatus b)); [apply nrel_refl|].
  destruct (N.ltb_spec (s_level (bstatus b)) n) as [E|_]; [|apply nrel_refl].
  apply nrel_status; [exact D|exact D|reflexivity|]. intros Lv. destruct (Lv D) as [H1 H4].
  cbn [put_level s_level s_active]. split; [lia|]. intros A. specialize (H4 A). lia.
Qed.

Lemma nrel_lower1 b : deleted b = false -> s_active (bstatus b) = false -> nrel b (lowerValidity 1 b).
Proof.
  intros D A. unfold lowerValidity. destruct (s_fpop (bstatus b)); [apply nrel_refl|].
  destruct (1 <? s_level (bstatus b)); [|apply nrel_refl].
  apply nrel_status; [exact D|exact D|reflexivity|]. intros _. cbn [put_level s_level s_active].
  split; [lia|congruence].
Qed.

Lemma nrel_live b b' : deleted b = false -> same_struct b b' -> bstatus b' = bstatus b -> nrel b b'.
Proof.
  intros D S Hs. split; [exact S|]. unfold deleted. rewrite Hs. repeat (split; [reflexivity|]).
  destruct S as (Sp & _ & Sc & _ & Sf). intros (F & _ & Lv & C). destruct (Lv D) as [L1 L4].
  apply local_ok_live; unfold deleted, final_ok, ce_nodup; rewrite ?Hs, ?Sp, ?Sf, ?Sc; assumption.
Qed.

Lemma nrel_unsetDirty b : nrel b (unsetDirty b).
Proof. split; [repeat split|]. repeat (split; [reflexivity|]). exact (fun H => H). Qed.

Lemma wf_init : wf init.
Proof.
  assert (R : forall id b, lookup (blocks init) id = Some b -> b = root_block).
  { intros id b. cbn [init blocks lookup]. destruct (0 =? id); [|discriminate]. intros H. injection H as <-. reflexivity. }
  assert (RV : forall id b, vis (blocks init) id = Some b -> b = root_block).
  { intros id b V. apply vis_Some in V. exact (R id b (proj1 V)). }
  constructor.
  - cbn. constructor; [intros []|constructor].
  - intros id b L. rewrite (R id b L). repeat split; try discriminate; cbn; try lia. constructor.
  - intros id b par L P. rewrite (R id b L) in P. discriminate.
  - intros id b e V I. rewrite (RV id b V) in I. destruct I.
  - intros id b V. rewrite (RV id b V). apply Permutation_refl.
  - exists root_block. split; reflexivity.
Qed.

Lemma upd_many_cons k v (m : store) f ks : ~ In k ks -> upd_many ((k, v) :: m) ks f = (k, v) :: upd_many m ks f.
Proof.
  unfold upd_many. revert m. induction ks as [|a ks IH]; intros m H; cbn [fold_left upd]; [reflexivity|].
  destruct (N.eqb_spec k a) as [->|_]; [elim H; now left|]. apply IH. intros Hin. apply H. now right.
Qed.

Lemma map_upd_many f (m : store) :
  NoDup (map fst m) -> map (fun kb => (fst kb, f (snd kb))) m = upd_many m (map fst m) f.
Proof.
  induction m as [|[k v] r IH]; intros H; [reflexivity|]. cbn [map fst snd] in *. inversion H as [|? ? Hn Hr]; subst.
  unfold upd_many at 1. cbn [fold_left upd]. rewrite N.eqb_refl. fold (upd_many ((k, f v) :: r) (map fst r) f).
  rewrite upd_many_cons by exact Hn. rewrite <- IH by exact Hr. reflexivity.
Qed.

Definition fresh_like (par h : N) (nb : block) : Prop :=
  p_parent (b_pers nb) = Some par /\ p_height (b_pers nb) = h /\ p_ce (b_pers nb) = [] /\ b_by nb = [] /\
  b_final nb = false /\ deleted nb = false /\ s_level (bstatus nb) = 1 /\ s_active (bstatus nb) = false.

Lemma fresh_local par h nb : fresh_like par h nb -> local_ok nb.
Proof.
  intros (Fp & Fh & Fc & Fb & Ff & Fd & Fl & Fa). unfold local_ok, final_ok, deleted_form, level_ok, ce_nodup.
  rewrite Fp, Fc, Ff, Fd, Fl, Fa. repeat split; try discriminate; try lia. constructor.
Qed.

Lemma new_fresh par h pf : fresh_like par h (raiseValidity 1 (restore (newBlock (Some par) h pf))).
Proof. unfold fresh_like. destruct pf; repeat split. Qed.

Lemma restore_fresh b par :
  deleted b = true -> deleted_form b -> final_ok b -> p_parent (b_pers b) = Some par ->
  fresh_like par (p_height (b_pers b)) (raiseValidity 1 (restore b)).
Proof.
  intros D DF F P. destruct b as [[par0 h [l a1 a2 a3 a4 a5 a6 a7] pl ce rf] d by_ fi].
  unfold final_ok, deleted_form, deleted, bstatus in *.
  cbn [b_pers b_by b_final p_parent p_height p_status p_pl p_ce p_ref
       s_level s_boot s_fblock s_fpop s_fchild s_haspl s_active s_deleted] in *.
  specialize (DF D). destruct DF as (-> & -> & -> & -> & -> & -> & -> & -> & ->). subst a7 par0.
  cbv beta iota in F. subst fi.
  unfold fresh_like. destruct a2, a4; repeat split.
Qed.

(* [m'] is given by its lookups: it covers both an appended index and a removed index of the same height brought back *)
Lemma wf_fresh m m' t id nb par p :
  wf (mkState m t) -> vis m id = None ->
  (forall k, lookup m' k = if id =? k then Some nb else lookup m k) ->
  NoDup (map fst m') -> (forall k, inc m' k = inc m k) ->
  (forall b0, lookup m id = Some b0 -> p_height (b_pers b0) = p_height (b_pers nb)) ->
  lookup m par = Some p -> deleted p = false -> fresh_like par (p_height (b_pers p) + 1) nb ->
  wf (mkState m' t).
Proof.
  intros [Wn Wl Wp Wc Wb Wt] Vn HL Hnd Hi Hh Lp Dp F. cbn [blocks tip] in *.
  pose proof F as (Fp & Fh & Fc & Fb & Ff & Fd & Fl & Fa).
  assert (HV : forall k, vis m' k = if id =? k then Some nb else vis m k).
  { intros k. unfold vis. rewrite HL. destruct (id =? k); [unfold visb; rewrite Fd|]; reflexivity. }
  assert (Hold : forall k b, vis m k = Some b -> vis m' k = Some b).
  { intros k b V. rewrite HV. destruct (N.eqb_spec id k) as [<-|_]; [congruence|exact V]. }
  assert (Hnv : forall b, lookup m id = Some b -> deleted b = true).
  { intros b L. unfold vis, visb in Vn. rewrite L in Vn. destruct (deleted b); [reflexivity|discriminate]. }
  constructor; cbn [blocks tip].
  - exact Hnd.
  - intros k b. rewrite HL. destruct (id =? k); [|apply Wl]. intros E. injection E as <-. exact (fresh_local _ _ _ F).
  - intros k b par0. rewrite HL. destruct (N.eqb_spec id k) as [<-|_].
    + intros E. injection E as <-. rewrite Fp. intros E. injection E as <-.
      exists p. rewrite HL. destruct (N.eqb_spec id par) as [<-|_]; [rewrite (Hnv p Lp) in Dp; discriminate|].
      split; [exact Lp|]. split; [exact Fh|]. intros _. split; [exact Dp|]. rewrite Fa. discriminate.
    + intros L P. destruct (Wp k b par0 L P) as (pb & Lpb & H1 & H2). rewrite HL.
      destruct (N.eqb_spec id par0) as [<-|_]; [|eauto].
      exists nb. split; [reflexivity|]. split; [rewrite <- (Hh pb Lpb); exact H1|].
      intros D. destruct (H2 D) as [Dpb _]. rewrite (Hnv pb Lpb) in Dpb. discriminate.
  - intros k b e. rewrite HV. destruct (id =? k).
    + intros E. injection E as <-. rewrite Fc. intros [].
    + intros V I. destruct (Wc k b e V I) as (eb & Ve & Hlt). exists eb. split; [exact (Hold _ _ Ve)|exact Hlt].
  - intros k b. rewrite Hi, HV. destruct (N.eqb_spec id k) as [<-|_]; [|apply Wb].
    intros E. injection E as <-. rewrite Fb, (inc_nil m id); [apply Permutation_refl| |exact Wn].
    intros i0 b0 e V0 I0 E. destruct (Wc i0 b0 e V0 I0) as (eb & Ve & _). congruence.
  - destruct Wt as (b & V & A). exists b. split; [exact (Hold _ _ V)|exact A].
Qed.

Lemma contrib_ce_nil k b : p_ce (b_pers b) = [] -> contrib k b = [].
Proof. intros H. unfold contrib. rewrite H. destruct (deleted b); reflexivity. Qed.

Lemma step_wf_OInsertHeader m t st s' st' id parent :
  wf (mkState m t) -> pre (mkState m t) (OInsertHeader id parent) ->
  step prims_fixed (OInsertHeader id parent) (mkState m t) st = Done s' st' -> wf s'.
Proof.
  intros W [Hv Hg] Hs. cbn [step blocks tip p_raise prims_fixed] in *.
  destruct (visible_lookup m parent Hv) as (p & Lp & Dp). rewrite Lp in Hs.
  destruct (lookup m id) as [b|] eqn:L.
  - destruct (s_deleted (bstatus b)) eqn:D; injection Hs as <- <-; [|exact W].
    destruct (Hg b eq_refl D) as (Hpar & _ & _).
    destruct (wf_local _ W id b L) as (F0 & DF & _ & _).
    pose proof (restore_fresh b parent D DF F0 Hpar) as F.
    destruct (wf_parent _ W id b parent L Hpar) as (p0 & Lp0 & Hh & _). cbn [blocks] in Lp0.
    rewrite Lp in Lp0. injection Lp0 as <-.
    eapply (wf_fresh m _ t id _ parent p W); [|intros k; apply lookup_upd_set; exact L| | | |exact Lp|exact Dp|].
    + unfold vis, visb. rewrite L. unfold deleted. rewrite D. reflexivity.
    + rewrite keys_upd. exact (wf_nodup _ W).
    + intros k. apply inc_upd_same. intros b0 L0. rewrite L in L0. injection L0 as <-.
      rewrite (contrib_ce_nil _ _ (proj1 (proj2 (proj2 F)))). unfold contrib, deleted. rewrite D. reflexivity.
    + intros b0 L0. rewrite L in L0. injection L0 as <-. symmetry. exact (proj1 (proj2 F)).
    + rewrite <- Hh. exact F.
  - injection Hs as <- <-.
    eapply (wf_fresh m _ t id _ parent p W); [|intros k; apply lookup_app_new; exact L| | | |exact Lp|exact Dp|].
    + unfold vis. rewrite L. reflexivity.
    + rewrite map_app. apply NoDup_snoc; [exact (wf_nodup _ W)|apply lookup_None_notin; exact L].
    + intros k. rewrite inc_app. unfold inc at 2. cbn [flat_map snd].
      rewrite contrib_ce_nil by (destruct (is_failed (bstatus p)); reflexivity). rewrite !app_nil_r. reflexivity.
    + intros b0 L0. congruence.
    + apply new_fresh.
Qed.

(* the endorsement updates of applyBlock / unapplyBlock touch containing endorsements and endorsedBy only; the rest
   that [wf] looks at: *)
Definition core (b : block) : option N * N * status * bool :=
  (p_parent (b_pers b), p_height (b_pers b), bstatus b, b_final b).

Lemma core_upd m k f j :
  (forall b, core (f b) = core b) -> option_map core (lookup (upd m k f) j) = option_map core (lookup m j).
Proof.
  intros H. rewrite lookup_upd. destruct (lookup m j) as [b|]; [|reflexivity]. cbn [option_map].
  destruct (k =? j); [rewrite H|]; reflexivity.
Qed.

Lemma core_vis m m' k b :
  (forall j, option_map core (lookup m' j) = option_map core (lookup m j)) -> vis m k = Some b ->
  exists b', vis m' k = Some b' /\ core b' = core b.
Proof.
  intros H V. apply vis_Some in V. destruct V as [L D]. specialize (H k). rewrite L in H.
  destruct (lookup m' k) as [b'|] eqn:L'; [|discriminate]. injection H as Hp Hh Hs Hf.
  exists b'. split; [|unfold core; congruence]. apply vis_Some. split; [exact L'|].
  unfold deleted. rewrite Hs. exact D.
Qed.

Lemma wfm_upd_core m t k f b :
  wfm m t -> vis m k = Some b -> core (f b) = core b -> ce_nodup (f b) ->
  (forall e, In e (p_ce (b_pers (f b))) ->
     In e (p_ce (b_pers b)) \/ exists eb, vis m (snd e) = Some eb /\ p_height (b_pers eb) < p_height (b_pers b)) ->
  wfm (upd m k f) t.
Proof.
  intros W V Hc Hn Hce. apply vis_Some in V. destruct V as [L D]. injection Hc as Hp Hh Hs Hf.
  destruct (wm_local _ _ W k b L) as (F1 & _ & F3 & _). destruct (F3 D) as [L1 L4].
  apply (wfm_upd m t k f b W L Hp Hh); [unfold deleted; rewrite Hs; reflexivity| |left; rewrite Hs; reflexivity|exact Hce].
  apply local_ok_live; unfold deleted, final_ok; rewrite ?Hs, ?Hp, ?Hf; assumption.
Qed.

Lemma core_deleted b b' : core b' = core b -> deleted b' = deleted b.
Proof. intros H. injection H as _ _ Hs _. unfold deleted. rewrite Hs. reflexivity. Qed.

(* one endorsement [e] of block [id] is added (applyBlock) or taken away (unapplyBlock): [f] changes the containing
   endorsements of [id], [g] the endorsedBy list of the endorsed block; last premise: the two changes cancel in [inc] *)
Lemma endorse_step m t id b e eb f g :
  wf (mkState m t) -> vis m id = Some b -> vis m (snd e) = Some eb -> p_height (b_pers eb) < p_height (b_pers b) ->
  core (f b) = core b -> b_by (f b) = b_by b -> ce_nodup (f b) ->
  (forall e0, In e0 (p_ce (b_pers (f b))) -> e0 = e \/ In e0 (p_ce (b_pers b))) ->
  core (g eb) = core eb -> p_ce (b_pers (g eb)) = p_ce (b_pers eb) ->
  (forall j, Permutation (contrib j b ++ if snd e =? j then b_by (g eb) else [])
                         (contrib j (f b) ++ if snd e =? j then b_by eb else [])) ->
  wf (mkState (upd (upd m id f) (snd e) g) t) /\ vis (upd (upd m id f) (snd e) g) id = Some (f b).
Proof.
  intros W V Ve Hlt Cf Bf Nf If Cg Pg HP. apply wf_split in W. destruct W as [W B].
  pose proof (vis_lookup _ _ _ V) as L.
  assert (Hne : id =? snd e = false) by (apply N.eqb_neq; intros E; rewrite <- E, V in Ve; injection Ve as <-; lia).
  pose proof (fun j => vis_upd m id f b j L (core_deleted _ _ Cf)) as V1.
  assert (Ve1 : vis (upd m id f) (snd e) = Some eb) by (rewrite V1, Ve, Hne; reflexivity).
  pose proof (vis_lookup _ _ _ Ve1) as Le1.
  pose proof (fun j => vis_upd _ (snd e) g eb j Le1 (core_deleted _ _ Cg)) as V2.
  assert (W1 : wfm (upd m id f) t).
  { apply (wfm_upd_core m t id f b W V Cf Nf). intros e0 H0. destruct (If e0 H0) as [->|H1]; [right; eauto|left; exact H1]. }
  split; [apply wf_split; split|].
  - apply (wfm_upd_core _ t (snd e) g eb W1 Ve1 Cg).
    + unfold ce_nodup. rewrite Pg. exact (proj2 (proj2 (proj2 (wm_local _ _ W _ eb (vis_lookup _ _ _ Ve))))).
    + rewrite Pg. auto.
  - intros j bj. rewrite V2, V1.
    rewrite (inc_upd_same _ (snd e))
      by (intros x Lx; rewrite Le1 in Lx; injection Lx as <-; unfold contrib; rewrite Pg, (core_deleted _ _ Cg); reflexivity).
    destruct (vis m j) as [b0|] eqn:Vj; [|discriminate]. cbn [option_map]. intros E. injection E as <-.
    pose proof (inc_upd_perm m id f b j _ _ L (HP j)) as HI. pose proof (B j b0 Vj) as P0.
    destruct (N.eqb_spec (snd e) j) as [<-|_].
    + (* the endorsed block *)
      rewrite Ve in Vj. injection Vj as <-. rewrite Hne. apply (Permutation_app_inv_l (b_by eb)).
      apply (Permutation_trans (Permutation_app_tail _ P0)), (Permutation_trans HI), Permutation_app_comm.
    + rewrite !app_nil_r in HI. apply (Permutation_trans (l' := b_by b0)); [|exact (Permutation_trans P0 HI)].
      destruct (N.eqb_spec id j) as [<-|_]; [|apply Permutation_refl].
      rewrite V in Vj. injection Vj as <-. rewrite Bf. apply Permutation_refl.
  - rewrite V2, V1, V. cbn [option_map]. rewrite N.eqb_refl, N.eqb_sym, Hne. reflexivity.
Qed.

Lemma apply_step m t id b e :
  wf (mkState m t) -> vis m id = Some b -> ~ In (fst e) (map fst (p_ce (b_pers b))) ->
  (exists eb, vis m (snd e) = Some eb /\ p_height (b_pers eb) < p_height (b_pers b)) ->
  wf (mkState (upd (upd m id (insertCE e)) (snd e) (insertBy (fst e))) t) /\
  vis (upd (upd m id (insertCE e)) (snd e) (insertBy (fst e))) id = Some (insertCE e b).
Proof.
  intros W V Hni (eb & Ve & Hlt). destruct (proj1 (vis_Some _ _ _) V) as [L D].
  apply (endorse_step m t id b e eb _ _ W V Ve Hlt); try reflexivity.
  - unfold ce_nodup. change (p_ce (b_pers (insertCE e b))) with (p_ce (b_pers b) ++ [e]). rewrite map_app.
    apply NoDup_snoc; [exact (proj2 (proj2 (proj2 (wf_local _ W id b L))))|exact Hni].
  - change (p_ce (b_pers (insertCE e b))) with (p_ce (b_pers b) ++ [e]). intros e0 H0. apply in_app_or in H0. destruct H0 as [H0|[<-|[]]]; auto.
  - intros j. unfold contrib. change (deleted (insertCE e b)) with (deleted b). rewrite D.
    change (p_ce (b_pers (insertCE e b))) with (p_ce (b_pers b) ++ [e]). rewrite filter_app, map_app. cbn [filter].
    destruct (snd e =? j); cbn [map]; rewrite ?app_nil_r; [|apply Permutation_refl].
    rewrite <- app_assoc. apply Permutation_app_head, Permutation_app_comm.
Qed.

Lemma wf_apply_fold t id es : forall m b,
  wf (mkState m t) -> vis m id = Some b -> NoDup (map fst (p_ce (b_pers b) ++ es)) ->
  (forall e, In e es -> exists eb, vis m (snd e) = Some eb /\ p_height (b_pers eb) < p_height (b_pers b)) ->
  wf (mkState (apply_endorsements m id es) t).
Proof.
  induction es as [|e es IH]; intros m b W V Hnd Hes; [exact W|].
  change (apply_endorsements m id (e :: es))
    with (apply_endorsements (upd (upd m id (insertCE e)) (snd e) (insertBy (fst e))) id es).
  rewrite map_app in Hnd. cbn [map] in Hnd.
  destruct (apply_step m t id b e W V) as (W2 & V2).
  { apply NoDup_remove_2 in Hnd. intros Hin. apply Hnd. apply in_or_app. left. exact Hin. }
  { apply Hes. now left. }
  apply (IH _ (insertCE e b) W2 V2).
  - change (p_ce (b_pers (insertCE e b))) with (p_ce (b_pers b) ++ [e]). rewrite map_app, map_app, <- app_assoc. exact Hnd.
  - intros e0 Hin. destruct (Hes e0 (or_intror Hin)) as (eb & Ve & Hlt).
    assert (Hc : forall j, option_map core (lookup (upd (upd m id (insertCE e)) (snd e) (insertBy (fst e))) j) =
                           option_map core (lookup m j)) by (intros j; rewrite !core_upd by reflexivity; reflexivity).
    destruct (core_vis m _ _ eb Hc Ve) as (eb' & Ve' & Hc'). injection Hc' as _ Hh _ _. exists eb'. rewrite Hh. auto.
Qed.

Lemma core_apply es : forall m id j,
  option_map core (lookup (apply_endorsements m id es) j) = option_map core (lookup m j).
Proof.
  unfold apply_endorsements. induction es as [|e es IH]; intros m id j; cbn [fold_left]; [reflexivity|].
  rewrite IH, !core_upd by reflexivity. reflexivity.
Qed.

Lemma status_eqb_eq a b : status_eqb a b = true -> a = b.
Proof.
  destruct a as [l a1 a2 a3 a4 a5 a6 a7], b as [l' b1 b2 b3 b4 b5 b6 b7].
  unfold status_eqb. cbn [s_level s_boot s_fblock s_fpop s_fchild s_haspl s_active s_deleted]. intros H.
  apply andb_prop in H as [H H7]. apply andb_prop in H as [H H6]. apply andb_prop in H as [H H5].
  apply andb_prop in H as [H H4]. apply andb_prop in H as [H H3]. apply andb_prop in H as [H H2].
  apply andb_prop in H as [H0 H1].
  apply N.eqb_eq in H0. apply Bool.eqb_prop in H1, H2, H3, H4, H5, H6, H7. subst. reflexivity.
Qed.

Lemma ss_setStatus s b : same_struct b (setStatus s b) /\ bstatus (setStatus s b) = s.
Proof.
  unfold setStatus. destruct (status_eqb s (bstatus b)) eqn:E.
  - apply status_eqb_eq in E. split; [repeat split|symmetry; exact E].
  - split; [repeat split|reflexivity].
Qed.

Lemma activate_spec lvl b :
  s_fpop (bstatus b) = false ->
  same_struct b (setFlag FActive (raiseValidity lvl b)) /\
  s_active (bstatus (setFlag FActive (raiseValidity lvl b))) = true /\
  deleted (setFlag FActive (raiseValidity lvl b)) = deleted b /\
  lvl <= s_level (bstatus (setFlag FActive (raiseValidity lvl b))).
Proof.
  intros Hf. unfold setFlag, deleted.
  destruct (ss_setStatus (put_flag FActive true (bstatus (raiseValidity lvl b))) (raiseValidity lvl b)) as [S ->].
  unfold raiseValidity in *. rewrite Hf in *.
  destruct (N.ltb_spec (s_level (bstatus b)) lvl); (split; [exact S|]); repeat split; cbn; lia.
Qed.

Lemma step_wf_OApply m t st s' st' id lvl es :
  wf (mkState m t) -> pre (mkState m t) (OApply id lvl es) ->
  step prims_fixed (OApply id lvl es) (mkState m t) st = Done s' st' -> wf s'.
Proof.
  intros W (b & V & Hfp & Hlvl & Hpar & Hnd & Hes) Hstep. cbn [blocks tip] in *.
  cbn [step prims_fixed p_raise blocks tip] in Hstep. injection Hstep as <- _.
  pose proof (wf_apply_fold t id es m b W V Hnd Hes) as W1. pose proof (core_apply es m id) as HC.
  destruct (core_vis m _ id b HC V) as (b1 & V1 & Hc1). injection Hc1 as Hp1 _ Hs1 _.
  destruct (proj1 (vis_Some _ _ _) V1) as [L1 D1].
  destruct (activate_spec lvl b1) as (S & Aa & Ad & Al); [rewrite Hs1; exact Hfp|].
  destruct (wf_local _ W1 id b1 L1) as (F1 & _ & _ & F4). destruct S as (A1 & A2 & A3 & A4 & A5).
  apply (wf_upd1 _ t id _ b1 W1 L1); [repeat split; assumption|exact Ad| |].
  - apply local_ok_live; [rewrite Ad; exact D1| |lia|lia|].
    + unfold final_ok. rewrite A5, A1. exact F1.
    + unfold ce_nodup. rewrite A3. exact F4.
  - right. left. split; [exact Aa|]. intros par pb Hp Lp. rewrite Hp1 in Hp.
    destruct (Hpar par Hp) as (pb0 & Vp0 & Ap0). destruct (core_vis m _ par pb0 HC Vp0) as (pb1 & Vp1 & Hcp).
    apply vis_Some in Vp1. destruct Vp1 as [Lp1 _]. cbn [blocks] in Lp. rewrite Lp in Lp1. injection Lp1 as <-.
    injection Hcp as _ _ Hsp _. rewrite Hsp. exact Ap0.
Qed.

Lemma in_remove_first (x : endorsement) y c : In x c -> fst x <> y -> In x (remove_first_e y c).
Proof.
  induction c as [|a r IH]; intros Hin Hne; [destruct Hin|].
  cbn [remove_first_e]. destruct (N.eqb_spec (fst a) y) as [E|_].
  - destruct Hin as [->|Hin]; [contradiction|exact Hin].
  - destruct Hin as [->|Hin]; [left; reflexivity|right; exact (IH Hin Hne)].
Qed.

Lemma remove_first_incl y c (x : endorsement) : In x (remove_first_e y c) -> In x c.
Proof.
  induction c as [|a r IH]; cbn [remove_first_e]; [intros []|].
  destruct (fst a =? y); [intros H; right; exact H|].
  intros [->|H]; [left; reflexivity|right; exact (IH H)].
Qed.

Lemma nodup_remove_first y c : NoDup (map fst c) -> NoDup (map fst (remove_first_e y c)).
Proof.
  induction c as [|a r IH]; cbn [remove_first_e map]; intros H; [exact H|].
  inversion H as [|? ? Hn Hr]; subst. destruct (fst a =? y); [exact Hr|].
  cbn [map]. constructor; [|exact (IH Hr)].
  intros Hin. apply Hn. apply in_map_iff in Hin. destruct Hin as (x & Hx & Hin).
  apply in_map_iff. exists x. split; [exact Hx|exact (remove_first_incl _ _ _ Hin)].
Qed.

Lemma filter_remove_first (c : list endorsement) e j :
  NoDup (map fst c) -> In e c ->
  Permutation (map fst (filter (fun e0 => snd e0 =? j) c))
              (map fst (filter (fun e0 => snd e0 =? j) (remove_first_e (fst e) c)) ++
               (if snd e =? j then [fst e] else [])).
Proof.
  induction c as [|x r IH]; intros Hnd Hin; [destruct Hin|].
  cbn [map] in Hnd. inversion Hnd as [|? ? Hn Hr]; subst.
  cbn [remove_first_e]. destruct Hin as [->|Hin].
  - rewrite N.eqb_refl. cbn [filter]. destruct (snd e =? j); cbn [map].
    + apply Permutation_cons_append.
    + rewrite app_nil_r. apply Permutation_refl.
  - assert (Hne : fst x =? fst e = false).
    { apply N.eqb_neq. intros Heq. apply Hn. rewrite Heq. apply in_map. exact Hin. }
    rewrite Hne. cbn [filter]. destruct (snd x =? j); cbn [map app].
    + apply perm_skip. exact (IH Hr Hin).
    + exact (IH Hr Hin).
Qed.

Lemma eraseBy_pers x b : b_pers (eraseBy x b) = b_pers b.
Proof. unfold eraseBy. destruct (existsb (N.eqb x) (b_by b)); reflexivity. Qed.

Lemma eraseBy_core x b : core (eraseBy x b) = core b.
Proof. unfold core, bstatus, eraseBy. destruct (existsb (N.eqb x) (b_by b)); reflexivity. Qed.

Lemma in_inc m id b e : lookup m id = Some b -> deleted b = false -> In e (p_ce (b_pers b)) -> In (fst e) (inc m (snd e)).
Proof.
  intros L D He. unfold inc. apply in_flat_map. exists (id, b). split; [exact (lookup_In _ _ _ L)|].
  cbn [snd]. unfold contrib. rewrite D. apply in_map. apply filter_In. split; [exact He|apply N.eqb_refl].
Qed.

Lemma unapply_step m t id b e :
  wf (mkState m t) -> vis m id = Some b -> In e (p_ce (b_pers b)) ->
  wf (mkState (upd (upd m (snd e) (eraseBy (fst e))) id (removeCE (fst e))) t) /\
  vis (upd (upd m (snd e) (eraseBy (fst e))) id (removeCE (fst e))) id = Some (removeCE (fst e) b).
Proof.
  intros W V He. destruct (proj1 (vis_Some _ _ _) V) as [L D].
  destruct (wf_ce _ W id b e V He) as (eb & Ve & Hlt). cbn [blocks] in Ve.
  pose proof (proj2 (proj2 (proj2 (wf_local _ W id b L)))) as Hnd.
  assert (Hin : In (fst e) (b_by eb)).
  { apply (Permutation_in _ (Permutation_sym (wf_by _ W _ eb Ve))). exact (in_inc m id b e L D He). }
  rewrite upd_comm by (intros E; rewrite E, V in Ve; injection Ve as <-; lia).
  apply (endorse_step m t id b e eb _ _ W V Ve Hlt); try reflexivity.
  - exact (nodup_remove_first _ _ Hnd).
  - intros e0 H0. right. exact (remove_first_incl _ _ _ H0).
  - apply eraseBy_core.
  - rewrite eraseBy_pers. reflexivity.
  - intros j. unfold contrib. change (deleted (removeCE (fst e) b)) with (deleted b). rewrite D.
    pose proof (filter_remove_first _ e j Hnd He) as HF.
    destruct (snd e =? j); [|rewrite app_nil_r in HF; rewrite !app_nil_r; exact HF].
    (* one occurrence of the endorsement id goes from endorsedBy *)
    unfold eraseBy. rewrite (proj2 (existsb_In _ _) Hin). cbn [setDirty b_by].
    apply (Permutation_trans (Permutation_app_tail _ HF)). rewrite <- app_assoc. apply Permutation_app_head.
    apply Permutation_sym, remove_last_perm, Hin.
Qed.

Lemma wf_unapply_fold t id l : forall m b,
  wf (mkState m t) -> vis m id = Some b -> NoDup (map fst l) -> incl l (p_ce (b_pers b)) ->
  wf (mkState (fold_left (fun m e => upd (upd m (snd e) (eraseBy (fst e))) id (removeCE (fst e))) l m) t).
Proof.
  induction l as [|e l IH]; intros m b W V Hnd Hincl; [exact W|].
  cbn [fold_left]. cbn [map] in Hnd. inversion Hnd as [|? ? Hn Hr]; subst.
  destruct (unapply_step m t id b e W V (Hincl e (or_introl eq_refl))) as (W2 & V2).
  apply (IH _ (removeCE (fst e) b) W2 V2 Hr).
  intros e0 Hin. change (p_ce (b_pers (removeCE (fst e) b))) with (remove_first_e (fst e) (p_ce (b_pers b))).
  apply in_remove_first; [exact (Hincl e0 (or_intror Hin))|].
  intros Heq. apply Hn. rewrite <- Heq. apply in_map. exact Hin.
Qed.

Lemma core_unapply m id j :
  option_map core (lookup (unapply_endorsements m id) j) = option_map core (lookup m j).
Proof.
  unfold unapply_endorsements. destruct (lookup m id) as [b|]; [|reflexivity].
  generalize (rev (p_ce (b_pers b))). intros l. revert m.
  induction l as [|e l IH]; intros m; cbn [fold_left]; [reflexivity|].
  rewrite IH, core_upd, core_upd; [reflexivity|apply eraseBy_core|reflexivity].
Qed.

Lemma step_wf_OUnapply m t st s' st' id :
  wf (mkState m t) -> pre (mkState m t) (OUnapply id) ->
  step prims_fixed (OUnapply id) (mkState m t) st = Done s' st' -> wf s'.
Proof.
  intros W (Hv & Htip & Hch) Hstep. cbn [blocks tip] in *.
  cbn [step blocks tip] in Hstep. injection Hstep as <- _.
  apply visible_iff in Hv. destruct Hv as (b & V). destruct (proj1 (vis_Some _ _ _) V) as [L D].
  assert (W1 : wf (mkState (unapply_endorsements m id) t)).
  { unfold unapply_endorsements. rewrite L. apply (wf_unapply_fold t id _ m b W V).
    - rewrite map_rev. apply NoDup_rev. exact (proj2 (proj2 (proj2 (wf_local _ W id b L)))).
    - intros e He. apply in_rev. exact He. }
  pose proof (core_unapply m id) as HC.
  destruct (core_vis m _ id b HC V) as (b1 & V1 & _). destruct (proj1 (vis_Some _ _ _) V1) as [L1 D1].
  destruct (ss_setStatus (put_flag FActive false (bstatus b1)) b1) as (S & As). fold (unsetFlag FActive b1) in *.
  assert (Ad : deleted (unsetFlag FActive b1) = deleted b1) by (unfold deleted; rewrite As; reflexivity).
  assert (Aa : s_active (bstatus (unsetFlag FActive b1)) = false) by (rewrite As; reflexivity).
  destruct (wf_local _ W1 id b1 L1) as (F1 & _ & F3 & F4).
  apply (wf_upd1 _ t id _ b1 W1 L1 S Ad); destruct S as (A1 & A2 & A3 & A4 & A5).
  - apply local_ok_live; [rewrite Ad; exact D1| | |congruence|].
    + unfold final_ok. rewrite A5, A1. exact F1.
    + rewrite As. exact (proj1 (F3 D1)).
    + unfold ce_nodup. rewrite A3. exact F4.
  - right. right. split; [exact Aa|]. split; [exact Htip|]. intros c bc Vc Hpc.
    destruct (core_vis _ m c bc (fun j => eq_sym (HC j)) Vc) as (bc0 & Vc0 & Hc0). injection Hc0 as Hpc0 _ Hsc0 _.
    rewrite <- Hsc0. apply (Hch c bc0 Vc0). rewrite Hpc0. exact Hpc.
Qed.

Lemma keys_upd_many ids : forall m f, map fst (upd_many m ids f) = map fst m.
Proof.
  induction ids as [|a ids IH]; intros m f; [reflexivity|].
  change (upd_many m (a :: ids) f) with (upd_many (upd m a f) ids f). rewrite IH. apply keys_upd.
Qed.

Lemma lookup_remove ids : forall m k,
  lookup (upd_many m ids deleteTemporarily) k =
  option_map (fun b => if existsb (N.eqb k) ids then deleteTemporarily b else b) (lookup m k).
Proof.
  induction ids as [|a ids IH]; intros m k.
  - cbn [upd_many fold_left existsb]. destruct (lookup m k); reflexivity.
  - change (upd_many m (a :: ids) deleteTemporarily) with (upd_many (upd m a deleteTemporarily) ids deleteTemporarily).
    rewrite IH, lookup_upd. destruct (lookup m k) as [b|]; cbn [option_map existsb]; [|reflexivity].
    rewrite (N.eqb_sym k a). destruct (a =? k); cbn [orb]; [|reflexivity].
    destruct (existsb (N.eqb k) ids); reflexivity.    (* deleteTemporarily is idempotent *)
Qed.

Lemma vis_remove m ids k :
  vis (upd_many m ids deleteTemporarily) k = if existsb (N.eqb k) ids then None else vis m k.
Proof.
  unfold vis. rewrite lookup_remove. destruct (lookup m k) as [b|]; cbn [option_map];
    destruct (existsb (N.eqb k) ids); reflexivity.
Qed.

Lemma inc_remove j ids : forall m,
  (forall id b, In id ids -> lookup m id = Some b -> contrib j b = []) ->
  inc (upd_many m ids deleteTemporarily) j = inc m j.
Proof.
  induction ids as [|a ids IH]; intros m H; [reflexivity|].
  change (upd_many m (a :: ids) deleteTemporarily) with (upd_many (upd m a deleteTemporarily) ids deleteTemporarily).
  rewrite IH.
  - apply inc_upd_same. intros b L. rewrite (H a b (or_introl eq_refl) L). reflexivity.
  - intros id b Hin. rewrite lookup_upd. destruct (lookup m id) as [b0|] eqn:L0; cbn [option_map]; [|discriminate].
    intros E. injection E as <-. destruct (a =? id); [reflexivity|].
    exact (H id b0 (or_intror Hin) L0).
Qed.

Lemma step_wf_ORemoveSubtree m t st s' st' ids :
  wf (mkState m t) -> pre (mkState m t) (ORemoveSubtree ids) ->
  step prims_fixed (ORemoveSubtree ids) (mkState m t) st = Done s' st' -> wf s'.
Proof.
  intros [W1 W2 W3 W4 W5 W6] [Hids Hvis] Hstep. cbn [blocks tip] in *.
  cbn [step blocks tip] in Hstep. injection Hstep as <- _.
  assert (Hin : forall k, existsb (N.eqb k) ids = false <-> ~ In k ids).
  { intros k. rewrite <- existsb_In. destruct (existsb (N.eqb k) ids); split; congruence. }
  assert (Hvr : forall k b, vis (upd_many m ids deleteTemporarily) k = Some b -> ~ In k ids /\ vis m k = Some b).
  { intros k b. rewrite vis_remove. destruct (existsb (N.eqb k) ids) eqn:E; [discriminate|]. apply Hin in E. auto. }
  assert (Hvk : forall k b, ~ In k ids -> vis m k = Some b -> vis (upd_many m ids deleteTemporarily) k = Some b).
  { intros k b Hn V. rewrite vis_remove. apply Hin in Hn. rewrite Hn. exact V. }
  constructor; cbn [blocks tip].
  - rewrite keys_upd_many. exact W1.
  - intros id b. rewrite lookup_remove. destruct (lookup m id) as [b0|] eqn:L0; cbn [option_map]; [|discriminate].
    intros E. injection E as <-. pose proof (W2 id b0 L0) as Hl.
    destruct (existsb (N.eqb id) ids); [|exact Hl].
    destruct Hl as (F1 & _). split; [exact F1|]. split; [intros _; repeat split|]. split; [discriminate|apply NoDup_nil].
  - intros id b par. rewrite lookup_remove. destruct (lookup m id) as [b0|] eqn:L0; cbn [option_map]; [|discriminate].
    intros E. injection E as <-. intros Hp.
    assert (Hp0 : p_parent (b_pers b0) = Some par) by (destruct (existsb (N.eqb id) ids); exact Hp).
    destruct (W3 id b0 par L0 Hp0) as (pb & Lp & Hh & Hrest).
    rewrite lookup_remove, Lp. cbn [option_map]. eexists. split; [reflexivity|]. split.
    + destruct (existsb (N.eqb id) ids); destruct (existsb (N.eqb par) ids); exact Hh.
    + destruct (existsb (N.eqb id) ids) eqn:Ei; [discriminate|].
      intros Hd. destruct (Hrest Hd) as [Hdp Hact].
      destruct (existsb (N.eqb par) ids) eqn:Ep; [|split; assumption].
      (* a removed parent: the tree block [id] is removed with it *)
      exfalso. apply existsb_In in Ep. apply Hin in Ei. apply Ei.
      exact (proj1 (Hvis id b0 (lookup_vis m id b0 L0 Hd)) par Hp0 Ep).
  - intros id b e V He. destruct (Hvr id b V) as [Hn V0].
    destruct (W4 id b e V0 He) as (eb & Ve & Hlt). exists eb. split; [|exact Hlt].
    apply Hvk; [|exact Ve]. exact (proj2 (Hvis id b V0) e He).
  - intros id b V. destruct (Hvr id b V) as [Hn V0]. rewrite inc_remove; [exact (W5 id b V0)|].
    intros k bk Hk Lk. destruct (Hids k Hk) as (bk0 & Vk & _ & Hce).
    apply vis_Some in Vk. destruct Vk as [Lk0 _]. rewrite Lk in Lk0. injection Lk0 as <-.
    apply contrib_ce_nil. exact Hce.
  - destruct W6 as (bt & Vt & At). exists bt. split; [|exact At]. apply Hvk; [|exact Vt].
    intros Hk. destruct (Hids _ Hk) as (bt0 & Vt0 & At0 & _). congruence.
Qed.

(* doInvalidate / doReValidate: a failure flag of a tree block, BLOCK_FAILED_CHILD of any indices *)
Lemma wf_failure_marks m t id reason desc v :
  wf (mkState m t) -> visible m id -> reason = FFailedBlock \/ reason = FFailedPop ->
  wf (mkState (upd_many (upd m id (fun b => setStatus (put_flag reason v (bstatus b)) b)) desc
                        (fun b => setStatus (put_flag FFailedChild v (bstatus b)) b)) t).
Proof.
  intros W Hv Hr. apply wf_upd_many; [|intros b; apply nrel_fchild].
  apply wf_upd_vis; [exact W|exact Hv|]. intros b D. apply nrel_setFlag; [exact D|]. destruct Hr as [-> | ->]; auto.
Qed.

Theorem step_wf o s st s' st' : wf s -> pre s o -> step prims_fixed o s st = Done s' st' -> wf s'.
Proof.
  destruct s as [m t]. intros W HP HS.
  destruct o; cbn [pre blocks tip] in HP; cbn [step blocks tip p_raise p_lower prims_fixed] in HS.
  - exact (step_wf_OInsertHeader _ _ _ _ _ _ _ W HP HS).
  - (* setPayloads *)
    destruct (visible_lookup m id HP) as (b & L & D). rewrite L in HS.
    destruct (s_haspl (bstatus b)); [discriminate|]. injection HS as <- _.
    apply wf_upd_vis; [exact W|exact HP|]. intros b0 D0.
    apply (nrel_trans _ (setPayloads pl b0)); [apply nrel_live; [exact D0|repeat split|reflexivity]|].
    apply nrel_setFlag; [exact D0|auto].
  - (* connectBlock *)
    injection HS as <- _. apply wf_upd_vis; [exact W|exact HP|]. intros b D. apply nrel_raise. exact D.
  - exact (step_wf_OApply _ _ _ _ _ _ _ _ W HP HS).
  - exact (step_wf_OUnapply _ _ _ _ _ _ W HP HS).
  - (* invalidate *)
    destruct HP as (Hr & Hv & _). injection HS as <- _. exact (wf_failure_marks m t id reason desc true W Hv Hr).
  - (* revalidate *)
    destruct HP as (Hr & Hv & _). injection HS as <- _. exact (wf_failure_marks m t id reason desc false W Hv Hr).
  - exact (step_wf_ORemoveSubtree _ _ _ _ _ _ W HP HS).
  - (* removeAllPayloads; lowerValidity is harmless because the block is not ACTIVE *)
    destruct HP as (b & V & A). apply vis_Some in V. destruct V as [L D]. rewrite L in HS.
    destruct (negb (s_haspl (bstatus b))); [discriminate|]. injection HS as <- _.
    apply wf_upd; [exact W|]. intros b0 L0. rewrite L in L0. injection L0 as <-.
    assert (N2 : nrel b (unsetFlag FHasPayloads (clearPayloads b))).
    { apply (nrel_trans _ (clearPayloads b)); [apply nrel_live; [exact D|repeat split|reflexivity]|].
      apply nrel_setFlag; [exact D|auto]. }
    apply (nrel_trans _ _ _ N2). destruct N2 as (_ & Nd & Na & _).
    apply nrel_lower1; [rewrite Nd; exact D|rewrite Na; exact A].
  - (* addRef *)
    injection HS as <- _. apply wf_upd_vis; [exact W|exact HP|]. intros b D. apply nrel_live; [exact D|repeat split|reflexivity].
  - (* removeRef *)
    injection HS as <- _. apply wf_upd_vis; [exact W|exact HP|]. intros b D. apply nrel_live; [exact D|repeat split|reflexivity].
  - (* setTip *)
    injection HS as <- _. destruct W as [Wn Wl Wp Wc Wb Wt]. constructor; assumption.
  - (* saveTree *)
    unfold save in HS. cbn [blocks tip] in HS. injection HS as <- _.
    rewrite (map_upd_many unsetDirty m (wf_nodup _ W)). apply wf_upd_many; [exact W|apply nrel_unsetDirty].
Qed.

Lemma run_wf h : forall s st s' st', wf s -> guarded h s st -> run prims_fixed h s st = Done s' st' -> wf s'.
Proof.
  induction h as [|o r IH]; intros s st s' st' HW HG HR; cbn [run guarded] in *.
  - injection HR as <- <-. exact HW.
  - destruct HG as [HP HG]. destruct (step prims_fixed o s st) as [s1 st1|w] eqn:E; [|discriminate].
    exact (IH s1 st1 s' st' (step_wf o s st s1 st1 HW HP E) HG HR).
Qed.
