(** C09 — histories over the three trees with the finalization cascade: a finalized block of ANY of the three
    trees (ALT, VBK, BTC) never leaves that tree's best chain.

    Model: Store/StackDefs.v ([stack_finalize] = AltBlockTree::finalizeBlocks -> VbkBlockTree::finalizeBlocks ->
    BlockTree<BtcBlock>::finalizeBlocks) over the per-tree operations of Store/FinalGuard.v.  What addPayloads /
    removePayloads / setState of the tree above do to an SP tree is a sequence of such per-tree operations: tip
    switches through PopStateMachine (every unapplied block passes assertBlockCanBeUnapplied), block additions
    (context blocks), removeSubtree / invalidateSubtree; a history is ANY interleaving of them on the three trees
    with cascades carrying ANY reference list of the BTC tip. *)
From Coq Require Import NArith List Bool.
From VB Require Import Store.FinalizeDefs Store.FinalizeTheorems Store.FinalGuard Store.FinalizeBound Store.StackDefs.
Import ListNotations.
Local Open Scope N_scope.

Inductive tree_id := TAlt | TVbk | TBtc.

Definition tree_eqb (w w' : tree_id) : bool :=
  match w, w' with TAlt, TAlt | TVbk, TVbk | TBtc, TBtc => true | _, _ => false end.

Definition tree_of (s : pstack) (w : tree_id) : ftree :=
  match w with TAlt => s_alt s | TVbk => s_vbk s | TBtc => s_btc s end.
Definition set_tree (s : pstack) (w : tree_id) (t : ftree) : pstack :=
  match w with
  | TAlt => mkS t (s_vbk s) (s_btc s)
  | TVbk => mkS (s_alt s) t (s_btc s)
  | TBtc => mkS (s_alt s) (s_vbk s) t
  end.

Inductive sop :=
| SOn (w : tree_id) (o : gop)          (* one tree-level effect of addPayloads/removePayloads/setState/accept/save *)
| SCascade (refs : list N).            (* AltBlockTree::finalizeBlocks (public, or automatic in overrideTip) *)

Inductive sres := SOk (s : pstack) | SAbort.

Definition sstep (guard : bool) (fuel : nat) (p : sparams) (s : pstack) (o : sop) : sres :=
  match o with
  | SOn w g => match gstep guard fuel (tree_of s w) g with
               | FOk t' => SOk (set_tree s w t')
               | FAbort => SAbort
               end
  | SCascade refs => SOk (stack_finalize fuel p refs s)
  end.

Fixpoint srun (guard : bool) (fuel : nat) (p : sparams) (ops : list sop) (s : pstack) : sres :=
  match ops with
  | [] => SOk s
  | o :: r => match sstep guard fuel p s o with SOk s' => srun guard fuel p r s' | SAbort => SAbort end
  end.

(* the hash of block b of tree w is not accepted again after deallocation *)
Definition sop_ok (w : tree_id) (b : N) (o : sop) : bool :=
  match o with
  | SOn w' (GOp (FAdd id _ _)) => negb (tree_eqb w w' && (id =? b))
  | _ => true
  end.
Definition s_never_readds (w : tree_id) (b : N) (ops : list sop) : bool := forallb (sop_ok w b) ops.

Lemma tree_eqb_eq w w' : tree_eqb w w' = true -> w = w'.
Proof. destruct w, w'; cbn; intros H; try discriminate; reflexivity. Qed.

Lemma tree_of_set_same s w t : tree_of (set_tree s w t) w = t.
Proof. destruct w; reflexivity. Qed.

Lemma tree_of_set_other s w w' t : tree_eqb w w' = false -> tree_of (set_tree s w' t) w = tree_of s w.
Proof. destruct w, w'; cbn; intros H; try discriminate; reflexivity. Qed.

Lemma stack_finalize_trees fuel p refs s :
  s_alt (stack_finalize fuel p refs s) = finalizeBlocks fuel (s_alt s) (sp_alt_maxreorg p) (sp_alt_preserve p) INT32_MAX /\
  s_vbk (stack_finalize fuel p refs s) =
    finalizeBlocks fuel (s_vbk s) (sp_vbk_maxreorg p) (sp_vbk_preserve p) (min_or_default refs 2147483647) /\
  s_btc (stack_finalize fuel p refs s) = finalizeBlocks fuel (s_btc s) (sp_btc_maxreorg p) (sp_btc_preserve p) INT32_MAX.
Proof. repeat split. Qed.

Lemma sstep_monotone fuel p s o s' w b :
  sop_ok w b o = true -> sstep true fuel p s o = SOk s' ->
  fin_or_gone (tree_of s w) b -> fin_or_gone (tree_of s' w) b.
Proof.
  intros Hok Hs H. destruct o as [w' g|refs]; cbn [sstep] in Hs.
  - destruct (gstep true fuel (tree_of s w') g) as [t'|] eqn:E; [|discriminate]. injection Hs as <-.
    destruct (tree_eqb w w') eqn:Ew.
    + pose proof (tree_eqb_eq w w' Ew) as <-.
      rewrite tree_of_set_same. apply (gstep_monotone fuel (tree_of s w) g t' b); [|exact E|exact H].
      destruct g as [o|a]; [|reflexivity]. destruct o; try reflexivity.
      cbn [sop_ok] in Hok. rewrite Ew in Hok. cbn [andb] in Hok. exact Hok.
    + rewrite (tree_of_set_other s w w' t' Ew). exact H.
  - injection Hs as <-. destruct (stack_finalize_trees fuel p refs s) as (Ha & Hv & Hb).
    destruct w; cbn [tree_of] in *; [rewrite Ha|rewrite Hv|rewrite Hb]; apply finalizeBlocks_monotone; exact H.
Qed.

Lemma srun_monotone fuel p ops w b : forall s s',
  s_never_readds w b ops = true -> srun true fuel p ops s = SOk s' ->
  fin_or_gone (tree_of s w) b -> fin_or_gone (tree_of s' w) b.
Proof.
  induction ops as [|o r IH]; intros s s' Hn Hr H; cbn [srun] in Hr.
  - injection Hr as <-. exact H.
  - unfold s_never_readds in Hn. cbn [forallb] in Hn. apply andb_true_iff in Hn. destruct Hn as [Hn1 Hn2].
    destruct (sstep true fuel p s o) as [s1|] eqn:E; [|discriminate].
    exact (IH s1 s' Hn2 Hr (sstep_monotone fuel p s o s1 w b Hn1 E H)).
Qed.

(* the statement of the property for all three trees and every history *)
Lemma stack_history_keeps_final fuel p ops : forall s s' w b,
  s_never_readds w b ops = true ->
  In b (t_chain (tree_of s w)) -> is_final (tree_of s w) b = true ->
  srun true fuel p ops s = SOk s' ->
  (In b (t_chain (tree_of s' w)) /\ is_final (tree_of s' w) b = true) \/ flookup (t_blocks (tree_of s' w)) b = None.
Proof.
  intros s s' w b Hn Hin Hf Hr. exact (srun_monotone fuel p ops w b s s' Hn Hr (or_introl (conj Hin Hf))).
Qed.

(* a tip switch of an SP tree that would leave a finalized SP block aborts (assertBlockCanBeUnapplied) *)
Lemma sp_setState_below_final_aborts fuel p s w to b :
  In b (t_chain (tree_of s w)) -> is_final (tree_of s w) b = true ->
  ~ In b (common_prefix (t_chain (tree_of s w)) (path_to fuel (tree_of s w) to [])) ->
  sstep true fuel p s (SOn w (GOp (FSetTip to))) = SAbort.
Proof.
  intros Hin Hf Hnot. cbn [sstep gstep].
  rewrite (setTip_g_aborts_on_final fuel (tree_of s w) to b Hin Hf Hnot). reflexivity.
Qed.

(* the cascade never moves the ALT bound into the SP trees and leaves a tree below its max-reorg height alone:
   BtcChainParams::getMaxReorgBlocks asserts >= 2016, so a BTC tree whose tip is below that is untouched *)
Lemma cascade_tree_below_maxreorg_untouched fuel p refs s :
  (height_of (s_btc s) (tip_of (s_btc s)) <? sp_btc_maxreorg p) = true ->
  s_btc (stack_finalize fuel p refs s) = s_btc s.
Proof.
  intros H. destruct (stack_finalize_trees fuel p refs s) as (_ & _ & Hb). rewrite Hb.
  unfold finalizeBlocks. rewrite H. reflexivity.
Qed.

(* the VBK part of the cascade is [vbk_finalizeBlocks] on the references of the BTC tip read BEFORE the BTC tree
   finalizes: the bound of Store/FinalizeBound.v applies to the cascade *)
Lemma cascade_vbk_bounded fuel p refs s fi r :
  (height_of (s_vbk s) (tip_of (s_vbk s)) <? sp_vbk_maxreorg p) = false ->
  chain_at (s_vbk s) (N.max (height_of (s_vbk s) (root_of (s_vbk s)))
                            (height_of (s_vbk s) (tip_of (s_vbk s)) - sp_vbk_maxreorg p)) = Some fi ->
  In r refs -> r <= height_of (s_vbk s) fi ->
  s_vbk (stack_finalize fuel p refs s) = s_vbk s.
Proof.
  intros H1 H2 Hr Hle.
  exact (vbk_finalization_bounded fuel (s_vbk s) (sp_vbk_maxreorg p) (sp_vbk_preserve p) refs fi r H1 H2 Hr Hle).
Qed.

(* demo: VBK chain 0..20 fully saved with a stale VBK fork 105 <- 106 on block 4; BTC chain 0..5; ALT 0..3;
   VBK maxReorg 11 preserve 10; BTC with the asserted floor 2016 (never finalizes here) *)
Definition line_tree (n : list N) (extra : list (N * fblock)) (tips : list N) : ftree :=
  mkT (map (fun i : N => (i, mkF (if i =? 0 then None else Some (i - 1)) i false (i =? 0) [100 + i])) n ++ extra)
      n tips [].
Definition demo_stack : pstack :=
  mkS (line_tree [0;1;2;3] [] [3])
      (line_tree [0;1;2;3;4;5;6;7;8;9;10;11;12;13;14;15;16;17;18;19;20]
                 [(105, mkF (Some 4) 5 false false []); (106, mkF (Some 105) 6 false false [])] [20; 106])
      (line_tree [0;1;2;3;4;5] [] [5]).
Definition demo_params : sparams := mkSP 100 100 11 10 2016 0.

(* the hypotheses are met: the cascade on the demo stack finalizes VBK 0..9 (refs above block 9), does nothing
   with a reference at block 9, never touches BTC; afterwards the stale VBK fork cannot be activated *)
Definition demo_after : pstack := stack_finalize 40 demo_params [15; 12] demo_stack.

Example stack_cascade_satisfiable :
  highest_final (s_vbk demo_after) = Some 9 /\ root_of (s_vbk demo_after) = 0 /\ tip_of (s_vbk demo_after) = 20 /\
  In 9 (t_chain (tree_of demo_after TVbk)) /\ is_final (tree_of demo_after TVbk) 9 = true /\
  flookup (t_blocks (s_vbk demo_after)) 106 <> None /\
  s_vbk (stack_finalize 40 demo_params [15; 9] demo_stack) = s_vbk demo_stack /\
  s_btc demo_after = s_btc demo_stack /\ s_alt demo_after = s_alt demo_stack /\
  sstep true 40 demo_params demo_after (SOn TVbk (GOp (FSetTip 106))) = SAbort /\
  sstep true 40 demo_params demo_after (SOn TVbk (GUnapplyFrom 7)) = SAbort /\
  s_never_readds TVbk 9 [SCascade [15;12]; SOn TVbk (GOp (FAdd 21 20 [])); SOn TBtc (GOp (FAdd 9 5 [])); SOn TVbk (GOp (FSetTip 21))] = true /\
  (exists s', srun true 40 demo_params
                [SCascade [15;12]; SOn TVbk (GOp (FAdd 21 20 [])); SOn TBtc (GOp (FAdd 9 5 [])); SOn TVbk (GOp (FSetTip 21))]
                demo_stack = SOk s' /\ tip_of (s_vbk s') = 21 /\ In 9 (t_chain (s_vbk s'))).
Proof.
  vm_compute. repeat split; try reflexivity; try discriminate; auto 30.
  eexists. split; [reflexivity|]. split; [reflexivity|]. auto 30.
Qed.

(* with the check compiled out the SP statement is false as well *)
Lemma stack_guard_debug_only_refuted :
  (exists s', srun false 40 demo_params [SCascade [15;12]; SOn TVbk (GOp (FSetTip 106))] demo_stack = SOk s' /\
              is_final (s_vbk s') 9 = true /\ ~ In 9 (t_chain (s_vbk s')) /\ flookup (t_blocks (s_vbk s')) 9 <> None) /\
  srun true 40 demo_params [SCascade [15;12]; SOn TVbk (GOp (FSetTip 106))] demo_stack = SAbort.
Proof.
  split; [|vm_compute; reflexivity].
  eexists. split; [vm_compute; reflexivity|]. vm_compute. repeat split; try reflexivity; intuition discriminate.
Qed.
