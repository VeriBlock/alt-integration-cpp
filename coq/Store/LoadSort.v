(** C10 — the height sort of loadTree yields a parent-before-child order on structurally consistent stored
    block sets, which discharges the first premise of reload_equiv_partial. *)
From Coq Require Import NArith List Bool Permutation.
From VB Require Import Store.SaveLoadDefs Store.SaveLoadProofs Store.LoadProofs.
Import ListNotations.
Local Open Scope N_scope.

Definition hgt (x : N * pers) : N := p_height (snd x).

Fixpoint hsorted (l : list (N * pers)) : Prop :=
  match l with [] => True | x :: r => (forall y, In y r -> hgt x <= hgt y) /\ hsorted r end.

Lemma insert_perm x l : Permutation (insert_by_height x l) (x :: l).
Proof.
  induction l as [|y r IH]; cbn [insert_by_height]; [apply Permutation_refl|].
  destruct (p_height (snd x) <? p_height (snd y)); [apply Permutation_refl|].
  apply (Permutation_trans (l' := y :: x :: r)); [apply perm_skip; exact IH|apply perm_swap].
Qed.

Lemma sort_perm l : Permutation (sort_by_height l) l.
Proof.
  induction l as [|x r IH]; cbn [sort_by_height fold_right]; [apply Permutation_refl|].
  exact (Permutation_trans (insert_perm x _) (perm_skip x IH)).
Qed.

Lemma insert_hsorted x l : hsorted l -> hsorted (insert_by_height x l).
Proof.
  induction l as [|y r IH]; cbn [insert_by_height hsorted]; [intros _; split; [intros ? []|exact I]|].
  intros [Hy Hr]. fold (hgt x) (hgt y). destruct (N.ltb_spec (hgt x) (hgt y)) as [E|E]; cbn [hsorted].
  - split; [|split; assumption]. intros z [<-|Hz]; [apply N.lt_le_incl, E|exact (N.lt_le_incl _ _ (N.lt_le_trans _ _ _ E (Hy z Hz)))].
  - split; [|exact (IH Hr)]. intros z [<-|Hz]%(Permutation_in _ (insert_perm x r)); [exact E|exact (Hy z Hz)].
Qed.

Lemma sort_hsorted l : hsorted (sort_by_height l).
Proof.
  induction l as [|x r IH]; cbn [sort_by_height fold_right]; [exact I|]. apply insert_hsorted. exact IH.
Qed.

Lemma NoDup_app_left {A} (l1 l2 : list A) : NoDup (l1 ++ l2) -> NoDup l1.
Proof.
  induction l2 as [|a l2 IH]; [now rewrite app_nil_r|]. intros H. exact (IH (NoDup_remove_1 _ _ _ H)).
Qed.

Lemma lookup_perm {A} (l1 l2 : list (N * A)) : NoDup (map fst l1) -> Permutation l1 l2 ->
  forall k, lookup l1 k = lookup l2 k.
Proof.
  intros Hnd HP k.
  assert (Hnd2 : NoDup (map fst l2)) by exact (Permutation_NoDup (Permutation_map fst HP) Hnd).
  destruct (lookup l1 k) as [v|] eqn:E1.
  - symmetry. exact (In_lookup l2 k v Hnd2 (Permutation_in _ HP (lookup_In _ _ _ E1))).
  - destruct (lookup l2 k) as [v|] eqn:E2; [|reflexivity].
    now rewrite (In_lookup l1 k v Hnd (Permutation_in _ (Permutation_sym HP) (lookup_In _ _ _ E2))) in E1.
Qed.

(* structural consistency of a stored block set: unique ids; every index loadable (VALID_TREE or FAILED_POP);
   parents present one below; endorsed blocks present and strictly lower (or the block itself) *)
Definition consistent_list (L : list (N * pers)) : Prop :=
  NoDup (map fst L) /\
  forall id p, In (id, p) L ->
    lvl_ok p = true /\
    match p_parent p with
    | None => True
    | Some par => exists pp, In (par, pp) L /\ p_height p = p_height pp + 1
    end /\
    forall e, In e (p_ce p) -> snd e = id \/ exists pe, In (snd e, pe) L /\ p_height pe < p_height p.

Lemma topo_of_sorted post : forall pre, consistent_list (pre ++ post) -> hsorted post -> topo_ok pre post.
Proof.
  induction post as [|[id p] r IH]; intros pre HC Hs; cbn [topo_ok]; [exact I|].
  destruct Hs as [Hmin Hs]. pose proof HC as [Hnd Hc]. rewrite map_app in Hnd.
  destruct (Hc id p) as (Hl & Hp & He); [apply in_or_app; right; now left|].
  assert (Hidn : lookup pre id = None).
  { apply notin_lookup_None. intros H. apply (NoDup_remove_2 _ _ _ Hnd). apply in_or_app. now left. }
  (* a block below [p] is neither [p] nor, in a height-sorted list, behind it *)
  assert (Hlow : forall k q, In (k, q) (pre ++ (id, p) :: r) -> p_height q < p_height p -> lookup pre k = Some q).
  { intros k q [Hq|[[= _ <-]|Hq]]%in_app_or Hlt.
    - exact (In_lookup pre k q (NoDup_app_left _ _ Hnd) Hq).
    - destruct (N.lt_irrefl _ Hlt).
    - destruct (N.lt_irrefl _ (N.le_lt_trans _ _ _ (Hmin (k, q) Hq) Hlt)). }
  split; [exact Hidn|]. split; [exact Hl|]. split; [|split].
  - destruct (p_parent p) as [par|]; [|exact I]. destruct Hp as (pp & Hpp & Hh).
    exists pp. split; [apply Hlow; [exact Hpp|rewrite Hh, N.add_1_r; apply N.lt_succ_diag_r]|exact Hh].
  - intros e Hein. rewrite (lookup_app_new pre id p (snd e) Hidn).
    destruct (He e Hein) as [->|(pe & Hpe & Hlt)]; [rewrite N.eqb_refl; discriminate|].
    destruct (id =? snd e); [discriminate|]. rewrite (Hlow (snd e) pe Hpe Hlt). discriminate.
  - apply IH; [rewrite <- app_assoc; exact HC|exact Hs].
Qed.

Lemma consistent_perm L S : Permutation S L -> consistent_list L -> consistent_list S.
Proof.
  intros HP [Hnd Hc]. split; [now rewrite HP|].
  intros id p Hin. rewrite HP in Hin. specialize (Hc id p Hin). destruct (p_parent p); now setoid_rewrite HP.
Qed.

Lemma sort_is_topological L : consistent_list L -> topo_ok [] (sort_by_height L).
Proof.
  intros H. apply (topo_of_sorted (sort_by_height L) []); [|apply sort_hsorted].
  exact (consistent_perm L _ (sort_perm L) H).
Qed.

Lemma reload_equiv_consistent_partial h s st :
  run prims_fixed (h ++ [OSave]) init storage0 = Done s st ->
  let live := filter (fun x => negb (s_deleted (p_status (snd x)))) (st_blocks (full_dump s)) in
  consistent_list live ->
  lookup (sort_by_height live) (tip s) <> None ->
  (forall fuel, chain_ok fuel (lookup (sort_by_height live)) (tip s) = true) ->
  exists s', load prims_fixed st = Loaded s' /\ tip s' = tip s /\
             forall k, pv (blocks s') k = lookup (sort_by_height live) k.
Proof. intros Hrun live Hc. exact (reload_equiv_partial h s st Hrun (sort_is_topological live Hc)). Qed.

(* the premises are satisfiable *)
Example consistent_example :
  let st := mkStatus 2 false false false false true false false in
  consistent_list [(2, mkPers (Some 1) 2 st [11] [(100, 1)] 0);
                   (0, mkPers None 0 (mkStatus 4 true false false false false true false) [] [] 0);
                   (1, mkPers (Some 0) 1 st [10] [] 0)].
Proof.
  intros st. set (p2 := mkPers (Some 1) 2 st [11] [(100, 1)] 0). set (p0 := mkPers None 0 _ [] [] 0).
  set (p1 := mkPers (Some 0) 1 st [10] [] 0). split.
  - cbn [map fst]. repeat (apply NoDup_cons; [cbn [In]; intuition discriminate|]). apply NoDup_nil.
  - intros id p [H|[H|[H|[]]]]; injection H as <- <-; (split; [reflexivity|]); split.
    + exists p1. split; [right; right; left; reflexivity|reflexivity].
    + intros e [<-|[]]. right. exists p1. split; [right; right; left; reflexivity|reflexivity].
    + exact I.
    + intros e [].
    + exists p0. split; [right; left; reflexivity|reflexivity].
    + intros e [].
Qed.
