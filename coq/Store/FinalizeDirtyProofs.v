(** C10 — finalization never deallocates an unsaved block of the active chain, whatever the set of dirty blocks
    (in particular an old saved block that became dirty again below clean blocks); the walk that stops at the first
    clean block does. *)
From Coq Require Import NArith List Bool Lia.
From VB Require Import Store.FinalizeDefs Store.FinalizeProofs Store.FinalizeOutdated
  Store.FinalizeWindow Store.FinalizeTips Store.FinalizeVariantDefs.
Import ListNotations.
Local Open Scope N_scope.

Lemma lowest_dirty_result t : forall fuel id acc,
  lowest_dirty fuel t id acc = acc \/ anc t (lowest_dirty fuel t id acc) id.
Proof.
  assert (Hacc : forall id acc, (if is_dirty t id then id else acc) = acc \/ anc t (if is_dirty t id then id else acc) id).
  { intros id acc. unfold is_dirty. destruct (flookup (t_blocks t) id) as [bi|] eqn:Hb; [|now left].
    destruct (f_dirty bi); [right; exact (anc_refl t id bi Hb)|now left]. }
  induction fuel as [|f IH]; intros id acc; cbn [lowest_dirty]; [apply Hacc|].
  unfold parent_of. destruct (flookup (t_blocks t) id) as [bi|] eqn:Hb; [|apply Hacc].
  destruct (f_parent bi) as [p|] eqn:Ep; [|apply Hacc].
  destruct (IH p (if is_dirty t id then id else acc)) as [->|Ha]; [apply Hacc|right].
  exact (anc_step t _ id bi p Hb Ep Ha).
Qed.

Lemma lowest_dirty_anc t fuel id b : flookup (t_blocks t) id = Some b -> anc t (lowest_dirty fuel t id id) id.
Proof. intros Hb. destruct (lowest_dirty_result t fuel id id) as [->|H]; [exact (anc_refl t id b Hb)|exact H]. Qed.

Lemma lowest_dirty_below t : wf_tree t -> forall c id, anc t c id -> is_dirty t c = true ->
  forall fuel acc, (N.to_nat (height_of t id) <= N.to_nat (height_of t c) + fuel)%nat ->
  anc t (lowest_dirty fuel t id acc) c.
Proof.
  intros Hwf c id H. induction H as [b Hb|x bx p Hx Hp Ha IH]; intros Hd fuel acc Hf.
  - (* from the dirty block [c] on, the accumulator is [c] *)
    replace (lowest_dirty fuel t c acc) with (lowest_dirty fuel t c c)
      by (destruct fuel; cbn [lowest_dirty]; rewrite Hd; reflexivity).
    exact (lowest_dirty_anc t fuel c b Hb).
  - destruct (wf_parent t x bx p Hwf Hx Hp) as (pb & _ & Hh).
    pose proof (anc_height t c p Hwf Ha) as Hle.
    destruct fuel as [|f]; [lia|].
    cbn [lowest_dirty]. unfold parent_of. rewrite Hx, Hp. apply IH; [exact Hd|lia].
Qed.

Definition chain_closed (t : ftree) : Prop :=
  (forall x bx p, In x (t_chain t) -> flookup (t_blocks t) x = Some bx -> f_parent bx = Some p -> In p (t_chain t)) /\
  (forall x, In x (t_chain t) -> height_of t (root_of t) <= height_of t x).

Lemma anc_on_chain t : chain_closed t -> forall a x, anc t a x -> In x (t_chain t) -> In a (t_chain t).
Proof.
  intros [Hc _] a x H. induction H as [b Hb|x bx p Hx Hp Ha IH]; intros Hin; [exact Hin|].
  apply IH. exact (Hc x bx p Hin Hx Hp).
Qed.

Lemma finalize_keeps_dirty_chain_blocks fuel t idx preserve :
  wf_tree t -> chain_is_path t -> chain_closed t ->
  (forall id b, flookup (t_blocks t) id = Some b -> (N.to_nat (f_height b) <= fuel)%nat) ->
  In idx (t_chain t) -> flookup (t_blocks t) idx <> None ->
  no_dirty_outdated_forks fuel t (lowest_dirty fuel t idx idx) (t_tips t) ->
  forall c b, In c (t_chain t) -> flookup (t_blocks t) c = Some b -> f_dirty b = true ->
  exists b', flookup (t_blocks (finalizeBlockImpl fuel t idx preserve)) c = Some b' /\
             f_dirty b' = true /\ f_pl b' = f_pl b /\ f_height b' = f_height b.
Proof.
  intros Hwf Hpath Hcl Hfuel Hidx Hidxb Hforks c b Hc Hb Hd.
  destruct (idx =? root_of t) eqn:Hroot.
  - (* finalizing the root deallocates nothing *)
    unfold finalizeBlockImpl. rewrite Hroot. destruct (is_final t idx); [exists b; auto|].
    cbn [t_blocks]. rewrite flookup_mark_final, Hb. cbn [option_map].
    destruct (existsb (N.eqb c) [idx]); eexists; (split; [reflexivity|cbn [f_dirty f_pl f_height]; auto]).
  - destruct (flookup (t_blocks t) idx) as [bi|] eqn:Hbi; [|congruence].
    set (fin := lowest_dirty fuel t idx idx) in *.
    pose proof (erase_tips_clean fuel t fin (t_tips t) Hforks) as He.
    (* fin is idx or an ancestor of idx, hence on the chain, and not above the dirty block c *)
    pose proof (lowest_dirty_anc t fuel idx bi Hbi) as Hfa. fold fin in Hfa.
    pose proof (anc_on_chain t Hcl fin idx Hfa Hidx) as Hfc.
    assert (Hfle : height_of t fin <= height_of t c).
    { destruct (N.le_gt_cases (height_of t c) (height_of t idx)) as [Hle|Hgt].
      - apply (anc_height t fin c Hwf).
        apply (lowest_dirty_below t Hwf c idx (Hpath c idx Hc Hidx Hle)); [unfold is_dirty; rewrite Hb; exact Hd|].
        pose proof (Hfuel idx bi Hbi) as Hf. rewrite (height_of_lookup t idx bi Hbi). lia.
      - pose proof (anc_height t fin idx Hwf Hfa). lia. }
    destruct (chain_at t (N.max (height_of t (root_of t)) (height_of t fin - preserve))) as [newRoot|] eqn:Hnr.
    + destruct (preserved_window fuel t idx preserve Hwf Hpath Hfuel Hroot _ fin newRoot He Hfc Hnr c b Hc Hb)
        as (b' & H1 & H2 & H3 & H4 & _).
      { pose proof (proj2 Hcl c Hc). lia. }
      exists b'. rewrite H4. auto.
    + (* VBK_ASSERT(newRoot) *)
      unfold finalizeBlockImpl. rewrite Hroot. fold fin. rewrite He, Hnr. exists b. auto.
Qed.

Definition chain_closedb (t : ftree) : bool :=
  forallb (fun x => match parent_of t x with Some p => on_chain t p | None => true end &&
                    (height_of t (root_of t) <=? height_of t x)) (t_chain t).

Lemma chain_closedb_sound t : chain_closedb t = true -> chain_closed t.
Proof.
  intros H. unfold chain_closedb in H. rewrite forallb_forall in H.
  split; intros x; [intros bx p Hin Hx Hp|intros Hin]; specialize (H x Hin);
    apply andb_true_iff in H; destruct H as [H1 H2].
  - unfold parent_of in H1. rewrite Hx, Hp in H1. apply existsb_eqb_In. exact H1.
  - apply N.leb_le. exact H2.
Qed.

(* the hypotheses hold for the witness tree of the refutation below, and there the dirty block 2 survives *)
Example finalize_keeps_dirty_example :
  wf_tree late_dirty_tree /\ chain_closed late_dirty_tree /\
  no_dirty_outdated_forks 30 late_dirty_tree (lowest_dirty 30 late_dirty_tree 8 8) (t_tips late_dirty_tree) /\
  lowest_dirty 30 late_dirty_tree 8 8 = 2 /\
  is_dirty (finalizeBlockImpl 30 late_dirty_tree 8 2) 2 = true /\
  t_chain (finalizeBlockImpl 30 late_dirty_tree 8 2) = [0;1;2;3;4;5;6;7;8;9;10;11;12].
Proof.
  split; [apply wf_treeb_sound; vm_compute; reflexivity|].
  split; [apply chain_closedb_sound; vm_compute; reflexivity|].
  split; [|vm_compute; repeat split].
  intros tp Hin. cbn in Hin. destruct Hin as [<-|[]]. vm_compute. discriminate.
Qed.

(* stop-at-first-clean: finalizing block 8 with preserve 2 (tip 12, maxReorg 4) on the chain whose only unsaved
   block is the old block 2: the walk stops at the clean block 8, the root moves to 6 and block 2 is deallocated
   together with its unsaved change *)
Lemma finalize_stop_at_first_clean_refuted :
  is_dirty late_dirty_tree 2 = true /\ on_chain late_dirty_tree 2 = true /\
  lowest_dirty_stop 30 late_dirty_tree 8 8 = 8 /\
  flookup (t_blocks (finalizeBlockImpl_stop 30 late_dirty_tree 8 2)) 2 = None /\
  t_chain (finalizeBlockImpl_stop 30 late_dirty_tree 8 2) = [6;7;8;9;10;11;12] /\
  flookup (t_blocks (finalizeBlockImpl 30 late_dirty_tree 8 2)) 2 <> None.
Proof. vm_compute. repeat split. discriminate. Qed.
