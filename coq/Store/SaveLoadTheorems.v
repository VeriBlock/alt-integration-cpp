(** C10 — main theorems: dirty_complete, save_load_roundtrip, crash_loses_only_tail over all
    histories and all placements of save points; refutation for the pre-fix mutators. *)
From Coq Require Import NArith List Bool.
From VB Require Import Store.SaveLoadDefs Store.SaveLoadProofs.
Import ListNotations.
Local Open Scope N_scope.

(* the projections of the selected blocks written on top of [acc]: [save] selects the dirty blocks,
   [full_dump] all of them *)
Definition written_of (sel : block -> bool) (l : store) (acc : list (N * pers)) : list (N * pers) :=
  fold_left (fun acc kb => if sel (snd kb) then insert acc (fst kb) (b_pers (snd kb)) else acc) l acc.

Lemma written_lookup sel l : forall acc id,
  NoDup (map fst l) ->
  lookup (written_of sel l acc) id =
    match lookup l id with
    | Some b => if sel b then Some (b_pers b) else lookup acc id
    | None => lookup acc id
    end.
Proof.
  unfold written_of. induction l as [|[k b] r IH]; intros acc id Hnd; cbn [fold_left lookup fst snd map]; [reflexivity|].
  cbn [map fst] in Hnd. apply NoDup_cons_iff in Hnd. destruct Hnd as [Hnotin Hnd]. rewrite IH by exact Hnd.
  destruct (N.eqb_spec k id) as [<-|Hne].
  - rewrite (notin_lookup_None r k Hnotin). destruct (sel b); [|reflexivity]. now rewrite lookup_insert, N.eqb_refl.
  - destruct (sel b); [|reflexivity]. rewrite lookup_insert. destruct (N.eqb_spec k id); [contradiction|reflexivity].
Qed.

Lemma written_sorted sel l : forall acc, sorted acc -> sorted (written_of sel l acc).
Proof.
  unfold written_of. induction l as [|[k b] r IH]; intros acc Hs; cbn [fold_left fst snd]; [exact Hs|].
  apply IH. destruct (sel b); [apply sorted_insert|]; exact Hs.
Qed.

Lemma full_dump_lookup (m : store) : forall acc id, NoDup (map fst m) ->
  lookup (fold_left (fun acc kb => insert acc (fst kb) (b_pers (snd kb))) m acc) id =
    match lookup m id with Some b => Some (b_pers b) | None => lookup acc id end.
Proof. exact (written_lookup (fun _ => true) m). Qed.

Lemma full_dump_sorted (m : store) : forall acc, sorted acc ->
  sorted (fold_left (fun acc kb => insert acc (fst kb) (b_pers (snd kb))) m acc).
Proof. exact (written_sorted (fun _ => true) m). Qed.

Lemma lookup_map_unsetDirty (m : store) id :
  lookup (map (fun kb => (fst kb, unsetDirty (snd kb))) m) id = option_map unsetDirty (lookup m id).
Proof.
  induction m as [|[k b] r IH]; cbn [map lookup fst snd option_map]; [reflexivity|].
  destruct (k =? id); [reflexivity|exact IH].
Qed.

Lemma keys_map_unsetDirty (m : store) : map fst (map (fun kb => (fst kb, unsetDirty (snd kb))) m) = map fst m.
Proof. rewrite map_map. reflexivity. Qed.

Lemma Inv_full_dump s : NoDup (map fst (blocks s)) -> Inv s (full_dump s).
Proof.
  intros Hnd. unfold Inv, full_dump. cbn [st_blocks]. split; [exact Hnd|]. split; [|split].
  - intros id b Hl _. now rewrite full_dump_lookup, Hl by exact Hnd.
  - intros id p. rewrite full_dump_lookup by exact Hnd.
    destruct (lookup (blocks s) id) eqn:E; [intros _; exact (lookup_in_keys _ _ _ E)|discriminate].
  - apply full_dump_sorted. exact I.
Qed.

(* under the invariant the clean blocks are stored already: writing the dirty ones completes the full dump *)
Lemma save_full_dump s st s' st' :
  Inv s st -> save s st = (s', st') -> st' = full_dump s' /\ map fst (blocks s') = map fst (blocks s).
Proof.
  intros (Hnd & Hc & Hk & Hs) [= <- <-]. split; [|apply keys_map_unsetDirty].
  fold (written_of b_dirty (blocks s) (st_blocks st)). unfold full_dump. cbn [blocks tip]. f_equal.
  apply sorted_ext; [exact (written_sorted b_dirty _ _ Hs)|exact (full_dump_sorted _ [] I)|]. intros id.
  rewrite written_lookup, full_dump_lookup, lookup_map_unsetDirty by (rewrite ?keys_map_unsetDirty; exact Hnd).
  destruct (lookup (blocks s) id) as [b|] eqn:E; cbn [option_map unsetDirty b_pers lookup].
  - destruct (b_dirty b) eqn:Ed; [reflexivity|exact (Hc id b E Ed)].
  - destruct (lookup (st_blocks st) id) as [p|] eqn:E2; [|reflexivity].
    destruct (lookup_None_notin _ _ E (Hk id p E2)).
Qed.

Lemma step_Inv P o s st s' st' : prims_ok P -> Inv s st -> step P o s st = Done s' st' -> Inv s' st'.
Proof.
  intros [Hr Hl] HI Hstep. destruct s as [m t].
  (* the operations that only update blocks, by mutators that dirty what they change (OSetTip: no block at all) *)
  destruct o; cbn [step blocks tip] in Hstep; try (injection Hstep as <- <-; auto with dirty; fail).
  - (* OInsertHeader *)
    destruct (lookup m id) as [b|] eqn:E.
    + destruct (s_deleted (bstatus b)); injection Hstep as <- <-; auto with dirty.
    + destruct (lookup m parent) as [p|]; [|discriminate]. injection Hstep as <- <-.
      (* the new block is dirty from its constructor on *)
      apply Inv_append; [exact HI|exact E|].
      apply dirties_keeps; [apply Hr|]. apply dirties_keeps; [apply dirties_restore|reflexivity].
  - (* OSetPayloads *)
    destruct (lookup m id) as [b|]; [|discriminate]. destruct (s_haspl (bstatus b)); [discriminate|].
    injection Hstep as <- <-. auto with dirty.
  - (* ORemovePayloads: clearPayloads has no setDirty; the block is marked by unsetFlag(HAS_PAYLOADS),
       which changes the status because the flag is asserted to be set *)
    destruct (lookup m id) as [b|] eqn:E; [|discriminate].
    destruct (s_haspl (bstatus b)) eqn:Eh; [|discriminate]. injection Hstep as <- <-.
    apply Inv_upd; [exact HI|]. intros b0 Hb0. rewrite E in Hb0. injection Hb0 as <-.
    apply marks_at_dirty, dirties_keeps; [apply Hl|]. apply dirty_unsetFlag_set. exact Eh.
  - (* OSave *)
    destruct (save (mkState m t) st) as [s1 st1] eqn:Es. injection Hstep as <- <-.
    destruct (save_full_dump _ _ _ _ HI Es) as [-> Hkeys]. apply Inv_full_dump. rewrite Hkeys. exact (proj1 HI).
Qed.

Lemma Inv_init : Inv init storage0.
Proof.
  apply (Inv_append [] 0 storage0 0 root_block); [|reflexivity|reflexivity].
  split; [constructor|]. split; [|split; [|exact I]]; discriminate.
Qed.

Lemma run_Inv P h : forall s st s' st', prims_ok P -> Inv s st -> run P h s st = Done s' st' -> Inv s' st'.
Proof.
  induction h as [|o r IH]; intros s st s' st' HP HI Hrun; cbn [run] in Hrun.
  - injection Hrun as <- <-. exact HI.
  - destruct (step P o s st) as [s1 st1|w] eqn:E; [|discriminate].
    exact (IH s1 st1 s' st' HP (step_Inv P o s st s1 st1 HP HI E) Hrun).
Qed.

Lemma run_app P h1 : forall h2 s st,
  run P (h1 ++ h2) s st = match run P h1 s st with Done s1 st1 => run P h2 s1 st1 | Abort w => Abort w end.
Proof.
  induction h1 as [|o r IH]; intros h2 s st; cbn [app run]; [reflexivity|].
  destruct (step P o s st); [apply IH|reflexivity].
Qed.

(* in every reachable state, a block that is not dirty is on disk with exactly its current persisted projection;
   i.e. every block whose projection changed since it was last written is dirty.  [h] is ANY history with saves
   at ANY positions. *)
Lemma dirty_complete h s st :
  run prims_fixed h init storage0 = Done s st ->
  forall id b, lookup (blocks s) id = Some b -> b_dirty b = false -> lookup (st_blocks st) id = Some (b_pers b).
Proof.
  intros Hrun. destruct (run_Inv prims_fixed h _ _ _ _ prims_fixed_ok Inv_init Hrun) as (_ & Hc & _). exact Hc.
Qed.

(* after the last save the incrementally accumulated storage IS the full dump
   of the current state, so loading it gives what loading a complete snapshot of that state gives. *)
Lemma run_save_full_dump P h s0 st0 s st :
  prims_ok P -> Inv s0 st0 -> run P (h ++ [OSave]) s0 st0 = Done s st -> st = full_dump s.
Proof.
  intros HP HI0 Hrun. rewrite run_app in Hrun.
  destruct (run P h s0 st0) as [s1 st1|w] eqn:E1; [|discriminate].
  cbn [run step] in Hrun. destruct (save s1 st1) as [s2 st2] eqn:Es. injection Hrun as <- <-.
  exact (proj1 (save_full_dump _ _ _ _ (run_Inv P h _ _ _ _ HP HI0 E1) Es)).
Qed.

Lemma save_load_roundtrip h s st :
  run prims_fixed (h ++ [OSave]) init storage0 = Done s st ->
  st = full_dump s /\ load prims_fixed st = load prims_fixed (full_dump s).
Proof. intros Hrun. rewrite (run_save_full_dump _ _ _ _ _ _ prims_fixed_ok Inv_init Hrun). split; reflexivity. Qed.

Fixpoint no_save (h : list op) : bool :=
  match h with [] => true | OSave :: _ => false | _ :: r => no_save r end.

Lemma step_no_save P o s st s' st' : no_save [o] = true -> step P o s st = Done s' st' -> st' = st.
Proof.
  (* every branch of [step] but OSave ends in [Done _ st] or [Abort _] *)
  intros Hno Hstep. destruct o; try discriminate Hno; cbn [step] in Hstep;
    repeat match type of Hstep with
           | context [match ?x with _ => _ end] => destruct x; try discriminate
           end; injection Hstep as _ <-; reflexivity.
Qed.

Lemma run_no_save P h : forall s st s' st', no_save h = true -> run P h s st = Done s' st' -> st' = st.
Proof.
  induction h as [|o r IH]; intros s st s' st' Hno Hrun; cbn [run] in Hrun.
  - injection Hrun as _ <-. reflexivity.
  - destruct (step P o s st) as [s1 st1|w] eqn:E; [|discriminate].
    assert (Ho : no_save [o] = true /\ no_save r = true) by (destruct o; try discriminate Hno; exact (conj eq_refl Hno)).
    rewrite (IH s1 st1 s' st' (proj2 Ho) Hrun). exact (step_no_save P o s st s1 st1 (proj1 Ho) E).
Qed.

(* whatever happens after a completed save and before the next one does not touch the storage: a crash there
   loads the state of that save. *)
Lemma crash_loses_only_tail h1 h2 s1 st1 s2 st2 :
  run prims_fixed (h1 ++ [OSave]) init storage0 = Done s1 st1 ->
  no_save h2 = true ->
  run prims_fixed ((h1 ++ [OSave]) ++ h2) init storage0 = Done s2 st2 ->
  st2 = st1 /\ st2 = full_dump s1 /\ load prims_fixed st2 = load prims_fixed (full_dump s1).
Proof.
  intros H1 Hno H2. rewrite run_app, H1 in H2.
  pose proof (run_no_save prims_fixed h2 _ _ _ _ Hno H2) as ->.
  destruct (save_load_roundtrip h1 s1 st1 H1) as [Ha Hb]. auto.
Qed.

(* the pre-fix code (raiseValidity/lowerValidity without setDirty, defect F9) violates dirty_complete:
   header P(1), header C(2), body C, SAVE, body P (connects P, then C), SAVE. *)
Definition f9_history : list op :=
  [OInsertHeader 1 0; OInsertHeader 2 1; OSetPayloads 2 []; OSave; OSetPayloads 1 []; OConnect 1; OConnect 2; OSave].

Lemma dirty_complete_v0_refuted :
  exists s st b,
    run prims_v0 f9_history init storage0 = Done s st /\
    lookup (blocks s) 2 = Some b /\ b_dirty b = false /\
    s_level (bstatus b) = 2 /\
    (exists p, lookup (st_blocks st) 2 = Some p /\ status_word (p_status p) = 257 /\ status_word (bstatus b) = 258 /\ p <> b_pers b).
Proof.
  eexists _, _, _. split; [vm_compute; reflexivity|]. repeat split. eexists. repeat split. discriminate.
Qed.

(* the same history on the repaired code: the reloaded child is connected *)
Example f9_history_fixed_ok :
  exists s st, run prims_fixed f9_history init storage0 = Done s st /\ st = full_dump s /\
    option_map (fun p => s_level (p_status p)) (lookup (st_blocks st) 2) = Some 2.
Proof. eexists _, _. split; [vm_compute; reflexivity|]. split; reflexivity. Qed.

(* non-vacuity: a history with forks, endorsements, invalidation, removal, payload removal and three saves runs *)
Example history_runs :
  exists s st, run prims_fixed
    [OInsertHeader 1 0; OSetPayloads 1 [10]; OConnect 1; OApply 1 4 [(100, 0)]; OSetTip 1; OSave;
     OInsertHeader 2 1; OInsertHeader 3 1; OSetPayloads 3 [11]; OConnect 3; OInvalidate 2 FFailedBlock []; OSave;
     OUnapply 1; OSetTip 0; ORevalidate 2 FFailedBlock []; ORemovePayloads 3; ORemoveSubtree [3]; OInsertHeader 3 1; OSave]
    init storage0 = Done s st /\ st = full_dump s.
Proof. eexists _, _. split; [vm_compute; reflexivity|]. reflexivity. Qed.
