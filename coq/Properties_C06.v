(** C06 — untrusted bytes never over-read or over-allocate in the parsers.
    Property theorems only; each closed by [exact] of a lemma proved in Serde/.
    [c06_ok c] = forall bs, safe bs (dec c bs), where [safe bs r] (Serde/CodecSpec.v) says: r is
    [Value x rest] with [rest] a suffix of [bs] (consumed <= available), or [Invalid];
    never [Oob] (read outside the buffer), never [BadAlloc] (reserve above alloc_cap). *)
From Coq Require Import ZArith List.
From VB Require Import Gen.Consts Serde.StreamDefs Serde.CodecSpec Serde.StreamProofs Serde.EntityDefs Serde.EntityProofs Serde.Theorems Serde.StoredDefs Serde.StoredProofs Serde.AddrNorm Text.TextCommon Text.AddressDefs.
Local Open Scope Z_scope.

Theorem C06_primitives_total : forall bs,
  (forall n, safe bs (read_slice n bs)) /\ (forall t n, safe bs (read_be t n bs)) /\ (forall t, safe bs (read_le t bs)) /\
  (forall mn mx, safe bs (read_sbl mn mx bs)) /\ (forall t, safe bs (read_single_be t bs)) /\
  (forall mn mx, safe bs (read_var_len mn mx bs)) /\ (forall mn mx, safe bs (read_count mn mx bs)).
Proof. exact primitives_safe. Qed.
Print Assumptions C06_primitives_total.

Theorem C06_alloc_bounded : forall mn mx bs c r, mx < 2 ^ 31 -> read_count mn mx bs = Value c r -> 0 <= c /\ mn <= c <= mx.
Proof. exact read_count_bounded. Qed.
Print Assumptions C06_alloc_bounded.

Theorem C06_declared_limits_below_cap :
  MAX_LAYER_COUNT_MERKLE <= alloc_cap /\ MAX_BTC_BLOCKS_IN_VBKPOPTX <= alloc_cap /\
  MAX_POPDATA_VBK <= alloc_cap /\ MAX_POPDATA_VTB <= alloc_cap /\ MAX_POPDATA_ATV <= alloc_cap /\ 255 <= alloc_cap.
Proof. exact declared_limits_below_cap. Qed.
Print Assumptions C06_declared_limits_below_cap.

Theorem C06_array_of_total : forall A (c : codec A) mn mx, mx <= alloc_cap -> codec_ok c ->
  c06_ok (c_counted (c_count mn mx) c_empty c).
Proof. exact (fun A c mn mx Hm Hc => ok_safe _ (counted_ok mn mx c Hm Hc)). Qed.
Print Assumptions C06_array_of_total.

Theorem C06_parse_total_Address : forall addr_norm, addr_norm_sound addr_norm -> c06_ok (c_address addr_norm).
Proof. exact (fun an H => ok_safe _ (c_address_ok an H)). Qed.
Print Assumptions C06_parse_total_Address.
Theorem C06_parse_total_Output : forall addr_norm, addr_norm_sound addr_norm -> c06_ok (c_output addr_norm).
Proof. exact (fun an H => ok_safe _ (c_output_ok an H)). Qed.
Print Assumptions C06_parse_total_Output.
Theorem C06_parse_total_BtcTx : c06_ok c_btctx.
Proof. exact (ok_safe _ c_btctx_ok). Qed.
Print Assumptions C06_parse_total_BtcTx.
Theorem C06_parse_total_BtcBlock : c06_ok c_btcblock.
Proof. exact (ok_safe _ c_btcblock_ok). Qed.
Print Assumptions C06_parse_total_BtcBlock.
Theorem C06_parse_total_VbkBlock : c06_ok c_vbkblock.
Proof. exact (ok_safe _ c_vbkblock_ok). Qed.
Print Assumptions C06_parse_total_VbkBlock.
Theorem C06_parse_total_MerklePath : c06_ok c_merklepath.
Proof. exact (ok_safe _ c_merklepath_ok). Qed.
Print Assumptions C06_parse_total_MerklePath.
Theorem C06_parse_total_VbkMerklePath : c06_ok c_vbkmerklepath.
Proof. exact (ok_safe _ c_vbkmerklepath_ok). Qed.
Print Assumptions C06_parse_total_VbkMerklePath.
Theorem C06_parse_total_PublicationData : c06_ok c_pubdata.
Proof. exact (ok_safe _ c_pubdata_ok). Qed.
Print Assumptions C06_parse_total_PublicationData.
Theorem C06_parse_total_VbkTx : forall addr_norm, addr_norm_sound addr_norm -> c06_ok (c_vbktx addr_norm).
Proof. exact (fun an H => ok_safe _ (c_vbktx_ok an H)). Qed.
Print Assumptions C06_parse_total_VbkTx.
Theorem C06_parse_total_VbkPopTx : forall addr_norm, addr_norm_sound addr_norm -> c06_ok (c_vbkpoptx addr_norm).
Proof. exact (fun an H => ok_safe _ (c_vbkpoptx_ok an H)). Qed.
Print Assumptions C06_parse_total_VbkPopTx.
Theorem C06_parse_total_ATV : forall addr_norm, addr_norm_sound addr_norm -> c06_ok (c_atv addr_norm).
Proof. exact (fun an H => ok_safe _ (c_atv_ok an H)). Qed.
Print Assumptions C06_parse_total_ATV.
Theorem C06_parse_total_VTB : forall addr_norm, addr_norm_sound addr_norm -> c06_ok (c_vtb addr_norm).
Proof. exact (fun an H => ok_safe _ (c_vtb_ok an H)). Qed.
Print Assumptions C06_parse_total_VTB.
Theorem C06_parse_total_PopData : forall addr_norm, addr_norm_sound addr_norm -> c06_ok (c_popdata addr_norm).
Proof. exact (fun an H => ok_safe _ (c_popdata_ok an H)). Qed.
Print Assumptions C06_parse_total_PopData.
Theorem C06_parse_total_AltBlock : c06_ok c_altblock.
Proof. exact (ok_safe _ c_altblock_ok). Qed.
Print Assumptions C06_parse_total_AltBlock.
Theorem C06_parse_total_KeystoneContainer : c06_ok c_keystones.
Proof. exact (ok_safe _ c_keystones_ok). Qed.
Print Assumptions C06_parse_total_KeystoneContainer.
Theorem C06_parse_total_ContextInfoContainer : c06_ok c_ctxinfo.
Proof. exact (ok_safe _ c_ctxinfo_ok). Qed.
Print Assumptions C06_parse_total_ContextInfoContainer.
Theorem C06_parse_total_AuthenticatedContextInfoContainer : c06_ok c_authctx.
Proof. exact (ok_safe _ c_authctx_ok). Qed.
Print Assumptions C06_parse_total_AuthenticatedContextInfoContainer.
Theorem C06_parse_total_VbkEndorsement : c06_ok c_vbk_endorsement.
Proof. exact (ok_safe _ (c_endorsement_ok _ _ _ _)). Qed.
Print Assumptions C06_parse_total_VbkEndorsement.
Theorem C06_parse_total_AltEndorsement : c06_ok c_alt_endorsement.
Proof. exact (ok_safe _ (c_endorsement_ok _ _ _ _)). Qed.
Print Assumptions C06_parse_total_AltEndorsement.
Theorem C06_parse_total_StoredBlockIndex_Btc : c06_ok c_stored_btc.
Proof. exact (ok_safe _ c_stored_btc_ok). Qed.
Print Assumptions C06_parse_total_StoredBlockIndex_Btc.
Theorem C06_parse_total_StoredBlockIndex_Vbk : c06_ok c_stored_vbk.
Proof. exact (ok_safe _ c_stored_vbk_ok). Qed.
Print Assumptions C06_parse_total_StoredBlockIndex_Vbk.
Theorem C06_parse_total_StoredBlockIndex_Alt : c06_ok c_stored_alt.
Proof. exact (ok_safe _ c_stored_alt_ok). Qed.
Print Assumptions C06_parse_total_StoredBlockIndex_Alt.

(** which address wire forms are accepted, over the address model of property C18: (type byte, bytes) is accepted only if
    Address::fromString accepts EncodeBase58|59(bytes) (by wire type) — the resulting type comes from the TEXT *)
Theorem C06_address_accepted_wire_forms : forall sha256 ty b t' b', addr_norm_c18 sha256 ty b = Some (t', b') ->
  exists text a, text_of_wire ty b = Ok text /\ addr_from_string sha256 text = Ok a /\
                 t' = AddressDefs.addr_type a /\ (ty = ADDR_STANDARD \/ ty = ADDR_MULTISIG).
Proof. exact addr_norm_c18_accepts. Qed.
Print Assumptions C06_address_accepted_wire_forms.

(** the same parsers with the CONCRETE address normalisation [addr_norm_c18 sha256] (what DeserializeFromVbkEncoding(Address) computes,
    over the C18 text model): its premise [addr_norm_sound] is proved for every sha256 (Serde/AddrNormProofs.v), so nothing but
    [sha256] stays abstract *)
From VB Require Serde.AddrNormProofs.
Theorem C06_addr_norm_sound_discharged : forall sha256, addr_norm_sound (addr_norm_c18 sha256).
Proof. exact AddrNormProofs.addr_norm_c18_sound. Qed.
Print Assumptions C06_addr_norm_sound_discharged.
Theorem C06_parse_total_Address_concrete : forall sha256, c06_ok (c_address (addr_norm_c18 sha256)).
Proof. exact (fun sha256 => C06_parse_total_Address _ (C06_addr_norm_sound_discharged sha256)). Qed.
Print Assumptions C06_parse_total_Address_concrete.
Theorem C06_parse_total_Output_concrete : forall sha256, c06_ok (c_output (addr_norm_c18 sha256)).
Proof. exact (fun sha256 => C06_parse_total_Output _ (C06_addr_norm_sound_discharged sha256)). Qed.
Print Assumptions C06_parse_total_Output_concrete.
Theorem C06_parse_total_VbkTx_concrete : forall sha256, c06_ok (c_vbktx (addr_norm_c18 sha256)).
Proof. exact (fun sha256 => C06_parse_total_VbkTx _ (C06_addr_norm_sound_discharged sha256)). Qed.
Print Assumptions C06_parse_total_VbkTx_concrete.
Theorem C06_parse_total_VbkPopTx_concrete : forall sha256, c06_ok (c_vbkpoptx (addr_norm_c18 sha256)).
Proof. exact (fun sha256 => C06_parse_total_VbkPopTx _ (C06_addr_norm_sound_discharged sha256)). Qed.
Print Assumptions C06_parse_total_VbkPopTx_concrete.
Theorem C06_parse_total_ATV_concrete : forall sha256, c06_ok (c_atv (addr_norm_c18 sha256)).
Proof. exact (fun sha256 => C06_parse_total_ATV _ (C06_addr_norm_sound_discharged sha256)). Qed.
Print Assumptions C06_parse_total_ATV_concrete.
Theorem C06_parse_total_VTB_concrete : forall sha256, c06_ok (c_vtb (addr_norm_c18 sha256)).
Proof. exact (fun sha256 => C06_parse_total_VTB _ (C06_addr_norm_sound_discharged sha256)). Qed.
Print Assumptions C06_parse_total_VTB_concrete.
Theorem C06_parse_total_PopData_concrete : forall sha256, c06_ok (c_popdata (addr_norm_c18 sha256)).
Proof. exact (fun sha256 => C06_parse_total_PopData _ (C06_addr_norm_sound_discharged sha256)). Qed.
Print Assumptions C06_parse_total_PopData_concrete.

(** * TIME bounds: the decoders counted (Serde/StepsDefs.v: one step per byte delivered by a read and per
    entered iteration of an element loop), and containsSplit as coded with an iteration/work counter
    (Stateless/SplitStepsDefs.v). [steps_bound s c a b] := forall bs, fst (s_run s bs) = dec c bs /\
    0 <= snd (s_run s bs) <= a * len bs + b — the counted run returns what the decoder of the theorems above
    returns, on every byte string. *)
From VB Require Serde.StepsDefs Serde.StepsProofs Serde.StepsTheorems Serde.StepsExamples
  Stateless.EmbedDefs Stateless.SplitStepsDefs Stateless.SplitSteps.
Import Serde.StepsDefs Serde.StepsTheorems.

Theorem C06_steps_linear : forall addr_norm,
  steps_bound (s_vbktx addr_norm) (c_vbktx addr_norm) 6 1 /\ steps_bound (s_vbkpoptx addr_norm) (c_vbkpoptx addr_norm) 6 2 /\
  steps_bound (s_atv addr_norm) (c_atv addr_norm) 6 2 /\ steps_bound (s_vtb addr_norm) (c_vtb addr_norm) 6 3 /\
  steps_bound (s_popdata addr_norm) (c_popdata addr_norm) 7 8.
Proof. exact steps_linear. Qed.
Print Assumptions C06_steps_linear.

Theorem C06_steps_linear_parts : forall addr_norm,
  steps_bound (s_output addr_norm) (c_output addr_norm) 2 0 /\ steps_bound s_vbkblock c_vbkblock 2 0 /\
  steps_bound s_btcblock c_btcblock 2 0 /\ steps_bound s_merklepath c_merklepath 4 1 /\
  steps_bound s_vbkmerklepath c_vbkmerklepath 2 1 /\ steps_bound s_pubdata c_pubdata 2 0.
Proof. exact steps_linear_parts. Qed.
Print Assumptions C06_steps_linear_parts.

(** the generic readArrayOf over any linear element reader that consumes >= 1 byte on success *)
Theorem C06_steps_array_of : forall A mn mx a b m (P : list byte -> sres A) p,
  refines P p -> 0 <= a -> 0 <= b -> 1 <= m -> lin a b m P ->
  forall bs, fst (read_array_of_s mn mx P bs) = read_array_of mn mx p bs /\
             0 <= snd (read_array_of_s mn mx P bs) <= Z.max 2 (a + amort b m) * len bs + (b + 1).
Proof. exact @array_steps. Qed.
Print Assumptions C06_steps_array_of.

(** the element loop costs the same bound whatever count it is started with *)
Theorem C06_steps_count_independent : forall A a b m (P : list byte -> sres A),
  0 <= a -> 0 <= b -> 1 <= m -> lin a b m P ->
  forall n bs, 0 <= snd (read_n_s P n bs) <= (a + amort b m) * len bs + (b + 1).
Proof. exact @loop_steps_count_independent. Qed.
Print Assumptions C06_steps_count_independent.

(** the range check before reserve() and the loop: a count outside [min, max] ends the array within 9 steps *)
Theorem C06_steps_count_out_of_range : forall A mn mx (P : list byte -> sres A) bs c r,
  fst (read_single_be_s I32 bs) = StreamDefs.Value c r -> check_range c mn mx = false ->
  read_array_of_s mn mx P bs = (StreamDefs.Invalid, snd (read_single_be_s I32 bs)) /\ snd (read_single_be_s I32 bs) <= 9.
Proof. exact @array_count_out_of_range. Qed.
Print Assumptions C06_steps_count_out_of_range.

(** without that check, 5 bytes buy 2^31 iterations of an element that succeeds on no bytes *)
Theorem C06_steps_unchecked_count_refuted :
  len huge_count = 5 /\ 2 ^ 31 <= snd (read_array_unchecked_s (s_run s_empty) huge_count) /\
  read_array_of_s 0 MAX_POPDATA_VTB (s_run s_empty) huge_count = (StreamDefs.Invalid, 9).
Proof. exact unchecked_count_refuted. Qed.
Print Assumptions C06_steps_unchecked_count_refuted.

Theorem C06_steps_example_PopData :
  len StepsExamples.ex_bytes = 2661 /\
  s_run (s_popdata StepsExamples.an0) StepsExamples.ex_bytes = (StreamDefs.Value StepsExamples.ex_pop nil, 5428) /\
  dec (c_popdata StepsExamples.an0) StepsExamples.ex_bytes = StreamDefs.Value StepsExamples.ex_pop nil /\
  5428 <= 7 * len StepsExamples.ex_bytes + 8.
Proof. exact StepsExamples.popdata_steps_example. Qed.
Print Assumptions C06_steps_example_PopData.

Import Stateless.EmbedDefs Stateless.SplitStepsDefs.

(** the loop of containsSplit: one iteration moves the loop-head position forward by 1..3 bytes and leaves it
    inside the buffer (lastPos is taken AFTER the three magic bytes) *)
Theorem C06_split_measure_decreases : forall g data tx pos pos' w,
  scan_step false g data tx pos = Continue pos' w ->
  5 < scan_measure tx pos /\ scan_measure tx pos - 3 <= scan_measure tx pos' < scan_measure tx pos.
Proof. exact SplitSteps.scan_step_progress. Qed.
Print Assumptions C06_split_measure_decreases.

(** the fuel [containsSplit] is given is never exhausted; the counted loop returns its verdict (all inputs) *)
Theorem C06_split_terminates : forall data tx,
  exists v n w, containsSplit_w data tx = Done v n w /\ containsSplit data tx = v /\ 1 <= n <= Z.max 1 (zlen tx - 4).
Proof. exact SplitSteps.split_terminates. Qed.
Print Assumptions C06_split_terminates.

(** total work <= |tx| * (2656 + 2|data|) / 3  (2656: 15 chunks x (1 + 23 bit reads + 127 copied bytes), 43-byte table) *)
Theorem C06_split_steps_bound : forall data tx,
  zlen data < 2 ^ 32 -> zlen tx < 2 ^ 32 - 2 ^ 11 ->
  exists v n w, containsSplit_w data tx = Done v n w /\ containsSplit data tx = v /\
                1 <= n <= Z.max 1 (zlen tx - 4) /\ 0 <= w /\ 3 * w <= zlen tx * (2656 + 2 * zlen data).
Proof. exact SplitSteps.split_steps_bound. Qed.
Print Assumptions C06_split_steps_bound.

(** lastPos taken BEFORE the magic: on 92 7a 59 10 00 + 80 zero bytes the loop state repeats and no fuel suffices *)
Theorem C06_split_rewind_to_magic_start_refuted :
  exists data tx pos w,
    length data = 80%nat /\ 5 < scan_measure tx pos /\
    scan_step true true data tx pos = Continue pos w /\
    (forall fuel, scan_run true true data tx pos fuel = OutOfFuel) /\
    containsSplit_w data tx = Done (VFalse 0) 79 251.
Proof. exact SplitSteps.split_rewind_refuted. Qed.
Print Assumptions C06_split_rewind_to_magic_start_refuted.

Theorem C06_split_steps_example :
  containsSplit_w EmbedProofs.f11_data EmbedBits.honest_split_tx = Done VTrue 82 276 /\
  3 * 276 <= zlen EmbedBits.honest_split_tx * (2656 + 2 * zlen EmbedProofs.f11_data).
Proof. exact SplitSteps.honest_split_steps. Qed.
Print Assumptions C06_split_steps_example.
