(** The payout map (std::map<payout_info, uint64_t> with [+=]): sortedness,
    lookups after a sequence of insertions, order independence, total. *)
From Coq Require Import ZArith List Bool Lia Permutation.
From VB Require Import Rewards.BigDecDefs Rewards.CalcDefs Rewards.SpecDefs.
Import ListNotations.
Local Open Scope Z_scope.

Fixpoint keys_above (lo : Z) (m : list (Z * Z)) : Prop :=
  match m with [] => True | (k, _) :: r => lo < k /\ keys_above k r end.
Definition sorted (m : list (Z * Z)) : Prop :=
  match m with [] => True | (k, _) :: r => keys_above k r end.

Lemma keys_above_weaken lo lo' m : lo' <= lo -> keys_above lo m -> keys_above lo' m.
Proof. destruct m as [|[k v] r]; cbn; [trivial|]. intros ? [? ?]. split; [lia|assumption]. Qed.

Lemma keys_above_get lo m k : keys_above lo m -> k <= lo -> map_get k m = None.
Proof.
  revert lo. induction m as [|[k' v'] r IH]; intros lo; cbn [keys_above map_get]; [reflexivity|].
  intros [H1 H2] Hk. assert ((k =? k') = false) as -> by (apply Z.eqb_neq; lia).
  apply (IH k'); [assumption|lia].
Qed.

Lemma keys_above_add lo k v m : keys_above lo m -> lo < k -> keys_above lo (map_add k v m).
Proof.
  revert lo. induction m as [|[k' v'] r IH]; intros lo; cbn [keys_above map_add].
  - intros _ H. split; [exact H|exact I].
  - intros [H1 H2] Hk. destruct (Z.ltb_spec k k'); [|destruct (Z.eqb_spec k k')]; cbn [keys_above].
    + tauto.
    + subst k'. tauto.
    + split; [exact H1|]. apply IH; [exact H2|lia].
Qed.

Lemma sorted_add k v m : sorted m -> sorted (map_add k v m).
Proof.
  destruct m as [|[k' v'] r]; cbn [sorted map_add]; [trivial|]. intros H.
  destruct (Z.ltb_spec k k'); [|destruct (Z.eqb_spec k k')]; cbn [sorted keys_above].
  - tauto.
  - subst k'. exact H.
  - apply keys_above_add; [exact H|lia].
Qed.

Lemma sorted_tail kv m : sorted (kv :: m) -> sorted m.
Proof. destruct kv as [k v], m as [|[k2 v2] r2]; cbn; tauto. Qed.

Lemma sorted_ext m : forall m', sorted m -> sorted m' ->
  (forall k, map_get k m = map_get k m') -> m = m'.
Proof.
  induction m as [|[k v] r IH]; intros [|[k' v'] r'] S1 S2 Hget.
  - reflexivity.
  - specialize (Hget k'). cbn [map_get] in Hget. rewrite Z.eqb_refl in Hget. discriminate.
  - specialize (Hget k). cbn [map_get] in Hget. rewrite Z.eqb_refl in Hget. discriminate.
  - cbn [sorted] in S1, S2.
    (* the least key of either map is found in the other, so it is the least key there too *)
    assert (Hk : k = k').
    { pose proof (Hget k) as G1. pose proof (Hget k') as G2. cbn [map_get] in G1, G2. rewrite Z.eqb_refl in G1, G2.
      destruct (Z.lt_trichotomy k k') as [L|[L|L]]; [|exact L|].
      - destruct (Z.eqb_spec k k'); [lia|]. rewrite (keys_above_get k' r' k S2) in G1 by lia. discriminate.
      - destruct (Z.eqb_spec k' k); [lia|]. rewrite (keys_above_get k r k' S1) in G2 by lia. discriminate. }
    subst k'. pose proof (Hget k) as G. cbn [map_get] in G. rewrite Z.eqb_refl in G. injection G as <-.
    f_equal. apply IH; [exact (sorted_tail (k, v) r S1) | exact (sorted_tail (k, v) r' S2) |].
    intros pid. specialize (Hget pid). cbn [map_get] in Hget.
    destruct (Z.eqb_spec pid k) as [E|]; [subst pid|exact Hget].
    rewrite (keys_above_get k r k S1), (keys_above_get k r' k S2) by lia. reflexivity.
Qed.

Definition opt0 (o : option Z) : Z := match o with Some a => a | None => 0 end.

Lemma map_get_add k v m k' : sorted m ->
  map_get k' (map_add k v m) = if k' =? k then Some (wrap64 (opt0 (map_get k m) + v)) else map_get k' m.
Proof.
  induction m as [|[k2 v2] r IH]; intros Hs; cbn [map_add map_get opt0]; [reflexivity|].
  destruct (Z.ltb_spec k k2); [|destruct (Z.eqb_spec k k2)]; cbn [map_get opt0].
  - destruct (Z.eqb_spec k k2); [lia|]. rewrite (keys_above_get k2 r k Hs) by lia. reflexivity.
  - subst k2. destruct (k' =? k); reflexivity.
  - rewrite (IH (sorted_tail _ _ Hs)).
    destruct (Z.eqb_spec k' k2), (Z.eqb_spec k' k); try reflexivity. lia.
Qed.

Lemma wrap64_add_l a b : wrap64 (wrap64 a + b) = wrap64 (a + b).
Proof. unfold wrap64. apply Zplus_mod_idemp_l. Qed.

Section Fold.
  Variable f : Z * Z -> Z.
  Definition step (m : list (Z * Z)) (ph : Z * Z) : list (Z * Z) := map_add (fst ph) (f ph) m.
  Definition vals (pid : Z) (l : list (Z * Z)) : list Z := map f (filter (fun ph => fst ph =? pid) l).

  Lemma fold_sorted l : forall m0, sorted m0 -> sorted (fold_left step l m0).
  Proof. induction l as [|ph r IH]; intros m0 H; cbn [fold_left]; [exact H|]. apply IH, sorted_add, H. Qed.

  Lemma fold_get pid l : forall m0, sorted m0 ->
    map_get pid (fold_left step l m0) =
    match vals pid l with
    | [] => map_get pid m0
    | vs => Some (wrap64 (opt0 (map_get pid m0) + zsum vs))
    end.
  Proof.
    induction l as [|ph r IH]; intros m0 Hs; cbn [fold_left]; [reflexivity|].
    rewrite IH by (apply sorted_add, Hs). unfold vals, step. cbn [filter].
    rewrite map_get_add by exact Hs.
    destruct (Z.eqb_spec pid (fst ph)) as [->|Hne]; [|destruct (Z.eqb_spec (fst ph) pid); [congruence|reflexivity]].
    rewrite Z.eqb_refl. cbn [map opt0].
    destruct (map f (filter (fun ph0 : Z * Z => fst ph0 =? fst ph) r)) as [|v vs].
    - unfold zsum. cbn [fold_right]. rewrite Z.add_0_r. reflexivity.
    - rewrite wrap64_add_l. f_equal. f_equal. unfold zsum. cbn [fold_right]. lia.
  Qed.

  Lemma zsum_perm l l' : Permutation l l' -> zsum l = zsum l'.
  Proof. induction 1; unfold zsum in *; cbn [fold_right]; lia. Qed.

  Lemma vals_perm pid l l' : Permutation l l' -> Permutation (vals pid l) (vals pid l').
  Proof.
    intros H. unfold vals. apply Permutation_map.
    induction H; cbn [filter].
    - constructor.
    - destruct (fst x =? pid); [constructor|]; assumption.
    - destruct (fst x =? pid), (fst y =? pid); try apply perm_swap; apply Permutation_refl.
    - eapply perm_trans; eassumption.
  Qed.

  Lemma fold_get_perm pid l l' : Permutation l l' ->
    map_get pid (fold_left step l []) = map_get pid (fold_left step l' []).
  Proof.
    intros H. rewrite !fold_get by exact I.
    pose proof (vals_perm pid _ _ H) as Hv. pose proof (zsum_perm _ _ Hv) as Hz.
    destruct (vals pid l) as [|a r] eqn:E1, (vals pid l') as [|a' r'] eqn:E2; try reflexivity.
    - apply Permutation_nil in Hv. discriminate.
    - apply Permutation_sym, Permutation_nil in Hv. discriminate.
    - rewrite Hz. reflexivity.
  Qed.

  (** total of the map never exceeds what was inserted (uint64_t wrap only loses) *)
  Definition total (m : list (Z * Z)) : Z := zsum (map snd m).
  Definition nonneg (m : list (Z * Z)) : Prop := Forall (fun kv => 0 <= snd kv) m.

  Lemma total_cons k v m : total ((k, v) :: m) = v + total m.
  Proof. reflexivity. Qed.

  Lemma wrap64_le x : 0 <= x -> 0 <= wrap64 x <= x.
  Proof.
    intros. unfold wrap64, two64. split; [apply Z.mod_pos_bound; reflexivity|apply Z.mod_le; [lia|reflexivity]].
  Qed.

  Lemma add_total k v m : 0 <= v -> nonneg m ->
    nonneg (map_add k v m) /\ total (map_add k v m) <= total m + v.
  Proof.
    intros Hv. pose proof (wrap64_le v Hv).
    induction 1 as [|[k' v'] r Hv' Hr [IH1 IH2]]; cbn [map_add snd] in *.
    - split; [repeat constructor; cbn [snd]; lia | rewrite total_cons; lia].
    - destruct (k <? k'); [|destruct (k =? k')]; rewrite !total_cons.
      + split; [repeat (constructor; try assumption); cbn [snd]; lia | lia].
      + pose proof (wrap64_le (v' + v)). split; [constructor; [cbn [snd]; lia | exact Hr] | lia].
      + split; [constructor; assumption | lia].
  Qed.

  Lemma fold_total l : (forall ph, In ph l -> 0 <= f ph) -> forall m0, nonneg m0 ->
    total (fold_left step l m0) <= total m0 + zsum (map f l).
  Proof.
    induction l as [|ph r IH]; intros Hf m0 Hn; cbn [fold_left map].
    - unfold zsum. cbn [fold_right]. lia.
    - destruct (add_total (fst ph) (f ph) m0 (Hf ph (or_introl eq_refl)) Hn) as [Hn1 Ht1].
      specialize (IH (fun ph' H' => Hf ph' (or_intror H')) (step m0 ph) Hn1).
      change (zsum (f ph :: map f r)) with (f ph + zsum (map f r)). unfold step in *. lia.
  Qed.
End Fold.
