(** Structural facts about the calculator model that hold for EVERY wrap
    function, parameter set and input (no bounds): endorsements whose block of
    proof is not on the best VBK chain are ignored; a block without counted
    endorsements pays nothing. *)
From Coq Require Import ZArith List Bool.
From VB Require Import Rewards.BigDecDefs Rewards.CalcDefs Rewards.SpecDefs.
Import ListNotations.
Local Open Scope Z_scope.

Definition counted (e : Endorsement) : bool := match e_bop e with Some _ => true | None => false end.
Definition strip_block (b : Block) : Block := {| b_height := b_height b; b_ends := filter counted (b_ends b) |}.

Lemma best_pub_strip ends : forall bp, best_pub (filter counted ends) bp = best_pub ends bp.
Proof.
  induction ends as [|e r IH]; intros bp; cbn [filter best_pub]; [reflexivity|].
  unfold counted at 1. destruct (e_bop e) eqn:E; cbn [best_pub]; rewrite ?E; apply IH.
Qed.

Lemma best_pub_none ends bp : (forall e, In e ends -> e_bop e = None) -> best_pub ends bp = bp.
Proof.
  induction ends as [|e r IH]; intros H; cbn [best_pub]; [reflexivity|].
  rewrite (H e (or_introl eq_refl)). apply IH. intros e' He'. apply H. right. exact He'.
Qed.

Section AnyWrap.
  Variable w : Z -> Z.

  Lemma score_loop_strip p bp ends : forall t,
    score_loop w p bp (filter counted ends) t = score_loop w p bp ends t.
  Proof.
    induction ends as [|e r IH]; intros t; cbn [filter score_loop]; [reflexivity|].
    unfold counted at 1. destruct (e_bop e) as [h|] eqn:E; cbn [score_loop]; rewrite ?E.
    - destruct (h - bp <? 0); [reflexivity|apply IH].
    - apply IH.
  Qed.

  Lemma score_strip p ends :
    score_from_endorsements w p (filter counted ends) = score_from_endorsements w p ends.
  Proof. unfold score_from_endorsements. rewrite best_pub_strip, score_loop_strip. reflexivity. Qed.

  Lemma payout_loop_strip p bp s br ends : forall m,
    payout_loop w p bp s br (filter counted ends) m = payout_loop w p bp s br ends m.
  Proof.
    induction ends as [|e r IH]; intros m; cbn [filter payout_loop]; [reflexivity|].
    unfold counted at 1. destruct (e_bop e) as [h|] eqn:E; cbn [payout_loop]; rewrite ?E.
    - destruct (h - bp <? 0); [reflexivity|].
      destruct (miner_reward w p (wrap32 (h - bp)) s br); cbn [bind]; try reflexivity. apply IH.
    - apply IH.
  Qed.

  Lemma difficulty_loop_strip p : forall n prevs t,
    difficulty_loop w p n (map strip_block prevs) t = difficulty_loop w p n prevs t.
  Proof.
    induction n as [|n IH]; intros prevs t; destruct prevs as [|b r]; cbn [map difficulty_loop]; try reflexivity.
    cbn [strip_block b_ends]. rewrite score_strip.
    destruct (score_from_endorsements w p (b_ends b)); cbn [bind]; try reflexivity. apply IH.
  Qed.

  Lemma payouts_inner_strip p b s d : payouts_inner w p (strip_block b) s d = payouts_inner w p b s d.
  Proof.
    unfold payouts_inner. cbn [strip_block b_ends b_height]. rewrite best_pub_strip.
    destruct (best_pub (b_ends b) (-1) <? 0); [reflexivity|].
    destruct (block_reward w p (wrap32 (b_height b)) s d); cbn [bind]; try reflexivity.
    apply payout_loop_strip.
  Qed.

  Lemma calc_payouts_strip p b prevs :
    calc_payouts w p (strip_block b) (map strip_block prevs) = calc_payouts w p b prevs.
  Proof.
    unfold calc_payouts. cbn [strip_block b_ends]. rewrite score_strip.
    destruct (score_from_endorsements w p (b_ends b)); cbn [bind]; try reflexivity.
    unfold calc_difficulty. rewrite difficulty_loop_strip.
    destruct (difficulty_loop w p (Z.to_nat (p_interval p)) prevs 0) as [total| | |]; cbn [bind]; try reflexivity.
    destruct (bd_div w total (bd_of_u64 w (p_interval p))); cbn [bind]; try reflexivity.
    apply (payouts_inner_strip p b).
  Qed.

  (** deleting every endorsement whose block of
      proof is not on the best VBK chain, anywhere in the chain, changes nothing *)
  Lemma get_pop_payout_strip p chain :
    get_pop_payout w p (map strip_block chain) = get_pop_payout w p chain.
  Proof.
    unfold get_pop_payout. destruct chain as [|tip r]; [reflexivity|].
    change (map strip_block (tip :: r)) with (strip_block tip :: map strip_block r).
    cbn [strip_block b_height].
    destruct ((p_delay p - 1 <? 0) || (b_height tip <? p_delay p - 1)); [reflexivity|].
    change (strip_block tip :: map strip_block r) with (map strip_block (tip :: r)).
    rewrite nth_error_map. destruct (nth_error (tip :: r) (Z.to_nat (p_delay p - 1))) as [e|]; cbn [option_map]; [|reflexivity].
    cbn [strip_block b_height].
    destruct (wrap32 (b_height tip) <? wrap32 (b_height e + p_settle p - 1)); [reflexivity|].
    rewrite skipn_map. apply calc_payouts_strip.
  Qed.

  (** a block none of whose endorsements counts pays nothing *)
  Lemma payouts_inner_none p b s d :
    (forall e, In e (b_ends b) -> e_bop e = None) -> payouts_inner w p b s d = Ok [].
  Proof. intros H. unfold payouts_inner. rewrite (best_pub_none _ _ H). reflexivity. Qed.

  Lemma calc_payouts_none p b prevs m :
    (forall e, In e (b_ends b) -> e_bop e = None) -> calc_payouts w p b prevs = Ok m -> m = [].
  Proof.
    intros H. unfold calc_payouts.
    destruct (score_from_endorsements w p (b_ends b)) as [s| | |]; cbn [bind]; try discriminate.
    destruct (calc_difficulty w p prevs) as [d| | |]; cbn [bind]; try discriminate.
    rewrite (payouts_inner_none p b s d H). intros E. inversion E. reflexivity.
  Qed.

  Lemma get_pop_payout_none p chain m :
    (forall e b, nth_error chain (Z.to_nat (p_delay p - 1)) = Some b -> In e (b_ends b) -> e_bop e = None) ->
    get_pop_payout w p chain = Ok m -> m = [].
  Proof.
    intros H. unfold get_pop_payout. destruct chain as [|tip r]; [discriminate|].
    destruct ((p_delay p - 1 <? 0) || (b_height tip <? p_delay p - 1)); [intros E; inversion E; reflexivity|].
    destruct (nth_error (tip :: r) (Z.to_nat (p_delay p - 1))) as [e|] eqn:En; [|intros E; inversion E; reflexivity].
    destruct (wrap32 (b_height tip) <? wrap32 (b_height e + p_settle p - 1)); [discriminate|].
    apply calc_payouts_none. intros e0 He0. exact (H e0 e eq_refl He0).
  Qed.
End AnyWrap.

