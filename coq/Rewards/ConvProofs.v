(** Facts about the double -> fixed-point conversion model. *)
From Coq Require Import ZArith Bool List Floats Lia.
From VB Require Import Gen.RewardParams Rewards.BigDecDefs Rewards.CalcDefs Rewards.SpecDefs Rewards.BoundsDefs Rewards.ConvDefs.
Import ListNotations.
Local Open Scope Z_scope.

(** whenever the conversion is defined its result is a uint64_t: the in_u64 conjuncts of params_okb
    hold for every converted parameter *)
Lemma conv_double_u64 d z : conv_double d = Some z -> in_u64 z = true.
Proof.
  unfold conv_double, in_u64. destruct (cv_trunc (d * cv_1e8)) as [v|]; [|discriminate].
  destruct ((0 <=? v) && (v <? 2 ^ 64)) eqn:E; [|discriminate]. intros H; injection H as <-. exact E.
Qed.

(** the converted defaults of Gen/RewardParams.v (computed by the generator's mirror) are what the float
    model computes from the decimal literals of the source *)
Lemma default_conversion :
  conv_lit gen_startOfSlope_lit_num gen_startOfSlope_lit_den = Some (p_start default_params) /\
  conv_lit gen_slopeNormal_lit_num gen_slopeNormal_lit_den = Some (p_slopeN default_params) /\
  conv_lit gen_slopeKeystone_lit_num gen_slopeKeystone_lit_den = Some (p_slopeK default_params) /\
  conv_lit gen_maxScoreThresholdNormal_lit_num gen_maxScoreThresholdNormal_lit_den = Some (p_thrN default_params) /\
  conv_lit gen_maxScoreThresholdKeystone_lit_num gen_maxScoreThresholdKeystone_lit_den = Some (p_thrK default_params) /\
  conv_lits gen_roundRatios_lit_num gen_roundRatios_lit_den = map Some (p_ratios default_params) /\
  conv_lits gen_lookupTable_lit_num gen_lookupTable_lit_den = map Some (p_table default_params).
Proof. vm_compute. repeat split; reflexivity. Qed.

(** "the converted value is the decimal literal times 1e8" is false: the product is rounded, then truncated *)
Lemma conversion_exact_refuted :
  exists num den z, In (num, den) (combine gen_lookupTable_lit_num gen_lookupTable_lit_den) /\
    conv_lit num den = Some z /\ z * den < num.
Proof.
  exists 6766428, 1, 6766427. split; [|split; [vm_compute; reflexivity|lia]].
  apply (nth_error_In _ 23). reflexivity.
Qed.

Example conv_satisfiable :
  conv_double 0x1.b4bc6a7ef9db2p-3%float = Some 21325000 /\ conv_double 0x1p-1%float = Some 50000000 /\
  conv_double (-0x1p+0)%float = None /\ conv_double 0x1p+40%float = None /\ conv_double nan = None.
Proof. vm_compute. repeat split; reflexivity. Qed.
