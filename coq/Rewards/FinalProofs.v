(** getPopPayout = specification, totals and per-payout-info sums; then the
    statements of the C14 theorems for the library's arithmetic ([wrap256]) with
    the decidable side conditions of BoundsDefs.v, order independence, and
    examples showing that the side conditions are satisfiable. *)
From Coq Require Import ZArith List Bool Lia Permutation.
From VB Require Import Gen.RewardParams Rewards.BigDecDefs Rewards.CalcDefs Rewards.SpecDefs Rewards.BoundsDefs
     Rewards.ArithProofs Rewards.MapProofs Rewards.PayoutProofs.
Import ListNotations.
Local Open Scope Z_scope.

Definition on_pid (pid : Z) (b : Block) : list (Z * Z) := filter (fun ph => fst ph =? pid) (on_chain (b_ends b)).

Lemma skipn_nth {A} : forall n (l : list A),
  match skipn n l with
  | [] => nth_error l n = None
  | e :: r => nth_error l n = Some e /\ skipn (S n) l = r
  end.
Proof.
  induction n as [|n IH]; intros [|a r]; try reflexivity; [split; reflexivity|].
  cbn [skipn nth_error]. apply IH.
Qed.

Lemma zsum_filter_le {A} (f : A -> Z) (g : A -> bool) l : (forall x, 0 <= f x) ->
  0 <= zsum (map f (filter g l)) <= zsum (map f l).
Proof.
  intros Hf. induction l as [|x r IH]; cbn [filter map]; [cbn; lia|].
  destruct (g x); cbn [map]; rewrite ?zsum_cons; pose proof (Hf x); lia.
Qed.

Lemma zsum_member_le {A} (f : A -> Z) l x : (forall y, 0 <= f y) -> In x l -> f x <= zsum (map f l).
Proof.
  intros Hf. induction l as [|a r IH]; [intros []|]. intros [->|Hin]; cbn [map]; rewrite zsum_cons.
  - pose proof (zsum_filter_le f (fun _ => false) r Hf). lia.
  - pose proof (Hf a). specialize (IH Hin). lia.
Qed.

Section Top.
  Variable w : Z -> Z.
  Hypothesis Hw : forall x, 0 <= x < two256 -> w x = x.
  Variable p : Params.
  Hypothesis Hp : params_ok p.

  (** getPopPayout pays exactly what the specification says for the block [delay - 1] behind the
      tip, nothing when the chain is too short.  [Hlen]: the chain does not reach below height 0
      (heights are contiguous); [Hfin]: the VBK_ASSERT "block is finalized for PoP payouts" holds
      (payout delay >= settlement interval). *)
  Lemma get_pop_payout_spec tip rest :
    chain_ok (tip :: rest) ->
    Z.of_nat (length (tip :: rest)) <= b_height tip + 1 ->
    1 <= p_settle p ->
    match spec_endorsed p (tip :: rest) with
    | None => get_pop_payout w p (tip :: rest) = Ok []
    | Some (e, prevs) =>
      b_height e + p_settle p - 1 <= b_height tip ->
      get_pop_payout w p (tip :: rest) = Ok (spec_payout_map p e prevs) /\ block_ok e
    end.
  Proof.
    intros Hc Hlen Hset. unfold spec_endorsed, get_pop_payout.
    destruct (Z.leb_spec (p_delay p) 0) as [Hd|Hd].
    - destruct (Z.ltb_spec (p_delay p - 1) 0); [reflexivity | lia].
    - destruct (Z.ltb_spec (p_delay p - 1) 0); [lia|]. cbn [orb].
      pose proof (skipn_nth (Z.to_nat (p_delay p - 1)) (tip :: rest)) as Hn.
      destruct (Z.ltb_spec (b_height tip) (p_delay p - 1)).
      + rewrite skipn_all2 by lia. reflexivity.
      + destruct (skipn (Z.to_nat (p_delay p - 1)) (tip :: rest)) as [|e prevs] eqn:Es; [rewrite Hn; reflexivity|].
        destruct Hn as [-> Hn2]. intros Hfin.
        assert (Hin : In e (tip :: rest)) by (apply (skipn_in (Z.to_nat (p_delay p - 1))); rewrite Es; left; reflexivity).
        assert (Hcp : chain_ok prevs) by (intros b Hb; apply Hc, (skipn_in (S (Z.to_nat (p_delay p - 1)))); rewrite Hn2; exact Hb).
        destruct (Hc e Hin) as [Heh _]. destruct (Hc tip (or_introl eq_refl)) as [Hth _].
        rewrite !wrap32_small by lia. destruct (Z.ltb_spec (b_height tip) (b_height e + p_settle p - 1)); [lia|].
        rewrite Hn2. split; [|apply Hc, Hin].
        apply (calc_payouts_spec w Hw p Hp); [apply Hc, Hin | exact Hcp].
  Qed.

  Definition share (b : Block) (prevs : list Block) (ph : Z * Z) : Z :=
    spec_share (spec_block_reward p (b_height b) (spec_score p (b_ends b)) (spec_difficulty p prevs))
               (spec_score p (b_ends b))
               (spec_weight p (snd ph - spec_best (on_chain (b_ends b)))).

  Section Block.
    Variable b : Block.
    Variable prevs : list Block.
    Hypothesis Hb : block_ok b.

    Let v := on_chain (b_ends b).
    Let s := spec_score p (b_ends b).
    Let br := spec_block_reward p (b_height b) s (spec_difficulty p prevs).
    Let bp := spec_best v.

    Lemma s_bounds : 0 <= s < 2 ^ 96.
    Proof. apply (spec_score_bound p Hp), Hb. Qed.

    Lemma br_bounds : 0 <= br <= spec_cap p (spec_round p (b_height b)) /\ spec_cap p (spec_round p (b_height b)) < 2 ^ 64.
    Proof.
      destruct Hb as [Hh _]. pose proof s_bounds as [Hs _]. pose proof (spec_difficulty_pos p prevs).
      apply (block_reward_cap p Hp); (assumption || lia).
    Qed.

    Lemma share_range ph : 0 <= share b prevs ph.
    Proof.
      destruct br_bounds as [[B1 _] _]. pose proof s_bounds as [Hs _].
      destruct (u64_128 _ (weight_u64 p (snd ph - bp) Hp)) as [Hwt _].
      apply (share_le br s _ B1 Hs Hwt).
    Qed.

    (** each share is at most its exact proportion of the score, which is the sum of the weights *)
    Lemma all_shares_le : 0 <= zsum (map (share b prevs) v) <= br.
    Proof.
      destruct br_bounds as [[B1 _] _]. pose proof s_bounds as [Hs _].
      assert (H : forall l, 0 <= zsum (map (share b prevs) l) /\
                  s * zsum (map (share b prevs) l) <= br * zsum (map (fun ph => spec_weight p (snd ph - bp)) l)).
      { induction l as [|ph r [IH1 IH2]]; cbn [map]; [cbn; lia|]. rewrite !zsum_cons.
        destruct (u64_128 _ (weight_u64 p (snd ph - bp) Hp)) as [Hwt _].
        destruct (share_le br s _ B1 Hs Hwt) as [S1 S2].
        change (spec_share br s (spec_weight p (snd ph - bp))) with (share b prevs ph) in S1, S2. lia. }
      destruct (H v) as [S1 S2]. split; [exact S1|].
      change (zsum (map (fun ph => spec_weight p (snd ph - bp)) v)) with s in S2.
      destruct (Z.eq_dec s 0) as [E|E]; [|nia].
      (* score 0: every share is 0 by definition *)
      assert (Hz : forall l : list (Z * Z), zsum (map (share b prevs) l) = 0).
      { induction l as [|ph r IH]; [reflexivity|]. cbn [map]. rewrite zsum_cons, IH.
        unfold share, spec_share. fold s. rewrite E. reflexivity. }
      rewrite Hz. exact B1.
    Qed.

    Lemma paid_range pid : 0 <= spec_paid p b prevs pid <= br.
    Proof.
      pose proof (zsum_filter_le (share b prevs) (fun ph => fst ph =? pid) v share_range).
      pose proof all_shares_le. unfold spec_paid. fold v s br bp.
      change (fun ph : Z * Z => spec_share br s (spec_weight p (snd ph - bp))) with (share b prevs). lia.
    Qed.

    Lemma low64_share ph : In ph v -> low64 (share b prevs ph) = share b prevs ph.
    Proof.
      intros Hin. destruct br_bounds as [[_ B2] B3]. pose proof all_shares_le as [_ Ha].
      pose proof (zsum_member_le (share b prevs) v ph share_range Hin). pose proof (share_range ph).
      apply wrap64_small. lia.
    Qed.

    Lemma payout_map_fold :
      spec_payout_map p b prevs = fold_left (step (fun ph => low64 (share b prevs ph))) v [].
    Proof. reflexivity. Qed.

    (** the map entry of a payout info is the (exact, unwrapped) sum of the specification shares
        of all counted endorsements carrying it; payout infos without a counted endorsement have
        no entry *)
    Lemma payout_map_get pid :
      map_get pid (spec_payout_map p b prevs) =
      match filter (fun ph => fst ph =? pid) v with
      | [] => None
      | _ => Some (spec_paid p b prevs pid)
      end.
    Proof.
      rewrite payout_map_fold, fold_get by exact I. unfold vals. cbn [map_get opt0].
      rewrite (map_ext_in _ (share b prevs)) by (intros ph Hin; apply low64_share; apply filter_In in Hin; tauto).
      pose proof (paid_range pid) as Hpaid. destruct br_bounds as [[_ B2] B3].
      unfold spec_paid in *. fold v s br bp in Hpaid |- *.
      change (fun ph : Z * Z => spec_share br s (spec_weight p (snd ph - bp))) with (share b prevs) in Hpaid |- *.
      destruct (filter (fun ph => fst ph =? pid) v) as [|a r]; [reflexivity|].
      cbn [map] in *. rewrite Z.add_0_l. f_equal. apply wrap64_small. lia.
    Qed.

    (** what is paid in total never exceeds the block reward, which never exceeds the capped
        reward of the round (integer division only rounds down, so the inequality can be strict) *)
    Lemma payout_total_le :
      total (spec_payout_map p b prevs) <= br /\ br <= spec_cap p (spec_round p (b_height b)).
    Proof.
      destruct br_bounds as [[B1 B2] B3]. split; [|exact B2]. rewrite payout_map_fold.
      pose proof (fold_total (fun ph => low64 (share b prevs ph)) v) as Ht.
      assert (Hnn : forall ph, In ph v -> 0 <= low64 (share b prevs ph))
        by (intros ph Hin; rewrite low64_share by exact Hin; apply share_range).
      specialize (Ht Hnn [] (Forall_nil _)).
      rewrite (map_ext_in _ (share b prevs)) in Ht by (intros ph Hin; apply low64_share, Hin).
      pose proof all_shares_le as Ha. change (total []) with 0 in Ht. lia.
    Qed.
  End Block.
End Top.

(** under the bounds the library's 256-bit arithmetic and exact integer
    arithmetic both compute the specification *)
Lemma u256_refines_Z p b prevs :
  params_okb p = true -> block_okb b = true -> chain_okb prevs = true ->
  calc_payouts wrap256 p b prevs = calc_payouts (fun z => z) p b prevs.
Proof.
  intros Hp%params_okb_ok Hb%block_okb_ok Hc%chain_okb_ok.
  rewrite (calc_payouts_spec wrap256 wrap256_small p Hp b prevs Hb Hc).
  symmetry. apply (calc_payouts_spec (fun z => z) (fun x _ => eq_refl) p Hp b prevs Hb Hc).
Qed.

Lemma u256_refines_Z_block_reward p h s d :
  params_okb p = true -> 0 <= h < 2 ^ 31 -> 0 <= s < 2 ^ 128 -> 0 <= d ->
  block_reward wrap256 p h s d = block_reward (fun z => z) p h s d.
Proof.
  intros Hp%params_okb_ok Hh Hs Hd.
  rewrite (block_reward_spec wrap256 wrap256_small p Hp h s d Hh Hs Hd).
  symmetry. apply (block_reward_spec (fun z => z) (fun x _ => eq_refl) p Hp h s d Hh Hs Hd).
Qed.

Lemma block_reward_eq_spec p h s d :
  params_okb p = true -> 0 <= h < 2 ^ 31 -> 0 <= s < 2 ^ 128 -> 0 <= d ->
  block_reward wrap256 p h s d = Ok (spec_block_reward p h s d).
Proof. intros H1. apply (block_reward_spec wrap256 wrap256_small p (params_okb_ok p H1)). Qed.

Lemma block_reward_le_cap p h s d br :
  params_okb p = true -> 0 <= h < 2 ^ 31 -> 0 <= s < 2 ^ 128 -> 0 <= d ->
  block_reward wrap256 p h s d = Ok br ->
  0 <= br <= spec_cap p (spec_round p h) /\ spec_cap p (spec_round p h) < 2 ^ 64.
Proof.
  intros H1 Hh Hs Hd E. rewrite (block_reward_eq_spec p h s d H1 Hh Hs Hd) in E. injection E as <-.
  apply (block_reward_cap p (params_okb_ok p H1)); [exact Hh | apply Hs | exact Hd].
Qed.

(** the payouts of one endorsed block: equal payout infos are summed *)
Lemma calc_payouts_eq_spec p b prevs :
  params_okb p = true -> block_okb b = true -> chain_okb prevs = true ->
  exists m, calc_payouts wrap256 p b prevs = Ok m /\
    forall pid, map_get pid m = match on_pid pid b with [] => None | _ => Some (spec_paid p b prevs pid) end.
Proof.
  intros H1%params_okb_ok H2%block_okb_ok H3%chain_okb_ok. exists (spec_payout_map p b prevs). split.
  - apply (calc_payouts_spec wrap256 wrap256_small p H1 b prevs H2 H3).
  - intros pid. apply (payout_map_get p H1 b prevs H2).
Qed.

Lemma reward_eq_spec p tip rest :
  params_okb p = true -> chain_okb (tip :: rest) = true ->
  Z.of_nat (length (tip :: rest)) <= b_height tip + 1 -> 1 <= p_settle p ->
  match spec_endorsed p (tip :: rest) with
  | None => get_pop_payout wrap256 p (tip :: rest) = Ok []
  | Some (e, prevs) =>
    b_height e + p_settle p - 1 <= b_height tip ->
    exists m, get_pop_payout wrap256 p (tip :: rest) = Ok m /\
      forall pid, map_get pid m = match on_pid pid e with [] => None | _ => Some (spec_paid p e prevs pid) end
  end.
Proof.
  intros Hp%params_okb_ok Hc%chain_okb_ok Hlen Hset.
  pose proof (get_pop_payout_spec wrap256 wrap256_small p Hp tip rest Hc Hlen Hset) as H.
  destruct (spec_endorsed p (tip :: rest)) as [[e prevs]|]; [|exact H].
  intros Hfin. destruct (H Hfin) as [E He]. exists (spec_payout_map p e prevs).
  split; [exact E|]. intros pid. apply (payout_map_get p Hp e prevs He).
Qed.

Lemma sum_le_block_reward p b prevs m :
  params_okb p = true -> block_okb b = true -> chain_okb prevs = true ->
  calc_payouts wrap256 p b prevs = Ok m ->
  exists s d br, score_from_endorsements wrap256 p (b_ends b) = Ok s /\ calc_difficulty wrap256 p prevs = Ok d /\
    block_reward wrap256 p (b_height b) s d = Ok br /\
    total m <= br /\ br <= spec_cap p (spec_round p (b_height b)).
Proof.
  intros Hp%params_okb_ok Hb%block_okb_ok Hc%chain_okb_ok E.
  rewrite (calc_payouts_spec wrap256 wrap256_small p Hp b prevs Hb Hc) in E. injection E as <-.
  pose proof (payout_total_le p Hp b prevs Hb) as Htot. destruct Hb as [Hh He].
  pose proof (spec_difficulty_pos p prevs).
  exists (spec_score p (b_ends b)), (spec_difficulty p prevs),
         (spec_block_reward p (b_height b) (spec_score p (b_ends b)) (spec_difficulty p prevs)).
  split; [apply (score_spec wrap256 wrap256_small p Hp _ He)|].
  split; [apply (difficulty_spec wrap256 wrap256_small p Hp prevs Hc)|]. split; [|exact Htot].
  apply (block_reward_spec wrap256 wrap256_small p Hp); [exact Hh | apply (spec_score_128 p Hp _ He) | lia].
Qed.

Lemma on_chain_perm l l' : Permutation l l' -> Permutation (on_chain l) (on_chain l').
Proof.
  induction 1; cbn [on_chain].
  - constructor.
  - destruct (e_bop x); [constructor|]; assumption.
  - destruct (e_bop x), (e_bop y); try apply perm_swap; apply Permutation_refl.
  - eapply perm_trans; eassumption.
Qed.

Lemma spec_best_perm v v' : Permutation v v' -> spec_best v = spec_best v'.
Proof.
  intros H. destruct v as [|a r].
  - apply Permutation_nil in H. subst. reflexivity.
  - assert (Hne' : v' <> []) by (intros ->; apply Permutation_sym, Permutation_nil in H; discriminate).
    destruct (spec_best_min (a :: r) ltac:(congruence)) as [A1 A2]. destruct (spec_best_min v' Hne') as [B1 B2].
    pose proof (Permutation_map snd H) as Hs.
    pose proof (A2 _ (Permutation_in _ (Permutation_sym Hs) B1)).
    pose proof (B2 _ (Permutation_in _ Hs A1)). lia.
Qed.

Lemma spec_score_perm p l l' : Permutation l l' -> spec_score p l = spec_score p l'.
Proof.
  intros H. unfold spec_score. pose proof (on_chain_perm _ _ H) as Hv. rewrite (spec_best_perm _ _ Hv).
  apply zsum_perm. apply Permutation_map, Hv.
Qed.

(** the payouts do not depend on the order in which the endorsements are listed:
    both maps are sorted and have the same lookups *)
Lemma payout_order_independent p b b' prevs :
  params_okb p = true -> block_okb b = true -> block_okb b' = true -> chain_okb prevs = true ->
  b_height b = b_height b' -> Permutation (b_ends b) (b_ends b') ->
  calc_payouts wrap256 p b prevs = calc_payouts wrap256 p b' prevs.
Proof.
  intros Hp%params_okb_ok H2%block_okb_ok H2'%block_okb_ok H3%chain_okb_ok Hh Hperm.
  rewrite !(calc_payouts_spec wrap256 wrap256_small p Hp) by assumption. f_equal.
  apply sorted_ext; try (apply fold_sorted; exact I).
  intros pid. unfold spec_payout_map. rewrite <- Hh, <- (spec_score_perm p _ _ Hperm).
  pose proof (on_chain_perm _ _ Hperm) as Hv. rewrite <- (spec_best_perm _ _ Hv).
  apply (fold_get_perm _ pid _ _ Hv).
Qed.

(** ** the side conditions are satisfiable: the library's default parameters,
    a chain with duplicated payout infos, an endorsement off the best chain *)
Example default_params_ok : params_okb default_params = true.
Proof. vm_compute. reflexivity. Qed.

Definition example_block : Block :=
  {| b_height := 10;
     b_ends := [ {| e_pid := 1; e_bop := Some 20 |}; {| e_pid := 2; e_bop := Some 33 |};
                 {| e_pid := 1; e_bop := Some 21 |}; {| e_pid := 3; e_bop := None |} ] |}.
Definition example_chain : list Block :=
  map (fun h => if h =? 10 then example_block else {| b_height := h; b_ends := [] |})
      (map Z.of_nat (rev (seq 0 60))).

Example example_chain_ok : chain_okb example_chain = true /\
  Z.of_nat (length example_chain) <= b_height (hd example_block example_chain) + 1.
Proof. vm_compute. split; [reflexivity|discriminate]. Qed.

Example example_payout :
  get_pop_payout wrap256 default_params example_chain = Ok [(1, 431679610); (2, 68101114)].
Proof. vm_compute. reflexivity. Qed.
