(** Block reward: the calculator (any wrap function that is the identity below
    2^256, in particular [wrap256] and [id]) equals the specification, which never exceeds
    the capped block reward. *)
From Coq Require Import ZArith List Bool Lia.
From VB Require Import Rewards.BigDecDefs Rewards.CalcDefs Rewards.SpecDefs Rewards.BoundsDefs.
Import ListNotations.
Local Open Scope Z_scope.

Definition u64 (z : Z) : Prop := 0 <= z < 2 ^ 64.

Record params_ok (p : Params) : Prop := {
  ok_ki : 0 < p_ki p < 2 ^ 32;
  ok_kround : 0 <= p_kround p < 2 ^ 32;
  ok_rounds : 0 <= p_rounds p < 2 ^ 32;
  ok_flat : 0 <= p_flatround p < 2 ^ 32;
  ok_interval : 0 < p_interval p < 2 ^ 32;
  ok_start : u64 (p_start p);
  ok_slopeN : u64 (p_slopeN p);
  ok_slopeK : u64 (p_slopeK p);
  ok_thrN : u64 (p_thrN p);
  ok_thrK : u64 (p_thrK p);
  ok_ratios : forall x, In x (p_ratios p) -> u64 x;
  ok_table : forall x, In x (p_table p) -> u64 x;
  ok_start_thrN : p_start p <= p_thrN p;
  ok_start_thrK : p_start p <= p_thrK p;
  ok_kround_ratio : p_kround p < Z.of_nat (length (p_ratios p));
  ok_some_ratio : 0 < Z.of_nat (length (p_ratios p));
  ok_rounds_ratio : p_rounds p - 1 <= Z.of_nat (length (p_ratios p));
  ok_table_len : Z.of_nat (length (p_table p)) < 2 ^ 31;
  ok_cap : forall rr, In rr (p_ratios p) ->
           fx_mul (Z.max (p_start p) (Z.max (p_thrN p) (p_thrK p))) rr < 2 ^ 64
}.

Lemma in_u64_spec z : in_u64 z = true -> u64 z.
Proof. intros [H1%Z.leb_le H2%Z.ltb_lt]%andb_prop. split; assumption. Qed.

Lemma in_u32_spec z : in_u32 z = true -> 0 <= z < 2 ^ 32.
Proof. intros [H1%Z.leb_le H2%Z.ltb_lt]%andb_prop. split; assumption. Qed.

Lemma params_okb_ok p : params_okb p = true -> params_ok p.
Proof.
  unfold params_okb.
  intros [[[[[[[[[[[[[[[[[[[[H1%Z.ltb_lt H2%in_u32_spec]%andb_prop H3%in_u32_spec]%andb_prop
    H4%in_u32_spec]%andb_prop H5%in_u32_spec]%andb_prop H6%Z.ltb_lt]%andb_prop H7%in_u32_spec]%andb_prop
    H8%in_u64_spec]%andb_prop H9%in_u64_spec]%andb_prop H10%in_u64_spec]%andb_prop H11%in_u64_spec]%andb_prop
    H12%in_u64_spec]%andb_prop H13]%andb_prop H14]%andb_prop H15%Z.leb_le]%andb_prop H16%Z.leb_le]%andb_prop
    H17%Z.ltb_lt]%andb_prop H18%Z.ltb_lt]%andb_prop H19%Z.leb_le]%andb_prop H20%Z.ltb_lt]%andb_prop H21]%andb_prop.
  rewrite forallb_forall in H13, H14, H21.
  constructor; try assumption; try lia.
  - intros x Hx. apply in_u64_spec, H13, Hx.
  - intros x Hx. apply in_u64_spec, H14, Hx.
  - intros rr Hrr. apply Z.ltb_lt, H21, Hrr.
Qed.

Lemma ONE_DEC : ONE = DEC. Proof. reflexivity. Qed.

Lemma div_DEC_le a : 0 <= a -> 0 <= a / DEC <= a.
Proof.
  intros Ha. unfold DEC. split.
  - apply Z.div_pos; lia.
  - apply Z.div_le_upper_bound; lia.
Qed.

Lemma fx_mul_nonneg a b : 0 <= a -> 0 <= b -> 0 <= fx_mul a b.
Proof. intros. unfold fx_mul, DEC. apply Z.div_pos; nia. Qed.

Lemma fx_mul_mono_l a a' b : 0 <= a <= a' -> 0 <= b -> fx_mul a b <= fx_mul a' b.
Proof. intros. unfold fx_mul, DEC. apply Z.div_le_mono; nia. Qed.

Lemma fx_mul_le_r a b : 0 <= a <= ONE -> 0 <= b -> fx_mul a b <= b.
Proof. unfold fx_mul, ONE, DEC. intros. apply Z.div_le_upper_bound; nia. Qed.

Lemma fx_mul_ONE x : fx_mul ONE x = x.
Proof. unfold fx_mul. rewrite ONE_DEC, Z.mul_comm. apply Z.div_mul. discriminate. Qed.

Lemma fx_div_nonneg a b : 0 <= a -> 0 < b -> 0 <= fx_div a b.
Proof. intros. unfold fx_div, DEC. apply Z.div_pos; lia. Qed.

Lemma ltb_min a b : (if a <? b then a else b) = Z.min a b.
Proof. destruct (Z.ltb_spec a b); lia. Qed.

Lemma ltb_max a b : (if a <? b then b else a) = Z.max b a.
Proof. destruct (Z.ltb_spec a b); lia. Qed.

(** every fixed-point value stays below [B128], so no product wraps; a named constant, or lia
    evaluates [2 ^ 128] inside every certificate *)
Definition B128 : Z := 2 ^ 128.

Lemma B128_sq : B128 * B128 = two256.
Proof. unfold B128, two256. rewrite <- Z.pow_add_r by discriminate. reflexivity. Qed.

Lemma u64_128 z : u64 z -> 0 <= z < B128.
Proof.
  intros [H0 H1]. split; [exact H0|]. apply (Z.lt_le_trans _ _ _ H1).
  apply Z.pow_le_mono_r; lia.
Qed.

Lemma u64_mul a b : u64 a -> u64 b -> 0 <= a * b < B128.
Proof.
  intros [Ha0 Ha] [Hb0 Hb]. split; [apply Z.mul_nonneg_nonneg; assumption|].
  unfold B128. change (2 ^ 128) with (2 ^ 64 * 2 ^ 64). apply Z.mul_lt_mono_nonneg; assumption.
Qed.

Lemma ONE_128 : 0 < ONE < B128.
Proof. split; reflexivity. Qed.

Lemma wrap32_small z : 0 <= z < 2 ^ 32 -> wrap32 z = z.
Proof. apply Z.mod_small. Qed.

Lemma wrap64_small z : 0 <= z < 2 ^ 64 -> wrap64 z = z.
Proof. apply Z.mod_small. Qed.

Lemma to_int32_small z : 0 <= z < 2 ^ 31 -> to_int32 z = z.
Proof.
  intros H. unfold to_int32. rewrite wrap32_small by lia. cbv zeta.
  destruct (Z.ltb_spec z (2 ^ 31)); [reflexivity | lia].
Qed.

Section Arith.
  Variable w : Z -> Z.
  Hypothesis Hw : forall x, 0 <= x < two256 -> w x = x.

  Lemma w_mul a b : 0 <= a < B128 -> 0 <= b < B128 -> w (a * b) = a * b.
  Proof.
    intros Ha Hb. apply Hw. rewrite <- B128_sq. split; [apply Z.mul_nonneg_nonneg; lia|].
    apply Z.mul_lt_mono_nonneg; lia.
  Qed.

  Lemma w_small a : 0 <= a < B128 -> w a = a.
  Proof. intros Ha. rewrite <- (Z.mul_1_r a). apply w_mul; [exact Ha | split; [discriminate | reflexivity]]. Qed.

  Lemma bd_mul_fx a b : 0 <= a < B128 -> 0 <= b < B128 -> bd_mul w a b = fx_mul a b.
  Proof. intros. unfold bd_mul, fx_mul. rewrite w_mul by assumption. reflexivity. Qed.

  Lemma bd_div_fx a b : 0 <= a < B128 -> 0 < b -> bd_div w a b = Ok (fx_div a b).
  Proof.
    intros Ha Hb. unfold bd_div, fx_div. destruct (Z.eqb_spec b 0); [lia|].
    rewrite w_mul; [reflexivity | exact Ha | rewrite <- ONE_DEC; pose proof ONE_128; lia].
  Qed.

  Lemma bd_sub_fx a b : 0 <= b <= a -> a < B128 -> bd_sub w a b = a - b.
  Proof. intros. apply w_small. lia. Qed.

  Variable p : Params.
  Hypothesis Hp : params_ok p.

  Lemma round_ok h : 0 <= h < 2 ^ 31 ->
    round_for_block p h = Ok (spec_round p h) /\
    0 <= spec_round p h < Z.of_nat (length (p_ratios p)).
  Proof.
    intros Hh. pose proof (ok_ki p Hp) as Hki. pose proof (ok_kround p Hp) as Hkr.
    pose proof (ok_kround_ratio p Hp). pose proof (ok_some_ratio p Hp). pose proof (ok_rounds_ratio p Hp).
    unfold round_for_block, is_keystone, spec_round.
    rewrite to_int32_small, wrap32_small by lia.
    destruct (Z.ltb_spec h 0); [lia|]. destruct (Z.eqb_spec (p_ki p) 0); [lia|]. cbn [bind].
    destruct (Z.eqb_spec (h mod p_ki p) 0) as [Hk|Hk]; [split; [reflexivity|lia]|].
    destruct (Z.leb_spec (p_rounds p) 1); [split; [reflexivity|lia]|].
    destruct (Z.leb_spec h 0).
    - replace h with 0 in Hk by lia. rewrite Z.mod_0_l in Hk by lia. lia.
    - split; [reflexivity|].
      pose proof (Z.mod_pos_bound (h mod p_ki p) (p_rounds p - 1)). lia.
  Qed.

  Lemma flat_ok h : 0 <= h < 2 ^ 31 ->
    (if p_useflat p && (spec_round p h =? p_flatround p) then first_round_after_keystone p h else Ok false)
    = Ok (spec_is_flat p h).
  Proof.
    intros Hh. pose proof (ok_ki p Hp) as Hki. pose proof (ok_rounds p Hp) as Hr.
    unfold spec_is_flat, first_round_after_keystone.
    destruct (p_useflat p && (spec_round p h =? p_flatround p)); [|reflexivity].
    destruct (Z.eqb_spec (p_ki p) 0); [lia|].
    cbn [andb]. destruct (Z.eqb_spec (p_rounds p) 0); [reflexivity|].
    cbn [orb]. f_equal.
    pose proof (Z.mod_pos_bound h (p_ki p) ltac:(lia)) as Hm.
    destruct (Z.ltb_spec (h mod p_ki p) (p_rounds p)).
    - apply Z.eqb_eq. apply Z.div_small. lia.
    - apply Z.eqb_neq. intros Hd. apply Z.div_small_iff in Hd; lia.
  Qed.

  Lemma ratio_ok r : 0 <= r < Z.of_nat (length (p_ratios p)) ->
    round_ratio p r = Ok (spec_ratio p r) /\ u64 (spec_ratio p r) /\ In (spec_ratio p r) (p_ratios p).
  Proof.
    intros Hr. unfold round_ratio, spec_ratio.
    destruct (nth_error (p_ratios p) (Z.to_nat r)) as [x|] eqn:E.
    - rewrite (nth_error_nth _ _ 0 E). pose proof (nth_error_In _ _ E) as Hin.
      split; [reflexivity|]. split; [apply (ok_ratios p Hp), Hin|exact Hin].
    - apply nth_error_None in E. lia.
  Qed.

  Lemma thr_ok r : u64 (spec_threshold p r) /\ p_start p <= spec_threshold p r /\
                   spec_threshold p r <= Z.max (p_thrN p) (p_thrK p).
  Proof.
    pose proof (ok_thrK p Hp) as HK. pose proof (ok_start_thrK p Hp).
    pose proof (ok_thrN p Hp) as HN. pose proof (ok_start_thrN p Hp).
    unfold spec_threshold. destruct (r =? p_kround p); repeat split; try apply HK; try apply HN; lia.
  Qed.

  Lemma slope_u64 r : u64 (spec_slope p r).
  Proof. unfold spec_slope. destruct (r =? p_kround p); [apply (ok_slopeK p Hp)|apply (ok_slopeN p Hp)]. Qed.

  Lemma penalty_range r xc : p_start p <= xc ->
    0 <= Z.min ONE (fx_mul (spec_slope p r) (xc - p_start p)) <= ONE.
  Proof.
    intros Hxc. pose proof (u64_128 _ (slope_u64 r)). pose proof ONE_128.
    pose proof (fx_mul_nonneg (spec_slope p r) (xc - p_start p)). lia.
  Qed.

  Lemma slope_ratio_ok r xc : p_start p <= xc < B128 ->
    slope_ratio w p xc r = Ok (ONE - Z.min ONE (fx_mul (spec_slope p r) (xc - p_start p))).
  Proof.
    intros Hxc. pose proof (u64_128 _ (ok_start p Hp)). pose proof (u64_128 _ (slope_u64 r)).
    pose proof ONE_128. pose proof (penalty_range r xc).
    unfold slope_ratio. destruct (Z.ltb_spec xc (p_start p)); [lia|].
    change (round_slope p r) with (spec_slope p r). cbv zeta.
    rewrite (bd_sub_fx xc), bd_mul_fx, ltb_min, bd_sub_fx by lia. reflexivity.
  Qed.

  Lemma curve_ok r x : 0 <= r < Z.of_nat (length (p_ratios p)) -> 0 <= x < B128 ->
    (do sl <- (if p_start p <? x then
                 let thr := max_score_threshold p r in
                 let std := if thr <? x then thr else x in
                 do s <- slope_ratio w p std r; Ok (s, std)
               else Ok (ONE, x));
     Ok (bd_mul w (bd_mul w (fst sl) (snd sl)) (spec_ratio p r)))
    = Ok (spec_curve p r x).
  Proof.
    intros Hr Hx. destruct (ratio_ok r Hr) as (_ & Hrr%u64_128 & _).
    pose proof (u64_128 _ (ok_start p Hp)) as Hs. pose proof ONE_128 as H1.
    unfold spec_curve. rewrite Z.leb_antisym.
    destruct (Z.ltb_spec (p_start p) x) as [Hsx|Hsx]; cbn [negb]; cbv zeta.
    - change (max_score_threshold p r) with (spec_threshold p r).
      destruct (thr_ok r) as (Ht%u64_128 & Hst & _).
      rewrite ltb_min, Z.min_comm. set (xc := Z.min x (spec_threshold p r)).
      rewrite slope_ratio_ok by lia. cbn [bind fst snd].
      pose proof (penalty_range r xc ltac:(lia)) as Hpen.
      set (pen := Z.min ONE (fx_mul (spec_slope p r) (xc - p_start p))) in *.
      pose proof (fx_mul_nonneg (ONE - pen) xc). pose proof (fx_mul_le_r (ONE - pen) xc).
      rewrite (bd_mul_fx (ONE - pen) xc), bd_mul_fx by lia. reflexivity.
    - cbn [bind fst snd]. rewrite (bd_mul_fx ONE x), fx_mul_ONE, bd_mul_fx by lia. reflexivity.
  Qed.

  Lemma curve_le_cap r x : 0 <= r < Z.of_nat (length (p_ratios p)) -> 0 <= x ->
    0 <= spec_curve p r x <= spec_cap p r.
  Proof.
    intros Hr Hx. destruct (ratio_ok r Hr) as (_ & Hrr%u64_128 & _).
    pose proof (u64_128 _ (ok_start p Hp)) as Hs.
    destruct (thr_ok r) as (Ht%u64_128 & Hst & _).
    unfold spec_curve, spec_cap.
    destruct (Z.leb_spec x (p_start p)) as [Hsx|Hsx].
    - split; [apply fx_mul_nonneg; lia|]. apply fx_mul_mono_l; lia.
    - cbv zeta. set (xc := Z.min x (spec_threshold p r)).
      pose proof (penalty_range r xc ltac:(lia)) as Hpen.
      set (pen := Z.min ONE (fx_mul (spec_slope p r) (xc - p_start p))) in *.
      pose proof (fx_mul_nonneg (ONE - pen) xc). pose proof (fx_mul_le_r (ONE - pen) xc).
      split; [apply fx_mul_nonneg; lia|]. apply fx_mul_mono_l; lia.
  Qed.

  Lemma cap_u64 r : 0 <= r < Z.of_nat (length (p_ratios p)) -> spec_cap p r < 2 ^ 64.
  Proof.
    intros Hr. destruct (ratio_ok r Hr) as (_ & Hrr%u64_128 & Hin).
    destruct (thr_ok r) as (Ht%u64_128 & Hst & Hmax). pose proof (u64_128 _ (ok_start p Hp)) as Hs.
    unfold spec_cap. eapply Z.le_lt_trans; [|exact (ok_cap p Hp _ Hin)]. apply fx_mul_mono_l; lia.
  Qed.

  Lemma block_reward_spec h score diff :
    0 <= h < 2 ^ 31 -> 0 <= score < B128 -> 0 <= diff ->
    block_reward w p h score diff = Ok (spec_block_reward p h score diff).
  Proof.
    intros Hh Hs Hd. destruct (round_ok h Hh) as [Hr Hrr]. pose proof ONE_128 as H1.
    unfold block_reward, spec_block_reward. rewrite Hr. cbn [bind].
    rewrite (flat_ok h Hh). cbn [bind].
    destruct (ratio_ok _ Hrr) as (Hrat & _ & _).
    destruct (spec_is_flat p h).
    - change (ONE =? 0) with false. change (ONE <? ONE) with false. cbv iota.
      rewrite bd_div_fx by lia. cbn [bind]. rewrite Hrat. cbn [bind].
      change (fx_div ONE ONE) with ONE. apply curve_ok; [exact Hrr | lia].
    - destruct (score =? 0); [reflexivity|]. rewrite ltb_max.
      rewrite bd_div_fx by lia. cbn [bind]. rewrite Hrat. cbn [bind].
      apply curve_ok; [exact Hrr|].
      split; [apply fx_div_nonneg; lia|].
      (* relative score <= score: the difficulty is at least 1.0 *)
      unfold fx_div. apply Z.div_lt_upper_bound; [lia|]. rewrite <- ONE_DEC. nia.
  Qed.

  Lemma block_reward_cap h score diff :
    0 <= h < 2 ^ 31 -> 0 <= score -> 0 <= diff ->
    0 <= spec_block_reward p h score diff <= spec_cap p (spec_round p h) /\
    spec_cap p (spec_round p h) < 2 ^ 64.
  Proof.
    intros Hh Hs Hd. destruct (round_ok h Hh) as [_ Hrr]. pose proof ONE_128 as H1.
    split; [|apply cap_u64, Hrr].
    unfold spec_block_reward.
    destruct (spec_is_flat p h); [apply curve_le_cap; [exact Hrr | lia]|].
    destruct (score =? 0).
    - pose proof (curve_le_cap _ 0 Hrr ltac:(lia)). lia.
    - apply curve_le_cap; [exact Hrr|]. apply fx_div_nonneg; lia.
  Qed.
End Arith.
