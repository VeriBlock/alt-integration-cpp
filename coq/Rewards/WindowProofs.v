(** Locality of the difficulty / payout computation (for every wrap function,
    parameter set and chain, no side condition) and monotonicity facts of the
    reward specification. *)
From Coq Require Import ZArith List Bool Lia.
From VB Require Import Rewards.BigDecDefs Rewards.CalcDefs Rewards.SpecDefs Rewards.BoundsDefs Rewards.WindowDefs
     Rewards.ArithProofs.
Import ListNotations.
Local Open Scope Z_scope.

Lemma only_window {A B} (f : A -> B) (win : A -> A) :
  (forall x, f (win x) = f x) -> forall x x', win x = win x' -> f x = f x'.
Proof. intros H x x' E. rewrite <- (H x), <- (H x'), E. reflexivity. Qed.

Lemma nth_error_firstn_lt {A} : forall n m (l : list A), (n < m)%nat -> nth_error (firstn m l) n = nth_error l n.
Proof.
  induction n as [|n IH]; intros m l Hlt; destruct m as [|m]; try lia; destruct l; cbn; auto.
  apply IH. lia.
Qed.

Section Win.
  Variable w : Z -> Z.

  Lemma difficulty_loop_firstn p : forall n prevs t,
    difficulty_loop w p n (firstn n prevs) t = difficulty_loop w p n prevs t.
  Proof.
    induction n as [|n IH]; intros prevs t.
    - destruct prevs; reflexivity.
    - destruct prevs as [|b r]; [reflexivity|].
      cbn [firstn difficulty_loop].
      destruct (score_from_endorsements w p (b_ends b)); cbn [bind]; auto.
  Qed.

  Lemma difficulty_window p prevs : calc_difficulty w p (window p prevs) = calc_difficulty w p prevs.
  Proof. unfold calc_difficulty, window. rewrite difficulty_loop_firstn. reflexivity. Qed.

  Lemma difficulty_only_window p prevs prevs' :
    window p prevs = window p prevs' -> calc_difficulty w p prevs = calc_difficulty w p prevs'.
  Proof. apply (only_window _ _ (difficulty_window p)). Qed.

  Lemma calc_payouts_window p b prevs : calc_payouts w p b (window p prevs) = calc_payouts w p b prevs.
  Proof. unfold calc_payouts. rewrite difficulty_window. reflexivity. Qed.

  Lemma calc_payouts_only_window p b prevs prevs' :
    window p prevs = window p prevs' -> calc_payouts w p b prevs = calc_payouts w p b prevs'.
  Proof. apply (only_window _ _ (calc_payouts_window p b)). Qed.

  Lemma get_pop_payout_window p chain : get_pop_payout w p (pay_window p chain) = get_pop_payout w p chain.
  Proof.
    unfold pay_window. destruct chain as [|tip rest]; [reflexivity|].
    set (n := Z.to_nat (p_delay p - 1)). set (k := Z.to_nat (p_interval p)).
    change (firstn (S n + k) (tip :: rest)) with (tip :: firstn (n + k) rest).
    unfold get_pop_payout. fold n.
    destruct ((p_delay p - 1 <? 0) || (b_height tip <? p_delay p - 1)); [reflexivity|].
    change (tip :: firstn (n + k) rest) with (firstn (S n + k) (tip :: rest)).
    rewrite nth_error_firstn_lt by lia.
    destruct (nth_error (tip :: rest) n) as [e|]; [|reflexivity].
    destruct (wrap32 (b_height tip) <? wrap32 (b_height e + p_settle p - 1)); [reflexivity|].
    rewrite <- (firstn_skipn_comm k (S n)).
    apply (calc_payouts_window p e).
  Qed.

  Lemma get_pop_payout_only_window p chain chain' :
    pay_window p chain = pay_window p chain' -> get_pop_payout w p chain = get_pop_payout w p chain'.
  Proof. apply (only_window _ _ (get_pop_payout_window p)). Qed.
End Win.

Lemma share_mono br br' s w1 w2 :
  0 <= br <= br' -> 0 <= s -> 0 <= w1 <= w2 -> spec_share br s w1 <= spec_share br' s w2.
Proof.
  intros Hb Hs Hw. unfold spec_share. destruct (Z.eqb_spec s 0); [lia|]. unfold fx_div, fx_mul, DEC.
  apply Z.div_le_mono; [lia|]. apply Z.mul_le_mono_nonneg_r; [lia|].
  apply Z.div_le_mono; [lia|]. apply Z.mul_le_mono_nonneg; lia.
Qed.

Lemma share_mono_weight br s w1 w2 : 0 <= br -> 0 <= s -> 0 <= w1 <= w2 -> spec_share br s w1 <= spec_share br s w2.
Proof. intros. apply share_mono; lia. Qed.

Lemma share_mono_reward br br' s wg : 0 <= br <= br' -> 0 <= s -> 0 <= wg -> spec_share br s wg <= spec_share br' s wg.
Proof. intros. apply share_mono; lia. Qed.

(** below the start of the slope the reward grows with the relative score *)
Lemma curve_mono_linear p r x x' :
  0 <= spec_ratio p r -> 0 <= x <= x' -> x' <= p_start p -> spec_curve p r x <= spec_curve p r x'.
Proof.
  intros Hr Hx Hs. unfold spec_curve.
  destruct (Z.leb_spec x (p_start p)); [|lia]. destruct (Z.leb_spec x' (p_start p)); [|lia].
  apply fx_mul_mono_l; lia.
Qed.

Lemma ratio_nonneg p r : params_okb p = true -> 0 <= spec_ratio p r.
Proof.
  intros Hp%params_okb_ok. unfold spec_ratio.
  destruct (nth_in_or_default (Z.to_nat r) (p_ratios p) 0) as [Hin|E]; [|rewrite E; reflexivity].
  apply (ok_ratios p Hp _ Hin).
Qed.

(** so up to there the block reward grows with the score and falls when the difficulty rises *)
Lemma block_reward_mono p h s s' d d' :
  params_okb p = true -> 0 <= s <= s' -> d' <= d -> fx_div s' (Z.max ONE d') <= p_start p ->
  spec_block_reward p h s d <= spec_block_reward p h s' d'.
Proof.
  intros Hp Hs Hd Hx. pose proof (ratio_nonneg p (spec_round p h) Hp) as Hr.
  destruct (ok_start p (params_okb_ok p Hp)) as [Hs0 _]. pose proof ONE_128 as H1.
  assert (Hq : 0 <= fx_div s (Z.max ONE d) <= fx_div s' (Z.max ONE d')).
  { split; [apply fx_div_nonneg; lia|]. unfold fx_div, DEC.
    etransitivity; [apply Z.div_le_mono | apply Z.div_le_compat_l]; lia. }
  pose proof (curve_mono_linear p (spec_round p h) _ _ Hr Hq Hx) as Hc.
  unfold spec_block_reward. destruct (spec_is_flat p h); [lia|].
  destruct (Z.eqb_spec s 0) as [->|], (Z.eqb_spec s' 0); try lia.
  unfold spec_curve in Hc at 1. change (fx_div 0 (Z.max ONE d)) with 0 in Hc.
  destruct (Z.leb_spec 0 (p_start p)); [exact Hc | lia].
Qed.

Lemma block_reward_antitone_difficulty p h s d d' :
  params_okb p = true -> 0 <= s -> d <= d' -> fx_div s (Z.max ONE d) <= p_start p ->
  spec_block_reward p h s d' <= spec_block_reward p h s d.
Proof. intros. apply block_reward_mono; (assumption || lia). Qed.

Lemma block_reward_monotone_score p h s s' d :
  params_okb p = true -> 0 < s <= s' -> fx_div s' (Z.max ONE d) <= p_start p ->
  spec_block_reward p h s d <= spec_block_reward p h s' d.
Proof. intros. apply block_reward_mono; (assumption || lia). Qed.

(** above the start of the slope the curve is NOT monotone for every admissible
    parameter set: with slope 1.0 the penalty reaches 1 at relative score 2 *)
Definition steep_params : Params :=
  {| p_ki := 5; p_settle := 50; p_delay := 50; p_start := ONE; p_slopeN := ONE; p_slopeK := ONE;
     p_kround := 3; p_rounds := 4; p_flatround := 2; p_useflat := true;
     p_ratios := [ONE; ONE; ONE; ONE]; p_thrN := 3 * ONE; p_thrK := 3 * ONE; p_interval := 50; p_table := [ONE] |}.

Lemma curve_monotone_refuted :
  exists p r x x', params_okb p = true /\ 0 <= x <= x' /\ spec_curve p r x' < spec_curve p r x.
Proof.
  exists steep_params, 0, (3 * ONE / 2), (2 * ONE).
  split; [vm_compute; reflexivity|]. split; [vm_compute; split; discriminate|vm_compute; reflexivity].
Qed.

(** witnesses: the window really cuts something off, and the monotone regime is inhabited *)
Definition wit_block (h : Z) (hs : list Z) : Block := {| b_height := h; b_ends := map (fun v => {| e_pid := v; e_bop := Some v |}) hs |}.
Definition wit_params : Params :=
  {| p_ki := 5; p_settle := 2; p_delay := 2; p_start := ONE; p_slopeN := 20000000; p_slopeK := 21325000;
     p_kround := 3; p_rounds := 4; p_flatround := 2; p_useflat := true;
     p_ratios := [97000000; 103000000; 107000000; 3 * ONE]; p_thrN := 2 * ONE; p_thrK := 3 * ONE;
     p_interval := 2; p_table := [ONE; ONE; 50000000] |}.
Definition wit_chain : list Block :=
  [wit_block 9 []; wit_block 8 [10; 11; 12]; wit_block 7 [5; 5; 6; 7]; wit_block 6 [3; 4; 4]; wit_block 5 [1; 2]; wit_block 4 [1]].

Example window_satisfiable :
  params_okb wit_params = true /\ chain_okb wit_chain = true /\
  pay_window wit_params wit_chain <> wit_chain /\
  get_pop_payout wrap256 wit_params wit_chain = Ok [(10, 29846153); (11, 29846153); (12, 14923076)] /\
  calc_difficulty wrap256 wit_params (skipn 2 wit_chain) = Ok 325000000 /\
  get_pop_payout wrap256 wit_params (pay_window wit_params wit_chain) = get_pop_payout wrap256 wit_params wit_chain.
Proof.
  do 5 (split; [vm_compute; reflexivity || discriminate|]). apply get_pop_payout_window.
Qed.

Example monotone_satisfiable :
  params_okb wit_params = true /\ fx_div 250000000 (Z.max ONE 325000000) <= p_start wit_params /\
  spec_block_reward wit_params 8 250000000 650000000 < spec_block_reward wit_params 8 250000000 325000000 /\
  spec_share 74615384 250000000 50000000 < spec_share 74615384 250000000 ONE.
Proof. vm_compute. repeat split; discriminate. Qed.
