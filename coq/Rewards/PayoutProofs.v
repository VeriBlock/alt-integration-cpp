(** Score, difficulty, miner shares and the payout map: the calculator (any
    wrap function that is the identity below 2^256) equals the specification,
    for endorsement lists and chains of any length within the stated bounds.

    Sizes: a table weight is below 2^64 and a block has fewer than 2^32
    endorsements, so a score is below 2^96; the difficulty adds up fewer than 2^32
    scores, which stays below 2^128 ([B128]). *)
From Coq Require Import ZArith List Bool Lia.
From VB Require Import Rewards.BigDecDefs Rewards.CalcDefs Rewards.SpecDefs Rewards.BoundsDefs
     Rewards.ArithProofs Rewards.MapProofs.
Import ListNotations.
Local Open Scope Z_scope.

Definition counted_all (P : Z -> Prop) (ends : list Endorsement) : Prop :=
  forall e h, In e ends -> e_bop e = Some h -> P h.
Definition heights_ok : list Endorsement -> Prop := counted_all (fun h => 0 <= h < 2 ^ 31).
Definition ends_ok (ends : list Endorsement) : Prop :=
  Z.of_nat (length ends) < 2 ^ 32 /\ heights_ok ends.
Definition block_ok (b : Block) : Prop := 0 <= b_height b < 2 ^ 31 /\ ends_ok (b_ends b).
Definition chain_ok (c : list Block) : Prop := forall b, In b c -> block_ok b.

Lemma ends_okb_ok ends : ends_okb ends = true -> ends_ok ends.
Proof.
  intros [H1%Z.ltb_lt H2]%andb_prop. split; [exact H1|].
  rewrite forallb_forall in H2. intros e h He Hb. specialize (H2 e He). rewrite Hb in H2.
  apply andb_prop in H2 as [?%Z.leb_le ?%Z.ltb_lt]. split; assumption.
Qed.

Lemma block_okb_ok b : block_okb b = true -> block_ok b.
Proof.
  intros [[?%Z.leb_le ?%Z.ltb_lt]%andb_prop ?%ends_okb_ok]%andb_prop. split; [split|]; assumption.
Qed.

Lemma chain_okb_ok c : chain_okb c = true -> chain_ok c.
Proof. unfold chain_okb. rewrite forallb_forall. intros H b Hb. apply block_okb_ok, H, Hb. Qed.

Lemma firstn_in {A} n (l : list A) x : In x (firstn n l) -> In x l.
Proof. intros H. rewrite <- (firstn_skipn n l). apply in_or_app. left. exact H. Qed.

Lemma skipn_in {A} n (l : list A) x : In x (skipn n l) -> In x l.
Proof. intros H. rewrite <- (firstn_skipn n l). apply in_or_app. right. exact H. Qed.

Lemma counted_tail P e r : counted_all P (e :: r) -> counted_all P r.
Proof. intros H e' h' He'. apply (H e' h'). right. exact He'. Qed.

Lemma on_chain_in ends e h : In e ends -> e_bop e = Some h -> In (e_pid e, h) (on_chain ends).
Proof.
  intros He Hb. induction ends as [|e0 r IH]; [destruct He|]. cbn [on_chain].
  destruct He as [->|He]; [rewrite Hb; left; reflexivity|].
  destruct (e_bop e0); [right|]; apply IH, He.
Qed.

Lemma on_chain_heights ends : heights_ok ends -> forall ph, In ph (on_chain ends) -> 0 <= snd ph < 2 ^ 31.
Proof.
  induction ends as [|e r IH]; intros H ph; cbn [on_chain]; [intros []|].
  pose proof (counted_tail _ _ _ H) as Hr.
  destruct (e_bop e) as [z|] eqn:E; [|apply IH, Hr].
  intros [<-|Hin]; [apply (H e z); [left; reflexivity|exact E] | apply IH; assumption].
Qed.

Lemma on_chain_length ends : (length (on_chain ends) <= length ends)%nat.
Proof. induction ends as [|e r IH]; cbn [on_chain length]; [lia|]. destruct (e_bop e); cbn [length]; lia. Qed.

Lemma fold_min_min h bp hs : fold_right Z.min (Z.min h bp) hs = Z.min h (fold_right Z.min bp hs).
Proof. induction hs as [|x r IH]; cbn [fold_right]; [reflexivity|]. rewrite IH. lia. Qed.

Lemma fold_min_le bp hs : fold_right Z.min bp hs <= bp /\ forall x, In x hs -> fold_right Z.min bp hs <= x.
Proof.
  induction hs as [|y r [IH1 IH2]]; cbn [fold_right]; split; try lia.
  - intros x [].
  - intros x [->|H]; [lia|]. specialize (IH2 x H). lia.
Qed.

Lemma fold_min_attained h l : fold_right Z.min h l = h \/ In (fold_right Z.min h l) l.
Proof.
  induction l as [|x r IH]; cbn [fold_right]; [left; reflexivity|].
  destruct (Z.min_spec x (fold_right Z.min h r)) as [[_ ->]|[_ ->]]; [right; left; reflexivity|].
  destruct IH as [->|IH]; [left; reflexivity|right; right; exact IH].
Qed.

Lemma spec_best_min v : v <> [] ->
  In (spec_best v) (map snd v) /\ forall x, In x (map snd v) -> spec_best v <= x.
Proof.
  destruct v as [|[pid h] r]; [congruence|]. intros _. cbn [spec_best map snd].
  destruct (fold_min_le h (map snd r)) as [L1 L2]. split.
  - destruct (fold_min_attained h (map snd r)) as [->|H]; [left; reflexivity|right; exact H].
  - intros x [<-|Hx]; [exact L1|apply L2, Hx].
Qed.

(** the C++ loop started with a height instead of the marker -1 *)
Lemma best_pub_nonneg ends : forall bp, 0 <= bp -> heights_ok ends ->
  best_pub ends bp = fold_right Z.min bp (map snd (on_chain ends)).
Proof.
  induction ends as [|e r IH]; intros bp Hb H; cbn [best_pub on_chain]; [reflexivity|].
  pose proof (counted_tail _ _ _ H) as Hr.
  destruct (e_bop e) as [z|] eqn:E; [|apply IH; assumption].
  pose proof (H e z (or_introl eq_refl) E : 0 <= z < 2 ^ 31) as Hz. cbn [map snd fold_right].
  destruct (Z.ltb_spec bp 0); [lia|]. rewrite orb_false_r, ltb_min.
  rewrite IH by (try assumption; lia). apply fold_min_min.
Qed.

Lemma best_pub_spec ends : heights_ok ends -> best_pub ends (-1) = spec_best (on_chain ends).
Proof.
  induction ends as [|e r IH]; intros H; cbn [best_pub on_chain]; [reflexivity|].
  pose proof (counted_tail _ _ _ H) as Hr.
  destruct (e_bop e) as [z|] eqn:E; [|apply IH, Hr].
  pose proof (H e z (or_introl eq_refl) E : 0 <= z < 2 ^ 31) as Hz.
  change (-1 <? 0) with true. rewrite orb_true_r. cbn [spec_best].
  apply best_pub_nonneg; [lia|exact Hr].
Qed.

Lemma best_pub_props ends : heights_ok ends -> on_chain ends <> [] ->
  0 <= spec_best (on_chain ends) /\
  counted_all (fun h => spec_best (on_chain ends) <= h < 2 ^ 31) ends.
Proof.
  intros Hh Hne. destruct (spec_best_min _ Hne) as [Hin Hmin]. split.
  - apply in_map_iff in Hin. destruct Hin as (ph & <- & Hph). apply (on_chain_heights _ Hh _ Hph).
  - intros e h He Hb. split; [|apply (Hh e h He Hb)].
    apply Hmin. apply (in_map snd _ _ (on_chain_in _ _ _ He Hb)).
Qed.

Lemma weight_eq p rel : score_multiplier p rel = spec_weight p rel.
Proof.
  unfold score_multiplier, spec_weight.
  rewrite (Z.ltb_antisym 0 rel), (Z.leb_antisym rel (Z.of_nat (length (p_table p)))), <- negb_andb.
  destruct ((0 <=? rel) && (rel <? Z.of_nat (length (p_table p)))); reflexivity.
Qed.

Lemma weight_u64 p rel : params_ok p -> u64 (spec_weight p rel).
Proof.
  intros Hp. unfold spec_weight.
  destruct ((0 <=? rel) && (rel <? Z.of_nat (length (p_table p)))) eqn:E; [|split; reflexivity].
  apply andb_prop in E as [?%Z.leb_le ?%Z.ltb_lt]. apply (ok_table p Hp), nth_In. lia.
Qed.

Lemma zsum_cons a l : zsum (a :: l) = a + zsum l. Proof. reflexivity. Qed.

Lemma zsum_bound (l : list Z) c : (forall x, In x l -> 0 <= x < c) -> 0 <= zsum l <= c * Z.of_nat (length l).
Proof.
  induction l as [|a r IH]; intros H; [cbn; lia|].
  rewrite zsum_cons. cbn [length]. specialize (IH (fun x Hx => H x (or_intror Hx))).
  pose proof (H a (or_introl eq_refl)). lia.
Qed.

Section Payout.
  Variable w : Z -> Z.
  Hypothesis Hw : forall x, 0 <= x < two256 -> w x = x.
  Variable p : Params.
  Hypothesis Hp : params_ok p.

  Lemma bd_add_fx t x : 0 <= t -> 0 <= x -> t + x < B128 -> bd_add w t x = t + x.
  Proof. intros. apply (w_small w Hw). lia. Qed.

  Definition wsum (bp : Z) (v : list (Z * Z)) : Z := zsum (map (fun ph => spec_weight p (snd ph - bp)) v).

  Lemma wsum_bound bp v : 0 <= wsum bp v <= 2 ^ 64 * Z.of_nat (length v).
  Proof.
    unfold wsum. rewrite <- (map_length (fun ph => spec_weight p (snd ph - bp)) v).
    apply zsum_bound. intros x Hx. apply in_map_iff in Hx. destruct Hx as (ph & <- & _).
    apply (weight_u64 p _ Hp).
  Qed.

  Lemma score_loop_spec bp ends : forall t,
    counted_all (Z.le bp) ends ->
    0 <= t -> t + wsum bp (on_chain ends) < B128 ->
    score_loop w p bp ends t = Ok (t + wsum bp (on_chain ends)).
  Proof.
    induction ends as [|e r IH]; intros t Hb Ht; cbn [score_loop on_chain].
    - intros _. cbn. f_equal. lia.
    - pose proof (counted_tail _ _ _ Hb) as Hbr.
      destruct (e_bop e) as [z|] eqn:E; [|apply IH; assumption]. intros Hsum.
      pose proof (Hb e z (or_introl eq_refl) E). destruct (Z.ltb_spec (z - bp) 0); [lia|].
      rewrite weight_eq. unfold wsum in *. cbn [map snd] in *. rewrite zsum_cons in *.
      destruct (u64_128 _ (weight_u64 p (z - bp) Hp)) as [Hw0 _].
      pose proof (proj1 (wsum_bound bp (on_chain r))) as Hr0. unfold wsum in Hr0.
      rewrite bd_add_fx, IH by (try assumption; lia). f_equal. lia.
  Qed.

  Lemma spec_score_bound ends : ends_ok ends -> 0 <= spec_score p ends < 2 ^ 96.
  Proof.
    intros [Hlen _]. unfold spec_score. fold (wsum (spec_best (on_chain ends)) (on_chain ends)).
    pose proof (wsum_bound (spec_best (on_chain ends)) (on_chain ends)). pose proof (on_chain_length ends).
    change (2 ^ 96) with (2 ^ 64 * 2 ^ 32). nia.
  Qed.

  Lemma spec_score_128 ends : ends_ok ends -> 0 <= spec_score p ends < B128.
  Proof.
    intros [H0 H96]%spec_score_bound. split; [exact H0|].
    apply (Z.lt_le_trans _ _ _ H96). apply Z.pow_le_mono_r; lia.
  Qed.

  Lemma score_spec ends : ends_ok ends -> score_from_endorsements w p ends = Ok (spec_score p ends).
  Proof.
    intros He. pose proof (spec_score_128 ends He) as Hb. destruct He as [_ Hh].
    unfold score_from_endorsements, spec_score in *. rewrite (best_pub_spec _ Hh).
    fold (wsum (spec_best (on_chain ends)) (on_chain ends)) in *.
    destruct (on_chain ends) as [|ph v] eqn:Ev; [reflexivity|].
    destruct (best_pub_props ends Hh) as [S1 S2]; [congruence|]. rewrite Ev in S1, S2.
    destruct (Z.ltb_spec (spec_best (ph :: v)) 0); [lia|].
    rewrite <- Ev, score_loop_spec; rewrite ?Ev; [reflexivity | intros e h He Eh; apply (S2 e h He Eh) | lia | lia].
  Qed.

  Definition ssum (bs : list Block) : Z := zsum (map (fun b => spec_score p (b_ends b)) bs).

  Lemma ssum_bound bs : chain_ok bs -> 0 <= ssum bs <= 2 ^ 96 * Z.of_nat (length bs).
  Proof.
    intros Hc. unfold ssum. rewrite <- (map_length (fun b => spec_score p (b_ends b)) bs).
    apply zsum_bound. intros x Hx. apply in_map_iff in Hx. destruct Hx as (b & <- & Hb).
    apply spec_score_bound, (Hc b Hb).
  Qed.

  Lemma chain_ok_firstn n c : chain_ok c -> chain_ok (firstn n c).
  Proof. intros H b Hb. apply H, (firstn_in n), Hb. Qed.

  Lemma difficulty_loop_spec : forall n prevs t, chain_ok prevs ->
    0 <= t -> t + ssum (firstn n prevs) < B128 ->
    difficulty_loop w p n prevs t = Ok (t + ssum (firstn n prevs)).
  Proof.
    induction n as [|n IH]; intros prevs t Hc Ht Hb; [cbn; f_equal; lia|].
    destruct prevs as [|b r]; cbn [difficulty_loop firstn] in *; [cbn; f_equal; lia|].
    pose proof (spec_score_bound _ (proj2 (Hc b (or_introl eq_refl)))) as [Hs0 _].
    rewrite score_spec by apply (Hc b), or_introl, eq_refl. cbn [bind].
    assert (Hcr : chain_ok r) by (intros b' Hb'; apply Hc; right; exact Hb').
    pose proof (ssum_bound _ (chain_ok_firstn n r Hcr)) as [Hr0 _].
    unfold ssum in *. cbn [map] in *. rewrite zsum_cons in *.
    rewrite bd_add_fx, IH by (try assumption; lia). f_equal. lia.
  Qed.

  Lemma spec_difficulty_pos prevs : 0 < spec_difficulty p prevs.
  Proof. unfold spec_difficulty. pose proof ONE_128. lia. Qed.

  Lemma difficulty_spec prevs : chain_ok prevs -> calc_difficulty w p prevs = Ok (spec_difficulty p prevs).
  Proof.
    intros Hc. pose proof (ok_interval p Hp) as Hi. pose proof ONE_128 as H1.
    unfold calc_difficulty, spec_difficulty. fold (ssum (firstn (Z.to_nat (p_interval p)) prevs)).
    pose proof (ssum_bound _ (chain_ok_firstn (Z.to_nat (p_interval p)) prevs Hc)) as Hb.
    set (tot := ssum (firstn (Z.to_nat (p_interval p)) prevs)) in *.
    assert (Htot : 0 <= tot < B128 /\ p_interval p < B128).
    { pose proof (firstn_le_length (Z.to_nat (p_interval p)) prevs). unfold B128.
      change (2 ^ 128) with (2 ^ 96 * 2 ^ 32). nia. }
    rewrite difficulty_loop_spec by (try assumption; lia). cbn [bind]. rewrite Z.add_0_l.
    unfold bd_of_u64. rewrite (w_mul w Hw), (bd_div_fx w Hw) by (rewrite <- ?ONE_DEC; lia). cbn [bind].
    unfold fx_div. rewrite Z.div_mul_cancel_r, ltb_max by (rewrite <- ?ONE_DEC; lia). reflexivity.
  Qed.

  Lemma miner_spec rel s br : 0 <= rel < 2 ^ 31 -> 0 <= s < B128 -> 0 <= br < 2 ^ 64 ->
    miner_reward w p (wrap32 rel) s br = Ok (spec_share br s (spec_weight p rel)).
  Proof.
    intros Hr Hs Hb. unfold miner_reward, spec_share.
    destruct (Z.eqb_spec s 0); [reflexivity|].
    rewrite wrap32_small, to_int32_small, weight_eq by lia.
    pose proof (weight_u64 p rel Hp) as Hwt.
    rewrite (bd_mul_fx w Hw) by (apply u64_128; assumption).
    apply (bd_div_fx w Hw); [|lia].
    pose proof (u64_mul _ _ Hb Hwt). pose proof (div_DEC_le (br * spec_weight p rel)). unfold fx_mul. lia.
  Qed.

  Lemma share_le br s wgt : 0 <= br -> 0 <= s -> 0 <= wgt ->
    0 <= spec_share br s wgt /\ s * spec_share br s wgt <= br * wgt.
  Proof.
    intros Hb Hs Hwg. unfold spec_share. destruct (Z.eqb_spec s 0); [split; nia|].
    pose proof (div_DEC_le (br * wgt)) as H1. fold (fx_mul br wgt) in H1.
    unfold fx_div. split; [apply Z.div_pos; unfold DEC; nia|].
    pose proof (Z.mul_div_le (fx_mul br wgt * DEC) s). pose proof (Z.mul_div_le (br * wgt) DEC).
    unfold fx_mul in *. unfold DEC in *. nia.
  Qed.

  Definition share_of (bp s br : Z) (ph : Z * Z) : Z := low64 (spec_share br s (spec_weight p (snd ph - bp))).

  Lemma payout_loop_spec bp s br ends : forall m,
    counted_all (fun h => bp <= h < 2 ^ 31) ends -> 0 <= bp ->
    0 <= s < B128 -> 0 <= br < 2 ^ 64 ->
    payout_loop w p bp s br ends m = Ok (fold_left (step (share_of bp s br)) (on_chain ends) m).
  Proof.
    induction ends as [|e r IH]; intros m Hb Hbp Hs Hbr; cbn [payout_loop on_chain fold_left]; [reflexivity|].
    pose proof (counted_tail _ _ _ Hb) as Hbr'.
    destruct (e_bop e) as [z|] eqn:E; [|apply IH; assumption].
    pose proof (Hb e z (or_introl eq_refl) E : bp <= z < 2 ^ 31). destruct (Z.ltb_spec (z - bp) 0); [lia|].
    rewrite miner_spec by (try assumption; lia). cbn [bind fold_left].
    apply IH; assumption.
  Qed.

  Lemma calc_payouts_spec b prevs : block_ok b -> chain_ok prevs ->
    calc_payouts w p b prevs = Ok (spec_payout_map p b prevs).
  Proof.
    intros [Hh He] Hc. pose proof (spec_score_128 _ He) as Hs128. pose proof (spec_difficulty_pos prevs) as Hd.
    destruct He as [Hlen Hhs]. unfold calc_payouts, spec_payout_map.
    rewrite score_spec, difficulty_spec by (assumption || split; assumption). cbn [bind].
    unfold payouts_inner. rewrite (best_pub_spec _ Hhs).
    destruct (on_chain (b_ends b)) as [|ph v] eqn:Ev; [reflexivity|].
    destruct (best_pub_props _ Hhs) as [S1 S2]; [congruence|]. rewrite Ev in S1, S2.
    destruct (Z.ltb_spec (spec_best (ph :: v)) 0); [lia|].
    rewrite wrap32_small, (block_reward_spec w Hw p Hp) by (assumption || lia). cbn [bind].
    destruct (block_reward_cap p Hp (b_height b) (spec_score p (b_ends b)) (spec_difficulty p prevs)) as [[C1 C2] C3]; try lia.
    rewrite payout_loop_spec, Ev; [reflexivity | assumption.. | lia].
  Qed.
End Payout.

Lemma wrap256_small x : 0 <= x < two256 -> wrap256 x = x.
Proof. apply Z.mod_small. Qed.
