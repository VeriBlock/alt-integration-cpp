(** Bit-level lemmas over Z that turn masks/shifts of the C++ code into
    arithmetic ([mod], [/], [*], [+]) so that [lia] can finish. Shared by the
    compact-target, U256 and base59 proofs. *)
From Coq Require Import ZArith Lia Bool.
Local Open Scope Z_scope.

Lemma land_ones_mod a n : 0 <= n -> Z.land a (2 ^ n - 1) = a mod 2 ^ n.
Proof.
  intros Hn. rewrite <- Z.land_ones by exact Hn. f_equal.
  rewrite Z.ones_equiv. lia.
Qed.

Lemma testbit_high a n : 0 <= n -> 2 ^ n <= a < 2 ^ (n + 1) -> Z.testbit a n = true.
Proof.
  intros Hn [Hlo Hhi].
  assert (Hpos : 0 < a) by (pose proof (Z.pow_pos_nonneg 2 n); lia).
  assert (Hl : Z.log2 a = n).
  { apply Z.log2_unique; [exact Hn | split; [exact Hlo | replace (Z.succ n) with (n + 1) by lia; exact Hhi]]. }
  rewrite <- Hl. apply Z.bit_log2. exact Hpos.
Qed.

Lemma testbit_low a n : 0 <= a < 2 ^ n -> Z.testbit a n = false.
Proof.
  intros [Hlo Hhi].
  destruct (Z.eq_dec a 0) as [->|Hne]; [apply Z.testbit_0_l|].
  destruct (Z_lt_le_dec n 0) as [Hneg|Hn]; [apply Z.testbit_neg_r; exact Hneg|].
  apply Z.bits_above_log2; [exact Hlo|].
  apply Z.log2_lt_pow2; lia.
Qed.

Lemma testbit_leb a i : 0 <= i -> 0 <= a < 2 ^ (i + 1) -> Z.testbit a i = (2 ^ i <=? a).
Proof.
  intros Hi Ha. destruct (Z.leb_spec (2 ^ i) a) as [H|H].
  - apply testbit_high; lia.
  - apply testbit_low; lia.
Qed.

Lemma land_pow2 a n : 0 <= n -> Z.land a (2 ^ n) = if Z.testbit a n then 2 ^ n else 0.
Proof.
  intros Hn. apply Z.bits_inj'. intros k Hk.
  rewrite Z.land_spec, Z.pow2_bits_eqb by exact Hn.
  destruct (Z.eqb_spec n k) as [->|Hne].
  - destruct (Z.testbit a k) eqn:E; cbn [andb].
    + rewrite Z.pow2_bits_eqb by exact Hk. symmetry. apply Z.eqb_refl.
    + symmetry. apply Z.testbit_0_l.
  - rewrite andb_false_r.
    destruct (Z.testbit a n).
    + rewrite Z.pow2_bits_eqb by exact Hn. symmetry. apply Z.eqb_neq. exact Hne.
    + symmetry. apply Z.testbit_0_l.
Qed.

Lemma land_low_mul_pow2 a b n : 0 <= a < 2 ^ n -> Z.land a (b * 2 ^ n) = 0.
Proof.
  intros Ha. apply Z.bits_inj'. intros k Hk.
  rewrite Z.land_spec, Z.testbit_0_l.
  destruct (Z_lt_le_dec k n) as [Hlt|Hge].
  - rewrite Z.mul_pow2_bits_low by exact Hlt. apply andb_false_r.
  - rewrite (testbit_low a k); [reflexivity|].
    assert (2 ^ n <= 2 ^ k) by (apply Z.pow_le_mono_r; lia). lia.
Qed.

Lemma lor_add_disjoint a b : Z.land a b = 0 -> Z.lor a b = a + b.
Proof.
  intros H. rewrite <- (Z.lxor_lor a b H). symmetry. apply Z.add_nocarry_lxor. exact H.
Qed.

Lemma lor_shiftl_add a b n : 0 <= n -> 0 <= a < 2 ^ n -> Z.lor a (Z.shiftl b n) = a + b * 2 ^ n.
Proof.
  intros Hn Ha. rewrite Z.shiftl_mul_pow2 by exact Hn.
  apply lor_add_disjoint. apply land_low_mul_pow2; assumption.
Qed.

Lemma lor_low_high a b n : 0 <= n -> 0 <= a < 2 ^ n -> Z.lor (b * 2 ^ n) a = b * 2 ^ n + a.
Proof.
  intros Hn Ha. rewrite Z.lor_comm, Z.add_comm. apply lor_add_disjoint.
  apply land_low_mul_pow2; assumption.
Qed.

Lemma pow2_pos k : 0 <= k -> 0 < 2 ^ k.
Proof. intros. apply Z.pow_pos_nonneg; lia. Qed.

Lemma mul_bound a b A B : 0 <= a <= A -> 0 <= b <= B -> 0 <= a * b <= A * B.
Proof. intros Ha Hb. split; [apply Z.mul_nonneg_nonneg|apply Z.mul_le_mono_nonneg]; lia. Qed.

Lemma mul_pow2_bounds m a b k : 0 <= a -> 0 <= b -> 0 <= k ->
  2 ^ a <= m < 2 ^ b -> 2 ^ (a + k) <= m * 2 ^ k < 2 ^ (b + k).
Proof.
  intros Ha Hb Hk [Hlo Hhi]. pose proof (pow2_pos k Hk). rewrite !Z.pow_add_r by assumption.
  split; [apply Z.mul_le_mono_nonneg_r|apply Z.mul_lt_mono_pos_r]; lia.
Qed.

(** [Z.shiftl] by an amount of either sign *)
Lemma shiftl_bound a n k : 0 <= a < 2 ^ n -> 0 <= n -> 0 <= n + k -> 0 <= Z.shiftl a k < 2 ^ (n + k).
Proof.
  intros Ha Hn Hnk. destruct (Z_le_gt_dec 0 k) as [Hk|Hk].
  - rewrite Z.shiftl_mul_pow2, Z.pow_add_r by lia. pose proof (pow2_pos k Hk). nia.
  - rewrite Z.shiftl_div_pow2 by lia. pose proof (pow2_pos (- k) ltac:(lia)) as HP.
    split; [apply Z.div_pos; lia|]. apply Z.div_lt_upper_bound; [exact HP|].
    rewrite <- Z.pow_add_r by lia. replace (- k + (n + k)) with n by ring. lia.
Qed.

Lemma shiftr_bound x t B : 0 <= x < B -> 0 <= t -> 0 <= Z.shiftr x t < B.
Proof.
  intros Hx Ht. rewrite Z.shiftr_div_pow2 by exact Ht.
  pose proof (pow2_pos t Ht). split; [apply Z.div_pos; lia|].
  apply Z.div_lt_upper_bound, Z.lt_le_trans with (1 * B); [lia|lia|apply Z.mul_le_mono_nonneg_r; lia].
Qed.

Lemma shiftr_shiftl_sub a k j : 0 <= j -> Z.shiftr (Z.shiftl a k) j = Z.shiftl a (k - j).
Proof.
  intros Hj. apply Z.bits_inj'. intros i Hi.
  rewrite Z.shiftr_spec, !Z.shiftl_spec by lia. f_equal. ring.
Qed.
