(** C10 — property theorems only; each closed by [exact] of a lemma proved under Store/.
    Model: Store/SaveLoadDefs.v (BlockIndex/addon mutators with exactly the setDirty() calls of the code,
    saveTree, loadTree). [run prims_fixed h init storage0] executes ANY history [h] of tree operations in which
    [OSave] may occur at ANY positions. *)
From Coq Require Import NArith List.
From VB Require Import Store.SaveLoadDefs Store.SaveLoadProofs Store.SaveLoadTheorems Store.LoadProofs Store.LoadSort Store.LoadWindow.
From VB Require Import Store.ChainWorkDefs Store.ChainWorkProofs.
From VB Require Import Store.FinalizeDefs Store.FinalizeOutdated Store.FinalizeWindow Store.FinalizeTips
  Store.FinalizeVariantDefs Store.FinalizeDirtyProofs.
Import ListNotations.
Local Open Scope N_scope.

(* every block that is not dirty is on disk with exactly its current persisted projection
   (= every block whose projection changed since it was last written is dirty) *)
Theorem C10_dirty_complete :
  forall h s st, run prims_fixed h init storage0 = Done s st ->
  forall id b, lookup (blocks s) id = Some b -> b_dirty b = false -> lookup (st_blocks st) id = Some (b_pers b).
Proof. exact dirty_complete. Qed.
Print Assumptions C10_dirty_complete.

(* after the last save the storage accumulated by all incremental saves IS the full dump of the current
   state; loading it equals loading a complete snapshot *)
Theorem C10_save_load_roundtrip :
  forall h s st, run prims_fixed (h ++ [OSave]) init storage0 = Done s st ->
  st = full_dump s /\ load prims_fixed st = load prims_fixed (full_dump s).
Proof. exact save_load_roundtrip. Qed.
Print Assumptions C10_save_load_roundtrip.

(* a crash anywhere after a completed save and before the next one loads exactly the state of that save *)
Theorem C10_crash_loses_only_tail :
  forall h1 h2 s1 st1 s2 st2,
  run prims_fixed (h1 ++ [OSave]) init storage0 = Done s1 st1 ->
  no_save h2 = true ->
  run prims_fixed ((h1 ++ [OSave]) ++ h2) init storage0 = Done s2 st2 ->
  st2 = st1 /\ st2 = full_dump s1 /\ load prims_fixed st2 = load prims_fixed (full_dump s1).
Proof. exact crash_loses_only_tail. Qed.
Print Assumptions C10_crash_loses_only_tail.

(* documentation of repaired defect F9 (/repo 0c5b5503): with raiseValidity/lowerValidity that do not call
   setDirty() the first theorem is false: header P, header C, body C, save, body P, save leaves the clean
   block C stored with status 257 while its live status is 258 *)
Theorem C10_dirty_complete_v0_refuted :
  exists s st b,
    run prims_v0 f9_history init storage0 = Done s st /\
    lookup (blocks s) 2 = Some b /\ b_dirty b = false /\
    s_level (bstatus b) = 2 /\
    (exists p, lookup (st_blocks st) 2 = Some p /\ status_word (p_status p) = 257 /\ status_word (bstatus b) = 258 /\ p <> b_pers b).
Proof. exact dirty_complete_v0_refuted. Qed.
Print Assumptions C10_dirty_complete_v0_refuted.

(* loadBlockForward + recoverEndorsements over any parent-before-child order restore exactly the stored fields *)
Theorem C10_load_blocks_topological :
  forall l m acc,
  (forall k, pv m k = lookup acc k) -> topo_ok acc l ->
  exists m', load_blocks prims_fixed l m = Some m' /\ forall k, pv m' k = lookup (acc ++ l) k.
Proof. exact load_blocks_topological. Qed.
Print Assumptions C10_load_blocks_topological.

(* full statement shape of the property, PARTIAL: for any history and any placement of saves, loading the
   accumulated storage succeeds and gives the tip and every live block's persisted projection as of the last
   save.  Premises about the saved state (NOT proved for all reachable states, because the model's operations take
   their block lists as free arguments): it is structurally consistent ([consistent_list]: unique ids, every index
   VALID_TREE or FAILED_POP, parents present one below, endorsed blocks present and lower) - from which the
   parent-before-child order of the height sort is PROVED - the tip is a live block, and the stored active chain is
   ACTIVE and fully valid.  The rebuilt endorsedBy lists and the dirty bits are not described. *)
Theorem C10_reload_equiv_partial :
  forall h s st,
  run prims_fixed (h ++ [OSave]) init storage0 = Done s st ->
  let live := filter (fun x => negb (s_deleted (p_status (snd x)))) (st_blocks (full_dump s)) in
  consistent_list live ->
  lookup (sort_by_height live) (tip s) <> None ->
  (forall fuel, chain_ok fuel (lookup (sort_by_height live)) (tip s) = true) ->
  exists s', load prims_fixed st = Loaded s' /\ tip s' = tip s /\
             forall k, pv (blocks s') k = lookup (sort_by_height live) k.
Proof. exact reload_equiv_consistent_partial. Qed.
Print Assumptions C10_reload_equiv_partial.

(* the endorsement-recovery window of loadBlockInner (window start = max(0, height - si), a parameter of the
   model) accepts a stored block exactly when all its endorsements satisfy the LIVE rule (distance <= si) *)
Theorem C10_recovery_window_iff_live_rule :
  forall si m x, recover_check (window_start si) m x = true <-> live_rule si m x.
Proof. exact recover_check_iff_live_rule. Qed.
Print Assumptions C10_recovery_window_iff_live_rule.

(* a window shortened by one rejects an endorsement exactly at the boundary, which the live rule accepts:
   storage written by a valid instance would fail to load *)
Theorem C10_recovery_window_short_refuted :
  live_rule 6 boundary_store boundary_block /\
  recover_check (window_start 6) boundary_store boundary_block = true /\
  recover_check (window_start_short 6) boundary_store boundary_block = false.
Proof. exact recovery_window_short_refuted. Qed.
Print Assumptions C10_recovery_window_short_refuted.

(* chain work (memory only, compared by PoW fork resolution) is rebuilt by load to exactly the value the running
   instance holds, for EVERY block of every structurally consistent stored tree - whatever the bootstrap flags
   (bootstrapWithChain marks a whole chain) and whatever order the running instance inserted the blocks in.
   [proof] = getBlockProof(header), any function of the block *)
Theorem C10_chainwork_restored :
  forall (proof : N -> N) stored,
  consistent_list stored -> pbc [] stored ->
  forall id, work_of (load_work proof stored) id = work_of (live_work proof stored) id.
Proof. exact chainwork_restored. Qed.
Print Assumptions C10_chainwork_restored.

(* the variant of loadBlockForward that does not add the parent's work for BLOCK_BOOTSTRAP blocks: with the 2-block
   bootstrap chain g - b1 and a regular block b2 the reloaded work of b1 and b2 is too small *)
Theorem C10_chainwork_restart_at_bootstrap_refuted :
  work_of (live_work (fun _ => 1) boot2_chain) 1 = 2 /\ work_of (load_work_restart (fun _ => 1) boot2_chain) 1 = 1 /\
  work_of (live_work (fun _ => 1) boot2_chain) 2 = 3 /\ work_of (load_work_restart (fun _ => 1) boot2_chain) 2 = 2.
Proof. exact chainwork_restart_at_bootstrap_refuted. Qed.
Print Assumptions C10_chainwork_restart_at_bootstrap_refuted.

(* finalization never deallocates an unsaved block of the active chain: for ANY set of dirty blocks (also an old
   saved block that became dirty again below clean blocks) every dirty active-chain block is still in the tree, still
   dirty, with its payload ids, after finalizeBlockImpl - so the next saveTree can write it.  Premises: well-formed
   tree, the active chain is a parent-closed path starting at the root, no unsaved block on an outdated fork
   (known finding tips-dirty-fork-erased is about those) *)
Theorem C10_finalize_keeps_dirty_chain_blocks :
  forall fuel t idx preserve,
  wf_tree t -> chain_is_path t -> chain_closed t ->
  (forall id b, flookup (t_blocks t) id = Some b -> (N.to_nat (f_height b) <= fuel)%nat) ->
  In idx (t_chain t) -> flookup (t_blocks t) idx <> None ->
  no_dirty_outdated_forks fuel t (lowest_dirty fuel t idx idx) (t_tips t) ->
  forall c b, In c (t_chain t) -> flookup (t_blocks t) c = Some b -> f_dirty b = true ->
  exists b', flookup (t_blocks (finalizeBlockImpl fuel t idx preserve)) c = Some b' /\
             f_dirty b' = true /\ f_pl b' = f_pl b /\ f_height b' = f_height b.
Proof. exact finalize_keeps_dirty_chain_blocks. Qed.
Print Assumptions C10_finalize_keeps_dirty_chain_blocks.

(* the walk that stops at the first clean block ("unsaved blocks are the top of the chain"): chain 0..12, only the
   old block 2 is dirty; finalizing block 8 with preserve 2 moves the root to 6 and deallocates block 2 with its
   unsaved change, the full walk keeps it *)
Theorem C10_finalize_stop_at_first_clean_refuted :
  is_dirty late_dirty_tree 2 = true /\ on_chain late_dirty_tree 2 = true /\
  lowest_dirty_stop 30 late_dirty_tree 8 8 = 8 /\
  flookup (t_blocks (finalizeBlockImpl_stop 30 late_dirty_tree 8 2)) 2 = None /\
  t_chain (finalizeBlockImpl_stop 30 late_dirty_tree 8 2) = [6;7;8;9;10;11;12] /\
  flookup (t_blocks (finalizeBlockImpl 30 late_dirty_tree 8 2)) 2 <> None.
Proof. exact finalize_stop_at_first_clean_refuted. Qed.
Print Assumptions C10_finalize_stop_at_first_clean_refuted.

(* Reload equivalence over ALL guarded histories (definitions: Store/ReloadEquiv.v).
   [guarded h s st]: every operation of [h] satisfies the caller guarantees [pre] in the state it is executed in (the
   operations of the model take block lists, endorsements and the tip as FREE arguments; for unconstrained arguments
   the statement is false, see C10_reload_unguarded_refuted). [equiv s s']: same tip; the reloaded blocks are blocks
   of the live state with equal persisted projection, finalized mark and endorsedBy multiset; every non-deleted live
   block is reloaded. Ignored: dirty bit, map order, BLOCK_DELETED indices (not loaded by design). *)
From VB Require Import Store.ReloadEquiv Store.ReloadWf Store.ReloadLoad Store.ReloadCont
  Store.ReloadGuardB Store.ReloadChainWork Store.ReloadTheorems.

(* the well-formedness invariant that makes load succeed holds initially and is preserved by every guarded operation *)
Theorem C10_reload_wf_inductive :
  wf init /\
  (forall o s st s' st', wf s -> pre s o -> step prims_fixed o s st = Done s' st' -> wf s') /\
  (forall h s st s' st', wf s -> guarded h s st -> run prims_fixed h s st = Done s' st' -> wf s').
Proof. exact (conj wf_init (conj step_wf (fun h => run_wf h))). Qed.
Print Assumptions C10_reload_wf_inductive.

(* load of a full dump of ANY well-formed state succeeds (no failure branch of load is reachable), gives an equivalent
   state, all loaded blocks clean *)
Theorem C10_load_of_wf :
  forall s, wf s ->
  exists s', load prims_fixed (full_dump s) = Loaded s' /\ equiv s s' /\
             (forall id b, lookup (blocks s') id = Some b -> b_dirty b = false /\ deleted b = false).
Proof. exact load_of_wf. Qed.
Print Assumptions C10_load_of_wf.

(* for every guarded history with saves at any positions: the accumulated storage is the full dump, load SUCCEEDS and
   the loaded state is equivalent to the live one *)
Theorem C10_reload_equiv :
  forall h s st,
  guarded h init storage0 ->
  run prims_fixed (h ++ [OSave]) init storage0 = Done s st ->
  wf s /\ st = full_dump s /\
  exists s', load prims_fixed st = Loaded s' /\ equiv s s' /\
             (forall id b, lookup (blocks s') id = Some b -> b_dirty b = false /\ deleted b = false).
Proof. exact reload_equiv. Qed.
Print Assumptions C10_reload_equiv.

(* ... and the chain work load recomputes from that storage is, for every tree block, the sum of the block proofs along
   its parent path in the live tree *)
Theorem C10_reload_chainwork :
  forall (proof : N -> N) h s st,
  guarded h init storage0 ->
  run prims_fixed (h ++ [OSave]) init storage0 = Done s st ->
  forall id b, vis (blocks s) id = Some b ->
  exists w, has_work proof (pvis s) id w /\
            work_of (load_work proof (filter (fun x => negb (s_deleted (p_status (snd x)))) (st_blocks st))) id = w.
Proof. exact reload_equiv_chainwork. Qed.
Print Assumptions C10_reload_chainwork.

(* what equivalent states show: same tip, same block (persisted projection + finalized mark) under every id, same
   endorsedBy multisets *)
Theorem C10_equiv_observe :
  forall s s', equiv s s' ->
  tip s = tip s' /\ (forall id, observe s id = observe s' id) /\
  (forall id b b', vis (blocks s) id = Some b -> vis (blocks s') id = Some b' -> Permutation.Permutation (b_by b) (b_by b')).
Proof. exact equiv_observe. Qed.
Print Assumptions C10_equiv_observe.

(* one operation on equivalent states: same outcome (Done / the same Abort code), equivalent results *)
Theorem C10_reload_step_equiv :
  forall o s st s' st', wf s -> pre s o -> equiv s s' ->
  match step prims_fixed o s st with
  | Done s1 _ => exists s1' st1', step prims_fixed o s' st' = Done s1' st1' /\ equiv s1 s1'
  | Abort w => step prims_fixed o s' st' = Abort w
  end.
Proof. exact step_equiv. Qed.
Print Assumptions C10_reload_step_equiv.

(* the reloaded instance follows the live one op for op over every guarded follow-up history *)
Theorem C10_reload_continues :
  forall h h2 s st s',
  guarded ((h ++ [OSave]) ++ h2) init storage0 ->
  run prims_fixed (h ++ [OSave]) init storage0 = Done s st ->
  load prims_fixed st = Loaded s' ->
  equiv s s' /\
  forall st',
  match run prims_fixed h2 s st with
  | Done s1 _ => exists s1' st1', run prims_fixed h2 s' st' = Done s1' st1' /\ equiv s1 s1'
  | Abort w => run prims_fixed h2 s' st' = Abort w
  end.
Proof. exact reload_continues. Qed.
Print Assumptions C10_reload_continues.

(* without the guarantees the statement is false in the model: an endorsement of a block that does not exist is saved
   and load fails; a save between unapply and setTip loads, but loadTip re-activates the stored tip *)
Theorem C10_reload_unguarded_refuted :
  (exists s st, run prims_fixed ([OApply 0 4 [(1, 99)]] ++ [OSave]) init storage0 = Done s st /\
                load prims_fixed st = LoadFail 1) /\
  (exists s st s' b b', run prims_fixed ([OInsertHeader 1 0; OApply 1 4 []; OSetTip 1; OUnapply 1] ++ [OSave]) init storage0 = Done s st /\
     load prims_fixed st = Loaded s' /\ lookup (blocks s) 1 = Some b /\ lookup (blocks s') 1 = Some b' /\
     s_active (bstatus b) = false /\ s_active (bstatus b') = true).
Proof. exact (conj unguarded_reload_refuted save_between_unapply_and_settip_refuted). Qed.
Print Assumptions C10_reload_unguarded_refuted.

(* the premises are met by a history with forks, invalidation/re-validation, removal and re-adding, payload changes,
   endorsements, reorgs and saves; the reloaded state is the live one up to dirty bits, map order and removed indices;
   the follow-up history ends in the same canonical state and the same storage on both instances *)
Theorem C10_reload_example :
  guarded ((hist1 ++ [OSave]) ++ hist2) init storage0 /\
  (exists s0 st0 s st s',
    run prims_fixed hist1 init storage0 = Done s0 st0 /\ dirty_ids s0 = [0; 1; 2; 3; 4; 6; 5; 7] /\
    run prims_fixed (hist1 ++ [OSave]) init storage0 = Done s st /\
    load prims_fixed st = Loaded s' /\
    canon s0 = canon s' /\ canon s = canon s' /\
    map fst (blocks s) = [0; 1; 2; 3; 4; 6; 5; 7] /\ map fst (blocks s') = [0; 1; 3; 2; 5; 4; 6]) /\
  (exists s st s' s1 st1 s1' st1',
    run prims_fixed (hist1 ++ [OSave]) init storage0 = Done s st /\ load prims_fixed st = Loaded s' /\
    run prims_fixed hist2 s st = Done s1 st1 /\ run prims_fixed hist2 s' st = Done s1' st1' /\
    canon s1 = canon s1' /\ st1 = st1').
Proof. exact (conj hist_guarded (conj reload_example reload_continues_example)). Qed.
Print Assumptions C10_reload_example.

(* The observation compared with the library (Store/ReloadObsDefs.v, executed by ocaml/StoreObs_driver.ml against a
   fresh instance loaded from the real storage): [load_obs P st ids] = load the storage image and show, for the given
   ids and every further loaded tree block, parent, height, C++ status word, payload ids, containing endorsements,
   refcount, finalized mark and the endorsedBy list; [obs_state] the same of a live state. [obs_agree]: same tip,
   same ids, equal observations, endorsedBy equal up to order. *)
From VB Require Import Store.ReloadObsDefs Store.ReloadObsProofs.

(* for every guarded history with saves at any positions the observed load of the accumulated storage succeeds and
   shows exactly the live state at the last save; blocks it shows beyond the requested ids are blocks of the live state *)
Theorem C10_reload_obs :
  forall h s st ids,
  guarded h init storage0 ->
  run prims_fixed (h ++ [OSave]) init storage0 = Done s st ->
  exists o, load_obs prims_fixed st ids = inl o /\
            exists ids', obs_agree o (obs_state s (ids ++ ids')) /\ forall id, In id ids' -> lookup (blocks s) id <> None.
Proof. exact reload_obs. Qed.
Print Assumptions C10_reload_obs.

(* a crash after any completed save (whatever ran after it): the storage image of that save shows the state of that save *)
Theorem C10_crash_obs :
  forall h1 h2 s1 st1 ids,
  guarded (h1 ++ [OSave] ++ h2) init storage0 ->
  run prims_fixed (h1 ++ [OSave]) init storage0 = Done s1 st1 ->
  exists o, load_obs prims_fixed st1 ids = inl o /\
            exists ids', obs_agree o (obs_state s1 (ids ++ ids')) /\ forall id, In id ids' -> lookup (blocks s1) id <> None.
Proof. exact crash_obs. Qed.
Print Assumptions C10_crash_obs.

(* satisfiable and not trivial: the fork/invalidate/remove/endorse history is guarded, its observed load shows the
   live tip, at least 3 blocks, a block with containing endorsements and a block with endorsedBy entries *)
Theorem C10_reload_obs_satisfiable :
  guarded ((hist1 ++ [OSave]) ++ hist2) init storage0 /\
  match run prims_fixed (hist1 ++ [OSave]) init storage0 with
  | Done s st => match load_obs prims_fixed st [] with
                 | inl o => fst o = tip s /\ (3 <=? N.of_nat (length (snd o))) = true /\
                            existsb (fun x => match snd (fst x) with Some b => negb (match o_ce b with [] => true | _ => false end) | None => false end) (snd o) = true /\
                            existsb (fun x => negb (match snd x with [] => true | _ => false end)) (snd o) = true
                 | inr _ => False
                 end
  | Abort _ => False
  end.
Proof. exact reload_obs_example. Qed.
Print Assumptions C10_reload_obs_satisfiable.
