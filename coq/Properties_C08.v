(** C08 — property theorems only; each closed by [exact] of, or in a line or two from, lemmas proved in Tree/*.v.
    Model: Tree/TreeDefs.v (BaseBlockTree flag algebra, kinds ALT and POW).
    [Inv_flags] = proper tree + heights follow parents + "every child of a failed block carries FAILED_CHILD" +
    "live blocks are at least VALID_TREE, removed blocks do not carry FAILED_POP".
    (The converse "FAILED_CHILD only below a failed block" is NOT an invariant of the code: removeSubtree drops
    FAILED_POP of the removed blocks and keeps the FAILED_CHILD of their descendants; [back_in l b] states the absence
    of such stale flags inside subtree(b).)   [sub l b p] = p is b or a descendant of b.
    [tips_ok k l tps] = the tips conjunct of Inv_tree: tps = { b | canBeATip b and no child canBeATip }. *)
From Coq Require Import ZArith NArith List Bool.
From VB Require Import Tree.TreeDefs Tree.TreeInv Tree.TreePass Tree.TreeProofs Tree.TreeExact Tree.TreeRestore
  Tree.TreeMono Tree.TreeChain Tree.TreeTips Tree.TreeTipsOps Tree.TreeTipsUp Tree.TreeRestoreTips.
Import ListNotations.

(* invalidate_exact: outside subtree(b) no failure flag changes; b gets the reason and nothing else; every proper
   descendant keeps its own flags and carries FAILED_CHILD afterwards. All early exits included, both trees. *)
Theorem C08_invalidate_exact :
  forall s id r ord s', Inv_flags s -> invalidate s id r ord = Done s' ->
  forall p y, find_blk p (blocks s) = Some y ->
  exists y', find_blk p (blocks s') = Some y' /\ skel y' = skel y /\
    (sub (blocks s) id p = false -> ffl (bst y') = ffl (bst y)) /\
    (p = id -> has_reason r (bst y') = true /\ fchild (bst y') = fchild (bst y) /\
               forall r', r' <> r -> has_reason r' (bst y') = has_reason r' (bst y)) /\
    (sub (blocks s) id p = true -> p <> id ->
       fblock (bst y') = fblock (bst y) /\ fpop (bst y') = fpop (bst y) /\ fchild (bst y') = true).
Proof. exact invalidate_exact. Qed.
Print Assumptions C08_invalidate_exact.

(* revalidate_exact: only b loses the reason; own flags of every other block and FAILED_CHILD outside subtree(b) are
   unchanged (early exits: reason absent = no-op; other failure flags present = only the flag of b) *)
Theorem C08_revalidate_exact :
  forall s id r x, Inv_flags s -> find_blk id (blocks s) = Some x -> has_reason r (bst x) = true ->
  forall p y, find_blk p (blocks s) = Some y ->
  exists y2, find_blk p (blocks (revalidate_core s id r)) = Some y2 /\ skel y2 = skel y /\
    (p <> id -> fblock (bst y2) = fblock (bst y) /\ fpop (bst y2) = fpop (bst y)) /\
    (p = id -> has_reason r (bst y2) = false /\ fchild (bst y2) = fchild (bst y) /\
               forall r', r' <> r -> has_reason r' (bst y2) = has_reason r' (bst y)) /\
    (sub (blocks s) id p = false -> fchild (bst y2) = fchild (bst y)).
Proof. exact revalidate_core_exact. Qed.
Print Assumptions C08_revalidate_exact.

Theorem C08_revalidate_blocks :
  forall s id r ord s2 x, find_blk id (blocks s) = Some x -> has_reason r (bst x) = true ->
  revalidate s id r ord = Done s2 -> blocks s2 = blocks (revalidate_core s id r).
Proof. exact revalidate_blocks. Qed.
Print Assumptions C08_revalidate_blocks.

(* ... and inside subtree(b) FAILED_CHILD is afterwards carried exactly below failed blocks: descendants that are
   invalid for another reason (and everything below them) stay invalid, all others are valid again *)
Theorem C08_revalidate_descendants :
  forall s id r x, Inv_flags s -> find_blk id (blocks s) = Some x -> has_reason r (bst x) = true ->
  all_marked (blocks s) id -> back_in (blocks (revalidate_core s id r)) id.
Proof. exact revalidate_core_back_in. Qed.
Print Assumptions C08_revalidate_descendants.

(* inv_reval_id (failure flags): revalidate (invalidate s b r) b r gives EVERY block its three failure flags back *)
Theorem C08_inv_reval_id_flags :
  forall s id r o1 o2 s1 s2 x,
  Inv_flags s -> find_blk id (blocks s) = Some x -> has_reason r (bst x) = false ->
  back_in (blocks s) id ->
  invalidate s id r o1 = Done s1 -> revalidate s1 id r o2 = Done s2 ->
  forall p y, find_blk p (blocks s) = Some y ->
    exists y2, find_blk p (blocks s2) = Some y2 /\ skel y2 = skel y /\ ffl (bst y2) = ffl (bst y).
Proof. exact inv_reval_id_flags. Qed.
Print Assumptions C08_inv_reval_id_flags.

(* inv_reval_id (tip set): ... and the tip set is the one of s. The active tip: if b was on the best chain,
   invalidateSubtree moved it to the parent of b (C08_set_state_to_tip); revalidateSubtree leaves it there in the ALT tree
   (its determineBestChain does nothing) and re-determines it by chain work over the restored tips in the PoW tree *)
Theorem C08_inv_reval_id_tips :
  forall s id r o1 o2 s1 s2 x,
  Inv_flags s -> tips_ok (tkind s) (blocks s) (tips s) ->
  find_blk id (blocks s) = Some x -> has_reason r (bst x) = false -> back_in (blocks s) id ->
  invalidate s id r o1 = Done s1 -> revalidate s1 id r o2 = Done s2 ->
  forall q, memN q (tips s2) = memN q (tips s).
Proof. exact inv_reval_id_tips. Qed.
Print Assumptions C08_inv_reval_id_tips.

(* the tip set stays exact under invalidation / revalidation (both trees, all early exits) *)
Theorem C08_invalidate_tips :
  forall s id r ord s', Inv_flags s -> tips_ok (tkind s) (blocks s) (tips s) ->
  invalidate s id r ord = Done s' -> tips_ok (tkind s') (blocks s') (tips s') /\ tkind s' = tkind s.
Proof. exact invalidate_tips_ok. Qed.
Print Assumptions C08_invalidate_tips.

Theorem C08_revalidate_tips :
  forall s id r ord s', Inv_flags s -> tips_ok (tkind s) (blocks s) (tips s) ->
  revalidate s id r ord = Done s' -> tips_ok (tkind s') (blocks s') (tips s') /\ tkind s' = tkind s.
Proof. exact revalidate_tips_ok. Qed.
Print Assumptions C08_revalidate_tips.

(* the algebra behind nested invalidations / revalidations: FAILED_CHILD is a function of the own flags
   (two states with the same own flags, the same flags outside subtree(t) and no stale flag inside agree everywhere) *)
Theorem C08_flags_determined_by_own_flags :
  forall t l l2, wf l -> same_skel l l2 -> fl_ok l -> fl_ok l2 -> back_in l t -> back_in l2 t ->
  (forall p y y2, find_blk p l = Some y -> find_blk p l2 = Some y2 ->
     fblock (bst y) = fblock (bst y2) /\ fpop (bst y) = fpop (bst y2)) ->
  (forall p y y2, find_blk p l = Some y -> find_blk p l2 = Some y2 -> sub l t p = false \/ p = t ->
     fchild (bst y) = fchild (bst y2)) ->
  forall n p y y2, (length (path l p) <= n)%nat -> find_blk p l = Some y -> find_blk p l2 = Some y2 ->
    fchild (bst y) = fchild (bst y2).
Proof. intros t l l2 W SK F F2 B B2 OWN OUT n p y y2 _. exact (ffl_unique t l l2 W SK F F2 B B2 OWN OUT p y y2). Qed.
Print Assumptions C08_flags_determined_by_own_flags.

(* the traversal of both operations, pointwise and in descendant form *)
Theorem C08_traversal_pointwise :
  forall f stop t l, wf l -> forall p y, find_blk p l = Some y ->
    find_blk p (fst (gpass f stop t l)) =
      Some (if vis (snd (gpass f stop t l)) y then with_st y (f (bst y)) else y)
    /\ memN p (snd (gpass f stop t l)) = (p =? t)%N || (vis (snd (gpass f stop t l)) y && negb (stop (bst y))).
Proof. exact gpass_find. Qed.
Print Assumptions C08_traversal_pointwise.

Theorem C08_traversal_exact :
  forall v stop t l, wf l -> forall p y, find_blk p l = Some y ->
  exists y', find_blk p (fst (gpass (set_fchild v) stop t l)) = Some y' /\
    (sub l t p = false \/ p = t -> y' = y) /\
    skel y' = skel y /\ fblock (bst y') = fblock (bst y) /\ fpop (bst y') = fpop (bst y) /\
    level (bst y') = level (bst y) /\ deleted (bst y') = deleted (bst y) /\ active (bst y') = active (bst y) /\
    haspl (bst y') = haspl (bst y) /\
    (fchild (bst y') = fchild (bst y) \/ fchild (bst y') = v).
Proof. exact gpass_exact. Qed.
Print Assumptions C08_traversal_exact.

Theorem C08_mark_pass_is_traversal :
  forall t l, fst (fst (mark_pass t l)) = fst (gpass (set_fchild true) failed t l) /\
              snd (fst (mark_pass t l)) = snd (gpass (set_fchild true) failed t l).
Proof. exact mark_pass_gpass. Qed.
Print Assumptions C08_mark_pass_is_traversal.

Theorem C08_reval_pass_is_traversal :
  forall k l0 t l tps, fst (fst (reval_pass k l0 t l tps)) = fst (gpass (set_fchild false) reval_stop t l) /\
                       snd (reval_pass k l0 t l tps) = snd (gpass (set_fchild false) reval_stop t l).
Proof. exact reval_pass_gpass. Qed.
Print Assumptions C08_reval_pass_is_traversal.

(* best_chain_never_invalid: after every prefix of every history (all operations, both trees) no block of the best
   chain root..tip is failed ... *)
Theorem C08_best_chain_never_invalid :
  forall ops s, Inv_flags s -> tip_ok s ->
  forall a z, In a (path (blocks (run s ops)) (tip (run s ops))) -> find_blk a (blocks (run s ops)) = Some z ->
    failed (bst z) = false.
Proof. exact best_chain_never_invalid. Qed.
Print Assumptions C08_best_chain_never_invalid.

(* ... and also in the intermediate state inside invalidateSubtree (after setState(prev), before the marking) *)
Theorem C08_best_chain_inside_invalidate :
  forall s id x pp s1, Inv_flags s -> tip_ok s ->
  find_blk id (blocks s) = Some x -> bparent x = Some pp -> is_valid L_TREE (bst x) = true ->
  (if on_chain s id then set_state_to s pp else Done s) = Done s1 ->
  Inv_flags s1 /\ tip_ok s1.
Proof. exact invalidate_intermediate_tip_ok. Qed.
Print Assumptions C08_best_chain_inside_invalidate.

(* where the active tip goes: setState(prev) puts it on the parent (ALT: it stays there; POW: updateTips re-determines) *)
Theorem C08_set_state_to_tip : forall s to s1, set_state_to s to = Done s1 -> tip s1 = to.
Proof. exact set_state_to_tip. Qed.
Print Assumptions C08_set_state_to_tip.

(* nested_inv_reval: arbitrary interleavings of ALL operations keep the invariant and a non-failed best-chain tip *)
Theorem C08_nested_inv_reval :
  forall ops s, Inv_flags s /\ tip_ok s -> Inv_flags (run s ops) /\ tip_ok (run s ops).
Proof. exact run_good. Qed.
Print Assumptions C08_nested_inv_reval.
