(** containsSplit as coded: the counted loop of SplitStepsDefs.v computes the verdict of
    [EmbedDefs.scan_gen], every iteration strictly decreases the number of bytes behind the
    loop-head position, the fuel is never exhausted, and the total work is at most
    |tx| * (2656 + 2|data|) / 3. The variant that rewinds to the position BEFORE the magic repeats
    its state forever on a 85-byte transaction. *)
From Coq Require Import ZArith List Bool Lia.
From VB Require Import Stateless.EmbedDefs Stateless.EmbedProofs Stateless.EmbedBits Stateless.SplitStepsDefs.
Import ListNotations.
Local Open Scope Z_scope.

Lemma chunk_loop_w_fst g tx dl bits o s w cdl : forall k pos total acc,
  fst (chunk_loop_w g tx dl bits o s w cdl k pos total acc) = chunk_loop g tx dl bits o s w cdl k pos total acc.
Proof.
  induction k as [|k IH]; intros pos total acc; cbn [chunk_loop_w chunk_loop]; [reflexivity|].
  destruct (chunk_step g tx dl bits o s w cdl (Z.of_nat k) pos total) as [pos' len| | |]; try reflexivity.
  rewrite <- IH. destruct (chunk_loop_w _ _ _ _ _ _ _ _ _ _ _ _). reflexivity.
Qed.

Lemma try_descriptor_w_fst g data tx p : fst (try_descriptor_w g data tx p) = try_descriptor_gen g data tx p.
Proof.
  unfold try_descriptor_w, try_descriptor_gen.
  destruct (decode_desc (byte_at tx p)) as [[n o] s].
  destruct (_ <? _); [reflexivity|].
  rewrite <- chunk_loop_w_fst.
  destruct (chunk_loop_w _ _ _ _ _ _ _ _ _ _ _ _) as [[] wk]; reflexivity.
Qed.

(** case analysis on every [if] of the goal, outermost first *)
Ltac destruct_ifs := repeat match goal with |- context [if ?c then _ else _] => destruct c end.

Lemma scan_step_spec g data tx pos f :
  scan_gen g data tx pos (S f) =
  match scan_step false g data tx pos with
  | Stop v _ => v
  | Continue pos' _ => scan_gen g data tx pos' f
  end.
Proof.
  cbn [scan_gen]. unfold scan_step. destruct_ifs; try reflexivity.
  rewrite <- try_descriptor_w_fst.
  destruct (try_descriptor_w g data tx (pos + 3)) as [[] wa]; reflexivity.
Qed.

(** one iteration reads d = 1..3 bytes and runs at most one attempt, and only when d = 3; so
    if an attempt costs at most [A], then 3 * work <= d * (3 + A) *)
Lemma scan_step_cases g data tx A pos :
  match scan_step false g data tx pos with
  | Continue pos' w =>
      5 < zlen tx - pos /\ pos < pos' <= pos + 3 /\
      (0 <= snd (try_descriptor_w g data tx (pos + 3)) <= A -> 0 <= w /\ 3 * w <= (pos' - pos) * (3 + A))
  | Stop v w =>
      0 <= snd (try_descriptor_w g data tx (pos + 3)) <= A ->
      0 <= w /\ (w = 0 \/ (5 < zlen tx - pos /\ w <= 3 + A))
  end.
Proof.
  unfold scan_step.
  destruct (Z.leb_spec (zlen tx - pos) 5); [lia|].
  destruct_ifs; try lia.
  destruct (try_descriptor_w g data tx (pos + 3)) as [[] wa]; cbn [snd]; lia.
Qed.

(** the measure: bytes behind the loop-head position strictly decrease, by 1..3, and the position
    stays inside the buffer (lastPos is taken AFTER the three magic bytes) *)
Lemma scan_step_progress g data tx pos pos' w :
  scan_step false g data tx pos = Continue pos' w ->
  5 < scan_measure tx pos /\ scan_measure tx pos - 3 <= scan_measure tx pos' < scan_measure tx pos.
Proof.
  intros E. pose proof (scan_step_cases g data tx 0 pos) as C. rewrite E in C.
  unfold scan_measure. lia.
Qed.

(** the out-of-fuel branch is unreachable when the fuel exceeds the bytes behind the position *)
Lemma scan_run_total g data tx : forall fuel pos,
  0 <= pos <= zlen tx -> zlen tx - pos < Z.of_nat fuel ->
  exists v n w, scan_run false g data tx pos fuel = Done v n w /\ scan_gen g data tx pos fuel = v /\
                1 <= n <= Z.max 0 (zlen tx - pos - 5) + 1 /\
                forall A, (forall p, 0 <= snd (try_descriptor_w g data tx p) <= A) ->
                          0 <= w /\ 3 * w <= (zlen tx - pos) * (3 + A).
Proof.
  induction fuel as [|f IH]; intros pos Hpos Hf; [lia|].
  rewrite scan_step_spec. cbn [scan_run].
  pose proof (fun A => scan_step_cases g data tx A pos) as Hc.
  destruct (scan_step false g data tx pos) as [pos' w1|v1 w1].
  - destruct (Hc 0) as (H5 & Hp & _).
    destruct (IH pos') as (v & n & w & E & Hv & Hn & Hw); [lia | lia |].
    rewrite E. exists v, (n + 1), (w + w1). split; [reflexivity|]. split; [exact Hv|]. split; [lia|].
    intros A HA. destruct (Hc A) as (_ & _ & Hw1). specialize (Hw1 (HA _)). specialize (Hw A HA).
    replace ((zlen tx - pos) * (3 + A)) with ((zlen tx - pos') * (3 + A) + (pos' - pos) * (3 + A)) by ring.
    lia.
  - exists v1, 1, w1. split; [reflexivity|]. split; [reflexivity|]. split; [lia|].
    intros A HA. specialize (Hc A (HA _)). pose proof (HA 0). nia.
Qed.

Lemma step_bits_bound o s w cdl i : step_bounds_w o s w i = true -> 0 <= step_bits o s w cdl i <= 23.
Proof.
  unfold step_bounds_w, step_bits. intros H. apply andb_prop in H. destruct H as [H1 H2].
  apply Z.leb_le in H1. destruct (i =? 0); cbn [orb] in H2; [lia|]. apply Z.leb_le in H2. lia.
Qed.

(** the last chunk (i = 0) has length |data| - total; were that to wrap (total > |data|) it would
    exceed 2^32 - 2^11 and fail the remaining() test of a transaction shorter than that *)
Lemma last_chunk_len dl total lim :
  0 <= dl < 2 ^ 32 -> 0 <= total <= 127 * 15 -> lim < 2 ^ 32 - 2 ^ 11 ->
  u32 (u32 (u32 dl - total)) <= lim -> u32 (u32 (u32 dl - total)) <= dl.
Proof. unfold u32. intros. Z.div_mod_to_equations; lia. Qed.

(** [total] stays below 15 * 127, so [int total] does not overflow *)
Lemma chunk_loop_w_bound g tx dl bits o s w cdl :
  zlen tx < 2 ^ 32 - 2 ^ 11 -> 0 <= dl < 2 ^ 32 ->
  forall k pos total acc, (k <= 15)%nat ->
    (forall i, 0 <= i < Z.of_nat k -> step_bounds_w o s w i = true) ->
    0 <= total <= 127 * (15 - Z.of_nat k) ->
    0 <= snd (chunk_loop_w g tx dl bits o s w cdl k pos total acc) <= 151 * Z.of_nat k + dl.
Proof.
  intros Htx Hdl. induction k as [|k IH]; intros pos total acc Hk Hb Ht; cbn [chunk_loop_w]; [cbn [snd]; lia|].
  pose proof (Hb (Z.of_nat k) ltac:(lia)) as Hbk.
  pose proof (step_bits_bound o s w cdl (Z.of_nat k) Hbk) as Hsb.
  pose proof (chunk_step_spec g tx dl bits o s w cdl (Z.of_nat k) pos total ltac:(lia)) as S. cbv zeta in S.
  destruct (chunk_step g tx dl bits o s w cdl (Z.of_nat k) pos total) as [pos' len| | |]; cbn [snd]; try lia.
  destruct S as ((Hp' & Hl0 & Hfit) & Hs & _). cbn [fst snd] in *.
  destruct (Z.of_nat k =? 0) eqn:Ei.
  - apply Z.eqb_eq in Ei. assert (k = 0%nat) by lia. subst k. cbn [chunk_loop_w snd].
    assert (len <= dl) by (subst len; apply (last_chunk_len dl total (zlen tx)); unfold zlen in *; lia).
    lia.
  - unfold step_bounds_w in Hbk. rewrite Ei in Hbk. apply andb_prop in Hbk. destruct Hbk as [_ Hbk].
    apply Z.leb_le in Hbk.
    assert (Hl : 0 <= len <= 127).
    { subst len. destruct (get_int bits _ _) as [lenv|] eqn:Hg; [|cbn; lia].
      apply get_int_bound in Hg; [|exact Hbk]. rewrite u32_small; lia. }
    rewrite i32_small by lia.
    specialize (IH (u64 (pos' + len)) (total + len) (acc ++ slice tx pos' len) ltac:(lia)
                   ltac:(intros i Hi; apply Hb; lia) ltac:(lia)).
    destruct (chunk_loop_w _ _ _ _ _ _ _ _ _ _ _ _) as [r w'].
    cbn [snd] in *. lia.
Qed.

Lemma desc_bounds_w_all d : desc_bounds_w d = true.
Proof.
  unfold desc_bounds_w. pose proof (decode_desc_range d) as R.
  destruct (decode_desc d) as [[n o] s]. destruct R as (Hn & Ho & Hs).
  destruct (desc_layout n o s Hn Ho Hs) as [HB Hlay]. cbv zeta.
  set (B := desc_bytes_length _) in *. set (w := desc_waste B _) in *.
  rewrite !andb_true_iff, !Z.leb_le, forallb_forall. split; [lia|].
  intros i Hin. apply in_map_iff in Hin. destruct Hin as (k & <- & Hk). apply in_seq in Hk.
  destruct (Hlay (Z.of_nat k) ltac:(lia)) as (H0 & H1 & H2).
  unfold step_bounds_w. set (co := u32 (w + _)) in *.
  rewrite (u32_small (co + o)), andb_true_iff, orb_true_iff, Z.eqb_eq, !Z.leb_le by lia.
  split; [lia|]. destruct (Z.eq_dec (Z.of_nat k) 0) as [|Hk0]; [left; assumption | right].
  rewrite u32_small; specialize (H2 Hk0); lia.
Qed.

Lemma try_descriptor_w_bound g data tx p :
  zlen tx < 2 ^ 32 - 2 ^ 11 -> zlen data < 2 ^ 32 ->
  0 <= snd (try_descriptor_w g data tx p) <= attempt_bound (zlen data).
Proof.
  intros Htx Hdata. assert (Hd0 : 0 <= zlen data) by (unfold zlen; lia).
  (* unfolding [desc_bounds_w] in the goal, not in a hypothesis: checking the latter makes the
     kernel evaluate the descriptor arithmetic symbolically *)
  generalize (desc_bounds_w_all (byte_at tx p)). unfold try_descriptor_w, desc_bounds_w, attempt_bound.
  pose proof (decode_desc_range (byte_at tx p)) as R.
  destruct (decode_desc (byte_at tx p)) as [[n o] s]. destruct R as [Hn _].
  rewrite loop_count by exact Hn. cbv zeta.
  set (B := desc_bytes_length _). set (w := desc_waste B _).
  intros Hd. apply andb_prop in Hd. destruct Hd as [HB Hall]. apply andb_prop in HB.
  rewrite !Z.leb_le in HB. rewrite forallb_forall in Hall.
  destruct (Z.ltb_spec (zlen tx - (p + 1)) B) as [|Hfit]; [cbn [snd]; lia|].
  set (bits := table_bits (slice tx (p + 1) B)).
  pose proof (chunk_loop_w_bound g tx (zlen data) bits o s w (last_set bits) Htx ltac:(lia)
                (Z.to_nat n) 0 0 [] ltac:(lia)) as Hc.
  destruct (chunk_loop_w _ _ _ _ _ _ _ _ _ _ _ _) as [r wk]. cbn [snd] in Hc.
  assert (Hwk : 0 <= wk <= 151 * n + zlen data).
  { rewrite <- (Z2Nat.id n) by lia. apply Hc; [|lia]. intros i Hi. apply Hall.
    rewrite <- (Z2Nat.id i) by lia. apply in_map, in_seq. lia. }
  clear - Hwk HB Hn Hd0. destruct r; cbn [snd]; lia.
Qed.

Lemma split_terminates data tx :
  exists v n w, containsSplit_w data tx = Done v n w /\ containsSplit data tx = v /\ 1 <= n <= Z.max 1 (zlen tx - 4).
Proof.
  destruct (scan_run_total true data tx (S (length tx)) 0) as (v & n & w & E & Hv & Hn & _);
    [unfold zlen; lia | unfold zlen; lia |].
  exists v, n, w. split; [exact E|]. split; [exact Hv | lia].
Qed.

(** the work is linear in |tx| with slope (2656 + 2|data|)/3: chunk limit 15 and the descriptor
    table limit 43 are inside the constant 2656 (SplitStepsDefs.attempt_bound) *)
Lemma split_steps_bound data tx :
  zlen data < 2 ^ 32 -> zlen tx < 2 ^ 32 - 2 ^ 11 ->
  exists v n w, containsSplit_w data tx = Done v n w /\ containsSplit data tx = v /\
                1 <= n <= Z.max 1 (zlen tx - 4) /\ 0 <= w /\ 3 * w <= zlen tx * (2656 + 2 * zlen data).
Proof.
  intros Hd Ht.
  destruct (scan_run_total true data tx (S (length tx)) 0) as (v & n & w & E & Hv & Hn & Hw);
    [unfold zlen; lia | unfold zlen; lia |].
  specialize (Hw _ (fun p => try_descriptor_w_bound true data tx p Ht Hd)). unfold attempt_bound in Hw.
  exists v, n, w. split; [exact E|]. split; [exact Hv|]. split; [lia|]. split; [lia|].
  replace (2656 + 2 * zlen data) with (3 + (2653 + 2 * zlen data)) by ring. rewrite Z.sub_0_r in Hw. apply Hw.
Qed.

(** the rewinding variant (lastPos taken before the magic) does not progress *)
Lemma scan_run_stuck rw g data tx pos w :
  scan_step rw g data tx pos = Continue pos w -> forall fuel, scan_run rw g data tx pos fuel = OutOfFuel.
Proof. intros H. induction fuel as [|f IH]; [reflexivity|]. cbn [scan_run]. rewrite H, IH. reflexivity. Qed.

Lemma split_rewind_refuted :
  exists data tx pos w,
    length data = 80%nat /\ 5 < scan_measure tx pos /\
    scan_step true true data tx pos = Continue pos w /\                 (* the loop state repeats: measure not decreased *)
    (forall fuel, scan_run true true data tx pos fuel = OutOfFuel) /\     (* no fuel suffices *)
    containsSplit_w data tx = Done (VFalse 0) 79 251.                  (* as coded: 79 iterations, 251 units *)
Proof.
  assert (H : scan_step true true rewind_data rewind_tx 0 = Continue 0 174) by (vm_compute; reflexivity).
  exists rewind_data, rewind_tx, 0, 174.
  split; [reflexivity|]. split; [vm_compute; reflexivity|]. split; [exact H|].
  split; [exact (scan_run_stuck _ _ _ _ _ _ H) | vm_compute; reflexivity].
Qed.

(** non-vacuity: the counted run on the honest two-chunk split of EmbedBits.v *)
Example honest_split_steps :
  containsSplit_w f11_data honest_split_tx = Done VTrue 82 276 /\
  3 * 276 <= zlen honest_split_tx * (2656 + 2 * zlen f11_data).
Proof. split; vm_compute; [reflexivity | discriminate]. Qed.
