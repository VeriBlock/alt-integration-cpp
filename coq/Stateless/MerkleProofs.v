(** Proofs about the Merkle path checks (model: MerkleDefs.v). *)
From Coq Require Import ZArith List Bool Lia.
From VB Require Import Stateless.EmbedDefs Stateless.EmbedProofs Stateless.MerkleDefs.
Import ListNotations.
Local Open Scope Z_scope.

Section MerkleP.
  Variables sha256d sha256 : list Z -> list Z.

  Lemma btc_fold_spec : forall layers cursor index i,
    0 <= i -> btc_fold sha256d cursor (Z.shiftr index i) layers = btc_spec sha256d cursor index i layers.
  Proof.
    induction layers as [|l r IH]; intros cursor index i Hi; cbn [btc_fold btc_spec]; [reflexivity|].
    rewrite <- Z.testbit_odd. rewrite Z.shiftr_shiftr by lia. apply IH. lia.
  Qed.

  Lemma btc_root_spec subject index layers :
    btc_merkle_root sha256d subject index layers = btc_spec sha256d subject index 0 layers.
  Proof. unfold btc_merkle_root. rewrite <- btc_fold_spec by lia. rewrite Z.shiftr_0_r. reflexivity. Qed.

  Lemma vbk_fold_spec treeIndex index size : forall layers cursor li i,
    (i + length layers = size)%nat ->
    ((i + 2 < size)%nat -> li = Z.shiftr index (Z.of_nat i)) ->
    vbk_fold sha256 treeIndex size cursor li i layers = vbk_spec sha256 treeIndex index size cursor i layers.
  Proof.
    induction layers as [|l r IH]; intros cursor li i Hlen Hli; cbn [vbk_fold vbk_spec]; [reflexivity|].
    cbn [length] in Hlen. unfold vbk_side.
    destruct (Nat.eqb_spec i (size - 1)) as [E1|E1].
    - cbn [Z.odd]. apply IH; [lia|]. intros. lia.
    - destruct ((2 <=? size)%nat && (i =? size - 2)%nat) eqn:E2.
      + apply IH; [lia|]. apply andb_prop in E2. destruct E2 as [_ E2]. apply Nat.eqb_eq in E2. intros. lia.
      + assert (Hlt : (i + 2 < size)%nat).
        { apply andb_false_iff in E2. destruct E2 as [E2|E2].
          - apply Nat.leb_gt in E2. lia.
          - apply Nat.eqb_neq in E2. lia. }
        rewrite (Hli Hlt). rewrite <- Z.testbit_odd. apply IH; [lia|].
        intros _. rewrite Z.shiftr_shiftr by lia. f_equal. lia.
  Qed.

  Lemma vbk_root_spec subject treeIndex index layers :
    vbk_merkle_root sha256 subject treeIndex index layers =
    firstn 16 (vbk_spec sha256 treeIndex index (length layers) subject 0 layers).
  Proof.
    unfold vbk_merkle_root. f_equal. apply vbk_fold_spec; [reflexivity|].
    intros _. change (Z.of_nat 0) with 0. rewrite Z.shiftr_0_r. reflexivity.
  Qed.

  (** check passes => the path's subject is the transaction hash and folding the path (layer i on
      the side given by bit i of the index; VBK: tree-index and metapackage layers on top, root
      trimmed to 16 bytes) yields the expected root *)
  Lemma merkle_sound_btc subject index layers txhash root :
    check_merkle_btc sha256d subject index layers txhash root = true ->
    subject = txhash /\ btc_spec sha256d subject index 0 layers = root.
  Proof.
    unfold check_merkle_btc. destruct (list_eqb subject txhash) eqn:E; cbn [negb]; [|discriminate].
    intros H. split; [apply list_eqb_eq; exact E|]. rewrite <- btc_root_spec. apply list_eqb_eq. exact H.
  Qed.

  Lemma merkle_sound_vbk subject treeIndex index layers txhash root :
    check_merkle_vbk sha256 subject treeIndex index layers txhash root = true ->
    subject = txhash /\
    firstn 16 (vbk_spec sha256 treeIndex index (length layers) subject 0 layers) = root.
  Proof.
    unfold check_merkle_vbk. destruct (list_eqb subject txhash) eqn:E; cbn [negb]; [|discriminate].
    intros H. split; [apply list_eqb_eq; exact E|]. rewrite <- vbk_root_spec. apply list_eqb_eq. exact H.
  Qed.

  Lemma merkle_complete_btc subject index layers :
    check_merkle_btc sha256d subject index layers subject (btc_spec sha256d subject index 0 layers) = true.
  Proof. unfold check_merkle_btc. rewrite list_eqb_refl. cbn [negb]. rewrite btc_root_spec. apply list_eqb_refl. Qed.

  Lemma merkle_complete_vbk subject treeIndex index layers :
    check_merkle_vbk sha256 subject treeIndex index layers subject
      (firstn 16 (vbk_spec sha256 treeIndex index (length layers) subject 0 layers)) = true.
  Proof. unfold check_merkle_vbk. rewrite list_eqb_refl. cbn [negb]. rewrite vbk_root_spec. apply list_eqb_refl. Qed.

  (** which index bits matter (justifies the "semantically neutral" index mutations of the
      correspondence run): BTC: only bits below the number of layers *)
  Lemma btc_spec_index_low : forall layers cursor index index' i,
    0 <= i ->
    (forall k, i <= k < i + Z.of_nat (length layers) -> Z.testbit index k = Z.testbit index' k) ->
    btc_spec sha256d cursor index i layers = btc_spec sha256d cursor index' i layers.
  Proof.
    induction layers as [|l r IH]; intros cursor index index' i Hi H; cbn [btc_spec]; [reflexivity|].
    cbn [length] in H. rewrite (H i) by lia. apply IH; [lia|]. intros k Hk. apply H. lia.
  Qed.
End MerkleP.
