(** containsSplit performs no out-of-range read, neither on the transaction buffer nor on the
    chunk-table bit vector; examples showing that the soundness theorems of EmbedProofs.v are not
    vacuous. *)
From Coq Require Import ZArith List Lia.
From VB Require Import Stateless.EmbedDefs Stateless.EmbedProofs.
Import ListNotations.
Local Open Scope Z_scope.

Lemma split_no_oob data tx :
  zlen tx < 2 ^ 64 -> containsSplit data tx <> VOobBuf /\ containsSplit data tx <> VOobBits.
Proof.
  intros Hsz. pose proof (scan_gen_spec true data tx Hsz (S (length tx)) 0 ltac:(lia)) as C.
  unfold containsSplit, scan.
  destruct (scan_gen true data tx 0 (S (length tx))); [split; discriminate | split; discriminate | destruct C | discriminate C].
Qed.

Lemma embedding_no_oob data tx :
  zlen tx < 2 ^ 64 -> check_embedding data tx <> VOobBuf /\ check_embedding data tx <> VOobBits.
Proof.
  intros Hsz. unfold check_embedding. destruct (contiguous_search data tx); [split; discriminate|].
  apply split_no_oob. exact Hsz.
Qed.

(** non-vacuity: a genuine two-chunk split (not contiguous) is accepted; the contiguous search
    accepts a plain occurrence; so the hypotheses of the soundness theorems are satisfiable *)
Definition honest_split_tx : list Z :=
  firstn 40 f11_data ++ [255] ++ skipn 40 f11_data ++ [146; 122; 89; 35; 5; 2].
Example honest_split_accepted :
  containsSplit f11_data honest_split_tx = VTrue /\ contiguous_search f11_data honest_split_tx = false /\
  try_descriptor f11_data honest_split_tx 84 = Found.
Proof. repeat split; vm_compute; reflexivity. Qed.
Example contiguous_accepted : contiguous_search f11_data ([7; 7] ++ f11_data ++ [9]) = true.
Proof. vm_compute. reflexivity. Qed.
