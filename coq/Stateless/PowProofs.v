(** Clause-level soundness of the proof-of-work checks and their use in the pipelines. *)
From Coq Require Import ZArith List Bool Lia.
From VB Require Gen.Consts.
From VB Require Import Arith.CompactDefs Stateless.EmbedDefs Stateless.EmbedProofs Stateless.CheckDefs
  Stateless.CheckProofs Stateless.PowDefs.
Import ListNotations.
Local Open Scope Z_scope.

(** what a valid BTC header means: the compact target is a proper positive number not above the
    network's pow limit and the hash does not exceed it *)
Definition btc_pow_facts (powLimit bits hash : Z) : Prop :=
  let '(target, negative, overflow) := fromBits bits in
  negative = false /\ overflow = false /\ target <> 0 /\ target <= powLimit /\ hash <= target.

Lemma pow_btc_sound powLimit bits hash : pow_btc powLimit bits hash = true -> btc_pow_facts powLimit bits hash.
Proof.
  unfold pow_btc, btc_pow_facts. destruct (fromBits bits) as [[t neg] ovf].
  destruct neg, ovf; cbn [orb]; try discriminate.
  destruct (Z.eqb_spec t 0); cbn [orb]; try discriminate.
  destruct (Z.ltb_spec powLimit t); try discriminate.
  destruct (Z.ltb_spec t hash); cbn [negb]; try discriminate.
  intros _. repeat split; auto; lia.
Qed.

Lemma pow_btc_complete powLimit bits hash : btc_pow_facts powLimit bits hash -> pow_btc powLimit bits hash = true.
Proof.
  unfold pow_btc, btc_pow_facts. destruct (fromBits bits) as [[t neg] ovf].
  intros (-> & -> & H0 & H1 & H2). cbn [orb].
  destruct (Z.eqb_spec t 0); [contradiction|]. cbn [orb].
  destruct (Z.ltb_spec powLimit t); [lia|]. destruct (Z.ltb_spec t hash); [lia|]. reflexivity.
Qed.

Definition vbk_pow_facts (maxd minDiff bits hash : Z) : Prop :=
  let '(target, negative, overflow) := fromBits bits in
  negative = false /\ overflow = false /\ target <> 0 /\ minDiff <= target /\ hash <= maxd / target.

Lemma pow_vbk_sound maxd minDiff bits hash : pow_vbk maxd minDiff bits hash = true -> vbk_pow_facts maxd minDiff bits hash.
Proof.
  unfold pow_vbk, vbk_pow_facts. destruct (fromBits bits) as [[t neg] ovf].
  destruct neg, ovf; cbn [orb]; try discriminate.
  destruct (Z.eqb_spec t 0); cbn [orb]; try discriminate.
  destruct (Z.ltb_spec t minDiff); try discriminate.
  destruct (Z.ltb_spec (maxd / t) hash); cbn [negb]; try discriminate.
  intros _. repeat split; auto; lia.
Qed.

(** a target above the pow limit is rejected whatever the hash is *)
Lemma pow_btc_target_bound powLimit bits hash :
  powLimit < fst (fst (fromBits bits)) -> pow_btc powLimit bits hash = false.
Proof.
  unfold pow_btc. destruct (fromBits bits) as [[t neg] ovf]. cbn [fst]. intros H.
  destruct (Z.ltb_spec powLimit t); [|lia]. rewrite !orb_true_r. reflexivity.
Qed.

(** the Bitcoin side of a VTB with the PoW clauses spelled out: every carried context header has a
    proper target <= pow limit and hash <= target, and the headers are linked *)
Lemma btc_context_pow_sound (BtcBlock : Type) (btc_hash btc_prev : BtcBlock -> list Z)
      (btc_bits btc_hashnum : BtcBlock -> Z) (powLimit : Z)
      (sha256d : list Z -> list Z) (verify : list Z -> list Z -> list Z -> bool)
      (addr_from_pubkey addr_checksum : list Z -> list Z) (vbk_magic : option Z) (t : VbkPopTx BtcBlock) :
  zlen (p_btctx BtcBlock t) < 2 ^ 64 ->
  check_vbk_pop_tx BtcBlock btc_hash btc_prev (fun b => pow_btc powLimit (btc_bits b) (btc_hashnum b))
                   sha256d verify addr_from_pubkey addr_checksum vbk_magic t = Ok ->
  Forall (fun b => btc_pow_facts powLimit (btc_bits b) (btc_hashnum b)) (p_context BtcBlock t) /\
  btc_linked BtcBlock btc_hash btc_prev (p_context BtcBlock t).
Proof.
  intros Hsz H. apply btc_context_sound in H; [|exact Hsz].
  destruct H as (_ & _ & _ & _ & Hp & Hl). split; [|exact Hl].
  eapply Forall_impl; [|exact Hp]. intros b Hb. apply pow_btc_sound. exact Hb.
Qed.

(** stand-alone VBK headers: plausibility clauses and the difficulty clauses *)
Lemma vbk_blocks_pow_sound (VbkBlock : Type) (vbk_height : VbkBlock -> Z) (vbk_hash_trim vbk_prev : VbkBlock -> list Z)
      (vbk_time vbk_bits vbk_hashnum : VbkBlock -> Z) (forkHeight startTime blockTime : Z) (enabled : bool)
      (maxd minDiff : Z) (bs : list VbkBlock) :
  check_vbk_blocks VbkBlock vbk_height vbk_hash_trim vbk_prev
     (fun b => vbk_plausibility forkHeight startTime blockTime enabled (vbk_height b) (vbk_time b) =? 0)
     (fun b => pow_vbk maxd minDiff (vbk_bits b) (vbk_hashnum b)) bs = 0 ->
  Forall (fun b => vbk_plausibility forkHeight startTime blockTime enabled (vbk_height b) (vbk_time b) = 0 /\
                   vbk_pow_facts maxd minDiff (vbk_bits b) (vbk_hashnum b)) bs.
Proof.
  intros H. apply vbk_blocks_sound in H. destruct H as [H _].
  eapply Forall_impl; [|exact H]. intros b [Hp Hw]. split; [apply Z.eqb_eq; exact Hp | apply pow_vbk_sound; exact Hw].
Qed.

(** plausibility: accepted => height in the supported range and, when the time rule is on, the
    timestamp is not before the start of the progpow era *)
Lemma vbk_plausibility_sound forkHeight startTime blockTime enabled height timestamp :
  vbk_plausibility forkHeight startTime blockTime enabled height timestamp = 0 ->
  forkHeight <= height /\ u32 (Z.quot height 8000) < 4096 /\ (enabled = true -> startTime <= timestamp).
Proof.
  unfold vbk_plausibility. intros H.
  destruct (Z.ltb_spec height forkHeight); [discriminate|].
  destruct (Z.leb_spec 4096 (u32 (Z.quot height 8000))); [discriminate|].
  split; [lia|]. split; [lia|]. intros ->. cbn [negb] in H.
  destruct (Z.ltb_spec timestamp startTime); [discriminate|]. lia.
Qed.

(** an accepted height indexes inside the [VBK_MAX_CALCULATED_EPOCHS_SIZE]-entry tables
    (dag_sizes / cache_sizes / dag_seeds) that the hash of an accepted header reads next; the
    variant of the rule as first coded ([epoch > 4096]) let epoch 4096 through *)
Lemma vbk_plausibility_epoch_in_table forkHeight startTime blockTime enabled height timestamp :
  vbk_plausibility forkHeight startTime blockTime enabled height timestamp = 0 ->
  0 <= u32 (Z.quot height 8000) < VB.Gen.Consts.VBK_MAX_CALCULATED_EPOCHS_SIZE.
Proof.
  intros H. apply vbk_plausibility_sound in H. destruct H as [_ [H _]].
  unfold VB.Gen.Consts.VBK_MAX_CALCULATED_EPOCHS_SIZE. split; [|exact H].
  apply u32_range.
Qed.

Definition vbk_plausibility_v0 (forkHeight : Z) (height : Z) : Z :=
  if height <? forkHeight then 1 else if 4096 <? u32 (Z.quot height 8000) then 2 else 0.

Lemma vbk_plausibility_epoch_v0_refuted :
  exists height, vbk_plausibility_v0 0 height = 0 /\ ~ u32 (Z.quot height 8000) < 4096.
Proof. exists 32768000. split; [vm_compute; reflexivity | vm_compute; discriminate]. Qed.
