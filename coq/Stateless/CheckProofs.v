(** The decision pipelines (model: CheckDefs.v). A pipeline returns the code of its
    first failing stage, so it accepts iff every stage passes. *)
From Coq Require Import ZArith List Bool Lia.
From VB Require Import Stateless.EmbedDefs Stateless.EmbedProofs Stateless.MerkleDefs Stateless.MerkleProofs
  Stateless.CheckDefs.
Import ListNotations.
Local Open Scope Z_scope.

Lemma mem_id_In x seen : mem_id x seen = true <-> In x seen.
Proof.
  induction seen as [|y r IH]; cbn; [split; [discriminate|tauto]|].
  rewrite orb_true_iff, IH, list_eqb_iff. split; intros [H|H]; auto.
Qed.

Lemma has_dup_spec : forall ids seen,
  has_dup seen ids = false <-> (NoDup ids /\ forall x, In x ids -> ~ In x seen).
Proof.
  induction ids as [|x r IH]; intros seen; cbn [has_dup].
  - split; [intros _; split; [constructor | intros x []] | reflexivity].
  - rewrite NoDup_cons_iff. destruct (mem_id x seen) eqn:E.
    + apply mem_id_In in E. split; [discriminate | intros [_ H]; destruct (H x (or_introl eq_refl) E)].
    + assert (Hx : ~ In x seen) by (rewrite <- mem_id_In; congruence).
      rewrite IH. cbn [In]. firstorder subst; auto.
Qed.

Lemma has_dup_NoDup ids : has_dup [] ids = false <-> NoDup ids.
Proof. rewrite has_dup_spec. split; [tauto | intros H; split; [exact H | intros x _ []]]. Qed.

(** the defect of the network-byte comparison before the fix *)
Lemma netbyte_v0_refuted : exists a b, net_ne_v0 a b = false /\ a <> b.
Proof. exists (Some 170), (Some 187). split; [reflexivity | discriminate]. Qed.

Lemma net_eqb_eq a b : net_eqb a b = true <-> a = b.
Proof.
  destruct a as [x|], b as [y|]; cbn; try (split; [discriminate | discriminate]); try tauto.
  rewrite Z.eqb_eq. split; [intros ->; reflexivity | intros H; inversion H; reflexivity].
Qed.

Lemma stage_ok (b : bool) c s r P Q :
  (b = false <-> P) -> (r = Ok <-> Q) -> ((if b then Err c s else r) = Ok <-> P /\ Q).
Proof. destruct b; intuition discriminate. Qed.

Lemma last_ok (b : bool) c s P : (b = false <-> P) -> ((if b then Err c s else Ok) = Ok <-> P).
Proof. destruct b; intuition discriminate. Qed.

Lemma stage_zero (b : bool) k r P Q :
  k <> 0 -> (b = false <-> P) -> (r = 0 <-> Q) -> ((if b then k else r) = 0 <-> P /\ Q).
Proof. destruct b; intuition discriminate. Qed.

Lemma last_zero (b : bool) k P : k <> 0 -> (b = false <-> P) -> ((if b then k else 0) = 0 <-> P).
Proof. destruct b; intuition discriminate. Qed.

Lemma negb_false (b : bool) P : (b = true <-> P) -> (negb b = false <-> P).
Proof. rewrite negb_false_iff. trivial. Qed.

Lemma orb_false (a b : bool) P Q : (a = false <-> P) -> (b = false <-> Q) -> (a || b = false <-> P /\ Q).
Proof. destruct a, b; intuition discriminate. Qed.

Lemma negb_eqb_0 x : negb (x =? 0) = false <-> x = 0.
Proof. apply negb_false, Z.eqb_eq. Qed.

Section CheckP.
  Variables BtcBlock VbkBlock : Type.
  Variables (btc_hash btc_prev : BtcBlock -> list Z).
  Variable btc_pow : BtcBlock -> bool.
  Variable vbk_height : VbkBlock -> Z.
  Variables (vbk_hash_trim vbk_prev : VbkBlock -> list Z).
  Variables (vbk_plausible vbk_pow : VbkBlock -> bool).
  Variables sha256d sha256 : list Z -> list Z.
  Variable verify : list Z -> list Z -> list Z -> bool.
  Variable addr_from_pubkey : list Z -> list Z.
  Variable addr_checksum : list Z -> list Z.
  Variable ctxinfo_root : list Z -> option (list Z).
  Variable check_block_header : list Z -> list Z -> bool.
  Variable vbk_magic : option Z.
  Variable alt_id : Z.
  Variables max_size max_vbk max_vtb max_atv : Z.

  Notation check_btc_blocks := (check_btc_blocks BtcBlock btc_hash btc_prev btc_pow).
  Notation btc_chain := (btc_chain BtcBlock btc_hash btc_prev btc_pow).
  Notation check_vbk_block := (check_vbk_block VbkBlock vbk_plausible vbk_pow).
  Notation check_vbk_blocks := (check_vbk_blocks VbkBlock vbk_height vbk_hash_trim vbk_prev vbk_plausible vbk_pow).
  Notation vbk_chain := (vbk_chain VbkBlock vbk_height vbk_hash_trim vbk_prev vbk_plausible vbk_pow).
  Notation check_signature := (check_signature verify addr_from_pubkey addr_checksum).
  Notation check_publication_data := (check_publication_data ctxinfo_root check_block_header alt_id).
  Notation check_vbk_tx := (check_vbk_tx verify addr_from_pubkey addr_checksum ctxinfo_root check_block_header vbk_magic alt_id).
  Notation check_vbk_pop_tx := (check_vbk_pop_tx BtcBlock btc_hash btc_prev btc_pow sha256d verify addr_from_pubkey addr_checksum vbk_magic).
  Notation full_check_atv := (full_check_atv sha256 verify addr_from_pubkey addr_checksum ctxinfo_root check_block_header vbk_magic alt_id).
  Notation full_check_vtb := (full_check_vtb BtcBlock btc_hash btc_prev btc_pow sha256d sha256 verify addr_from_pubkey addr_checksum vbk_magic).
  Notation check_pop_data := (check_pop_data BtcBlock VbkBlock btc_hash btc_prev btc_pow vbk_plausible vbk_pow sha256d sha256 verify
                                addr_from_pubkey addr_checksum ctxinfo_root check_block_header vbk_magic alt_id
                                max_size max_vbk max_vtb max_atv).
  Notation PopDataT := (PopData BtcBlock VbkBlock).
  Notation VTBT := (VTB BtcBlock).
  Notation VbkPopTxT := (VbkPopTx BtcBlock).

  (** [tauto] takes the oracles (arrows) for implications, and the lemma would depend on oracles
      its statement does not mention: they are cleared first *)
  Ltac taut := repeat match goal with f : _ -> _ |- _ => clear f end; tauto.

  Fixpoint linked_from (last : list Z) (bs : list BtcBlock) : Prop :=
    match bs with [] => True | b :: r => btc_prev b = last /\ linked_from (btc_hash b) r end.
  Definition btc_linked (bs : list BtcBlock) : Prop :=
    match bs with [] => True | b :: r => linked_from (btc_hash b) r end.

  Lemma btc_chain_iff : forall bs last,
    btc_chain last bs = 0 <-> Forall (fun b => btc_pow b = true) bs /\ linked_from last bs.
  Proof.
    induction bs as [|b r IH]; intros last; cbn [CheckDefs.btc_chain linked_from].
    - split; [intros _; split; [constructor | exact I] | reflexivity].
    - rewrite Forall_cons_iff. etransitivity.
      + apply stage_zero; [discriminate | apply negb_false_iff|].
        apply stage_zero; [discriminate | apply negb_false, list_eqb_iff | apply IH].
      + taut.
  Qed.

  Lemma btc_blocks_iff bs :
    check_btc_blocks bs = 0 <-> Forall (fun b => btc_pow b = true) bs /\ btc_linked bs.
  Proof.
    destruct bs as [|b r]; cbn [CheckDefs.check_btc_blocks btc_linked].
    - split; [intros _; split; [constructor | exact I] | reflexivity].
    - rewrite Forall_cons_iff. etransitivity; [apply stage_zero; [discriminate | apply negb_false_iff | apply btc_chain_iff] | taut].
  Qed.

  Lemma vbk_block_iff b : check_vbk_block b = 0 <-> vbk_plausible b = true /\ vbk_pow b = true.
  Proof.
    apply stage_zero; [discriminate | apply negb_false_iff|].
    apply last_zero; [discriminate | apply negb_false_iff].
  Qed.

  Fixpoint vlinked_from (h : Z) (last : list Z) (bs : list VbkBlock) : Prop :=
    match bs with
    | [] => True
    | b :: r => vbk_height b = h + 1 /\ vbk_prev b = last /\ vlinked_from (vbk_height b) (vbk_hash_trim b) r
    end.

  Lemma vbk_chain_iff : forall bs h last,
    vbk_chain h last bs = 0 <->
    Forall (fun b => vbk_plausible b = true /\ vbk_pow b = true) bs /\ vlinked_from h last bs.
  Proof.
    induction bs as [|b r IH]; intros h last; cbn [CheckDefs.vbk_chain vlinked_from].
    - split; [intros _; split; [constructor | exact I] | reflexivity].
    - rewrite Forall_cons_iff. etransitivity.
      + apply stage_zero; [discriminate | etransitivity; [apply negb_eqb_0 | apply vbk_block_iff]|].
        apply stage_zero; [discriminate | | apply IH].
        apply orb_false; [apply negb_false, Z.eqb_eq | apply negb_false, list_eqb_iff].
      + taut.
  Qed.

  Lemma vbk_blocks_sound bs :
    check_vbk_blocks bs = 0 ->
    Forall (fun b => vbk_plausible b = true /\ vbk_pow b = true) bs /\
    match bs with [] => True | b :: r => vlinked_from (vbk_height b) (vbk_hash_trim b) r end.
  Proof.
    destruct bs as [|b r]; cbn [CheckDefs.check_vbk_blocks]; [intros _; split; [constructor | exact I]|].
    intros H. eapply stage_zero in H; [|discriminate | apply negb_eqb_0 | apply vbk_chain_iff].
    destruct H as (Hb & Hr & Hl). apply vbk_block_iff in Hb. split; [constructor|]; assumption.
  Qed.

  Lemma is_derived_iff address pubkey :
    is_derived addr_from_pubkey addr_checksum address pubkey = true <-> address = addr_from_pubkey pubkey.
  Proof.
    unfold is_derived. split.
    - destruct (list_eqb address _) eqn:E; cbn [negb]; [intros _; apply list_eqb_eq, E | discriminate].
    - intros ->. rewrite !list_eqb_refl. reflexivity.
  Qed.

  Lemma check_signature_iff address pubkey txhash sig :
    check_signature address pubkey txhash sig = 0 <->
    address = addr_from_pubkey pubkey /\ verify txhash sig pubkey = true.
  Proof.
    apply stage_zero; [discriminate | apply negb_false, is_derived_iff|].
    apply last_zero; [discriminate | apply negb_false_iff].
  Qed.

  Lemma publication_data_iff p :
    check_publication_data p = 0 <->
    pd_identifier p = alt_id /\
    exists root, ctxinfo_root (pd_contextInfo p) = Some root /\ check_block_header (pd_header p) root = true.
  Proof.
    apply stage_zero; [discriminate | apply negb_false, Z.eqb_eq|].
    destruct (ctxinfo_root (pd_contextInfo p)) as [root|].
    - etransitivity; [apply last_zero; [discriminate | apply negb_false_iff]|]. split.
      + intros Hh. exists root. split; [reflexivity | exact Hh].
      + intros (root' & E & Hh). inversion E; subst. exact Hh.
    - split; [discriminate | intros (root & E & _); discriminate].
  Qed.

  Lemma vbk_tx_iff t :
    check_vbk_tx t = Ok <->
    t_outputs t <= 255 /\ t_network t = vbk_magic /\ 0 <= t_fee t /\
    check_publication_data (t_pubdata t) = 0 /\
    check_signature (t_address t) (t_pubkey t) (t_hash t) (t_signature t) = 0.
  Proof.
    apply stage_ok; [apply Z.ltb_ge|]. apply stage_ok; [apply negb_false, net_eqb_eq|].
    apply stage_ok; [apply Z.ltb_ge|]. apply stage_ok; [apply negb_eqb_0|]. apply last_ok, negb_eqb_0.
  Qed.

  Lemma pubdata_sound t :
    check_vbk_tx t = Ok ->
    pd_identifier (t_pubdata t) = alt_id /\
    exists root, ctxinfo_root (pd_contextInfo (t_pubdata t)) = Some root /\
                 check_block_header (pd_header (t_pubdata t)) root = true.
  Proof. intros H. apply vbk_tx_iff in H. apply publication_data_iff, H. Qed.

  Lemma signature_sound_vbktx t :
    check_vbk_tx t = Ok ->
    t_address t = addr_from_pubkey (t_pubkey t) /\ verify (t_hash t) (t_signature t) (t_pubkey t) = true.
  Proof. intros H. apply vbk_tx_iff in H. apply check_signature_iff, H. Qed.

  Lemma pop_tx_iff (t : VbkPopTxT) :
    check_vbk_pop_tx t = Ok <->
    zlen_g (p_context _ t) <= 65535 /\ p_network _ t = vbk_magic /\
    check_btc_tx_for_pop _ t = 0 /\
    merkle_btc_code sha256d (p_path _ t) (p_btctx_hash _ t) (p_bop_root _ t) = 0 /\
    check_btc_blocks (p_context _ t) = 0 /\
    check_signature (p_address _ t) (p_pubkey _ t) (p_hash _ t) (p_signature _ t) = 0.
  Proof.
    apply stage_ok; [apply Z.ltb_ge|]. apply stage_ok; [apply negb_false, net_eqb_eq|].
    apply stage_ok; [apply negb_eqb_0|]. apply stage_ok; [apply negb_eqb_0|].
    apply stage_ok; [apply negb_eqb_0|]. apply last_ok, negb_eqb_0.
  Qed.

  Lemma btc_tx_for_pop_iff (t : VbkPopTxT) :
    check_btc_tx_for_pop _ t = 0 <->
    length (p_pubbytes _ t) = 80%nat /\ check_embedding (p_pubbytes _ t) (p_btctx _ t) = VTrue.
  Proof.
    apply stage_zero; [discriminate | unfold zlen; rewrite negb_false_iff, Z.eqb_eq; lia|].
    destruct (check_embedding _ _); split; (reflexivity || discriminate || lia).
  Qed.

  Lemma merkle_btc_code_iff m txhash root :
    merkle_btc_code sha256d m txhash root = 0 <->
    mp_subject m = txhash /\ btc_spec sha256d (mp_subject m) (mp_index m) 0 (mp_layers m) = root.
  Proof.
    apply stage_zero; [discriminate | apply negb_false, list_eqb_iff|].
    apply last_zero; [discriminate | rewrite btc_root_spec; apply negb_false, list_eqb_iff].
  Qed.

  Lemma merkle_vbk_code_iff m txhash root :
    merkle_vbk_code sha256 m txhash root = 0 <->
    vp_subject m = txhash /\
    firstn 16 (vbk_spec sha256 (vp_treeIndex m) (vp_index m) (length (vp_layers m)) (vp_subject m) 0 (vp_layers m)) = root.
  Proof.
    apply stage_zero; [discriminate | apply negb_false, list_eqb_iff|].
    apply last_zero; [discriminate | rewrite vbk_root_spec; apply negb_false, list_eqb_iff].
  Qed.

  (** the Bitcoin side of a VTB: embedding, proof of inclusion, context chain with PoW *)
  Lemma btc_context_sound (t : VbkPopTxT) :
    zlen (p_btctx _ t) < 2 ^ 64 ->
    check_vbk_pop_tx t = Ok ->
    length (p_pubbytes _ t) = 80%nat /\
    ((exists i, (i + 80 <= length (p_btctx _ t))%nat /\ firstn 80 (skipn i (p_btctx _ t)) = p_pubbytes _ t) \/
     split_embedding (p_pubbytes _ t) (p_btctx _ t)) /\
    mp_subject (p_path _ t) = p_btctx_hash _ t /\
    btc_spec sha256d (mp_subject (p_path _ t)) (mp_index (p_path _ t)) 0 (mp_layers (p_path _ t)) = p_bop_root _ t /\
    Forall (fun b => btc_pow b = true) (p_context _ t) /\ btc_linked (p_context _ t).
  Proof.
    intros Hsz H. apply pop_tx_iff in H. destruct H as (_ & _ & He & Hm & Hc & _).
    apply btc_tx_for_pop_iff in He. destruct He as [Hl He].
    apply embedding_sound in He; [|exact Hsz]. rewrite Hl in He.
    apply merkle_btc_code_iff in Hm. apply btc_blocks_iff in Hc. destruct Hm, Hc. repeat split; assumption.
  Qed.

  Lemma signature_sound_poptx (t : VbkPopTxT) :
    check_vbk_pop_tx t = Ok ->
    p_network _ t = vbk_magic /\
    p_address _ t = addr_from_pubkey (p_pubkey _ t) /\
    verify (p_hash _ t) (p_signature _ t) (p_pubkey _ t) = true.
  Proof.
    intros H. apply pop_tx_iff in H. destruct H as (_ & Hn & _ & _ & _ & Hs).
    apply check_signature_iff in Hs. exact (conj Hn Hs).
  Qed.

  Lemma full_check_vtb_iff (v : VTBT) :
    full_check_vtb v = Ok <->
    check_vbk_pop_tx (v_tx _ v) = Ok /\
    merkle_vbk_code sha256 (v_path _ v) (p_hash _ (v_tx _ v)) (v_containing_root _ v) = 0.
  Proof.
    unfold CheckDefs.full_check_vtb. destruct (check_vbk_pop_tx (v_tx _ v)).
    - etransitivity; [apply last_ok, negb_eqb_0 | taut].
    - split; [discriminate | intros [H _]; discriminate].
  Qed.

  Lemma full_check_atv_iff a :
    full_check_atv a = Ok <->
    check_vbk_tx (a_tx a) = Ok /\ merkle_vbk_code sha256 (a_path a) (t_hash (a_tx a)) (a_bop_root a) = 0.
  Proof.
    unfold CheckDefs.full_check_atv. destruct (check_vbk_tx (a_tx a)).
    - etransitivity; [apply last_ok, negb_eqb_0 | taut].
    - split; [discriminate | intros [H _]; discriminate].
  Qed.

  Lemma vtb_sound (v : VTBT) :
    full_check_vtb v = Ok ->
    check_vbk_pop_tx (v_tx _ v) = Ok /\
    vp_subject (v_path _ v) = p_hash _ (v_tx _ v) /\
    firstn 16 (vbk_spec sha256 (vp_treeIndex (v_path _ v)) (vp_index (v_path _ v)) (length (vp_layers (v_path _ v)))
                        (vp_subject (v_path _ v)) 0 (vp_layers (v_path _ v))) = v_containing_root _ v.
  Proof.
    intros H. apply full_check_vtb_iff in H. destruct H as [Ht Hm].
    apply merkle_vbk_code_iff in Hm. exact (conj Ht Hm).
  Qed.

  Lemma atv_sound a :
    full_check_atv a = Ok ->
    check_vbk_tx (a_tx a) = Ok /\
    vp_subject (a_path a) = t_hash (a_tx a) /\
    firstn 16 (vbk_spec sha256 (vp_treeIndex (a_path a)) (vp_index (a_path a)) (length (vp_layers (a_path a)))
                        (vp_subject (a_path a)) 0 (vp_layers (a_path a))) = a_bop_root a.
  Proof.
    intros H. apply full_check_atv_iff in H. destruct H as [Ht Hm].
    apply merkle_vbk_code_iff in Hm. exact (conj Ht Hm).
  Qed.

  (** honest payloads are accepted (premises: the oracles accept what an honest miner produces) *)
  Lemma honest_vtb_complete (v : VTBT) :
    let t := v_tx _ v in
    zlen_g (p_context _ t) <= 65535 ->
    p_network _ t = vbk_magic ->
    length (p_pubbytes _ t) = 80%nat ->
    (exists i, firstn 80 (skipn i (p_btctx _ t)) = p_pubbytes _ t) ->
    mp_subject (p_path _ t) = p_btctx_hash _ t ->
    btc_spec sha256d (mp_subject (p_path _ t)) (mp_index (p_path _ t)) 0 (mp_layers (p_path _ t)) = p_bop_root _ t ->
    Forall (fun b => btc_pow b = true) (p_context _ t) -> btc_linked (p_context _ t) ->
    p_address _ t = addr_from_pubkey (p_pubkey _ t) ->
    verify (p_hash _ t) (p_signature _ t) (p_pubkey _ t) = true ->
    vp_subject (v_path _ v) = p_hash _ t ->
    firstn 16 (vbk_spec sha256 (vp_treeIndex (v_path _ v)) (vp_index (v_path _ v)) (length (vp_layers (v_path _ v)))
                        (vp_subject (v_path _ v)) 0 (vp_layers (v_path _ v))) = v_containing_root _ v ->
    full_check_vtb v = Ok.
  Proof.
    intros t Hc Hn Hl He Hs Hr Hp Hlk Ha Hv Hos Hor.
    apply full_check_vtb_iff. split; [|apply merkle_vbk_code_iff; split; assumption].
    apply pop_tx_iff. fold t. split; [exact Hc|]. split; [exact Hn|]. split; [|split; [|split]].
    - apply btc_tx_for_pop_iff. split; [exact Hl|]. unfold check_embedding.
      rewrite contiguous_complete by (rewrite Hl; exact He). reflexivity.
    - apply merkle_btc_code_iff. split; assumption.
    - apply btc_blocks_iff. split; assumption.
    - apply check_signature_iff. split; assumption.
  Qed.

  Lemma honest_atv_complete a :
    let t := a_tx a in
    t_outputs t <= 255 -> t_network t = vbk_magic -> 0 <= t_fee t ->
    pd_identifier (t_pubdata t) = alt_id ->
    (exists root, ctxinfo_root (pd_contextInfo (t_pubdata t)) = Some root /\
                  check_block_header (pd_header (t_pubdata t)) root = true) ->
    t_address t = addr_from_pubkey (t_pubkey t) ->
    verify (t_hash t) (t_signature t) (t_pubkey t) = true ->
    vp_subject (a_path a) = t_hash t ->
    firstn 16 (vbk_spec sha256 (vp_treeIndex (a_path a)) (vp_index (a_path a)) (length (vp_layers (a_path a)))
                        (vp_subject (a_path a)) 0 (vp_layers (a_path a))) = a_bop_root a ->
    full_check_atv a = Ok.
  Proof.
    intros t Ho Hn Hf Hid Hroot Ha Hv Hos Hor.
    apply full_check_atv_iff. split; [|apply merkle_vbk_code_iff; split; assumption].
    apply vbk_tx_iff. fold t. split; [exact Ho|]. split; [exact Hn|]. split; [exact Hf|]. split.
    - apply publication_data_iff. split; assumption.
    - apply check_signature_iff. split; assumption.
  Qed.

  Lemma memo_step_inv full checked :
    (checked = true -> full = true) ->
    let '(v, c') := memo_step full checked in (v = true -> full = true) /\ (c' = true -> full = true).
  Proof.
    unfold memo_step. intros H. destruct checked; [exact (conj H H)|]. destruct full; split; trivial.
  Qed.

  Definition flags_ok {P} (full : P -> bool) (ps : list P) (flags : list bool) : Prop :=
    Forall2 (fun p f => f = true -> full p = true) ps flags.

  Lemma run_memo_inv {P} (full : P -> bool) : forall ps flags,
    flags_ok full ps flags ->
    let '(vs, fs) := run_memo full ps flags in
    flags_ok full ps fs /\ (Forall (fun v => v = true) vs -> Forall (fun p => full p = true) ps).
  Proof.
    induction ps as [|p pr IH]; intros flags H; inversion H; subst; cbn [run_memo].
    - split; constructor.
    - pose proof (memo_step_inv (full p) y H2) as Hm. destruct (memo_step (full p) y) as [v c'].
      specialize (IH _ H4). destruct (run_memo full pr l') as [vs fs]. destruct IH, Hm.
      split; [constructor; assumption|]. intros Hall. inversion Hall; subst. constructor; auto.
  Qed.

  Lemma first_false_none : forall l i, first_false l i = None -> Forall (fun b => b = true) l.
  Proof.
    induction l as [|b r IH]; intros i H; [constructor|]. cbn in H. destruct b; [|discriminate].
    constructor; [reflexivity | eapply IH; exact H].
  Qed.

  Lemma check_duplicates_iff (d : PopDataT) :
    check_duplicates _ _ d = 0 <->
    NoDup (d_context_ids _ _ d) /\ NoDup (d_vtb_ids _ _ d) /\ NoDup (d_atv_ids _ _ d).
  Proof.
    apply stage_zero; [discriminate | apply has_dup_NoDup|].
    apply stage_zero; [discriminate | apply has_dup_NoDup|].
    apply last_zero; [discriminate | apply has_dup_NoDup].
  Qed.

  Definition pop_full (d : PopDataT) : Prop :=
    d_estimate _ _ d <= max_size /\
    zlen_g (d_context _ _ d) <= max_vbk /\ zlen_g (d_vtbs _ _ d) <= max_vtb /\ zlen_g (d_atvs _ _ d) <= max_atv /\
    Forall (fun b => vbk_plausible b = true /\ vbk_pow b = true) (d_context _ _ d) /\
    Forall (fun v => full_check_vtb v = Ok) (d_vtbs _ _ d) /\
    Forall (fun a => full_check_atv a = Ok) (d_atvs _ _ d) /\
    NoDup (d_context_ids _ _ d) /\ NoDup (d_vtb_ids _ _ d) /\ NoDup (d_atv_ids _ _ d).

  Definition pop_inv (d : PopDataT) (st : pop_state) : Prop :=
    let '(fv, fa, checked) := st in
    flags_ok (fun v => is_ok (full_check_vtb v)) (d_vtbs _ _ d) fv /\
    flags_ok (fun a => is_ok (full_check_atv a)) (d_atvs _ _ d) fa /\
    (checked = true -> pop_full d).

  Lemma is_ok_Ok r : is_ok r = true -> r = Ok.
  Proof. destruct r; [reflexivity | discriminate]. Qed.

  Lemma check_pop_data_inv d st :
    pop_inv d st ->
    let '(r, st') := check_pop_data d st in
    pop_inv d st' /\ (r = Ok -> pop_full d).
  Proof.
    destruct st as [[fv fa] checked]. intros (Hv & Ha & Hc). unfold CheckDefs.check_pop_data.
    assert (Hfail : forall fv' fa' c s,
              flags_ok (fun v => is_ok (full_check_vtb v)) (d_vtbs _ _ d) fv' ->
              flags_ok (fun a => is_ok (full_check_atv a)) (d_atvs _ _ d) fa' ->
              pop_inv d (fv', fa', false) /\ (Err c s = Ok -> pop_full d)).
    { intros fv' fa' c s Hv' Ha'. split; [|discriminate]. split; [exact Hv' | split; [exact Ha' | discriminate]]. }
    destruct checked; [split; [exact (conj Hv (conj Ha Hc)) | intros _; apply Hc; reflexivity]|].
    destruct (Z.ltb_spec max_size (d_estimate _ _ d)) as [|L1]; [apply Hfail; assumption|].
    destruct (Z.ltb_spec max_vbk (zlen_g (d_context _ _ d))) as [|L2]; [apply Hfail; assumption|].
    destruct (Z.ltb_spec max_vtb (zlen_g (d_vtbs _ _ d))) as [|L3]; [apply Hfail; assumption|].
    destruct (Z.ltb_spec max_atv (zlen_g (d_atvs _ _ d))) as [|L4]; [apply Hfail; assumption|].
    pose proof (run_memo_inv _ _ _ Hv) as Rv. destruct (run_memo _ (d_vtbs _ _ d) fv) as [vres fv'].
    pose proof (run_memo_inv _ _ _ Ha) as Ra. destruct (run_memo _ (d_atvs _ _ d) fa) as [ares fa'].
    destruct Rv as [Hv' Rv], Ra as [Ha' Ra].
    destruct (first_false (map _ (d_context _ _ d)) 0) eqn:Ec; [apply Hfail; assumption|].
    destruct (first_false vres 0) eqn:Ev; [apply Hfail; assumption|].
    destruct (first_false ares 0) eqn:Ea; [apply Hfail; assumption|].
    destruct (negb (check_duplicates _ _ d =? 0)) eqn:Ed; [apply Hfail; assumption|].
    assert (Hfull : pop_full d).
    { apply first_false_none in Ec, Ev, Ea. apply Rv in Ev. apply Ra in Ea.
      apply negb_eqb_0, check_duplicates_iff in Ed. apply Forall_map in Ec.
      split; [exact L1|]. split; [exact L2|]. split; [exact L3|]. split; [exact L4|].
      split; [|split; [|split; [|exact Ed]]].
      - eapply Forall_impl; [|exact Ec]. intros b Hb. apply vbk_block_iff, Z.eqb_eq, Hb.
      - eapply Forall_impl; [|exact Ev]. intros v0. apply is_ok_Ok.
      - eapply Forall_impl; [|exact Ea]. intros a0. apply is_ok_Ok. }
    split; [exact (conj Hv' (conj Ha' (fun _ => Hfull))) | intros _; exact Hfull].
  Qed.

  (** the call sequences a node can issue against one PopData object and its payloads *)
  Inductive call := CallVTB (i : nat) | CallATV (i : nat) | CallPop.

  Fixpoint memo_at {P} (full : P -> bool) (ps : list P) (flags : list bool) (i : nat) : list bool :=
    match ps, flags with
    | p :: pr, f :: fr =>
      match i with
      | O => snd (memo_step (full p) f) :: fr
      | S i' => f :: memo_at full pr fr i'
      end
    | _, _ => flags
    end.

  Lemma memo_at_inv {P} (full : P -> bool) : forall ps flags i,
    flags_ok full ps flags -> flags_ok full ps (memo_at full ps flags i).
  Proof.
    induction ps as [|p pr IH]; intros flags i H; inversion H; subst; cbn [memo_at]; [constructor|].
    destruct i as [|i'].
    - pose proof (memo_step_inv (full p) y H2) as Hm. destruct (memo_step (full p) y) as [v c'].
      cbn [snd]. constructor; [tauto | assumption].
    - constructor; [assumption | apply IH; assumption].
  Qed.

  Definition do_call (d : PopDataT) (st : pop_state) (c : call) : pop_state :=
    let '(fv, fa, checked) := st in
    match c with
    | CallVTB i => (memo_at (fun v => is_ok (full_check_vtb v)) (d_vtbs _ _ d) fv i, fa, checked)
    | CallATV i => (fv, memo_at (fun a => is_ok (full_check_atv a)) (d_atvs _ _ d) fa i, checked)
    | CallPop => snd (check_pop_data d st)
    end.

  Definition init_state (d : PopDataT) : pop_state :=
    (repeat false (length (d_vtbs _ _ d)), repeat false (length (d_atvs _ _ d)), false).

  Lemma flags_ok_init {P} (full : P -> bool) ps : flags_ok full ps (repeat false (length ps)).
  Proof. induction ps; cbn; constructor; [discriminate | assumption]. Qed.

  (** a [checked] flag is only ever set after a complete success: for every sequence of
      checkVTB / checkATV / checkPopData calls on freshly deserialised (unchecked) payloads *)
  Lemma checked_memo_sound d calls :
    pop_inv d (fold_left (do_call d) calls (init_state d)).
  Proof.
    assert (H0 : pop_inv d (init_state d)).
    { unfold init_state, pop_inv. split; [apply flags_ok_init | split; [apply flags_ok_init | discriminate]]. }
    revert H0. generalize (init_state d). induction calls as [|c r IH]; intros st H; cbn [fold_left]; [exact H|].
    apply IH. destruct st as [[fv fa] checked]. destruct c; cbn [do_call].
    - destruct H as (Hv & Ha & Hc). split; [apply memo_at_inv; exact Hv | split; assumption].
    - destruct H as (Hv & Ha & Hc). split; [exact Hv | split; [apply memo_at_inv; exact Ha | exact Hc]].
    - pose proof (check_pop_data_inv d _ H) as Hp. destruct (check_pop_data d (fv, fa, checked)) as [r0 st'].
      cbn [snd]. taut.
  Qed.

  (** checkPopData = true (in any reachable state) => limits, valid payloads, no duplicate ids *)
  Lemma popdata_limits d calls :
    fst (check_pop_data d (fold_left (do_call d) calls (init_state d))) = Ok -> pop_full d.
  Proof.
    intros H. pose proof (checked_memo_sound d calls) as Hi.
    pose proof (check_pop_data_inv d _ Hi) as Hp.
    destruct (check_pop_data d (fold_left (do_call d) calls (init_state d))) as [r st']. cbn [fst] in H. taut.
  Qed.
End CheckP.
