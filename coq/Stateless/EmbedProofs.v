(** Proofs about the embedding search (model: EmbedDefs.v). *)
From Coq Require Import ZArith List Bool Lia.
From VB Require Import Stateless.EmbedDefs.
Import ListNotations.
Local Open Scope Z_scope.

Lemma nth_firstn_lt {A} (l : list A) d : forall m k, (k < m)%nat -> nth k (firstn m l) d = nth k l d.
Proof.
  induction l as [|a l IH]; intros m k H; destruct m, k; cbn; try lia; auto.
  apply IH. lia.
Qed.

Lemma nth_skipn_add {A} (l : list A) d : forall i k, nth k (skipn i l) d = nth (i + k) l d.
Proof.
  induction l as [|a l IH]; intros i k; destruct i; cbn; auto.
  destruct k; reflexivity.
Qed.

Lemma list_eqb_eq : forall a b, list_eqb a b = true -> a = b.
Proof.
  induction a as [|x a IH]; intros [|y b] H; cbn in H; try discriminate; auto.
  apply andb_prop in H. destruct H as [H1 H2]. apply Z.eqb_eq in H1. subst. f_equal. auto.
Qed.

Lemma list_eqb_refl : forall a, list_eqb a a = true.
Proof. induction a as [|x a IH]; cbn; auto. rewrite Z.eqb_refl. exact IH. Qed.

Lemma list_eqb_iff a b : list_eqb a b = true <-> a = b.
Proof. split; [apply list_eqb_eq | intros ->; apply list_eqb_refl]. Qed.

Lemma inner_loop_spec tx data i : forall fuel j,
  inner_loop tx data i j fuel = true <->
  (forall k, (j <= k < j + fuel)%nat -> nth (i + k) tx 0 = nth k data 0).
Proof.
  induction fuel as [|f IH]; intros j; cbn [inner_loop].
  - split; [intros _ k Hk; lia | reflexivity].
  - destruct (Z.eqb_spec (nth (i + j) tx 0) (nth j data 0)) as [E|E].
    + rewrite IH. split; intros H k Hk.
      * destruct (Nat.eq_dec k j) as [->|Hne]; [exact E | apply H; lia].
      * apply H; lia.
    + split; [discriminate | intros H; exfalso; apply E, H; lia].
Qed.

Lemma match_at_iff tx data i :
  (i + length data <= length tx)%nat ->
  (inner_loop tx data i 0 (length data) = true <-> firstn (length data) (skipn i tx) = data).
Proof.
  intros Hle. rewrite inner_loop_spec. split; intros H.
  - apply nth_ext with (d := 0) (d' := 0).
    + rewrite firstn_length, skipn_length. lia.
    + intros k Hk. rewrite firstn_length, skipn_length in Hk.
      rewrite nth_firstn_lt by lia. rewrite nth_skipn_add. apply H. lia.
  - intros k Hk. rewrite <- H. rewrite nth_firstn_lt by lia. rewrite nth_skipn_add. reflexivity.
Qed.

Lemma outer_loop_spec tx data : forall fuel s,
  outer_loop tx data s fuel = true <->
  exists i, (s <= i < s + fuel)%nat /\ inner_loop tx data i 0 (length data) = true.
Proof.
  induction fuel as [|f IH]; intros s; cbn [outer_loop].
  - split; [discriminate | intros (i & Hi & _); lia].
  - destruct (inner_loop tx data s 0 (length data)) eqn:E.
    + split; [intros _; exists s; split; [lia | exact E] | reflexivity].
    + rewrite IH. split; intros (i & Hi & Hm).
      * exists i; split; [lia | exact Hm].
      * exists i; split; [|exact Hm]. destruct (Nat.eq_dec i s) as [->|]; [congruence | lia].
Qed.

Lemma contiguous_search_iff data tx :
  contiguous_search data tx = true <->
  exists i, (i + length data <= length tx)%nat /\ firstn (length data) (skipn i tx) = data.
Proof.
  unfold contiguous_search. destruct (Nat.leb_spec (length data) (length tx)) as [Hle|Hgt].
  - rewrite outer_loop_spec. split; intros (i & Hi & H); exists i.
    + assert (Hb : (i + length data <= length tx)%nat) by lia. split; [exact Hb | apply match_at_iff; assumption].
    + split; [lia | apply match_at_iff; assumption].
  - split; [discriminate | intros (i & Hi & _); lia].
Qed.

Lemma contiguous_sound data tx :
  contiguous_search data tx = true ->
  exists i, (i + length data <= length tx)%nat /\ firstn (length data) (skipn i tx) = data.
Proof. apply contiguous_search_iff. Qed.

Lemma contiguous_complete data tx :
  (exists i, firstn (length data) (skipn i tx) = data) -> contiguous_search data tx = true.
Proof.
  intros (i & H). apply contiguous_search_iff.
  assert (Hl := f_equal (@length Z) H). rewrite firstn_length, skipn_length in Hl.
  destruct (Nat.le_gt_cases i (length tx)); [exists i; split; [lia | exact H]|].
  (* an offset behind the end only yields the empty data, which also occurs at offset 0 *)
  exists 0%nat. destruct data; [split; [lia | reflexivity] | cbn [length] in Hl; lia].
Qed.

(** the code before fix 5481700d accepted non-occurrences: subsequence instead of substring *)
Lemma contiguous_v0_refuted :
  exists tx data, contiguous_search_v0 data tx = true /\
                  ~ exists i, firstn (length data) (skipn i tx) = data.
Proof.
  exists [1; 0; 2], [1; 2]. split; [vm_compute; reflexivity|].
  intros (i & H). destruct i as [|[|[|i]]]; cbn in H; try discriminate.
  destruct i; cbn in H; discriminate.
Qed.

Lemma u64_small z : 0 <= z < 2 ^ 64 -> u64 z = z.
Proof. apply Z.mod_small. Qed.
Lemma u64_range z : 0 <= u64 z < 2 ^ 64.
Proof. apply Z.mod_pos_bound. lia. Qed.
Lemma u32_small z : 0 <= z < 2 ^ 32 -> u32 z = z.
Proof. apply Z.mod_small. Qed.
Lemma u32_range z : 0 <= u32 z < 2 ^ 32.
Proof. apply Z.mod_pos_bound. lia. Qed.
Lemma i32_small z : - 2 ^ 31 <= z < 2 ^ 31 -> i32 z = z.
Proof. intros H. unfold i32. rewrite Z.mod_small; lia. Qed.
Lemma i32_range z : - 2 ^ 31 <= i32 z < 2 ^ 31.
Proof. unfold i32. pose proof (Z.mod_pos_bound (z + 2 ^ 31) (2 ^ 32)). lia. Qed.

(** [n] chunks; chunk [i] has an offset field of [o] bits and, except chunk 0 (its length is the
    rest of the data), a length field of [s] bits in front of it; [B] bytes of table with [w]
    unused bits in front *)
Lemma decode_desc_range d :
  let '(n, o, s) := decode_desc d in 0 <= n <= 15 /\ 4 <= o <= 16 /\ 4 <= s <= 7.
Proof.
  unfold decode_desc. split; [|split].
  - destruct (Z.testbit d 4), (Z.testbit d 5), (Z.testbit d 6), (Z.testbit d 7); lia.
  - destruct (Z.testbit d 2), (Z.testbit d 3); lia.
  - destruct (Z.testbit d 0), (Z.testbit d 1); lia.
Qed.

(** [for (int i = chunks - 1; i >= 0; --i)]: also for chunks = 0, where uint32 [chunks - 1]
    reads as int -1 *)
Lemma loop_count n : 0 <= n <= 15 -> i32 (u32 (n - 1)) + 1 = n.
Proof.
  intros H. destruct (Z.eq_dec n 0) as [->|]; [reflexivity|].
  rewrite u32_small, i32_small; lia.
Qed.

Lemma desc_bit_length_pos n o s :
  1 <= n <= 15 -> 4 <= o <= 16 -> 4 <= s <= 7 ->
  desc_bit_length n o s = (n - 1) * (o + s) + o /\ 0 <= (n - 1) * (o + s) <= 14 * 23.
Proof.
  intros Hn Ho Hs. unfold desc_bit_length.
  assert (0 <= n * o <= 15 * 16) by nia. assert (0 <= s * (n - 1) <= 7 * 14) by nia.
  rewrite (u32_small (n - 1)), (u32_small (n * o)), (u32_small (s * (n - 1))), u32_small by lia.
  split; [ring | nia].
Qed.

Lemma desc_bit_length_0 o s : 4 <= s <= 7 -> desc_bit_length 0 o s = 2 ^ 32 - s.
Proof.
  intros Hs. unfold desc_bit_length. change (u32 (0 - 1)) with (2 ^ 32 - 1).
  rewrite Z.mul_0_l. change (u32 0) with 0. rewrite Z.add_0_l. unfold u32. Z.div_mod_to_equations; lia.
Qed.

Lemma desc_bytes_length_spec bl :
  0 <= bl < 2 ^ 32 - 8 ->
  let B := desc_bytes_length bl in let w := desc_waste B bl in 8 * B = bl + w /\ 1 <= w <= 8.
Proof.
  intros Hbl. unfold desc_waste, desc_bytes_length.
  assert (Hr : 0 <= bl mod 8 < 8) by (apply Z.mod_pos_bound; lia).
  rewrite (u32_small (bl + 8 - bl mod 8)) by lia.
  assert (HB : (bl + 8 - bl mod 8) / 8 * 8 = bl + 8 - bl mod 8) by (Z.div_mod_to_equations; lia).
  rewrite HB, (u32_small (bl + 8 - bl mod 8)), u32_small by lia. lia.
Qed.

Lemma desc_layout n o s :
  0 <= n <= 15 -> 4 <= o <= 16 -> 4 <= s <= 7 ->
  let bl := desc_bit_length n o s in
  let B := desc_bytes_length bl in
  let w := desc_waste B bl in
  0 <= B <= 43 /\
  forall i, 0 <= i < n ->
    let co := u32 (w + u32 (i * u32 (o + s))) in
    0 <= co /\ co + o <= 8 * B /\ (i <> 0 -> s <= co).
Proof.
  intros Hn Ho Hs bl B w. destruct (Z.eq_dec n 0) as [->|Hn0].
  - (* the wrapped bit length 2^32 - s is rounded up to 2^32, which wraps to an empty table *)
    assert (HB : B = 0).
    { unfold B, bl, desc_bytes_length. rewrite (desc_bit_length_0 o s Hs).
      replace (2 ^ 32 - s + 8 - (2 ^ 32 - s) mod 8) with (2 ^ 32) by (Z.div_mod_to_equations; lia).
      reflexivity. }
    split; lia.
  - destruct (desc_bit_length_pos n o s ltac:(lia) Ho Hs) as [Hbl Hle]. fold bl in Hbl.
    destruct (desc_bytes_length_spec bl ltac:(lia)) as [HB Hw]. fold B w in HB, Hw.
    split; [lia|]. intros i Hi co.
    assert (Hio : 0 <= i * (o + s) <= (n - 1) * (o + s))
      by (split; [apply Z.mul_nonneg_nonneg | apply Z.mul_le_mono_nonneg_r]; lia).
    assert (Hco : co = w + i * (o + s)).
    { unfold co. rewrite (u32_small (o + s)), (u32_small (i * (o + s))), u32_small by lia. reflexivity. }
    split; [lia|]. split; [lia|]. intros Hi0.
    assert (1 * (o + s) <= i * (o + s)) by (apply Z.mul_le_mono_nonneg_r; lia). lia.
Qed.

Definition magic_at (tx : list Z) (p : Z) : Prop :=
  byte_at tx p = 146 /\ byte_at tx (p + 1) = 122 /\ byte_at tx (p + 2) = 89.

Definition chunk_ok (tx : list Z) (c : Z * Z) : Prop :=
  0 <= fst c /\ 0 <= snd c /\ (snd c = 0 \/ fst c + snd c <= zlen tx).

Definition chunk_bytes (tx : list Z) (c : Z * Z) : list Z := slice tx (fst c) (snd c).

(** "well-formed split": magic 92 7a 59 at [p] with at least 3 more bytes behind it, the descriptor
    byte announces exactly [length chunks] chunks, every chunk lies inside the transaction and the
    chunks concatenate to the data *)
Definition split_embedding (data tx : list Z) : Prop :=
  exists p chunks,
    0 <= p /\ p + 5 < zlen tx /\ magic_at tx p /\
    Z.of_nat (length chunks) = fst (fst (decode_desc (byte_at tx (p + 3)))) /\
    Forall (chunk_ok tx) chunks /\
    concat (map (chunk_bytes tx) chunks) = data.

Lemma get_int_aux_spec bits from : forall cnt k,
  match get_int_aux bits from k cnt with
  | Some v => 0 <= v /\ v + 2 ^ Z.of_nat k <= 2 ^ Z.of_nat (k + cnt)
  | None => (0 < cnt /\ length bits < Z.to_nat from + k + cnt)%nat
  end.
Proof.
  induction cnt as [|c IH]; intros k; cbn [get_int_aux]; [rewrite Nat.add_0_r; lia|].
  specialize (IH (S k)). replace (k + S c)%nat with (S k + c)%nat by lia.
  destruct (nth_error bits (Z.to_nat from + k)) as [b|] eqn:E; [|apply nth_error_None in E; lia].
  destruct (get_int_aux bits from (S k) c) as [v'|]; [|lia].
  rewrite Nat2Z.inj_succ, Z.pow_succ_r in IH by lia. rewrite Z.shiftl_1_l.
  pose proof (Z.pow_pos_nonneg 2 (Z.of_nat k) ltac:(lia) ltac:(lia)). destruct b; lia.
Qed.

Lemma get_int_some bits from to :
  0 <= from -> to <= Z.of_nat (length bits) -> get_int bits from to <> None.
Proof.
  intros Hf Ht. unfold get_int. pose proof (get_int_aux_spec bits from (Z.to_nat (to - from)) 0) as S.
  destruct (get_int_aux _ _ _ _); [discriminate | lia].
Qed.

Lemma get_int_bound bits from to v : get_int bits from to = Some v -> to - from <= 7 -> 0 <= v < 128.
Proof.
  unfold get_int. intros H Hle. pose proof (get_int_aux_spec bits from (Z.to_nat (to - from)) 0) as S.
  rewrite H in S. change (2 ^ Z.of_nat 0) with 1 in S. rewrite Nat.add_0_l in S.
  assert (2 ^ Z.of_nat (Z.to_nat (to - from)) <= 2 ^ 7) by (apply Z.pow_le_mono_r; lia).
  change (2 ^ 7) with 128 in *. lia.
Qed.

Lemma table_bits_length bytes : length (table_bits bytes) = (8 * length bytes)%nat.
Proof.
  unfold table_bits. rewrite <- (rev_length bytes). generalize (rev bytes). intros l.
  induction l as [|x r IH]; [reflexivity|]. cbn [flat_map]. rewrite app_length, IH. cbn [length byte_bits map seq]. lia.
Qed.

Lemma chunk_step_spec g tx dl bits o s w cdl i pos total :
  zlen tx < 2 ^ 64 ->
  let co := u32 (w + u32 (i * u32 (o + s))) in
  match chunk_step g tx dl bits o s w cdl i pos total with
  | SOk pos' len =>
      chunk_ok tx (pos', len) /\
      len = u32 (if i =? 0 then u32 (u32 dl - total)
                 else match get_int bits (u32 (co - s)) co with Some v => v | None => 0 end) /\
      (g = true -> 0 <= pos <= zlen tx -> 0 <= u64 (pos' + len) <= zlen tx)
  | SOobBuf => ~ (g = true /\ 0 <= pos <= zlen tx)
  | SOobBits => ~ (u32 (co + o) <= Z.of_nat (length bits) /\ co <= Z.of_nat (length bits))
  | SInvalid _ => True
  end.
Proof.
  intros Hsz co. assert (Hsz0 : 0 <= zlen tx) by (unfold zlen; lia).
  unfold chunk_step. fold co. pose proof (u32_range (w + u32 (i * u32 (o + s)))) as Hco. fold co in Hco.
  destruct (get_int bits co _) as [offv|] eqn:G1.
  2:{ intros [H1 _]. revert G1. apply get_int_some; lia. }
  destruct (if i =? 0 then _ else _) as [lenv|] eqn:G2.
  2:{ intros [_ H2]. destruct (i =? 0); [discriminate|]. revert G2. apply get_int_some; [apply u32_range | exact H2]. }
  assert (Hlen : u32 lenv = u32 (if i =? 0 then u32 (u32 dl - total)
                                 else match get_int bits (u32 (co - s)) co with Some v => v | None => 0 end)).
  { destruct (i =? 0); [congruence | rewrite G2; reflexivity]. }
  pose proof (i32_range offv) as Hoff. set (off := i32 offv) in *.
  pose proof (u64_range (pos + off)) as HP. set (P := u64 (pos + off)) in *.
  pose proof (u32_range lenv) as HL. set (L := u32 lenv) in *.
  destruct (g && _) eqn:G; [exact I|].
  (* the guard: 0 <= off <= remaining(), so [pos + off] does not wrap *)
  assert (Hin : g = true -> 0 <= pos <= zlen tx -> P <= zlen tx).
  { intros -> Hpos. cbn [andb] in G. apply orb_false_elim in G. destruct G as [G3 G4]. apply Z.ltb_ge in G3, G4.
    rewrite (u64_small off), (u64_small (zlen tx - pos)) in G4 by lia. unfold P. rewrite u64_small; lia. }
  destruct (Z.ltb_spec (u64 (zlen tx - P)) L) as [|Hrem]; [exact I|].
  destruct (Z.ltb_spec (zlen tx) P) as [Hout|Hinb]; cbn [andb].
  - (* behind the end remaining() has wrapped: only an empty chunk passes *)
    destruct (Z.ltb_spec 0 L) as [|Hemp]; [intros [Hg Hpos]; specialize (Hin Hg Hpos); lia|].
    split; [unfold chunk_ok; cbn [fst snd]; lia|]. split; [exact Hlen|].
    intros Hg Hpos. specialize (Hin Hg Hpos). lia.
  - rewrite u64_small in Hrem by lia.
    split; [unfold chunk_ok; cbn [fst snd]; lia|]. split; [exact Hlen|]. intros _ _. rewrite u64_small; lia.
Qed.

Lemma chunk_loop_spec g tx dl bits o s w cdl :
  zlen tx < 2 ^ 64 ->
  forall k pos total acc,
    match chunk_loop g tx dl bits o s w cdl k pos total acc with
    | CDone ext => exists chunks, length chunks = k /\ Forall (chunk_ok tx) chunks /\
                                  ext = acc ++ concat (map (chunk_bytes tx) chunks)
    | COobBuf => ~ (g = true /\ 0 <= pos <= zlen tx)
    | COobBits => ~ forall i, 0 <= i < Z.of_nat k ->
                      let co := u32 (w + u32 (i * u32 (o + s))) in
                      u32 (co + o) <= Z.of_nat (length bits) /\ co <= Z.of_nat (length bits)
    | CInvalid _ => True
    end.
Proof.
  intros Hsz. induction k as [|k IH]; intros pos total acc; cbn [chunk_loop].
  - exists []. cbn. rewrite app_nil_r. auto.
  - pose proof (chunk_step_spec g tx dl bits o s w cdl (Z.of_nat k) pos total Hsz) as S. cbv zeta in S.
    destruct (chunk_step g tx dl bits o s w cdl (Z.of_nat k) pos total) as [p' l| | |].
    + destruct S as (Hok & _ & Hin).
      specialize (IH (u64 (p' + l)) (i32 (total + l)) (acc ++ slice tx p' l)).
      destruct (chunk_loop _ _ _ _ _ _ _ _ _ _ _ _) as [ext| | |].
      * destruct IH as (cs & Hlen & Hcs & ->). exists ((p', l) :: cs).
        split; [cbn; lia|]. split; [constructor; assumption|].
        cbn [map concat]. rewrite <- app_assoc. reflexivity.
      * exact I.
      * intros H. apply IH. intros i Hi. apply H. lia.
      * intros [Hg Hpos]. apply IH. split; [exact Hg | apply Hin; assumption].
    + exact I.
    + intros H. apply S, H. lia.
    + exact S.
Qed.

(** by [desc_layout] every field lies inside the 8 B bits that were read; the chunk loop starts
    at position 0, inside the buffer *)
Lemma try_descriptor_spec g data tx p :
  zlen tx < 2 ^ 64 -> 0 <= p ->
  match try_descriptor_gen g data tx p with
  | Found => exists chunks,
      Z.of_nat (length chunks) = fst (fst (decode_desc (byte_at tx p))) /\
      Forall (chunk_ok tx) chunks /\ concat (map (chunk_bytes tx) chunks) = data
  | OobBits => False
  | OobBuf => g = false
  | _ => True
  end.
Proof.
  intros Hsz Hp. unfold try_descriptor_gen.
  pose proof (decode_desc_range (byte_at tx p)) as R.
  destruct (decode_desc (byte_at tx p)) as [[n o] s]. destruct R as (Hn & Ho & Hs). cbn [fst].
  destruct (desc_layout n o s Hn Ho Hs) as [HB Hlay]. rewrite loop_count by exact Hn. cbv zeta.
  set (B := desc_bytes_length (desc_bit_length n o s)) in *. set (w := desc_waste B _) in *.
  destruct (Z.ltb_spec (zlen tx - (p + 1)) B) as [|Hfit]; [exact I|].
  set (bits := table_bits (slice tx (p + 1) B)).
  assert (Hlen : Z.of_nat (length bits) = 8 * B).
  { unfold bits, slice. rewrite table_bits_length, firstn_length, skipn_length. unfold zlen in Hfit. lia. }
  pose proof (chunk_loop_spec g tx (zlen data) bits o s w (last_set bits) Hsz (Z.to_nat n) 0 0 []) as C.
  destruct (chunk_loop g tx (zlen data) bits o s w (last_set bits) (Z.to_nat n) 0 0 []) as [ext| | |].
  - destruct (list_eqb data ext) eqn:El; [|exact I]. apply list_eqb_eq in El.
    destruct C as (cs & Hl & Hok & Hext). exists cs. split; [lia|]. split; [exact Hok|]. rewrite El, Hext. reflexivity.
  - exact I.
  - apply C. intros i Hi co. rewrite Hlen.
    destruct (Hlay i ltac:(lia)) as (H0 & H1 & _). fold co in H0, H1. rewrite (u32_small (co + o)); lia.
  - destruct g; [|reflexivity]. destruct C. split; [reflexivity | unfold zlen; lia].
Qed.

Lemma scan_gen_spec g data tx :
  zlen tx < 2 ^ 64 ->
  forall fuel pos, 0 <= pos ->
    match scan_gen g data tx pos fuel with
    | VTrue => split_embedding data tx
    | VFalse _ => True
    | VOobBits => False
    | VOobBuf => g = false
    end.
Proof.
  intros Hsz. induction fuel as [|f IH]; intros pos Hpos; cbn [scan_gen]; [exact I|].
  destruct (Z.leb_spec (zlen tx - pos) 5) as [|Hrem]; [exact I|].
  destruct (Z.eqb_spec (byte_at tx pos) 146) as [E0|]; cbn [negb]; [|apply IH; lia].
  destruct (Z.eqb_spec (byte_at tx (pos + 1)) 122) as [E1|]; cbn [negb]; [|apply IH; lia].
  destruct (Z.eqb_spec (byte_at tx (pos + 2)) 89) as [E2|]; cbn [negb]; [|apply IH; lia].
  pose proof (try_descriptor_spec g data tx (pos + 3) Hsz ltac:(lia)) as T.
  destruct (try_descriptor_gen g data tx (pos + 3)); [|apply IH; lia | exact I | exact T | exact T].
  destruct T as (cs & Hn & Hok & Hcat). exists pos, cs. unfold magic_at. repeat split; assumption || lia.
Qed.

Lemma split_sound data tx :
  zlen tx < 2 ^ 64 -> containsSplit data tx = VTrue -> split_embedding data tx.
Proof.
  intros Hsz H. pose proof (scan_gen_spec true data tx Hsz (S (length tx)) 0 ltac:(lia)) as C.
  unfold containsSplit, scan in H. rewrite H in C. exact C.
Qed.

Lemma embedding_sound data tx :
  zlen tx < 2 ^ 64 -> check_embedding data tx = VTrue ->
  (exists i, (i + length data <= length tx)%nat /\ firstn (length data) (skipn i tx) = data) \/
  split_embedding data tx.
Proof.
  intros Hsz H. unfold check_embedding in H.
  destruct (contiguous_search data tx) eqn:E.
  - left. apply contiguous_sound. exact E.
  - right. apply split_sound; assumption.
Qed.

(** before fix a50e5e9b the buffer could be over-read (setPosition was unchecked and remaining() =
    m_Size - m_Pos wraps): 6-byte transaction 92 7a 59 10 f0 00 -> one chunk at offset 15 of a 6-byte buffer, 80
    bytes are read from there. *)
Definition oob_tx : list Z := [146; 122; 89; 16; 240; 0].
Lemma split_oob_v0_refuted :
  exists data tx, length data = 80%nat /\ zlen tx < 2 ^ 64 /\ containsSplit_v0 data tx = VOobBuf.
Proof. exists (repeat 1 80), oob_tx. split; [reflexivity|]. split; vm_compute; reflexivity. Qed.

(** the premise that no byte 0x92 precedes the magic is DESIGN 8-F11 made precise: the scan
    neither re-synchronises after a partial magic match nor survives an earlier magic whose
    descriptor runs out of the buffer *)
Lemma split_complete data tx p :
  0 <= p -> p + 5 < zlen tx -> magic_at tx p ->
  try_descriptor data tx (p + 3) = Found ->
  (forall q, 0 <= q < p -> byte_at tx q <> 146) ->
  containsSplit data tx = VTrue.
Proof.
  intros Hp Hlen (M0 & M1 & M2) Ht Hno. unfold containsSplit.
  assert (H : forall fuel pos, 0 <= pos <= p -> p - pos < Z.of_nat fuel -> scan data tx pos fuel = VTrue).
  { unfold scan. induction fuel as [|f IH]; intros pos Hpos Hf; [lia|]. cbn [scan_gen].
    destruct (Z.leb_spec (zlen tx - pos) 5) as [|_]; [lia|].
    destruct (Z.eq_dec pos p) as [->|Hne].
    - rewrite M0, M1, M2, !Z.eqb_refl. cbn [negb]. unfold try_descriptor in Ht. rewrite Ht. reflexivity.
    - destruct (Z.eqb_spec (byte_at tx pos) 146) as [E|_]; [destruct (Hno pos ltac:(lia) E)|].
      cbn [negb]. apply IH; lia. }
  apply H; unfold zlen in *; lia.
Qed.

(** the premise cannot be dropped (confirmed F11): 91-byte transaction = the 80 data bytes with one
    foreign byte after the first 40, a stray magic 92 7a 59 with descriptor ff (15 chunks, needs a
    43-byte chunk table, 6 bytes remain -> "bad-descriptor-bytes" -> return false), then the honest
    magic + descriptor 23 05 02 (2 chunks: offset 0 length 40, offset +1 rest). *)
Definition f11_data : list Z := map Z.of_nat (seq 1 80).
Definition f11_tx : list Z :=
  firstn 40 f11_data ++ [255] ++ skipn 40 f11_data ++ [146; 122; 89; 255] ++ [146; 122; 89; 35; 5; 2].
Lemma split_complete_refuted :
  exists data tx p,
    length data = 80%nat /\ 0 <= p /\ p + 5 < zlen tx /\ magic_at tx p /\
    try_descriptor data tx (p + 3) = Found /\
    containsSplit data tx = VFalse 1.
Proof.
  exists f11_data, f11_tx, 85.
  split; [reflexivity|]. split; [lia|]. split; [vm_compute; reflexivity|].
  split; [repeat split; vm_compute; reflexivity|]. split; vm_compute; reflexivity.
Qed.

(** second way to lose an honest embedding: a byte 0x92 directly before the magic makes the scanner
    consume the real 0x92 as the "second magic byte" and miss the occurrence *)
Definition resync_tx : list Z :=
  firstn 40 f11_data ++ [255] ++ skipn 40 f11_data ++ [146] ++ [146; 122; 89; 35; 5; 2].
Lemma split_resync_refuted :
  exists data tx p,
    length data = 80%nat /\ 0 <= p /\ p + 5 < zlen tx /\ magic_at tx p /\
    try_descriptor data tx (p + 3) = Found /\
    containsSplit data tx = VFalse 0.
Proof.
  exists f11_data, resync_tx, 82.
  split; [reflexivity|]. split; [lia|]. split; [vm_compute; reflexivity|].
  split; [repeat split; vm_compute; reflexivity|]. split; vm_compute; reflexivity.
Qed.
