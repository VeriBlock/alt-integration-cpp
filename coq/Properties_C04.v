(** C04 — property theorems only; each closed by [exact] of a lemma proved under Rules/. *)
From Coq Require Import ZArith List.
From VB Require Import Rules.RulesDefs Rules.RulesProofs.
From VB Require Pop.SmDefs Pop.SmProofs Pop.SmWf Pop.SmTruth Rules.RulesFull Rules.RulesHist.
From VB Require Import Rules.ForkDefs Rules.ForkProofs.
Import ListNotations.
Local Open Scope Z_scope.

(** the commands' checks as coded accept a block body iff it satisfies the declarative rule set *)
Theorem C04_exec_ok_iff_ctx_valid :
  forall W P s c b, (exists s', exec_block W P s c b = inl s') <-> ctx_valid W P s c b.
Proof. exact exec_ok_iff_ctx_valid. Qed.
Print Assumptions C04_exec_ok_iff_ctx_valid.

(** ... and then has exactly the declared effects *)
Theorem C04_exec_block_iff :
  forall W P s c b s', exec_block W P s c b = inl s' <-> ctx_valid W P s c b /\ s' = after_block s b.
Proof. exact exec_block_iff. Qed.
Print Assumptions C04_exec_block_iff.

(** a block violating a rule is refused together with everything built on it: applying (setState to) the block
    or any descendant fails, and it fails at that block *)
Theorem C04_invalid_block_refused :
  forall W P pre s c b post,
    chain_valid W P s pre -> ~ ctx_valid W P (after_chain s pre) c b ->
    exists e, apply_chain W P s (pre ++ (c, b) :: post) = VRefused c e.
Proof. exact invalid_block_refused. Qed.
Print Assumptions C04_invalid_block_refused.

Theorem C04_refused_names_invalid :
  forall W P ch s c e, apply_chain W P s ch = VRefused c e ->
    exists pre b post, ch = pre ++ (c, b) :: post /\ chain_valid W P s pre /\ ~ ctx_valid W P (after_chain s pre) c b.
Proof. exact refused_names_invalid. Qed.
Print Assumptions C04_refused_names_invalid.

(** a simple activation machine that re-applies candidates from the root: its active chain is valid *)
Theorem C04_simple_machine_invariant :
  forall W P ops, let m := run W P m0 ops in
    chain_valid W P st0 (m_chain m) /\ m_st m = after_chain st0 (m_chain m).
Proof. exact active_payloads_valid_partial. Qed.
Print Assumptions C04_simple_machine_invariant.

(** tie to the as-coded POP state machine (Pop/Sm*.v: applyBlock/unapplyBlock/apply/unapply/setState/
    comparePopScore with every VBK_ASSERT explicit): the command groups of a body, translated to the machine's
    reference-count commands, all execute iff the body is contextually valid *)
Theorem C04_groups_execute_iff_ctx_valid :
  forall W P s c b pp, RulesFull.R pp (vknown s) ->
    ((exists pp', SmDefs.gsexec SmDefs.pstate SmDefs.ccmd SmDefs.cexec SmDefs.cunexec [] (RulesFull.tr W P s c b) pp = (pp', true))
     <-> ctx_valid W P s c b).
Proof. exact RulesFull.groups_execute_iff_ctx_valid. Qed.
Print Assumptions C04_groups_execute_iff_ctx_valid.

(** FULL statement: in every state reachable by any history of connectBlock / setState / comparePopScore (any
    scorer) of the as-coded machine whose blocks carry the translation of their payload bodies, the active chain
    root..tip consists of contextually valid blocks only *)
Theorem C04_active_payloads_valid :
  forall W P bodyof s,
    SmProofs.reachable RulesFull.base0 s -> RulesFull.compiled W P bodyof s ->
    chain_valid W P st0 (RulesFull.active_bodies bodyof s).
Proof. exact RulesFull.active_payloads_valid. Qed.
Print Assumptions C04_active_payloads_valid.

(** the same over histories: run ANY sequence of connectBlock (handing over the translated groups of the block's
    body in its chain context at that time) / setState / comparePopScore from the bootstrap state *)
Theorem C04_history_active_payloads_valid :
  forall W P bodyof r h ops s,
    RulesHist.ops_ok W P bodyof (SmDefs.c_init r h RulesFull.base0) ops ->
    SmProofs.run (SmDefs.c_init r h RulesFull.base0) ops = SmDefs.Ok s ->
    chain_valid W P st0 (RulesFull.active_bodies bodyof s).
Proof. exact RulesHist.history_active_payloads_valid. Qed.
Print Assumptions C04_history_active_payloads_valid.

(** ... and every applied block is valid in the context made by the bodies below it *)
Theorem C04_active_block_valid :
  forall W P bodyof s,
    SmProofs.reachable RulesFull.base0 s -> RulesFull.compiled W P bodyof s ->
    forall j b, SmDefs.find SmDefs.ccmd (SmDefs.blocks _ _ s) j = Some b -> SmDefs.b_act _ b = true ->
      j <> SmDefs.root _ _ s ->
      ctx_valid W P (RulesFull.rctx bodyof (SmWf.cores s) (SmTruth.depth s (SmDefs.b_par _ b)) (SmDefs.b_par _ b))
                (RulesFull.zid j) (bodyof j).
Proof. exact RulesFull.active_block_valid. Qed.
Print Assumptions C04_active_block_valid.

Theorem C04_refused_not_activated :
  forall W P m pre c b post,
    chain_valid W P st0 pre -> ~ ctx_valid W P (after_chain st0 pre) c b ->
    activate W P m (pre ++ (c, b) :: post) = (m, false).
Proof. exact refused_not_activated. Qed.
Print Assumptions C04_refused_not_activated.

(** forks next to the active chain (Rules/ForkDefs.v: forks become known, are removed again, candidates are
    activated): whether a candidate is accepted does not depend on which other forks exist, existed or were removed,
    nor on what was active before — only on its own chain root..leaf *)
Theorem C04_verdict_independent_of_other_forks :
  forall W P h1 h2 ch,
    snd (fstep W P (frun W P fm0 h1) (FActivate ch)) = snd (fstep W P (frun W P fm0 h2) (FActivate ch)).
Proof. exact verdict_independent_of_other_forks. Qed.
Print Assumptions C04_verdict_independent_of_other_forks.

Theorem C04_verdict_iff_own_chain_valid :
  forall W P h ch, snd (fstep W P (frun W P fm0 h) (FActivate ch)) = true <-> chain_valid W P st0 ch.
Proof. exact verdict_iff_own_chain_valid. Qed.
Print Assumptions C04_verdict_iff_own_chain_valid.

Theorem C04_fork_machine_active_valid :
  forall W P ops, let m := f_m (frun W P fm0 ops) in
    chain_valid W P st0 (m_chain m) /\ m_st m = after_chain st0 (m_chain m).
Proof. exact fork_machine_active_valid. Qed.
Print Assumptions C04_fork_machine_active_valid.

(** "no payload id twice in the chain" refers to the bodies below the block on its OWN chain and to nothing else *)
Theorem C04_dup_rule_own_chain :
  forall pre b,
    no_dup_on_chain (after_chain st0 pre) b <->
    (forall i, In i (body_ids b) -> forall c' b', In (c', b') pre -> ~ In i (body_ids b')).
Proof. exact dup_rule_own_chain. Qed.
Print Assumptions C04_dup_rule_own_chain.

(** the payload index shared by all forks AS CODED (PayloadsIndex: id -> set of containing blocks, add on
    acceptBlock, remove per block with the key cleaned up only when its set is empty; isStatefulDuplicate = some
    containing block is on the chain below): after ANY history of blocks being accepted and dropped, its answer for
    a block whose ancestors are held is exactly the per-chain duplicate check of exec_block *)
Theorem C04_shared_index_dup_check_is_own_chain :
  forall ops pre b,
    (forall c bd, In (c, bd) pre -> hfind (h_blocks (hrun held0 ops)) c = Some bd) ->
    ix_block_dup (h_index (hrun held0 ops)) (map fst pre) b
    = existsb (fun i => pmem i (seen (after_chain st0 pre))) (body_ids b).
Proof. exact shared_index_dup_check_is_own_chain. Qed.
Print Assumptions C04_shared_index_dup_check_is_own_chain.
