(** C01 — POP state depends only on the active chain, not on history. Closed, instantiated machine.

    PROVED, for every state reachable by ANY history of connectBlock / setState / comparePopScore calls (any tree, any
    order of bodies, any payload assignment, any failing position, any scorer, forks activated, compared and abandoned,
    back and forth):
      * C01_applied_canonical: P = bootstrap state + exactly the effects of the blocks flagged applied, as a multiset
        (reference counts and endorsement multiset) - nothing of an abandoned or rolled-back fork is left;
      * C01_applied_exactly: the blocks flagged applied are exactly root..tip;
      * C01_history_independence_partial: two histories ending with the same active chain - the same payloads on
        root..tip - end with the same reference count for every SP block and the same endorsement multiset. The fresh
        instance that is only shown the final chain is one such history.
    BY COMPOSITION with the payout calculator model (Rewards/, C14) and the scoring model (Score/, C03), over explicit
    adapters for what the POP model does not contain (payout info of an endorsement, SP best chain as a function of the
    reference counts = the carve-out of the property text, keystone interval, timestamps; all universally quantified):
      * C01_payouts_history_independent: the calculator's input (per block of the active chain: height and endorsement
        multiset) and getPopPayout for every block of the active chain coincide in two reachable states with the same
        active chain (ids, heights, payloads of root..tip); C01_payouts_fresh_instance: in particular for the fresh
        instance (connects + one setState);
      * C01_candidate_validation_history_independent / C01_score_input_history_independent: for a candidate whose chain
        (ids, heights, payloads) is the same in both states and carries NO CACHED FAILED MARK, applying its branch next
        to the active chain succeeds or fails alike, leaves the same protecting multiset, and the publication views /
        comparePopScoreImpl result / the machine's score are equal;
      * C01_revalidation_replay: when a candidate outscores the active chain, the stand-alone re-validation that
        comparePopScore performs succeeds iff the bodies of root..candidate replay from the bootstrap state, whatever
        part of the branch was validated before (uses C20 truthfulness);
      * C01_verdict_history_independent (+ C01_verdict_fresh_instance): the verdict of comparePopScore (the POP machine's
        [compare] run with the Score model's scorer [score_of] and keystone test [crossed_of]) against such a candidate
        is the same in two reachable states with the same active chain: all short-cuts (candidate invalid / the tip /
        on the active chain / successor of the tip / no keystone boundary crossed), validation next to the active chain,
        scoring, re-validation alone.  Premises, all explicit: candidate known to both, same candidate chain, no failed
        mark on it in either state ([clean_all]), both calls return (no Abort: C02 compare_total), SP best chain
        determined by the reference counts.  Finalization is outside the POP model (the TIP_IS_FINAL short-cuts);
      * C01_verdict_without_clean_premise_refuted: without the premise the verdict statement is false on the model
        (cached BLOCK_FAILED_POP: 1 vs 0 when no keystone boundary is crossed) = finding C01:verdict-0-vs-1-cached-invalid;
      * C01_unexec_keeps_order / C01_unexec_under_later: un-executing a command from ANY state (comparePopScore unapplies
        the loser UNDER the still applied winner: not LIFO) erases its item in place, the other items (e.g. the VTB ids
        of one VBK block) keep their relative order; C01_swap_and_pop_keeps_order_refuted: a removal that moves the
        newest item into the freed slot does not (checked on the implementation: ordered VTB ids, history vs twin).
    The twin oracle on the implementation (history vs fresh instance: POP projection, getPopPayout, comparePopScore
    against shown candidates) still checks payouts and verdicts end to end. *)
From Coq Require Import List ZArith NArith Bool Permutation.
From VB Require Import Pop.SmDefs Pop.SmProofs Pop.SmWf Pop.SmCmp Pop.SmTruth Pop.C01Compose Pop.C01Verdict Pop.C01Fork Pop.C01Alone
     Pop.C01Full Pop.C01Examples Pop.SmOrder.
From VB Require Rewards.CalcDefs Rewards.BoundsDefs Score.CInt Score.CmpDefs.
Import ListNotations.

Theorem C01_cmd_unexec_exec :
  forall c p p', cexec c p = Some p' -> cunexec c p' = p.
Proof. exact cinv_law. Qed.
Print Assumptions C01_cmd_unexec_exec.

Theorem C01_applied_canonical :
  forall base s, reachable base s ->
    Permutation (pst _ _ s) (active_items (blocks _ _ s) ++ base) /\ NoDup (ids (blocks _ _ s)).
Proof. exact applied_canonical. Qed.
Print Assumptions C01_applied_canonical.

Theorem C01_applied_exactly :
  forall base s, reachable base s -> quiet s /\ forall j, is_act (cores s) j <-> In j (chain s).
Proof. exact reachable_quiet. Qed.
Print Assumptions C01_applied_exactly.

Theorem C01_active_items_chain :
  forall s, quiet s -> Permutation (active_items (blocks _ _ s)) (flat_map block_items (chain_gs s)).
Proof. exact active_items_chain. Qed.
Print Assumptions C01_active_items_chain.

Theorem C01_history_independence_applied :
  forall base s1 s2,
    reachable base s1 -> reachable base s2 ->
    Permutation (active_items (blocks _ _ s1)) (active_items (blocks _ _ s2)) ->
    Permutation (pst _ _ s1) (pst _ _ s2) /\ (forall x, count_ref x (pst _ _ s1) = count_ref x (pst _ _ s2)).
Proof. exact history_independence_applied. Qed.
Print Assumptions C01_history_independence_applied.

Theorem C01_history_independence_partial :
  forall base s1 s2,
    reachable base s1 -> reachable base s2 -> chain_gs s1 = chain_gs s2 ->
    Permutation (pst _ _ s1) (pst _ _ s2) /\ (forall x, count_ref x (pst _ _ s1) = count_ref x (pst _ _ s2)).
Proof. exact history_independence. Qed.
Print Assumptions C01_history_independence_partial.

Theorem C01_nonvacuous : exists s, reachable ex_base s /\ tip _ _ s = 6%N.
Proof. exact ex_reachable. Qed.
Print Assumptions C01_nonvacuous.

Theorem C01_payout_input_history_independent :
  forall (pinfo : N -> N -> N -> Z) (spv : (N -> nat) -> N -> option Z) base s1 s2,
    sp_determined spv ->
    reachable base s1 -> reachable base s2 -> active_chain s1 = active_chain s2 ->
    Forall2 block_equiv (payout_input pinfo spv s1) (payout_input pinfo spv s2).
Proof. exact payout_input_history_independent. Qed.
Print Assumptions C01_payout_input_history_independent.

Theorem C01_get_pop_payout_equiv :
  forall p c c',
    VB.Rewards.BoundsDefs.params_okb p = true -> VB.Rewards.BoundsDefs.chain_okb c = true -> Forall2 block_equiv c c' ->
    VB.Rewards.CalcDefs.get_pop_payout VB.Rewards.BigDecDefs.wrap256 p c =
    VB.Rewards.CalcDefs.get_pop_payout VB.Rewards.BigDecDefs.wrap256 p c'.
Proof. exact get_pop_payout_equiv. Qed.
Print Assumptions C01_get_pop_payout_equiv.

Theorem C01_payouts_history_independent :
  forall (pinfo : N -> N -> N -> Z) (spv : (N -> nat) -> N -> option Z) params base s1 s2,
    sp_determined spv ->
    reachable base s1 -> reachable base s2 -> active_chain s1 = active_chain s2 ->
    VB.Rewards.BoundsDefs.params_okb params = true ->
    VB.Rewards.BoundsDefs.chain_okb (payout_input pinfo spv s1) = true ->
    Forall2 block_equiv (payout_input pinfo spv s1) (payout_input pinfo spv s2) /\
    forall k, payouts pinfo spv params s1 k = payouts pinfo spv params s2 k.
Proof. exact payouts_history_independent. Qed.
Print Assumptions C01_payouts_history_independent.

Theorem C01_payouts_fresh_instance :
  forall (pinfo : N -> N -> N -> Z) (spv : (N -> nat) -> N -> option Z) params base s1 r h ops s2,
    sp_determined spv ->
    reachable base s1 ->
    fresh_history ops -> run (c_init r h base) ops = Ok s2 ->
    active_chain s1 = active_chain s2 ->
    VB.Rewards.BoundsDefs.params_okb params = true ->
    VB.Rewards.BoundsDefs.chain_okb (payout_input pinfo spv s1) = true ->
    forall k, payouts pinfo spv params s1 k = payouts pinfo spv params s2 k.
Proof. exact payouts_fresh_instance. Qed.
Print Assumptions C01_payouts_fresh_instance.

Theorem C01_candidate_validation_history_independent :
  forall base s1 s2 c fork t1 ok1 t2 ok2,
    reachable base s1 -> reachable base s2 -> active_chain s1 = active_chain s2 ->
    (exists b, find ccmd (blocks _ _ s1) c = Some b) -> (exists b, find ccmd (blocks _ _ s2) c = Some b) ->
    chain_of s1 c = chain_of s2 c ->
    In fork (map (fun t => fst (fst t)) (chain_of s1 c)) ->
    clean s1 c (Z.to_nat (hgt (cores s1) c - hgt (cores s1) fork)) ->
    clean s2 c (Z.to_nat (hgt (cores s1) c - hgt (cores s1) fork)) ->
    apply pstate ccmd cexec cunexec s1 fork c = Ok (t1, ok1) ->
    apply pstate ccmd cexec cunexec s2 fork c = Ok (t2, ok2) ->
    ok1 = ok2 /\ (ok1 = true -> Permutation (pst _ _ t1) (pst _ _ t2)) /\ frame s1 t1 /\ frame s2 t2.
Proof. exact candidate_validation_history_independent. Qed.
Print Assumptions C01_candidate_validation_history_independent.

Theorem C01_score_input_history_independent :
  forall cfg ki ta alt_time spv sp_times,
    sp_determined spv -> sp_times_determined sp_times ->
  forall base s1 s2 c fork t1 t2,
    reachable base s1 -> reachable base s2 -> active_chain s1 = active_chain s2 ->
    (exists b, find ccmd (blocks _ _ s1) c = Some b) -> (exists b, find ccmd (blocks _ _ s2) c = Some b) ->
    chain_of s1 c = chain_of s2 c ->
    In fork (map (fun t => fst (fst t)) (chain_of s1 c)) ->
    clean s1 c (Z.to_nat (hgt (cores s1) c - hgt (cores s1) fork)) ->
    clean s2 c (Z.to_nat (hgt (cores s1) c - hgt (cores s1) fork)) ->
    apply pstate ccmd cexec cunexec s1 fork c = Ok (t1, true) ->
    apply pstate ccmd cexec cunexec s2 fork c = Ok (t2, true) ->
    (forall S, pub_view ki ta alt_time spv sp_times (pst _ _ t1) S = pub_view ki ta alt_time spv sp_times (pst _ _ t2) S) /\
    core_score cfg ki ta alt_time spv sp_times (pst _ _ t1) (line t1 (tip _ _ t1)) (line t1 c) =
    core_score cfg ki ta alt_time spv sp_times (pst _ _ t2) (line t2 (tip _ _ t2)) (line t2 c) /\
    score_of cfg ki ta alt_time spv sp_times t1 c = score_of cfg ki ta alt_time spv sp_times t2 c.
Proof.
  intros cfg ki ta alt_time spv sp_times SD TD base s1 s2 c fork t1 t2 R1 R2 HA B1 B2 HC Hf Cl1 Cl2 A1 A2.
  destruct (candidate_validation_history_independent base s1 s2 c fork t1 true t2 true R1 R2 HA B1 B2 HC Hf Cl1 Cl2 A1 A2)
    as (_ & HP & F1 & F2). specialize (HP eq_refl).
  split; [intros S; apply pub_view_perm; assumption|apply (score_agree _ _ _ _ _ _ SD TD s1 s2); assumption].
Qed.
Print Assumptions C01_score_input_history_independent.

Theorem C01_revalidation_replay :
  forall base s c bc fork t s2 vf s3 s4 ok2,
    reachable base s -> find ccmd (blocks _ _ s) c = Some bc ->
    lca ccmd (blocks _ _ s) (2 * fuel_of _ _ s) (tip _ _ s) c = Some fork ->
    clean_all s c ->
    apply pstate ccmd cexec cunexec s fork c = Ok (t, true) ->
    unapplyWhile pstate ccmd cunexec (fuel_of _ _ t) t c fork (not_full ccmd) = Ok (s2, vf) ->
    unapply pstate ccmd cunexec s2 (tip _ _ s) fork = Ok s3 ->
    apply pstate ccmd cexec cunexec s3 vf c = Ok (s4, ok2) ->
    (ok2 = true <-> exists p, replay (bgs s (depth s c) c) base = Some p).
Proof. exact revalidation_replay. Qed.
Print Assumptions C01_revalidation_replay.

Theorem C01_verdict_history_independent :
  forall cfg ki ta alt_time spv sp_times,
    sp_determined spv -> sp_times_determined sp_times ->
  forall base s1 s2 c s1' r1 s2' r2,
    reachable base s1 -> reachable base s2 -> active_chain s1 = active_chain s2 ->
    (exists b, find ccmd (blocks _ _ s1) c = Some b) -> (exists b, find ccmd (blocks _ _ s2) c = Some b) ->
    chain_of s1 c = chain_of s2 c ->
    clean_all s1 c -> clean_all s2 c ->
    c_compare (score_of cfg ki ta alt_time spv sp_times) (crossed_of ki) s1 (Some c) = Ok (s1', r1) ->
    c_compare (score_of cfg ki ta alt_time spv sp_times) (crossed_of ki) s2 (Some c) = Ok (s2', r2) ->
    r1 = r2.
Proof. exact verdict_history_independent. Qed.
Print Assumptions C01_verdict_history_independent.

Theorem C01_verdict_fresh_instance :
  forall cfg ki ta alt_time spv sp_times,
    sp_determined spv -> sp_times_determined sp_times ->
  forall base s1 r h ops s2 c s1' r1 s2' r2,
    reachable base s1 -> fresh_history ops -> run (c_init r h base) ops = Ok s2 ->
    active_chain s1 = active_chain s2 ->
    (exists b, find ccmd (blocks _ _ s1) c = Some b) -> (exists b, find ccmd (blocks _ _ s2) c = Some b) ->
    chain_of s1 c = chain_of s2 c ->
    clean_all s1 c -> clean_all s2 c ->
    c_compare (score_of cfg ki ta alt_time spv sp_times) (crossed_of ki) s1 (Some c) = Ok (s1', r1) ->
    c_compare (score_of cfg ki ta alt_time spv sp_times) (crossed_of ki) s2 (Some c) = Ok (s2', r2) ->
    r1 = r2.
Proof. exact verdict_fresh_instance. Qed.
Print Assumptions C01_verdict_fresh_instance.

Theorem C01_verdict_scored_example :
  reachable ex_base (st_of vx_ops1) /\ reachable ex_base (st_of vx_ops2) /\ fresh_history vx_ops2 /\
  active_chain (st_of vx_ops1) = active_chain (st_of vx_ops2) /\
  chain_of (st_of vx_ops1) 18 = chain_of (st_of vx_ops2) 18 /\
  clean_all (st_of vx_ops1) 18 /\ clean_all (st_of vx_ops2) 18 /\
  option_map (b_lvl _) (find ccmd (blocks _ _ (st_of vx_ops1)) 15) = Some L_FULL /\
  option_map (b_lvl _) (find ccmd (blocks _ _ (st_of vx_ops2)) 15) = Some L_CONNECTED /\
  match c_compare vx_sc vx_cr (st_of vx_ops1) (Some 18%N), c_compare vx_sc vx_cr (st_of vx_ops2) (Some 18%N) with
  | Ok (t1, r1), Ok (t2, r2) => r1 = (-100)%Z /\ r2 = (-100)%Z /\ tip _ _ t1 = 18%N /\ tip _ _ t2 = 18%N
  | _, _ => False
  end.
Proof. exact verdict_scored_example. Qed.
Print Assumptions C01_verdict_scored_example.

Theorem C01_compose_premises_satisfiable :
  ex_ops <> fresh_ops /\
  reachable ex_base ex_s1 /\ reachable ex_base ex_s2 /\ fresh_history fresh_ops /\
  active_chain ex_s1 = active_chain ex_s2 /\
  map (fun t => fst (fst t)) (active_chain ex_s1) = [6; 3; 0]%N /\
  ends_of (pst _ _ ex_s1) 3 = [(3, 3, 7)]%N /\
  sp_determined ex_spv /\
  VB.Rewards.BoundsDefs.params_okb VB.Rewards.BoundsDefs.default_params = true /\
  VB.Rewards.BoundsDefs.chain_okb (payout_input ex_pinfo ex_spv ex_s1) = true /\
  map (fun b => length (VB.Rewards.CalcDefs.b_ends b)) (payout_input ex_pinfo ex_spv ex_s1) = [0; 1; 0]%nat.
Proof. exact compose_premises_satisfiable. Qed.
Print Assumptions C01_compose_premises_satisfiable.

Theorem C01_verdict_premises_satisfiable :
  (chain_of ex_s1 15 = chain_of ex_s2 15 /\
   (exists b, find ccmd (blocks _ _ ex_s1) 15 = Some b) /\ (exists b, find ccmd (blocks _ _ ex_s2) 15 = Some b) /\
   In 3%N (map (fun t => fst (fst t)) (chain_of ex_s1 15)) /\
   clean ex_s1 15 (Z.to_nat (hgt (cores ex_s1) 15 - hgt (cores ex_s1) 3)) /\
   clean ex_s2 15 (Z.to_nat (hgt (cores ex_s1) 15 - hgt (cores ex_s1) 3)) /\
   (exists t1, apply pstate ccmd cexec cunexec ex_s1 3 15 = Ok (t1, true)) /\
   (exists t2, apply pstate ccmd cexec cunexec ex_s2 3 15 = Ok (t2, true))) /\
  clean_all ex_s1 15 /\ clean_all ex_s2 15.
Proof. exact (conj verdict_premises_satisfiable verdict_clean_all_satisfiable). Qed.
Print Assumptions C01_verdict_premises_satisfiable.

Theorem C01_verdict_without_clean_premise_refuted :
  reachable ex_base (st_of rf_ops1) /\ reachable ex_base (st_of rf_ops2) /\
  active_chain (st_of rf_ops1) = active_chain (st_of rf_ops2) /\
  chain_of (st_of rf_ops1) 12 = chain_of (st_of rf_ops2) 12 /\
  (exists b, find ccmd (blocks _ _ (st_of rf_ops1)) 12 = Some b /\ b_fp _ b = true) /\
  (exists b, find ccmd (blocks _ _ (st_of rf_ops2)) 12 = Some b /\ is_failed _ b = false) /\
  ~ clean (st_of rf_ops1) 12 1 /\
  match c_compare rf_sc rf_cr (st_of rf_ops1) (Some 12%N), c_compare rf_sc rf_cr (st_of rf_ops2) (Some 12%N) with
  | Ok (_, r1), Ok (_, r2) => r1 = 1%Z /\ r2 = 0%Z
  | _, _ => False
  end.
Proof. exact verdict_without_clean_premise_refuted. Qed.
Print Assumptions C01_verdict_without_clean_premise_refuted.

Theorem C01_unexec_keeps_order : forall c p,
  match item_of c with
  | Some x => others x (cunexec c p) = others x p /\
              (mem x p = true -> exists l1 y l2, p = l1 ++ y :: l2 /\ item_eqb x y = true /\ mem x l1 = false /\
                                                 cunexec c p = l1 ++ l2)
  | None => cunexec c p = p
  end.
Proof. exact cunexec_keeps_order. Qed.
Print Assumptions C01_unexec_keeps_order.

Theorem C01_unexec_under_later : forall c p p' later,
  cexec c p = Some p' -> (forall x, item_of c = Some x -> mem x later = false) ->
  cunexec c (later ++ p') = later ++ p.
Proof. exact cunexec_under_later. Qed.
Print Assumptions C01_unexec_under_later.

Theorem C01_swap_and_pop_keeps_order_refuted :
  let vA := IEnd 1 10 21 in let v1 := IEnd 2 10 22 in let v2 := IEnd 3 10 23 in
  let p := [v2; v1; vA] in
  remove1 vA p = [v2; v1] /\ others vA (remove1 vA p) = others vA p /\
  remove_swap vA p = [v1; v2] /\ others vA (remove_swap vA p) <> others vA p.
Proof. exact swap_and_pop_keeps_order_refuted. Qed.
Print Assumptions C01_swap_and_pop_keeps_order_refuted.
