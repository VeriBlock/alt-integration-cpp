(** C13 — the property theorems. *)
From Coq Require Import List NArith Permutation.
From VB Require Import Mempool.VsmDefs Mempool.VsmProofs Mempool.PoolDefs Mempool.PoolProofs.
Import ListNotations.
Local Open Scope N_scope.

(** ValueSortedMap as coded now: after ANY operation sequence (any comparator "height a < height b") no assertion
    fires, set and map hold the same values, the set is sorted, sizes agree, keys are unique *)
Theorem C13_vsm_refines_map :
  forall (height : N -> N) ops, exists s,
    run height empty ops = Ok s /\
    Permutation (vset s) (map snd (vmap s)) /\
    sorted height (vset s) = true /\
    length (vset s) = length (vmap s) /\
    NoDup (map fst (vmap s)).
Proof.
  intros height ops. destruct (run_inv height ops empty (inv_empty height)) as (s & E & P & S & ND).
  exists s. repeat split; try assumption. rewrite (Permutation_length P), map_length. reflexivity.
Qed.
Print Assumptions C13_vsm_refines_map.

(** documentation: the erase of the code before commit 913f84f9 ("first equivalent element") breaks it *)
Theorem C13_vsm_v0_refuted :
  exists ops s, run_v0 h10 empty ops = Ok s /\ ~ Permutation (vset s) (map snd (vmap s)).
Proof.
  exists [Insert 1 11; Insert 2 12; Erase 2], (mk [12] [(1, 11)]).
  split; [vm_compute; reflexivity|].
  cbn. intro P. apply Permutation_length_1 in P. discriminate.
Qed.
Print Assumptions C13_vsm_v0_refuted.

(** every history respecting the caller contract (submit only payloads that are not connected) runs without a
    failing assertion; every known payload is connected XOR in flight *)
Theorem C13_partition :
  forall (ht par blk : N -> N) ops,
    contract ht par blk pempty ops ->
    exists s, prun ht par blk pempty ops = POk s /\
      NoDup (conn s) /\
      (forall p, ~ (connected s p = true /\ inflight s p = true)) /\
      (forall p, known s p = true <-> (connected s p = true \/ inflight s p = true)).
Proof.
  intros ht par blk ops C. destruct (prun_inv ht par blk ops pempty (pinv_empty ht) C) as (s & E & _ & ND & _ & DJ).
  exists s. split; [exact E|]. split; [exact ND|]. split.
  - intros p [A B]. rewrite (DJ p A) in B. discriminate.
  - intro p. apply Bool.orb_true_iff.
Qed.
Print Assumptions C13_partition.

(** the height-sorted in-flight view holds exactly the in-flight payloads, once each, sorted by height *)
Theorem C13_views_agree :
  forall (ht par blk : N -> N) ops,
    contract ht par blk pempty ops ->
    exists s, prun ht par blk pempty ops = POk s /\
      Permutation (vset (infl s)) (map fst (vmap (infl s))) /\
      sorted ht (vset (infl s)) = true /\
      NoDup (vset (infl s)) /\
      (forall p, inflight s p = true <-> In p (vset (infl s))).
Proof.
  intros ht par blk ops C. destruct (prun_inv ht par blk ops pempty (pinv_empty ht) C) as (s & E & I).
  destruct (vset_spec ht s I) as [ND Hin]. destruct I as ((P & S & _) & _ & KV & _).
  exists s. rewrite <- (kv_same_map _ KV). repeat split; auto; apply Hin.
Qed.
Print Assumptions C13_views_agree.

(** no operation other than a submit of p makes an unknown payload p known *)
Theorem C13_removed_stay_removed :
  forall (ht par blk : N -> N) s o s' p,
    PInv ht s ->
    (match o with Submit _ _ q => connected s q = false | _ => True end) ->
    ~ targets o p -> known s p = false -> pstep ht par blk s o = POk s' -> known s' p = false.
Proof.
  intros ht par blk s o s' p I C T K E. destruct (pstep_inv ht par blk s o I C) as (s1 & E1 & _ & Kf).
  rewrite E in E1. injection E1 as <-. apply Kf; assumption.
Qed.
Print Assumptions C13_removed_stay_removed.

(** never lost: an accepted submit makes the payload known and a connect pass keeps every known payload known *)
Theorem C13_never_lost :
  forall (ht par blk : N -> N),
    (forall base v p s s', PInv ht s -> connected s p = false -> v <> Stateless ->
       submit ht par blk base v p s = POk s' -> known s' p = true) /\
    (forall base stale s s', PInv ht s -> tryConnect ht par blk base stale s = POk s' ->
       forall q, known s q = true -> known s' q = true).
Proof.
  intros ht par blk. split.
  - intros base v p s s' I C V E. destruct (submit_spec ht par blk base v p s I C V) as (s1 & E1 & _ & _ & K).
    rewrite E in E1. injection E1 as <-. rewrite K, N.eqb_refl. reflexivity.
  - intros base stale s s' I E q Hq. destruct (tryConnect_spec ht par blk base stale s I) as (s1 & E1 & _ & _ & K).
    rewrite E in E1. injection E1 as <-. rewrite K. exact Hq.
Qed.
Print Assumptions C13_never_lost.

(** [blk p] is the VBK block a payload carries, [par p] the parent of that block, [hb] the height of blocks.
    One tryConnectPayloads pass: whatever is still in flight afterwards either fails the contextual check or its
    context block is absent (not in the trees, not among the connected payloads) - for every submission order *)
Theorem C13_inflight_eventually_connected :
  forall (ht par blk hb : N -> N) base stale s s',
    (forall q, hb (blk q) = ht q) -> (forall q, hb (par q) < ht q) ->
    PInv ht s -> tryConnect ht par blk base stale s = POk s' ->
    forall p, inflight s' p = true -> mem p stale = false ->
      present blk base (conn s') (par p) = false.
Proof. exact inflight_eventually_connected. Qed.
Print Assumptions C13_inflight_eventually_connected.

(** the sort key of the in-flight view is the parameter [ht]; the theorem above needs it to be the height of the
    carried block (as coded). For another key (here: heights of the endorsed blocks, in reverse order of the
    containing blocks) one pass leaves a payload in flight whose context block is present *)
Theorem C13_inflight_other_key_refuted :
  (forall q, wk_par q < wk_blk q) /\
  contract wk_key wk_par wk_blk pempty wk_ops /\
  exists s s',
    prun wk_key wk_par wk_blk pempty wk_ops = POk s /\
    tryConnect wk_key wk_par wk_blk [10] [] s = POk s' /\
    inflight s' 1 = true /\ mem 1 [] = false /\
    present wk_blk [10] (conn s') (wk_par 1) = true.
Proof.
  split.
  - intro q. unfold wk_par, wk_blk. destruct (q =? 1); [reflexivity|]. destruct (q =? 2); reflexivity.
  - split; [vm_compute; repeat split; reflexivity|].
    eexists. eexists. split; [vm_compute; reflexivity|]. split; [vm_compute; reflexivity|].
    repeat split; vm_compute; reflexivity.
Qed.
Print Assumptions C13_inflight_other_key_refuted.

(** erase-while-iterating as coded now never reads an erased node; the loop before 93a5aff7 always did *)
Theorem C13_erase_while_iterating_safe :
  (forall atvs stored, cleanup_tooold atvs stored =
                       Done (filter (fun x => negb (existsb (N.eqb x) atvs)) stored)) /\
  (forall valid nodes, cleanup_stale valid nodes = Done (filter valid nodes)).
Proof. split; [exact cleanup_tooold_safe|exact cleanup_stale_safe]. Qed.
Print Assumptions C13_erase_while_iterating_safe.

Theorem C13_cleanup_v0_uaf_refuted :
  forall a atvs stored, cleanup_tooold_v0 (a :: atvs) stored = Uaf.
Proof. reflexivity. Qed.
Print Assumptions C13_cleanup_v0_uaf_refuted.

(** ** the relations structure (three payload types): relations_, vbkblocks_, stored_vtbs_/stored_atvs_ and the three
    in-flight maps; every tree verdict is an input of the step (RelDefs) *)
From VB Require Import Mempool.RelDefs Mempool.RelProofs Mempool.RelMore.

(** EVERY operation sequence (no caller contract): the relations_.size() == vbkblocks_.size() assertion of cleanUp
    never fires; one relation per connected VBK block and vice versa; a VTB / ATV is in the connected map iff a
    relation lists it, and it is listed by the relation of its containing block / block of proof; no key twice *)
Theorem C13_relations_consistent :
  forall (bop cont : N -> N) ops,
    exists s, rrun bop cont mp0 ops = ROk s /\
      NoDup (map hdr (rels s)) /\ NoDup (vbks s) /\ NoDup (svtbs s) /\ NoDup (satvs s) /\
      NoDup (fb s) /\ NoDup (fv s) /\ NoDup (fa s) /\
      (forall b, In b (vbks s) <-> exists r, In r (rels s) /\ hdr r = b) /\
      (forall t, In t (svtbs s) <-> exists r, In r (rels s) /\ In t (rvtbs r)) /\
      (forall a, In a (satvs s) <-> exists r, In r (rels s) /\ In a (ratvs r)) /\
      (forall r t, In r (rels s) -> In t (rvtbs r) -> cont t = hdr r) /\
      (forall r a, In r (rels s) -> In a (ratvs r) -> bop a = hdr r).
Proof.
  intros bop cont ops. destruct (rrun_inv bop cont ops mp0 (rinv0 bop cont)) as [s [E [K VB SM CV CA HV HA SV SA FB FV FA]]].
  exists s. refine (conj E (conj K (conj VB (conj SV (conj SA (conj FB (conj FV (conj FA (conj _ (conj CV (conj CA (conj HV HA)))))))))))).
  intro b. rewrite SM, in_map_iff. split; intros [r [H1 H2]]; exists r; auto.
Qed.
Print Assumptions C13_relations_consistent.

(** under the caller contract (an ATV / VTB is submitted from outside only while it is not connected; the
    resubmissions of tryConnectPayloads are shown to respect it): connected and in flight are disjoint, no relation
    lists an id twice, no id is listed by two relations *)
Theorem C13_relations_disjoint :
  forall (bop cont : N -> N) ops,
    rcontract bop cont mp0 ops ->
    exists s, rrun bop cont mp0 ops = ROk s /\
      (forall a, ~ (In a (satvs s) /\ In a (fa s))) /\
      (forall t, ~ (In t (svtbs s) /\ In t (fv s))) /\
      (forall r, In r (rels s) -> NoDup (rvtbs r) /\ NoDup (ratvs r)) /\
      (forall r1 r2 x, In r1 (rels s) -> In r2 (rels s) ->
         (In x (rvtbs r1) /\ In x (rvtbs r2)) \/ (In x (ratvs r1) /\ In x (ratvs r2)) -> r1 = r2).
Proof.
  intros bop cont ops C. destruct (rrun_all bop cont ops mp0 (rinv0 bop cont) dinv0 C) as [s [E [I [DA DV NV NA]]]].
  exists s. repeat split; auto.
  - intros a [H1 H2]. apply (DA a); auto.
  - intros t [H1 H2]. apply (DV t); auto.
  - intros r1 r2 x. exact (one_relation bop cont s r1 r2 x I).
Qed.
Print Assumptions C13_relations_disjoint.

(** cleanUp removes exactly what the tree marks: contextually invalid VTBs; contextually invalid ATVs and every ATV of
    a too old block of proof; contextually invalid in-flight payloads; the relations (and VBK blocks) [cl_rel] erases
    (too old without VTBs, or in the stable tree and empty after the sweep). Everything else stays, in place *)
Theorem C13_cleanUp_exact :
  forall (bop cont : N -> N) o s,
    RInv bop cont s ->
    exists s', cleanUp o s = ROk s' /\
      svtbs s' = filter (validV o) (svtbs s) /\
      satvs s' = filter (fun a => andb (validA o a) (negb (tooOld o (bop a)))) (satvs s) /\
      fb s' = filter (validB o) (fb s) /\ fv s' = filter (validV o) (fv s) /\ fa s' = filter (validA o) (fa s) /\
      (forall b, In b (vbks s') <-> exists r, In r (rels s) /\ hdr r = b /\ cl_rel o r <> None) /\
      (forall r', In r' (rels s') <-> exists r, In r (rels s) /\ cl_rel o r = Some r').
Proof.
  intros bop cont o s I. exists (clean_state o s).
  refine (conj (cleanUp_ok bop cont o s I) (conj (clean_svtbs bop cont o s I) (conj (clean_satvs bop cont o s I)
            (conj eq_refl (conj eq_refl (conj eq_refl (conj _ _))))))).
  - intro b. apply (clean_vbks bop cont), I.
  - intro r'. apply keep_In.
Qed.
Print Assumptions C13_cleanUp_exact.

(** removeAll(PopData) as coded takes nothing out of the in-flight maps: afterwards an ATV / VTB of the PopData is
    known only if it was in flight before AND passes the contextual check of the cleanUp inside removeAll (once the
    block carrying the PopData is on the active chain that check answers "duplicate"); a context block of the PopData
    survives the first loop only with a relation that still lists payloads *)
Theorem C13_removeAll_forgets :
  forall (bop cont : N -> N) pb pv pa o c s,
    RInv bop cont s -> DInv s ->
    exists s', removeAll bop cont pb pv pa o c s = ROk s' /\
      (forall a, In a pa -> KA s' a -> In a (fa s) /\ validA o a = true) /\
      (forall t, In t pv -> KV s' t -> In t (fv s) /\ validV o t = true) /\
      (forall b, In b pb -> In b (vbks (dropPop pb pv pa s)) ->
         exists r, In r (rels (dropPop pb pv pa s)) /\ hdr r = b /\ (rvtbs r <> [] \/ ratvs r <> [])).
Proof.
  intros bop cont pb pv pa o c s I _. destruct (rstep_inv bop cont s (RemAll pb pv pa o c) I) as [s' [E _]].
  exists s'. split; [exact E|]. destruct (removeAll_known bop cont pb pv pa o c s s' I E). eauto using dropPop_block.
Qed.
Print Assumptions C13_removeAll_forgets.

(** nothing reappears without a submit (three-typed version of C13_removed_stay_removed): an ATV / VTB known after an
    operation was known before it or is the payload that operation submits - clear, cleanUp, removeAll and
    generatePopData included; after clear every container is empty *)
Theorem C13_no_resurrection :
  forall (bop cont : N -> N) s op s',
    RInv bop cont s -> DInv s -> rstep bop cont s op = ROk s' ->
    (forall a, KA s' a -> KA s a \/ exists v, op = SubA v a) /\
    (forall t, KV s' t -> KV s t \/ exists v, op = SubV v t) /\
    (op = Clr -> s' = mp0).
Proof.
  intros bop cont s op s' _ _ E. destruct (rstep_known bop cont s op s' E). repeat split; auto.
  intros ->. injection E as <-. reflexivity.
Qed.
Print Assumptions C13_no_resurrection.

(** the "never both" of the property does NOT hold for VBK blocks, contract or not: getOrPutVbkRelation ignores the
    in-flight blocks, so a block waiting in flight becomes a relation header when an ATV carrying it connects
    (connected and in flight at once); the next connect pass erases the in-flight entry *)
Theorem C13_vbk_header_both_refuted :
  let ops := [SubB Stateful false 7; SubA Fine 1] in
  rcontract ex_bop ex_cont mp0 ops /\
  (exists s, rrun ex_bop ex_cont mp0 ops = ROk s /\ In 7 (vbks s) /\ In 7 (fb s)) /\
  (exists s, rrun ex_bop ex_cont mp0 (ops ++ [Gen all_fine all_valid]) = ROk s /\ In 7 (vbks s) /\ fb s = []).
Proof.
  simpl. repeat split; auto.
  - eexists. split; [vm_compute; reflexivity|]. simpl; auto.
  - eexists. split; [vm_compute; reflexivity|]. simpl; auto.
Qed.
Print Assumptions C13_vbk_header_both_refuted.

(** the caller contract is needed for C13_relations_disjoint: a connected ATV submitted again is listed twice by its
    relation (the std::set falls back on the shared_ptr address), and connected AND in flight when the second submit
    fails statefully *)
Theorem C13_resubmit_connected_refuted :
  (exists s, rrun ex_bop ex_cont mp0 [SubA Fine 1; SubA Fine 1] = ROk s /\ rels s = [mkr 7 [] [1; 1]]) /\
  (exists s, rrun ex_bop ex_cont mp0 [SubA Fine 1; SubA Stateful 1] = ROk s /\ In 1 (satvs s) /\ In 1 (fa s)).
Proof. split; eexists; (split; [vm_compute; reflexivity|]); simpl; auto. Qed.
Print Assumptions C13_resubmit_connected_refuted.

(** the state of C13_vbk_header_both_refuted is transient: a VBK block the tree accepts is not in flight after a
    connect pass (generatePopData, removeAll), whatever else the pass does *)
Theorem C13_inflight_block_resolved :
  forall (bop cont : N -> N) c s b,
    (forall s', vB c s' b = Fine) -> ~ In b (fb (tryConnect bop cont c s)).
Proof. exact inflight_block_resolved. Qed.
Print Assumptions C13_inflight_block_resolved.
