(** getKeystoneContext as coded = minimum over the endorsements of the
    (time-)adjusted publication height; the adjustment never moves a publication
    backwards and is monotone; without time adjustment it is the identity.
    In particular the as-coded skip [endorsementIndex >= earliest -> continue] is
    sound, and the result does not depend on the iteration order of the set. *)
From Coq Require Import ZArith Lia List Bool Arith Permutation.
From VB Require Import Score.ViewDefs.
Import ListNotations.
Local Open Scope Z_scope.

Lemma nth_skipn {A} (l : list A) k i d : nth i (skipn k l) d = nth (k + i) l d.
Proof.
  revert l. induction k as [|k IH]; intros l; [reflexivity|].
  destruct l as [|x l]; cbn [skipn Nat.add nth]; [destruct i; reflexivity | apply IH].
Qed.

Lemma skipn_skipn' {A} (l : list A) a b : skipn a (skipn b l) = skipn (a + b) l.
Proof.
  revert l. induction b as [|b IH]; intros l.
  - rewrite Nat.add_0_r. reflexivity.
  - rewrite Nat.add_succ_r. destruct l as [|x l]; cbn [skipn]; [apply skipn_nil | apply IH].
Qed.

Lemma first_later_ge T l j0 j : first_later T l j0 = Some j -> (j0 <= j)%nat.
Proof.
  revert j0. induction l as [|t r IH]; intros j0 H; cbn [first_later] in H; [discriminate|].
  destruct (T <? t); [inversion H; lia|]. apply IH in H. lia.
Qed.

(** the found block is later than the keystone, and no block before it (from j0 on) is *)
Lemma first_later_spec T l j0 j :
  first_later T l j0 = Some j ->
  T < nth (j - j0) l 0 /\ forall i, (i < j - j0)%nat -> nth i l 0 <= T.
Proof.
  revert j0. induction l as [|t r IH]; intros j0 H; cbn [first_later] in H; [discriminate|].
  destruct (Z.ltb_spec T t) as [Hlt|Hge].
  - inversion H; subst. replace (j - j)%nat with 0%nat by lia. cbn [nth]. split; [exact Hlt|]. intros i Hi. lia.
  - pose proof (first_later_ge _ _ _ _ H) as Hge'. destruct (IH _ H) as [H1 H2].
    replace (j - j0)%nat with (S (j - S j0)) by lia. cbn [nth]. split; [exact H1|].
    intros [|i] Hi; cbn [nth]; [exact Hge|]. apply H2. lia.
Qed.

Lemma first_later_none T l j0 : first_later T l j0 = None -> forall i, (i < length l)%nat -> nth i l 0 <= T.
Proof.
  revert j0. induction l as [|t r IH]; intros j0 H i Hi; cbn [length] in Hi; [lia|].
  cbn [first_later] in H. destruct (Z.ltb_spec T t) as [Hlt|Hge]; [discriminate|].
  destruct i; cbn [nth]; [exact Hge|]. apply (IH _ H). lia.
Qed.

(** dropping a prefix of the chain can only move the first later block forward *)
Lemma first_later_suffix T l : forall j0 k,
  match first_later T l j0, first_later T (skipn k l) (j0 + k) with
  | Some a, Some b => (a <= b)%nat
  | None, Some _ => False
  | _, None => True
  end.
Proof.
  induction l as [|t l IH]; intros j0 k.
  - rewrite skipn_nil. exact I.
  - destruct k as [|k].
    + cbn [skipn]. rewrite Nat.add_0_r. destruct (first_later T (t :: l) j0); [lia|exact I].
    + cbn [skipn first_later]. rewrite <- Nat.add_succ_comm. destruct (T <? t); [|apply IH].
      destruct (first_later T (skipn k l) (S j0 + k)) as [b|] eqn:E; [|exact I].
      apply first_later_ge in E. lia.
Qed.

Lemma adjust_off chain T h : adjust false chain T h = Some h.
Proof. reflexivity. Qed.

Lemma adjust_ge ta chain T h j : adjust ta chain T h = Some j -> (h <= j)%nat.
Proof.
  unfold adjust. destruct (negb ta || (T <? nth h chain 0)); intros H.
  - inversion H. lia.
  - apply first_later_ge in H. lia.
Qed.

(** the adjusted block is strictly later than the keystone (when adjustment is on) *)
Lemma adjust_later chain T h j : adjust true chain T h = Some j -> T < nth j chain 0.
Proof.
  unfold adjust. cbn [negb orb]. destruct (Z.ltb_spec T (nth h chain 0)) as [Hlt|Hge]; intros H.
  - inversion H; subst. exact Hlt.
  - pose proof (first_later_ge _ _ _ _ H) as Hj. destruct (first_later_spec _ _ _ _ H) as [H1 _].
    rewrite nth_skipn in H1. replace (S h + (j - S h))%nat with j in H1 by lia. exact H1.
Qed.

(** with time adjustment an endorsement counts at the first block from its block of proof on
    that is later than the keystone *)
Lemma adjust_on chain T h : (h < length chain)%nat ->
  adjust true chain T h = first_later T (skipn h chain) h.
Proof.
  intros Hh. unfold adjust. cbn [negb orb].
  replace (skipn h chain) with (nth h chain 0 :: skipn (S h) chain); [reflexivity|].
  revert h Hh. induction chain as [|t r IH]; intros [|h] Hh; cbn [length] in Hh; try lia; [reflexivity|].
  cbn [nth]. rewrite !skipn_cons. apply IH. lia.
Qed.

(** monotone: a later block of proof never counts earlier, and if the earlier one does not count
    at all neither does the later one: the later one searches a suffix of what the earlier searches *)
Lemma adjust_mono ta chain T h1 h2 :
  (h1 <= h2)%nat -> (h2 < length chain)%nat ->
  match adjust ta chain T h1, adjust ta chain T h2 with
  | Some a, Some b => (a <= b)%nat
  | None, Some _ => False
  | _, None => True
  end.
Proof.
  intros Hle Hin. destruct ta; [|cbn; lia]. rewrite !adjust_on by lia.
  pose proof (first_later_suffix T (skipn h1 chain) h1 (h2 - h1)) as Hs.
  rewrite skipn_skipn' in Hs. replace (h2 - h1 + h1)%nat with h2 in Hs by lia.
  replace (h1 + (h2 - h1))%nat with h2 in Hs by lia. exact Hs.
Qed.

Lemma ktx_step_omin ta chain T e h : ktx_step ta chain T e h = omin e (adjust ta chain T h).
Proof.
  unfold ktx_step. destruct e as [e|].
  - destruct (Nat.leb_spec e h) as [Hle|Hgt].
    + (* skipped: the adjusted height is >= h >= e anyway *)
      destruct (adjust ta chain T h) as [j|] eqn:E; cbn [omin]; [|reflexivity].
      apply adjust_ge in E. f_equal. lia.
    + unfold adjust. destruct (negb ta || (T <? nth h chain 0)); cbn [omin].
      * f_equal. lia.
      * destruct (first_later T (skipn (S h) chain) (S h)) as [j|]; cbn [omin]; [|reflexivity].
        destruct (Nat.ltb_spec j e); f_equal; lia.
  - unfold adjust. destruct (negb ta || (T <? nth h chain 0)); cbn [omin]; [reflexivity|].
    destruct (first_later T (skipn (S h) chain) (S h)); reflexivity.
Qed.

Theorem ktx_eq_spec ta chain T hs : ktx ta chain T hs = ktx_spec ta chain T hs.
Proof.
  unfold ktx, ktx_spec. generalize (@None nat) as e. induction hs as [|h r IH]; intros e; cbn [fold_left map]; [reflexivity|].
  rewrite ktx_step_omin. apply IH.
Qed.

Lemma omin_comm a b : omin a b = omin b a.
Proof. destruct a, b; cbn; try reflexivity. f_equal. lia. Qed.
Lemma omin_assoc a b c : omin (omin a b) c = omin a (omin b c).
Proof. destruct a, b, c; cbn; try reflexivity. f_equal. lia. Qed.

Lemma fold_omin_acc l : forall e, fold_left omin l e = omin e (fold_left omin l None).
Proof.
  induction l as [|x r IH]; intros e; cbn [fold_left].
  - destruct e; reflexivity.
  - rewrite IH. rewrite (IH (omin None x)). cbn [omin]. apply omin_assoc.
Qed.

(** the result does not depend on the order in which the std::set is iterated *)
Theorem ktx_order_independent ta chain T hs hs' :
  Permutation hs hs' -> ktx ta chain T hs = ktx ta chain T hs'.
Proof.
  rewrite !ktx_eq_spec. unfold ktx_spec. intros P.
  apply (Permutation_map (adjust ta chain T)) in P. revert P.
  generalize (map (adjust ta chain T) hs) (map (adjust ta chain T) hs'). intros l l' P.
  induction P as [|x l l' P IH|x y l|l l' l'' P1 IH1 P2 IH2]; cbn [fold_left].
  - reflexivity.
  - rewrite (fold_omin_acc l), (fold_omin_acc l'), IH. reflexivity.
  - rewrite (fold_omin_acc l (omin (omin None y) x)), (fold_omin_acc l (omin (omin None x) y)).
    f_equal. cbn [omin]. apply omin_comm.
  - congruence.
Qed.

Lemma fold_omin_min l :
  match fold_left omin l None with
  | Some m => In (Some m) l /\ forall j, In (Some j) l -> (m <= j)%nat
  | None => forall o, In o l -> o = None
  end.
Proof.
  induction l as [|x r IH]; cbn [fold_left]; [intros o []|].
  rewrite fold_omin_acc. cbn [omin]. destruct x as [a|], (fold_left omin r None) as [b|]; cbn [omin].
  - destruct IH as [I1 I2]. split.
    + destruct (Nat.min_spec a b) as [[_ ->]|[_ ->]]; [left; reflexivity | right; exact I1].
    + intros j [E|Hj]; [injection E as <-; lia | specialize (I2 j Hj); lia].
  - split; [left; reflexivity|]. intros j [E|Hj]; [injection E as <-; lia | discriminate (IH _ Hj)].
  - destruct IH as [I1 I2]. split; [right; exact I1|]. intros j [E|Hj]; [discriminate | apply I2, Hj].
  - intros o [<-|Ho]; [reflexivity | apply IH, Ho].
Qed.

(** lower bound and attainment: [ktx] is the minimum *)
Theorem ktx_is_min ta chain T hs :
  (forall h j, In h hs -> adjust ta chain T h = Some j ->
     exists m, ktx ta chain T hs = Some m /\ (m <= j)%nat) /\
  (forall m, ktx ta chain T hs = Some m -> exists h, In h hs /\ adjust ta chain T h = Some m) /\
  (ktx ta chain T hs = None <-> forall h, In h hs -> adjust ta chain T h = None).
Proof.
  rewrite ktx_eq_spec. unfold ktx_spec.
  pose proof (fold_omin_min (map (adjust ta chain T) hs)) as H.
  destruct (fold_left omin (map (adjust ta chain T) hs) None) as [m|].
  - destruct H as [Hin Hmin]. apply in_map_iff in Hin. destruct Hin as (h0 & E0 & Hh0).
    split; [|split; [|split; [discriminate|]]].
    + intros h j Hh Hj. exists m. split; [reflexivity|]. apply Hmin. rewrite <- Hj. apply in_map, Hh.
    + intros m' E. injection E as <-. exists h0. split; assumption.
    + intros Hall. rewrite (Hall h0 Hh0) in E0. discriminate.
  - split; [|split; [discriminate|split; [|reflexivity]]].
    + intros h j Hh Hj. specialize (H _ (in_map _ _ _ Hh)). congruence.
    + intros _ h Hh. apply H, in_map, Hh.
Qed.

(** without time adjustment: the plain minimum of the block-of-proof heights *)
Corollary ktx_off chain T hs : ktx false chain T hs = fold_left omin (map Some hs) None.
Proof. rewrite ktx_eq_spec. unfold ktx_spec. f_equal. Qed.

Example ktx_example :
  (* best SP chain timestamps by height; keystone time 105; blocks of proof at heights 2, 4, 1 *)
  ktx true [100; 101; 103; 105; 104; 108; 110] 105 [2; 4; 1]%nat = Some 5%nat /\
  ktx false [100; 101; 103; 105; 104; 108; 110] 105 [2; 4; 1]%nat = Some 1%nat /\
  ktx true [100; 101; 103] 105 [2; 1]%nat = None.
Proof. repeat split; reflexivity. Qed.
