(** comparePopScoreImpl as coded ([impl]) refines the protocol scorer ([spec]):
    same sign of the verdict for ALL views with any number of keystones
    (induction over the keystones), under explicit range hypotheses.
    The state of the C++ loop is, iteration by iteration, the encoding [enc_st] of the state of
    the specification's fold; the loop may stop early, but only once the sign is [decided]. *)
From Coq Require Import ZArith Lia Bool List.
From VB Require Import Score.CInt Score.CmpDefs Gen.ScoreParams Score.KeystoneProofs.
Import ListNotations.
Local Open Scope Z_scope.

Definition tmax (t : list Z) : Z := fold_right Z.max 0 t.

Definition table_ok (c : config) : Prop := table c <> [] /\ Forall (fun t => 0 <= t) (table c).
Definition fd_ok (c : config) : Prop := 0 <= fd c.

(** publication heights: non-negative and far enough below INT32_MAX that the
    NO_ENDORSEMENT sentinel is "infinitely late" for the finality delay and the table *)
Definition slot_ok (c : config) (o : option xheight) : Prop :=
  match o with
  | Some (Fin h) => 0 <= h /\ h + fd c < NO_ENDORSEMENT /\ h + Z.of_nat (length (table c)) <= NO_ENDORSEMENT
  | _ => True
  end.
Definition profile_ok (c : config) (l : list (option xheight)) : Prop := Forall (slot_ok c) l.

Definition budget_ok (c : config) (n : nat) : Prop := Z.of_nat n * tmax (table c) <= int32_max.

Lemma ovf_false z : -2147483648 <= z <= 2147483647 -> ovf z = false.
Proof.
  intros [Hlo Hhi]. unfold ovf, in_i32, int32_min, int32_max.
  apply Z.leb_le in Hlo, Hhi. rewrite Hlo, Hhi. reflexivity.
Qed.

Lemma ovf_false_inv z : ovf z = false -> -2147483648 <= z <= 2147483647.
Proof.
  unfold ovf, in_i32, int32_min, int32_max.
  intros [Hlo%Z.leb_le Hhi%Z.leb_le]%negb_false_iff%andb_true_iff. split; assumption.
Qed.

Lemma tmax_nonneg t : 0 <= tmax t.
Proof. unfold tmax. induction t; cbn [fold_right]; lia. Qed.

Lemma nth_bounds t : Forall (fun x => 0 <= x) t -> forall n, 0 <= nth n t 0 <= tmax t.
Proof.
  unfold tmax. induction 1 as [|x t Hx Ht IH]; intros [|n]; cbn [nth fold_right]; try lia.
  specialize (IH n). lia.
Qed.

Lemma tbl_bounds c r : table_ok c -> 0 <= tbl c r <= tmax (table c).
Proof.
  intros [_ Hf]. unfold tbl.
  destruct ((r <? 0) || (Z.of_nat (length (table c)) <=? r)).
  - pose proof (tmax_nonneg (table c)). lia.
  - apply nth_bounds. exact Hf.
Qed.

Lemma pts_bounds c x y : table_ok c -> 0 <= pts c x y <= tmax (table c).
Proof.
  intros Ht. unfold pts. destruct x, y; try apply (tbl_bounds c _ Ht).
  pose proof (tmax_nonneg (table c)). lia.
Qed.

Lemma score_eq_tbl c r : table_ok c -> tmax (table c) <= int32_max -> score c r = tbl c r.
Proof.
  intros [_ Hf] Hm. unfold score, tbl.
  destruct ((r <? 0) || (Z.of_nat (length (table c)) <=? r)); [reflexivity|].
  pose proof (nth_bounds _ Hf (Z.to_nat r)). unfold int32_max in Hm. apply to_i32_id. lia.
Qed.

Lemma tbl0 c : table_ok c -> exists t0 r, table c = t0 :: r /\ tbl c 0 = t0.
Proof.
  intros [Hne _]. destruct (table c) as [|t0 r] eqn:E; [congruence|].
  exists t0, r. split; [reflexivity|]. unfold tbl. rewrite E. reflexivity.
Qed.

Lemma tbl_out c r : Z.of_nat (length (table c)) <= r -> tbl c r = 0.
Proof.
  intros H. unfold tbl. apply Z.leb_le in H. rewrite H, orb_true_r. reflexivity.
Qed.

Definition encp (o : option xheight) : Z := match o with None => NO_ENDORSEMENT | Some x => enc_x x end.
Definition or_inf (o : option xheight) : xheight := match o with Some x => x | None => Inf end.

Lemma encp_or_inf o : encp o = enc_x (or_inf o).
Proof. destruct o; reflexivity. Qed.

Lemma late_enc c x y :
  fd_ok c -> slot_ok c (Some x) -> slot_ok c (Some y) ->
  violates c (enc_x x) (enc_x y) = late c x y /\ ovf (enc_x x - enc_x y) = false.
Proof.
  unfold fd_ok, slot_ok, violates, late. intros Hfd Hx Hy.
  destruct x as [a|], y as [b|]; cbn [enc_x]; unfold NO_ENDORSEMENT in *.
  - split; [reflexivity | apply ovf_false; lia].
  - split; [apply Z.ltb_ge; lia | apply ovf_false; lia].
  - split; [apply Z.ltb_lt; lia | apply ovf_false; lia].
  - split; [apply Z.ltb_ge; lia | apply ovf_false; lia].
Qed.

Lemma pts_enc c x y :
  table_ok c -> tmax (table c) <= int32_max -> slot_ok c (Some x) -> slot_ok c (Some y) ->
  score c (enc_x x - Z.min (enc_x x) (enc_x y)) = pts c x y /\
  ovf (enc_x x - Z.min (enc_x x) (enc_x y)) = false.
Proof.
  intros Ht Hm Hx Hy. rewrite score_eq_tbl by assumption. unfold slot_ok, pts in *.
  destruct x as [a|], y as [b|]; cbn [enc_x]; unfold NO_ENDORSEMENT in *.
  - split; [reflexivity | apply ovf_false; lia].
  - split; [f_equal; lia | apply ovf_false; lia].
  - split; [apply tbl_out; lia | apply ovf_false; lia].
  - split; [f_equal; lia | apply ovf_false; lia].
Qed.

Lemma gap_enc c h prev :
  fd_ok c -> slot_ok c h -> slot_ok c prev ->
  gap_hit c (enc h) (encp prev) = gap c h prev /\ gap_ub (enc h) (encp prev) = false.
Proof.
  intros Hfd Hh Hp. destruct h as [x|]; cbn [enc option_map gap_hit gap_ub gap]; [|split; reflexivity].
  rewrite encp_or_inf.
  assert (Hp' : slot_ok c (Some (or_inf prev))) by (destruct prev as [[?|]|]; cbn; auto).
  destruct (late_enc c x (or_inf prev) Hfd Hh Hp') as [-> ->]. split; [|reflexivity].
  destruct prev as [y|]; cbn [or_inf]; [reflexivity|]. destruct x; reflexivity.
Qed.

Lemma slot_ok_alive c (al : bool) x : slot_ok c x -> slot_ok c (if al then x else None).
Proof. destruct al; [trivial | exact (fun _ => I)]. Qed.

Lemma ctx_enc alive x : ctx_of (negb alive) (enc x) = enc (if alive then x else None).
Proof. destruct alive; reflexivity. Qed.

Lemma pub_enc h : pub_of (enc h) = encp h.
Proof. destruct h; reflexivity. Qed.

Lemma enc_if (b : bool) h : (if b then None else enc h) = enc (if b then None else h).
Proof. destruct b; reflexivity. Qed.

Lemma out_alive a g : negb a || g = negb (a && negb g).
Proof. destruct a, g; reflexivity. Qed.

Lemma if_some {A} (g : bool) (h : option A) x : (if g then None else h) = Some x -> g = false /\ h = Some x.
Proof. destruct g; [discriminate|auto]. Qed.

(** [chainBscore += table[0]]: unsigned addition converted back to [int] *)
Lemma add_t0 s t0 : 0 <= s -> 0 <= t0 -> s + t0 <= 2147483647 ->
  to_i32 (u32_add (to_u32 s) t0) = s + t0.
Proof.
  intros. rewrite (to_u32_id s) by lia. unfold u32_add. rewrite to_u32_id by lia. apply to_i32_id. lia.
Qed.

(** Each iteration first treats the two chains separately and alike ([side_of]: context after the
    gap rule, publication height, outside finality now, gap test overflowed), then compares
    them ([step_sides]). *)
Record side : Type := mkSide { s_ctx : option Z; s_pub : Z; s_out : bool; s_ub : bool }.

Definition side_of (c : config) (out : bool) (x : option Z) (prev : Z) : side :=
  let ctx0 := ctx_of out x in
  let g := gap_hit c ctx0 prev in
  mkSide (if g then None else ctx0) (pub_of ctx0) (out || g) (gap_ub ctx0 prev).

Definition step_sides (c : config) (st : ist) (a b : side) : ctl :=
  let ub1 := ub st || (s_ub a || s_ub b) in
  match s_ctx a, s_ctx b with
  | None, None =>
      let s := mkI (s_out a) (s_out b) (sA st) (sB st) (s_pub a) (s_pub b) ub1 in
      if s_out a && s_out b then Break s else Cont s
  | None, Some _ =>
      match table c with
      | [] => Break (mkI true (s_out b) (sA st) (sB st) (s_pub a) (s_pub b) true)
      | t0 :: _ =>
          let sB' := to_i32 (u32_add (to_u32 (sB st)) t0) in
          let s := mkI true (s_out b) (sA st) sB' (s_pub a) (s_pub b) ub1 in
          if sA st <? sB' then Break s else Cont s
      end
  | Some _, None =>
      match table c with
      | [] => Break (mkI (s_out a) true (sA st) (sB st) (s_pub a) (s_pub b) true)
      | t0 :: _ =>
          let sA' := to_i32 (u32_add (to_u32 (sA st)) t0) in
          let s := mkI (s_out a) true sA' (sB st) (s_pub a) (s_pub b) ub1 in
          if sB st <? sA' then Break s else Cont s
      end
  | Some _, Some _ =>
      let m := Z.min (s_pub a) (s_pub b) in
      let ra := s_pub a - m in
      let rb := s_pub b - m in
      let sA' := sA st + score c ra in
      let sB' := sB st + score c rb in
      let ub2 := ub1 || ((ovf ra || ovf rb) || ((ovf sA' || ovf sB') ||
                         (ovf (s_pub a - s_pub b) || ovf (s_pub b - s_pub a)))) in
      Cont (mkI (s_out a || violates c (s_pub a) (s_pub b)) (s_out b || violates c (s_pub b) (s_pub a))
                sA' sB' (s_pub a) (s_pub b) ub2)
  end.

Lemma step_eq c st xa xb :
  step c st xa xb = step_sides c st (side_of c (aOut st) xa (pA st)) (side_of c (bOut st) xb (pB st)).
Proof. reflexivity. Qed.

Lemma side_enc c (al : bool) x prev :
  fd_ok c -> slot_ok c x -> slot_ok c prev ->
  let h := if al then x else None in
  let g := gap c h prev in
  side_of c (negb al) (enc x) (encp prev) =
  mkSide (enc (if g then None else h)) (encp h) (negb (al && negb g)) false.
Proof.
  intros Hfd Hx Hp h g. unfold side_of. rewrite ctx_enc, pub_enc. fold h.
  destruct (gap_enc c h prev Hfd (slot_ok_alive c al x Hx) Hp) as [-> ->]. fold g. rewrite enc_if, out_alive. reflexivity.
Qed.

Definition enc_st (s : sst) : ist :=
  mkI (negb (aliveA s)) (negb (aliveB s)) (scA s) (scB s) (encp (prevA s)) (encp (prevB s)) false.

(** [K]: after [n] steps, [n] table maxima *)
Definition inv (c : config) (K : Z) (s : sst) : Prop :=
  0 <= scA s <= K /\ 0 <= scB s <= K /\ slot_ok c (prevA s) /\ slot_ok c (prevB s).

(** the sign of the final score difference can no longer change: a chain outside
    finality scores no more, the other one never loses points *)
Definition decided (s : sst) : Prop :=
  (aliveA s = false /\ aliveB s = false) \/
  (aliveA s = false /\ scA s < scB s) \/
  (aliveB s = false /\ scB s < scA s).

Lemma spec_step_inv c K s xa xb :
  table_ok c -> inv c K s -> slot_ok c xa -> slot_ok c xb ->
  inv c (K + tmax (table c)) (spec_step c s xa xb).
Proof.
  intros Ht (HA & HB & _ & _) Hxa Hxb. destruct s as [alA alB prA prB cA cB].
  cbn [scA scB] in HA, HB. pose proof (tbl_bounds c 0 Ht).
  unfold spec_step. cbn [aliveA aliveB prevA prevB scA scB]. cbv zeta.
  pose proof (slot_ok_alive c alA xa Hxa) as Hha. pose proof (slot_ok_alive c alB xb Hxb) as Hhb.
  set (ha := if alA then xa else None) in *. set (hb := if alB then xb else None) in *.
  destruct (if gap c ha prA then None else ha) as [x|], (if gap c hb prB then None else hb) as [y|];
    unfold inv; cbn [prevA prevB scA scB];
    try pose proof (pts_bounds c x y Ht); try pose proof (pts_bounds c y x Ht);
    repeat split; try assumption; lia.
Qed.

Lemma step_refines c K s xa xb :
  table_ok c -> fd_ok c -> inv c K s -> slot_ok c xa -> slot_ok c xb ->
  K + tmax (table c) <= int32_max ->
  match step c (enc_st s) (enc xa) (enc xb) with
  | Cont i' => i' = enc_st (spec_step c s xa xb)
  | Break i' => i' = enc_st (spec_step c s xa xb) /\ decided (spec_step c s xa xb)
  end.
Proof.
  intros Ht Hfd (HA & HB & HpA & HpB) Hxa Hxb HK. destruct s as [alA alB prA prB cA cB].
  cbn [prevA prevB scA scB] in *. unfold int32_max in HK.
  pose proof (tmax_nonneg (table c)) as HM. pose proof (tbl_bounds c 0 Ht) as Ht0.
  rewrite step_eq. unfold enc_st. cbn [aOut bOut pA pB aliveA aliveB prevA prevB].
  rewrite !side_enc by assumption. cbv zeta.
  unfold spec_step. cbn [aliveA aliveB prevA prevB scA scB]. cbv zeta.
  pose proof (slot_ok_alive c alA xa Hxa) as Hha. pose proof (slot_ok_alive c alB xb Hxb) as Hhb.
  set (ha := if alA then xa else None) in *. set (hb := if alB then xb else None) in *.
  set (gA := gap c ha prA). set (gB := gap c hb prB).
  unfold step_sides. cbn [s_ctx s_pub s_out s_ub sA sB ub orb]. cbv zeta.
  destruct (if gA then None else ha) as [x|] eqn:Ea, (if gB then None else hb) as [y|] eqn:Eb;
    cbn [enc option_map aliveA aliveB prevA prevB scA scB].
  - (* both have it *)
    destruct (if_some _ _ _ Ea) as [EgA Eha], (if_some _ _ _ Eb) as [EgB Ehb].
    rewrite EgA, EgB, Eha, Ehb in *. cbn [encp].
    assert (HM' : tmax (table c) <= int32_max) by (unfold int32_max; lia).
    destruct (late_enc c x y Hfd Hha Hhb) as [L1 L2], (late_enc c y x Hfd Hhb Hha) as [L3 L4].
    destruct (pts_enc c x y Ht HM' Hha Hhb) as [P1 P2], (pts_enc c y x Ht HM' Hhb Hha) as [P3 P4].
    rewrite (Z.min_comm (enc_x y)) in P3, P4.
    pose proof (pts_bounds c x y Ht). pose proof (pts_bounds c y x Ht).
    f_equal.
    + rewrite L1. destruct alA, (late c x y); reflexivity.
    + rewrite L3. destruct alB, (late c y x); reflexivity.
    + f_equal. exact P1.
    + f_equal. exact P3.
    + rewrite P1, P2, P3, P4, L2, L4, !ovf_false by lia. reflexivity.
  - (* only A has it *)
    destruct (tbl0 c Ht) as (t0 & r & -> & Et0). rewrite Et0 in *. rewrite add_t0 by lia.
    destruct (Z.ltb_spec cB (cA + t0)); [split|]; try reflexivity.
    right; right. split; [reflexivity | assumption].
  - (* only B has it *)
    destruct (tbl0 c Ht) as (t0 & r & -> & Et0). rewrite Et0 in *. rewrite add_t0 by lia.
    destruct (Z.ltb_spec cA (cB + t0)); [split|]; try reflexivity.
    right; left. split; [reflexivity | assumption].
  - (* neither has it *)
    destruct (negb (alA && negb gA) && negb (alB && negb gB)) eqn:Eout; [split|]; try reflexivity.
    apply andb_true_iff in Eout. rewrite !negb_true_iff in Eout. left. exact Eout.
Qed.

Lemma spec_step_dead c s xa xb : table_ok c ->
  let s' := spec_step c s xa xb in
  (aliveA s = false -> aliveA s' = false /\ scA s' = scA s /\ scB s <= scB s') /\
  (aliveB s = false -> aliveB s' = false /\ scB s' = scB s /\ scA s <= scA s').
Proof.
  intros Ht. destruct s as [alA alB prA prB cA cB]. pose proof (tbl_bounds c 0 Ht).
  unfold spec_step. cbn [aliveA aliveB prevA prevB scA scB]. cbv zeta.
  (* the chain outside finality has no keystone and no gap: only the other chain matters *)
  split; intros ->; cbn [gap];
    destruct (if gap c _ _ then None else _); cbn [aliveA aliveB scA scB]; repeat split; lia.
Qed.

Lemma decided_run c l : table_ok c -> forall s, decided s ->
  Z.sgn (scA (spec_run c l s) - scB (spec_run c l s)) = Z.sgn (scA s - scB s).
Proof.
  intros Ht. induction l as [|[xa xb] r IH]; intros s Hd; [reflexivity|].
  change (spec_run c ((xa, xb) :: r) s) with (spec_run c r (spec_step c s xa xb)).
  destruct (spec_step_dead c s xa xb Ht) as [DA DB].
  destruct Hd as [[HA HB] | [[HA Hlt] | [HB Hlt]]].
  - destruct (DA HA) as (A1 & A2 & _), (DB HB) as (B1 & B2 & _).
    rewrite IH by (left; split; assumption). rewrite A2, B2. reflexivity.
  - destruct (DA HA) as (A1 & A2 & A3).
    rewrite IH by (right; left; split; [assumption|lia]). rewrite !Z.sgn_neg by lia. reflexivity.
  - destruct (DB HB) as (B1 & B2 & B3).
    rewrite IH by (right; right; split; [assumption|lia]). rewrite !Z.sgn_pos by lia. reflexivity.
Qed.

Definition enc_pair (p : option xheight * option xheight) : option Z * option Z := (enc (fst p), enc (snd p)).

Lemma loop_refines c : table_ok c -> fd_ok c ->
  forall l s K,
    inv c K s ->
    Forall (fun p => slot_ok c (fst p) /\ slot_ok c (snd p)) l ->
    K + Z.of_nat (length l) * tmax (table c) <= int32_max ->
    exists s', loop c (map enc_pair l) (enc_st s) = enc_st s' /\
      0 <= scA s' <= int32_max /\ 0 <= scB s' <= int32_max /\
      Z.sgn (scA s' - scB s') = Z.sgn (scA (spec_run c l s) - scB (spec_run c l s)).
Proof.
  intros Ht Hfd. pose proof (tmax_nonneg (table c)) as HM.
  induction l as [|[xa xb] r IH]; intros s K Hinv Hl HK.
  - exists s. destruct Hinv as (HA & HB & _). cbn [length] in HK. repeat split; try reflexivity; lia.
  - inversion Hl as [|p r' [Hxa Hxb] Hr]; subst. cbn [fst snd] in Hxa, Hxb.
    cbn [length] in HK. rewrite Nat2Z.inj_succ in HK.
    assert (HK1 : K + tmax (table c) <= int32_max) by nia.
    pose proof (step_refines c K s xa xb Ht Hfd Hinv Hxa Hxb HK1) as Hs.
    pose proof (spec_step_inv c K s xa xb Ht Hinv Hxa Hxb) as Hinv1.
    change (spec_run c ((xa, xb) :: r) s) with (spec_run c r (spec_step c s xa xb)).
    cbn [map loop enc_pair fst snd].
    destruct (step c (enc_st s) (enc xa) (enc xb)) as [i1|i1].
    + subst i1. apply (IH _ (K + tmax (table c))); [exact Hinv1 | exact Hr | nia].
    + destruct Hs as [-> Hd]. exists (spec_step c s xa xb).
      destruct Hinv1 as (HA & HB & _). rewrite (decided_run c r Ht _ Hd). repeat split; try reflexivity; lia.
Qed.

Lemma zip_pad_map {A B} (f : option A -> option B) (la lb : list (option A)) :
  f None = None ->
  zip_pad (map f la) (map f lb) = map (fun p => (f (fst p), f (snd p))) (zip_pad la lb).
Proof.
  intros Hf. revert lb. induction la as [|xa ra IH]; intros lb; cbn [zip_pad map].
  - rewrite !map_map. cbn [fst snd]. apply map_ext. intros. rewrite Hf. reflexivity.
  - destruct lb as [|xb rb]; cbn [map fst snd].
    + rewrite Hf. f_equal. rewrite !map_map. cbn [fst snd]. apply map_ext. intros. rewrite Hf. reflexivity.
    + f_equal. apply IH.
Qed.

Lemma zip_pad_length {A} (la lb : list (option A)) :
  length (zip_pad la lb) = Nat.max (length la) (length lb).
Proof.
  revert lb. induction la as [|xa ra IH]; intros lb; cbn [zip_pad length].
  - rewrite map_length. reflexivity.
  - destruct lb as [|xb rb]; cbn [length].
    + rewrite map_length. reflexivity.
    + rewrite IH. reflexivity.
Qed.

Lemma zip_pad_forall {A} (P : option A -> Prop) (la lb : list (option A)) :
  P None -> Forall P la -> Forall P lb ->
  Forall (fun p => P (fst p) /\ P (snd p)) (zip_pad la lb).
Proof.
  intros HN Ha. revert lb. induction Ha as [|xa ra Hxa Hra IH]; intros lb Hb; cbn [zip_pad].
  - apply Forall_map. eapply Forall_impl; [|exact Hb]. cbn. auto.
  - destruct Hb as [|xb rb Hxb Hrb].
    + constructor; [cbn; auto|]. apply Forall_map. eapply Forall_impl; [|exact Hra]. cbn. auto.
    + constructor; [cbn; auto|]. apply IH. exact Hrb.
Qed.

Theorem impl_sign_eq_spec_gen c la lb :
  table_ok c -> fd_ok c -> profile_ok c la -> profile_ok c lb ->
  budget_ok c (Nat.max (length la) (length lb)) ->
  exists r, impl c (enc_view la) (enc_view lb) = Ok r /\ Z.sgn r = Z.sgn (spec c la lb).
Proof.
  intros Ht Hfd Ha Hb Hbud. unfold impl, spec, enc_view.
  destruct la as [|xa ra]; destruct lb as [|xb rb]; cbn [map].
  - exists 0. split; reflexivity.
  - exists (-1). split; reflexivity.
  - exists 1. split; reflexivity.
  - change (enc xa :: map enc ra) with (map enc (xa :: ra)).
    change (enc xb :: map enc rb) with (map enc (xb :: rb)).
    rewrite (zip_pad_map enc (xa :: ra) (xb :: rb) eq_refl).
    destruct (loop_refines c Ht Hfd (zip_pad (xa :: ra) (xb :: rb)) sst0 0) as (s' & E & BA & BB & Hs).
    + unfold inv. cbn. lia.
    + apply (zip_pad_forall (slot_ok c)); [exact I | exact Ha | exact Hb].
    + rewrite zip_pad_length. exact Hbud.
    + change ist0 with (enc_st sst0). change (fun p => (enc (fst p), enc (snd p))) with enc_pair.
      rewrite E. cbn [enc_st ub sA sB orb]. unfold int32_max in *. rewrite ovf_false by lia.
      eexists. split; [reflexivity | exact Hs].
Qed.

Definition heights_ok (c : config) (l : list (option Z)) : Prop :=
  Forall (fun o => match o with
                   | Some h => 0 <= h /\ h + fd c < NO_ENDORSEMENT /\ h + Z.of_nat (length (table c)) <= NO_ENDORSEMENT
                   | None => True end) l.

Lemma enc_pub_profile l : enc_view (pub_profile l) = holes_view l.
Proof.
  unfold enc_view, pub_profile, holes_view. rewrite map_map.
  rewrite <- (map_id l) at 2. apply map_ext. intros [h|]; reflexivity.
Qed.

Lemma enc_inf_profile l : enc_view (inf_profile l) = real_view l.
Proof.
  unfold enc_view, inf_profile, real_view. rewrite map_map. apply map_ext. intros [h|]; reflexivity.
Qed.

Lemma pub_profile_ok c l : heights_ok c l -> profile_ok c (pub_profile l).
Proof.
  intros H. apply Forall_map. eapply Forall_impl; [|exact H]. intros [h|]; cbn; auto.
Qed.

Lemma inf_profile_ok c l : heights_ok c l -> profile_ok c (inf_profile l).
Proof.
  intros H. apply Forall_map. eapply Forall_impl; [|exact H]. intros [h|]; cbn; auto.
Qed.

(** views with holes (getKeystone = nullptr where nothing was published): "missing keystone" reading *)
Theorem impl_sign_eq_spec c la lb :
  table_ok c -> fd_ok c -> heights_ok c la -> heights_ok c lb ->
  budget_ok c (Nat.max (length la) (length lb)) ->
  exists r, impl c (holes_view la) (holes_view lb) = Ok r /\
            Z.sgn r = Z.sgn (spec c (pub_profile la) (pub_profile lb)).
Proof.
  intros Ht Hfd Ha Hb Hbud. rewrite <- !enc_pub_profile.
  apply impl_sign_eq_spec_gen; try assumption; try (apply pub_profile_ok; assumption).
  unfold pub_profile. rewrite !map_length. exact Hbud.
Qed.

(** the real ReducedPublicationView (context with NO_ENDORSEMENT): "infinitely late" reading *)
Theorem impl_real_sign_eq_spec c la lb :
  table_ok c -> fd_ok c -> heights_ok c la -> heights_ok c lb ->
  budget_ok c (Nat.max (length la) (length lb)) ->
  exists r, impl c (real_view la) (real_view lb) = Ok r /\
            Z.sgn r = Z.sgn (spec c (inf_profile la) (inf_profile lb)).
Proof.
  intros Ht Hfd Ha Hb Hbud. rewrite <- !enc_inf_profile.
  apply impl_sign_eq_spec_gen; try assumption; try (apply inf_profile_ok; assumption).
  unfold inf_profile. rewrite !map_length. exact Hbud.
Qed.

(** the generated default parameters (re-checked when /repo changes) *)

Definition alt_cfg : config := {| fd := alt_finality_delay; table := alt_fr_table |}.
Definition vbk_cfg : config := {| fd := vbk_finality_delay; table := vbk_fr_table |}.

Definition table_okb (c : config) : bool :=
  match table c with [] => false | _ => forallb (fun t => 0 <=? t) (table c) end.

Lemma table_okb_sound c : table_okb c = true -> table_ok c.
Proof.
  unfold table_okb, table_ok. destruct (table c) as [|t r] eqn:E; [discriminate|].
  intros H. split; [discriminate|]. apply Forall_forall. intros x Hx.
  rewrite forallb_forall in H. apply Z.leb_le. apply H. exact Hx.
Qed.

(* 1000000%nat is [Nat.of_num_uint] of its decimal digits; carried over to Z digit by digit, the
   unary number is never built *)
Lemma million : Z.of_nat 1000000 = 1000000.
Proof.
  unfold Nat.of_num_uint, Nat.of_uint. cbn [Nat.of_uint_acc].
  rewrite !Nat.tail_mul_spec, !Nat2Z.inj_mul. reflexivity.
Qed.

Lemma default_params_ok :
  table_ok alt_cfg /\ fd_ok alt_cfg /\ table_ok vbk_cfg /\ fd_ok vbk_cfg /\
  budget_ok alt_cfg 1000000 /\ budget_ok vbk_cfg 1000000.
Proof.
  unfold budget_ok. rewrite million.
  repeat split; try (apply table_okb_sound; reflexivity); vm_compute; discriminate.
Qed.

Example hypotheses_inhabited :
  let la := [Some 98; Some 100; None; Some 110] in
  let lb := [Some 98; Some 100; None; None; Some 101] in
  heights_ok vbk_cfg la /\ heights_ok vbk_cfg lb /\ budget_ok vbk_cfg 5 /\
  impl vbk_cfg (holes_view la) (holes_view lb) = Ok 100.
Proof.
  cbv zeta. unfold heights_ok, budget_ok.
  repeat split; try (repeat constructor; vm_compute; try discriminate; try reflexivity; fail).
Qed.

(** REFUTED: on the real view the verdict is NOT the "missing keystone" reading.
    The repo's unit tests (test/pop/blockchain/pop/pop_fork_resolution_test.cpp, "Chain A and
    Chain B both have a gap, but Chain B's gap is larger ... chain A should be better") pin the
    [pub_profile] reading on a mock view with holes; the production ReducedPublicationView never
    returns nullptr for a keystone in range, it returns NO_ENDORSEMENT, and the same profiles tie. *)
Theorem real_view_pub_reading_refuted :
  exists c la lb r,
    table_ok c /\ fd_ok c /\ heights_ok c la /\ heights_ok c lb /\
    budget_ok c (Nat.max (length la) (length lb)) /\
    impl c (real_view la) (real_view lb) = Ok r /\
    Z.sgn r <> Z.sgn (spec c (pub_profile la) (pub_profile lb)).
Proof.
  exists vbk_cfg, [Some 98; Some 100; None; Some 110; Some 111; Some 112],
         [Some 98; Some 100; None; None; Some 101; Some 102], 0.
  destruct default_params_ok as (_ & _ & Ht & Hf & _).
  split; [exact Ht|]. split; [exact Hf|].
  split; [unfold heights_ok; repeat constructor; vm_compute; discriminate|].
  split; [unfold heights_ok; repeat constructor; vm_compute; discriminate|].
  split; [unfold budget_ok; vm_compute; discriminate|].
  split; [vm_compute; reflexivity|]. vm_compute. discriminate.
Qed.
