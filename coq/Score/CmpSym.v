(** comparePopScoreImpl as coded: antisymmetry under role swap, verdict 0 without
    keystones; the outer comparePopScore short-cuts never favour an invalid
    candidate or one that forks off below a finalized block. *)
From Coq Require Import ZArith Lia Bool List.
From VB Require Import Score.CInt Score.CmpDefs Score.KeystoneDefs Score.KeystoneProofs Score.CmpProofs.
Import ListNotations.
Local Open Scope Z_scope.

Definition swap_i (s : ist) : ist := mkI (bOut s) (aOut s) (sB s) (sA s) (pB s) (pA s) (ub s).
Definition swap_ctl (r : ctl) : ctl := match r with Cont s => Cont (swap_i s) | Break s => Break (swap_i s) end.
Definition swap_pair {A} (p : A * A) : A * A := (snd p, fst p).

(** the two chains are treated alike ([side_of]) and [step_sides] is symmetric branch by branch,
    up to commuting [||], [&&] and [Z.min] *)
Lemma step_sides_swap c st a b : step_sides c (swap_i st) b a = swap_ctl (step_sides c st a b).
Proof.
  destruct st as [ao bo sa sb pa pb u], a as [ca ea oa va], b as [cb eb ob vb].
  unfold step_sides, swap_i. cbn [aOut bOut sA sB pA pB ub s_ctx s_pub s_out s_ub]. cbv zeta.
  rewrite (orb_comm vb va), (Z.min_comm eb ea).
  destruct ca, cb; cbn [swap_ctl]; unfold swap_i; cbn [aOut bOut sA sB pA pB ub].
  - do 3 f_equal. f_equal; [apply orb_comm | f_equal; apply orb_comm].
  - destruct (table c) as [|t0 r]; [reflexivity|].
    destruct (sb <? to_i32 (u32_add (to_u32 sa) t0)); reflexivity.
  - destruct (table c) as [|t0 r]; [reflexivity|].
    destruct (sa <? to_i32 (u32_add (to_u32 sb) t0)); reflexivity.
  - rewrite (andb_comm ob oa). destruct (oa && ob); reflexivity.
Qed.

Lemma step_swap c st xa xb : step c (swap_i st) xb xa = swap_ctl (step c st xa xb).
Proof. rewrite !step_eq. apply step_sides_swap. Qed.

Lemma loop_swap c l : forall st,
  loop c (map swap_pair l) (swap_i st) = swap_i (loop c l st).
Proof.
  induction l as [|[xa xb] r IH]; intros st; cbn [map loop swap_pair fst snd]; [reflexivity|].
  rewrite step_swap. destruct (step c st xa xb) as [s|s]; cbn [swap_ctl]; [apply IH | reflexivity].
Qed.

Lemma zip_pad_swap {A} (la lb : list (option A)) : zip_pad lb la = map swap_pair (zip_pad la lb).
Proof.
  revert lb. induction la as [|xa ra IH]; intros lb.
  - destruct lb as [|xb rb]; cbn [zip_pad map]; [reflexivity|].
    cbn [swap_pair fst snd]. f_equal. rewrite map_map. apply map_ext. reflexivity.
  - destruct lb as [|xb rb]; cbn [zip_pad map swap_pair fst snd].
    + f_equal. rewrite map_map. apply map_ext. reflexivity.
    + f_equal. apply IH.
Qed.

Lemma impl_loop_swap c la lb :
  loop c (zip_pad lb la) ist0 = swap_i (loop c (zip_pad la lb) ist0).
Proof. rewrite (zip_pad_swap la lb). apply (loop_swap c _ ist0). Qed.

(** comparePopScoreImpl(b, a) = - comparePopScoreImpl(a, b), for every
    config and all views, whenever the verdict is defined and is not INT32_MIN (whose
    negation is not an int; unreachable under the range hypotheses of the sign theorem). *)
Theorem impl_antisym c la lb r :
  impl c la lb = Ok r -> r <> int32_min -> impl c lb la = Ok (- r).
Proof.
  unfold impl. destruct la as [|xa ra], lb as [|xb rb]; intros H Hr; try (inversion H; reflexivity).
  rewrite impl_loop_swap. cbv zeta in *.
  set (st := loop c (zip_pad (xa :: ra) (xb :: rb)) ist0) in *.
  unfold swap_i. cbn [sA sB ub].
  destruct (ub st); [discriminate|]. cbn [orb] in *.
  destruct (ovf (sA st - sB st)) eqn:E; [discriminate|]. inversion H; subst r.
  apply ovf_false_inv in E. unfold int32_min in Hr.
  rewrite ovf_false by lia. f_equal. lia.
Qed.

(** undefined behaviour is symmetric as well, up to the INT32_MIN corner *)
Theorem impl_antisym_ub c la lb :
  impl c la lb = Ub -> impl c lb la = Ub \/ impl c lb la = Ok int32_min.
Proof.
  unfold impl. destruct la as [|xa ra], lb as [|xb rb]; intros H; try discriminate.
  rewrite impl_loop_swap. cbv zeta in *.
  set (st := loop c (zip_pad (xa :: ra) (xb :: rb)) ist0) in *.
  unfold swap_i. cbn [sA sB ub].
  destruct (ub st); [left; reflexivity|]. cbn [orb] in *.
  destruct (ovf (sA st - sB st)) eqn:E; [|discriminate].
  destruct (ovf (sB st - sA st)) eqn:E2; [left; reflexivity|]. right.
  apply ovf_false_inv in E2.
  (* sB - sA is an int and sA - sB is not: sB - sA = INT32_MIN *)
  destruct (Z.eq_dec (sB st - sA st) (-2147483648)) as [->|Hne]; [reflexivity|].
  rewrite ovf_false in E by lia. discriminate.
Qed.

(** no keystone on either chain: verdict 0.  The views of the chain slices
    [fork..tipA], [fork..tipB] are empty exactly when neither chain crosses a keystone
    boundary (KeystoneProofs.view_empty_iff_not_crossed), which is also the outer short-cut. *)
Theorem cmp_zero_no_keystone c fork tipA tipB ki la lb :
  0 < ki -> fork <= tipA -> fork <= tipB ->
  Z.of_nat (length la) = view_size fork tipA ki ->
  Z.of_nat (length lb) = view_size fork tipB ki ->
  m_crossed fork tipA ki = false -> m_crossed fork tipB ki = false ->
  impl c la lb = Ok 0.
Proof.
  intros Hk HA HB La Lb CA CB.
  apply (view_empty_iff_not_crossed fork tipA ki Hk HA) in CA.
  apply (view_empty_iff_not_crossed fork tipB ki Hk HB) in CB.
  destruct la; [|cbn [length] in La; lia]. destruct lb; [|cbn [length] in Lb; lia]. reflexivity.
Qed.

(** the facts read off a block tree are related: a candidate on top of the tip
    forks at the tip; finalized blocks are on the active chain *)
Definition outer_wf (i : outer_in) : Prop :=
  (cand_above_tip i = true -> fork_h i = tip_h i) /\
  (forall f, fin_h i = Some f -> f <= tip_h i).

Definition forks_below_final (i : outer_in) : Prop := exists f, fin_h i = Some f /\ fork_h i < f.

(** negative verdict: the candidate wins; [g]: the guard of the second TIP_IS_FINAL short-cut *)
Lemma outer_negative g i :
  fst (outer_cmp_gen g i) < 0 ->
  cand_valid i = true /\ apply_ok i = true /\
  (cand_above_tip i = true \/
   (cand_above_tip i = false /\ g i = false /\ core i < 0 /\ b_valid_alone i = true)).
Proof.
  unfold outer_cmp_gen.
  destruct (cand_valid i); cbn [negb]; [|cbn; lia].
  destruct (cand_is_tip i); [cbn; lia|].
  destruct (finalized_at i (tip_h i) && (cand_h i <=? tip_h i)); [cbn; lia|].
  destruct (cand_on_active i); [cbn; lia|].
  destruct (cand_above_tip i).
  - destruct (apply_ok i); cbn; [intros _; repeat split; auto | lia].
  - destruct (g i); [cbn; lia|].
    destruct (negb (fork_h i / o_ki i <? tip_h i / o_ki i) && negb (fork_h i / o_ki i <? cand_h i / o_ki i));
      [cbn; lia|].
    destruct (apply_ok i); cbn [negb]; [|cbn; lia].
    destruct (Z.leb_spec 0 (core i)); [cbn; lia|].
    destruct (b_valid_alone i); cbn; [intros _; repeat split; auto | lia].
Qed.

Lemma below_final_guard i :
  outer_wf i -> forks_below_final i -> cand_above_tip i = false /\ next_to_fork_final i = true.
Proof.
  intros [Hw1 Hw2] (f & Hf & Hlt). specialize (Hw2 f Hf). split.
  - destruct (cand_above_tip i); [specialize (Hw1 eq_refl); lia | reflexivity].
  - unfold next_to_fork_final, finalized_at. rewrite Hf.
    apply andb_true_iff. split; apply Z.leb_le; lia.
Qed.

Theorem cmp_never_favours_finalized_or_invalid i :
  outer_wf i ->
  cand_valid i = false \/ apply_ok i = false \/ forks_below_final i ->
  0 <= fst (outer_cmp i).
Proof.
  intros Hw H. destruct (Z.le_gt_cases 0 (fst (outer_cmp i))) as [|Hneg]; [assumption|].
  apply outer_negative in Hneg. destruct Hneg as (Hv & Ha & Hwin).
  destruct H as [H|[H|H]]; [congruence | congruence |].
  destruct (below_final_guard i Hw H) as [Hab Hg].
  destruct Hwin as [Hwin | (_ & Hwin & _)]; congruence.
Qed.

Theorem outer_negative_only_if_valid i :
  fst (outer_cmp i) < 0 -> cand_valid i = true /\ apply_ok i = true /\
  (cand_above_tip i = true \/ (core i < 0 /\ b_valid_alone i = true)).
Proof.
  intros H. apply outer_negative in H. destruct H as (Hv & Ha & [Hs | (_ & _ & Hc)]); auto.
Qed.

(** a candidate below a finalized block is answered with exactly 1 (TIP_IS_FINAL), whatever its height and score *)
Theorem outer_below_final_is_one i :
  outer_wf i -> cand_valid i = true -> cand_is_tip i = false -> cand_on_active i = false ->
  forks_below_final i -> outer_cmp i = (1, TIP_IS_FINAL).
Proof.
  intros Hw Hv Ht Ha Hb. destruct (below_final_guard i Hw Hb) as [Hab Hg].
  unfold outer_cmp, outer_cmp_gen. rewrite Hv, Ht, Ha, Hab, Hg. cbn [negb].
  destruct (finalized_at i (tip_h i) && (cand_h i <=? tip_h i)); reflexivity.
Qed.

(** REFUTED variant: with the height condition of the neighbouring short-cut copied into the guard
    ([nextToFork->finalized && candidate.height <= tip.height]) a TALLER candidate that forks below a
    finalized block goes through keystone scoring and can win *)
Theorem outer_height_guard_refuted :
  exists i, outer_wf i /\ forks_below_final i /\ fst (outer_cmp_gen next_to_fork_final_height i) < 0.
Proof.
  exists (mkO true false 9 10 1 (Some 4) false false true 2 (-100) true).
  split; [split; cbn; [discriminate | intros f H; inversion H; lia]|].
  split; [exists 4; cbn; split; [reflexivity|lia]|]. vm_compute. reflexivity.
Qed.
