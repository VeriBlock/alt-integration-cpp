(** C16 — every step of every thread preserves the ring invariant, hence it holds in every reachable state *)
From Coq Require Import List Arith Lia.
From VB Require Import Conc.RingDefs Conc.RingSteps Conc.RingStepsInv Conc.RingStepsPres.

Local Arguments enq {A} _.
Local Arguments deq {A} _.

Section Lin.
Variable A : Type.
Implicit Types s : rstate A.

Lemma upd_thr_same : forall (thr : nat -> rthread A) t th, upd_thr thr t th t = th.
Proof. intros. unfold upd_thr. now rewrite Nat.eqb_refl. Qed.

Lemma upd_thr_other : forall (thr : nat -> rthread A) t th t0, t0 <> t -> upd_thr thr t th t0 = thr t0.
Proof. intros. unfold upd_thr. apply Nat.eqb_neq in H. now rewrite H. Qed.

Lemma Inv_upd : forall size s t th' m l q',
  (forall pcs', (forall t0, t0 <> t -> pcs' t0 = tpc (rs_thr s t0)) -> pcs' t = tpc th' -> InvC A size m q' pcs') ->
  Inv A size (mkRS m (upd_thr (rs_thr s) t th') l q').
Proof.
  intros size s t th' m l q' H. apply H; cbn [rs_thr].
  - intros t0 N. now rewrite upd_thr_other.
  - now rewrite upd_thr_same.
Qed.

Ltac local I Ht :=
  apply Inv_upd; intros pcs' Hoth Ht'; apply (pres_local I Hoth); cbv beta; rewrite Ht', ?Ht; cbn; auto; lia.

Lemma Inv_step : forall size s t b, Inv A size s -> Inv A size (rs_step t b s).
Proof.
  intros size s t b I. pose proof (i_thr _ _ _ _ _ I t) as T. cbv beta in T.
  unfold rs_step, goto, goto_m, ret_m, commit.
  destruct (tpc (rs_thr s t)) eqn:Ht; cbn in T.
  - destruct (tprog (rs_thr s t)) as [| [x |] rest]; [exact I | local I Ht | local I Ht].
  - local I Ht.
  - local I Ht.
  - destruct (Nat.compare_spec sq pos); local I Ht.
  - destruct (Nat.eqb_spec (enq (rs_mem s)) pos) as [<- | E]; destruct b; cbn [andb negb]; try local I Ht.
    apply Inv_upd; intros pcs' Hoth Ht'. exact (pres_push_cas I Ht Hoth Ht').
  - apply Inv_upd; intros pcs' Hoth Ht'. exact (pres_push_write I Ht Hoth Ht').
  - apply Inv_upd; intros pcs' Hoth Ht'. apply (pres_store (t:=t) I); eauto.
  - local I Ht.
  - local I Ht.
  - destruct (Nat.compare_spec sq (S pos)); local I Ht.
  - destruct (Nat.eqb_spec (deq (rs_mem s)) pos) as [<- | E]; destruct b; cbn [andb negb]; try local I Ht.
    apply Inv_upd; intros pcs' Hoth Ht'. exact (pres_pop_cas I Ht Hoth Ht').
  - local I Ht.
  - apply Inv_upd; intros pcs' Hoth Ht'. apply (pres_store (t:=t) I); eauto.
Qed.

Lemma Inv_run : forall size sched s, Inv A size s -> Inv A size (rs_run sched s).
Proof.
  induction sched as [| e sched IH]; intros s I; simpl; auto. apply IH. apply Inv_step; auto.
Qed.

Lemma Inv_reachable : forall size progs sched, 2 <= size -> Inv A size (rs_run sched (rs_init size progs)).
Proof. intros. apply Inv_run. apply Inv_init; auto. Qed.

End Lin.
