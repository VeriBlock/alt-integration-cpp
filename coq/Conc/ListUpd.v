(** list-update lemmas shared by the Conc models *)
From Coq Require Import List Arith Lia Permutation.
From VB Require Import Conc.ValidatorDefs.
Import ListNotations.

Lemma upd_length : forall A (f : A -> A) l i, length (upd i f l) = length l.
Proof. induction l; destruct i; simpl; auto. Qed.

Lemma nth_error_upd : forall A (f : A -> A) l i j,
  nth_error (upd i f l) j = if i =? j then option_map f (nth_error l j) else nth_error l j.
Proof.
  induction l; intros i j.
  - assert (E : upd i f (@nil A) = []) by (destruct i; reflexivity). rewrite E.
    destruct (i =? j); destruct j; reflexivity.
  - destruct i, j; simpl; auto.
Qed.

Lemma nth_error_upd_eq : forall A (f : A -> A) l i x,
  nth_error l i = Some x -> nth_error (upd i f l) i = Some (f x).
Proof. intros. rewrite nth_error_upd, Nat.eqb_refl, H. reflexivity. Qed.

Lemma nth_error_upd_neq : forall A (f : A -> A) l i j,
  i <> j -> nth_error (upd i f l) j = nth_error l j.
Proof. intros. rewrite nth_error_upd. apply Nat.eqb_neq in H. now rewrite H. Qed.

Lemma upd_oob : forall A (f : A -> A) l i, length l <= i -> upd i f l = l.
Proof.
  induction l; destruct i; simpl; intros; auto; try lia. f_equal. apply IHl. lia.
Qed.

Lemma in_upd : forall A (f : A -> A) l i y, In y (upd i f l) -> exists x, In x l /\ (y = x \/ y = f x).
Proof.
  induction l; destruct i; simpl; intros; try tauto.
  - destruct H as [H | H]; [exists a; auto | exists y; auto].
  - destruct H as [H | H]; [exists a; auto |].
    apply IHl in H. destruct H as [x [H1 H2]]. exists x; auto.
Qed.

Lemma map_upd_same : forall A B (g : A -> B) f l i x,
  nth_error l i = Some x -> g (f x) = g x -> map g (upd i f l) = map g l.
Proof.
  induction l; destruct i; simpl; intros x H E; try discriminate.
  - injection H as ->. now rewrite E.
  - f_equal. eauto.
Qed.

Lemma Forall_upd : forall A (P : A -> Prop) l i x, Forall P l -> P x -> Forall P (upd i (fun _ => x) l).
Proof.
  induction l; destruct i; simpl; intros; auto; inversion H; subst; constructor; auto.
Qed.

Lemma in_map_upd : forall A B (g : A -> B) l i x y,
  In y (map g (upd i (fun _ => x) l)) -> y = g x \/ In y (map g l).
Proof.
  induction l; destruct i; simpl; intros; auto.
  - destruct H; auto.
  - destruct H; auto. apply IHl in H. tauto.
Qed.

Lemma NoDup_map_upd : forall A B (g : A -> B) l i x,
  NoDup (map g l) -> ~ In (g x) (map g l) -> NoDup (map g (upd i (fun _ => x) l)).
Proof.
  induction l; destruct i; simpl; intros; auto.
  - inversion H; subst. constructor; auto.
  - inversion H; subst. constructor.
    + intros X. apply in_map_upd in X. destruct X as [X | X]; [apply H0; left; auto | contradiction].
    + apply IHl; auto.
Qed.

Lemma flat_map_upd_split : forall A B (g : A -> list B) l i x,
  nth_error l i = Some x ->
  exists R, Permutation (flat_map g l) (g x ++ R) /\
            forall f, Permutation (flat_map g (upd i f l)) (g (f x) ++ R).
Proof.
  induction l; intros i x H.
  - destruct i; discriminate.
  - destruct i; simpl in *.
    + inversion H; subst. exists (flat_map g l). split; [reflexivity | intros; reflexivity].
    + destruct (IHl _ _ H) as [R [P1 P2]].
      exists (g a ++ R). split.
      * rewrite P1. rewrite !app_assoc. apply Permutation_app_tail. apply Permutation_app_comm.
      * intros f. rewrite (P2 f). rewrite !app_assoc. apply Permutation_app_tail. apply Permutation_app_comm.
Qed.

Lemma flat_map_upd_perm : forall A B (g : A -> list B) f l i x,
  nth_error l i = Some x -> Permutation (g (f x)) (g x) ->
  Permutation (flat_map g (upd i f l)) (flat_map g l).
Proof.
  intros. destruct (flat_map_upd_split _ _ g _ _ _ H) as [R [P1 P2]].
  rewrite (P2 f), P1. now apply Permutation_app_tail.
Qed.

Lemma flat_map_upd_add : forall A B (g : A -> list B) f l i x t,
  nth_error l i = Some x -> Permutation (g (f x)) (t :: g x) ->
  Permutation (flat_map g (upd i f l)) (t :: flat_map g l).
Proof.
  intros. destruct (flat_map_upd_split _ _ g _ _ _ H) as [R [P1 P2]].
  rewrite (P2 f), P1, H0. reflexivity.
Qed.

Lemma flat_map_upd_rem : forall A B (g : A -> list B) f l i x t,
  nth_error l i = Some x -> Permutation (g x) (t :: g (f x)) ->
  Permutation (flat_map g l) (t :: flat_map g (upd i f l)).
Proof.
  intros. destruct (flat_map_upd_split _ _ g _ _ _ H) as [R [P1 P2]].
  rewrite (P2 f), P1, H0. reflexivity.
Qed.

Lemma nth_error_repeat_inv : forall A (a x : A) n j, nth_error (repeat a n) j = Some x -> x = a /\ j < n.
Proof.
  induction n; destruct j; simpl; intros; try discriminate.
  - inversion H; split; auto; lia.
  - apply IHn in H. destruct H; split; auto; lia.
Qed.
