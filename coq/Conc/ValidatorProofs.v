(** C16 — safety invariant of the validator transition system, for all schedules *)
From Coq Require Import List Arith Lia Permutation.
From VB Require Import Conc.ValidatorDefs Conc.ListUpd.
Import ListNotations.

Definition fut_nonpending (fs : list fut) (n : nat) : Prop :=
  forall j, j < n -> nth_error fs j <> Some FPending.

Definition posted (s : state) : nat :=
  match main s with MPost k => k | _ => length (cur s) end.

(** [MGet] is reached only by the code before the fix ([v0 = true]) *)
Definition main_ok_m (m : mstate) (fs : list fut) (ts : list task) (dup : bool) : Prop :=
  match m with
  | MPost k => k < length ts
  | MWait k => k <= length ts /\ fut_nonpending fs k
  | MGet _ => False
  | MReturned v => v = seq_verdict ts dup /\ fut_nonpending fs (length ts)
  | MIdle | MThrow => fut_nonpending fs (length ts)
  end.

Definition main_ok (s : state) : Prop := main_ok_m (main s) (futures s) (cur s) (curdup s).

Record Inv (s : state) : Prop := mkInv {
  i_len : length (futures s) = length (cur s);
  i_cur : forall j t, nth_error (cur s) j = Some t -> tid t = j /\ tok t = token s;
  i_nodup : NoDup (map tid (holders s));
  i_hold : forall t, In t (holders s) ->
           tid t < posted s /\ nth_error (cur s) (tid t) = Some t /\
           nth_error (futures s) (tid t) = Some FPending;
  i_ready : forall j v, nth_error (futures s) j = Some (FReady v) ->
            exists t, nth_error (cur s) j = Some t /\ tvalid t = v;
  i_unposted : forall j, posted s <= j < length (cur s) -> nth_error (futures s) j = Some FPending;
  i_main : main_ok s
}.

(** steal: the thief is looked up after the victim's queue lost its head; in a pool of one thread the
    two are the same worker *)
Inductive wmove (ws : list worker) : label -> list worker -> Prop :=
| Wm_pop i t q : nth_error ws i = Some (mkWorker (t :: q) WIdle) ->
    wmove ws (LPop i) (upd i (fun _ => mkWorker q (WRun t)) ws)
| Wm_steal i d t q std wk : nth_error ws d = Some (mkWorker (t :: q) std) ->
    nth_error (upd d (set_q q) ws) i = Some wk -> wst wk = WIdle ->
    wmove ws (LSteal i) (upd i (set_st (WRun t)) (upd d (set_q q) ws))
| Wm_run i q t : nth_error ws i = Some (mkWorker q (WRun t)) ->
    wmove ws (LRun i) (upd i (set_st (WDone t)) ws).

Inductive waited (s : state) (k : nat) : mstate -> Prop :=
| Wt_next f : nth_error (futures s) k = Some f -> f <> FPending -> k < length (cur s) -> waited s k (MWait (S k))
| Wt_return v : k = length (cur s) -> scan 0 (futures s) (curdup s) = SVerdict v -> waited s k (MReturned v)
| Wt_throw : k = length (cur s) -> waited s k MThrow.

(** the VBK_ASSERTs of post and start() *)
Inductive aborts (s : state) : label -> Prop :=
| Ab_full k wk : main s = MPost k -> pst s = PRun -> In wk (workers s) -> qcap s <= length (wq wk) ->
    aborts s LPost
| Ab_stopped : pst s <> PRun -> aborts s LPost
| Ab_started w : pst s = PRun -> aborts s (LStart w).

Inductive Step (s : state) : label -> state -> Prop :=
| St_call vs dup ts : quiescent_main (main s) = true -> ts = mk_tasks (S (token s)) 0 vs ->
    Step s (LCall vs dup)
         (mkState (workers s) (pst s) (qcap s) (nextw s) (repeat FPending (length ts)) ts dup (S (token s))
                  (after_post false 0 (length ts)) false)
| St_post k t i wk : main s = MPost k -> nth_error (cur s) k = Some t -> pst s = PRun ->
    nth_error (workers s) i = Some wk -> length (wq wk) < qcap s -> k < length (cur s) ->
    Step s LPost
         (mkState (upd i (push_q t) (workers s)) (pst s) (qcap s) (S (nextw s)) (futures s) (cur s) (curdup s)
                  (token s) (after_post false (S k) (length (cur s))) false)
| St_abort l : aborts s l -> Step s l (set_aborted s)
| St_move l ws' : wmove (workers s) l ws' -> Step s l (set_workers ws' s)
| St_fulfil i q t : nth_error (workers s) i = Some (mkWorker q (WDone t)) ->
    Step s (LFulfil i) (set_futures (upd (tid t) (fun _ => FReady (tvalid t)) (futures s))
                                    (set_workers (upd i (set_st WIdle) (workers s)) s))
| St_wait k m : main s = MWait k -> waited s k m -> Step s LWait (set_main m s)
| St_stopreq : pst s = PRun -> Step s LStopReq (set_pst (PStopping 0) s)
| St_join k q : pst s = PStopping k -> nth_error (workers s) k = Some (mkWorker q WIdle) ->
    S k <> length (workers s) ->
    Step s LJoin (set_pst (PStopping (S k)) (set_workers (upd k (set_st WExited) (workers s)) s))
| St_destroy k q : pst s = PStopping k -> nth_error (workers s) k = Some (mkWorker q WIdle) ->
    S k = length (workers s) ->
    Step s LJoin (set_pst PStopped (set_futures (break_all (flat_map wq (workers s)) (futures s)) (set_workers [] s)))
| St_start w : pst s = PStopped ->
    Step s (LStart w) (mkState (repeat idle_worker (Nat.max 1 w)) PRun (qcap s) 0 (futures s) (cur s) (curdup s)
                               (token s) (main s) false).

Lemma queues_upd_st : forall ws k st, flat_map wq (upd k (set_st st) ws) = flat_map wq ws.
Proof. induction ws; destruct k; simpl; intros; auto. now rewrite IHws. Qed.

Lemma step_Step : forall l s s', Inv s -> step false l s = Some s' -> Step s l s'.
Proof.
  unfold step. intros l s s' I H. destruct (aborted s); [discriminate |]. destruct l.
  - unfold step_call in H. destruct (quiescent_main (main s)) eqn:Q; [| discriminate].
    injection H as <-. now apply St_call.
  - unfold step_post in H. destruct (main s) as [| k | | | |] eqn:M; try discriminate.
    destruct (nth_error (cur s) k) as [t |] eqn:Ck; [| discriminate].
    destruct (pst s) eqn:P; try (injection H as <-; apply St_abort, Ab_stopped; congruence).
    destruct (nth_error (workers s) (nextw s mod length (workers s))) as [wk |] eqn:W; [| discriminate].
    destruct (length (wq wk) <? qcap s) eqn:L; injection H as <-.
    + apply Nat.ltb_lt in L. rewrite <- P. eapply St_post; eauto. apply nth_error_Some. congruence.
    + apply Nat.ltb_ge in L. apply nth_error_In in W. eapply St_abort, Ab_full; eauto.
  - unfold step_pop in H. destruct (nth_error (workers s) i) as [[q st] |] eqn:W; [| discriminate].
    destruct q as [| t q], st; try discriminate. injection H as <-. now apply St_move, Wm_pop.
  - unfold step_steal in H. destruct (nth_error (workers s) i) as [[qi sti] |] eqn:W; [| discriminate].
    destruct sti; try discriminate.
    destruct (nth_error (workers s) (S i mod length (workers s))) as [[qd std] |] eqn:D; [| discriminate].
    destruct qd as [| t q]; [discriminate |].
    injection H as <-. apply St_move.
    apply Wm_steal with (std := std) (wk := if S i mod length (workers s) =? i then mkWorker q WIdle else mkWorker qi WIdle);
      auto.
    + rewrite nth_error_upd, W. now destruct (_ =? i).
    + now destruct (_ =? i).
  - unfold step_run in H. destruct (nth_error (workers s) i) as [[q st] |] eqn:W; [| discriminate].
    destruct st; try discriminate.
    injection H as <-. apply St_move. eapply Wm_run; eauto.
  - unfold step_fulfil in H. destruct (nth_error (workers s) i) as [[q st] |] eqn:W; [| discriminate].
    destruct st; try discriminate.
    injection H as <-. eapply St_fulfil; eauto.
  - unfold step_wait in H. pose proof (i_main _ I) as MO. unfold main_ok in MO.
    destruct (main s) as [| | k | k | |] eqn:M; try discriminate; [| destruct MO].
    destruct MO as [MO _]. pose proof (i_len _ I) as IL.
    destruct (nth_error (futures s) k) as [f |] eqn:F.
    + assert (f <> FPending) by (intros ->; discriminate).
      assert (k < length (cur s)) by (rewrite <- IL; apply nth_error_Some; congruence).
      replace s' with (set_main (MWait (S k)) s) by (destruct f; congruence).
      eapply St_wait, Wt_next; eauto.
    + apply nth_error_None in F. assert (k = length (cur s)) by lia.
      destruct (scan 0 (futures s) (curdup s)) eqn:SC; [| | discriminate]; injection H as <-.
      * eapply St_wait, Wt_return; eauto.
      * eapply St_wait, Wt_throw; eauto.
  - unfold step_stopreq in H. destruct (pst s) eqn:P; try discriminate. injection H as <-. now apply St_stopreq.
  - unfold step_join in H. destruct (pst s) as [| k |] eqn:P; try discriminate.
    destruct (nth_error (workers s) k) as [[q st] |] eqn:W; [| discriminate].
    destruct st; try discriminate.
    destruct (S k =? length (workers s)) eqn:L; injection H as <-.
    + apply Nat.eqb_eq in L. rewrite queues_upd_st. eapply St_destroy; eauto.
    + apply Nat.eqb_neq in L. eapply St_join; eauto.
  - unfold step_start in H. destruct (pst s) eqn:P; try discriminate; injection H as <-.
    + now apply St_abort, Ab_started.
    + now apply St_start.
Qed.

Ltac step_cases I H :=
  destruct (step_Step _ _ _ I H)
    as [vs dup ts Q -> | k t i wk M Ck P W L Kn | l AB | l ws' WM | i q t W | k m M WT | P | k q P W L | k q P W L | w P].

Lemma holders_repeat_idle : forall n, flat_map holders_w (repeat idle_worker n) = [].
Proof. induction n; simpl; auto. Qed.

Lemma mk_tasks_nth : forall tk vs i j,
  nth_error (mk_tasks tk i vs) j = option_map (mkTask (i + j) tk) (nth_error vs j).
Proof.
  induction vs; intros i j; destruct j; simpl; auto.
  - now rewrite Nat.add_0_r.
  - now rewrite IHvs, Nat.add_succ_r.
Qed.

Lemma mk_tasks_length : forall tk vs i, length (mk_tasks tk i vs) = length vs.
Proof. induction vs; simpl; intros; auto. Qed.

Lemma mk_tasks_valid : forall tk vs i, map tvalid (mk_tasks tk i vs) = vs.
Proof. induction vs; simpl; intros; auto. now rewrite IHvs. Qed.

Lemma quiescent_no_holders : forall s, Inv s -> quiescent_main (main s) = true -> holders s = [].
Proof.
  intros s I Q. destruct (holders s) as [| t r] eqn:E; auto. exfalso.
  destruct (i_hold _ I t) as [H1 [_ H3]]. { rewrite E; left; auto. }
  pose proof (i_main _ I) as M. unfold main_ok, posted in *.
  destruct (main s); try discriminate; simpl in M; try apply proj2 in M; apply (M (tid t)); tauto.
Qed.

(** the invariant only sees the multiset of held tasks *)
Lemma Inv_same : forall s s',
  Permutation (holders s') (holders s) ->
  futures s' = futures s -> cur s' = cur s -> curdup s' = curdup s -> token s' = token s ->
  main s' = main s -> Inv s -> Inv s'.
Proof.
  intros s s' P F C D T M [].
  assert (PO : posted s' = posted s) by (unfold posted; now rewrite M, C).
  constructor; unfold main_ok in *; rewrite ?F, ?C, ?D, ?T, ?M, ?PO; auto.
  - now rewrite P.
  - intros t. rewrite P. apply i_hold0.
Qed.

Lemma main_ok_settle : forall m fs fs' ts dup,
  (forall n, fut_nonpending fs n -> fut_nonpending fs' n) -> main_ok_m m fs ts dup -> main_ok_m m fs' ts dup.
Proof. destruct m; simpl; intuition. Qed.

Lemma posted_after_post : forall ws p c nx fs ts d tk a k,
  k <= length ts ->
  posted (mkState ws p c nx fs ts d tk (after_post false k (length ts)) a) = k.
Proof.
  intros. unfold posted, after_post; simpl.
  destruct (k =? length ts) eqn:E; simpl; auto. apply Nat.eqb_eq in E; auto.
Qed.

Lemma main_ok_after_post : forall k fs ts dup,
  k <= length ts -> main_ok_m (after_post false k (length ts)) fs ts dup.
Proof.
  intros. unfold after_post. destruct (k =? length ts) eqn:E; simpl.
  - split; [lia | intros j Hj; lia].
  - apply Nat.eqb_neq in E. lia.
Qed.

Lemma push_holders : forall ws i wk t, nth_error ws i = Some wk ->
  Permutation (flat_map holders_w (upd i (push_q t) ws)) (t :: flat_map holders_w ws).
Proof.
  intros ws i wk t W. eapply flat_map_upd_add; eauto.
  unfold holders_w, push_q; simpl. rewrite <- app_assoc. symmetry. apply Permutation_middle.
Qed.

Lemma holders_w_take : forall t wk, wst wk = WIdle ->
  Permutation (holders_w (set_st (WRun t) wk)) (t :: holders_w wk).
Proof.
  intros t wk E. unfold holders_w, set_st; simpl. rewrite E, app_nil_r.
  symmetry. apply Permutation_cons_append.
Qed.

Lemma wmove_holders : forall ws l ws', wmove ws l ws' ->
  Permutation (flat_map holders_w ws') (flat_map holders_w ws).
Proof.
  destruct 1 as [i t q W | i d t q std wk D W WI | i q t W].
  - eapply flat_map_upd_perm; eauto. apply (holders_w_take t (mkWorker q WIdle) eq_refl).
  - rewrite (flat_map_upd_add _ _ holders_w _ _ _ _ t W (holders_w_take t wk WI)).
    symmetry. now apply (flat_map_upd_rem _ _ holders_w (set_q q) _ _ _ t D).
  - eapply flat_map_upd_perm; eauto.
Qed.

Lemma fulfil_holders : forall ws i q t, nth_error ws i = Some (mkWorker q (WDone t)) ->
  Permutation (flat_map holders_w ws) (t :: flat_map holders_w (upd i (set_st WIdle) ws)).
Proof.
  intros ws i q t W. eapply flat_map_upd_rem; eauto.
  unfold holders_w; simpl. rewrite app_nil_r. symmetry. apply Permutation_cons_append.
Qed.

Lemma exit_holders : forall ws k q, nth_error ws k = Some (mkWorker q WIdle) ->
  Permutation (flat_map holders_w (upd k (set_st WExited) ws)) (flat_map holders_w ws).
Proof. intros ws k q W. eapply flat_map_upd_perm; eauto. Qed.

Lemma queues_held : forall ws t, In t (flat_map wq ws) -> In t (flat_map holders_w ws).
Proof.
  intros ws t Ht. apply in_flat_map in Ht as [wk [H1 H2]].
  apply in_flat_map. exists wk. split; auto. apply in_or_app. now left.
Qed.

Lemma break_all_length : forall ts fs, length (break_all ts fs) = length fs.
Proof.
  unfold break_all. induction ts; simpl; intros; auto. rewrite IHts. apply upd_length.
Qed.

Lemma break_all_nth : forall ts fs j,
  nth_error (break_all ts fs) j = nth_error fs j \/
  (nth_error (break_all ts fs) j = Some FBroken /\ exists t, In t ts /\ tid t = j).
Proof.
  unfold break_all. induction ts; simpl; intros; auto.
  destruct (IHts (upd (tid a) (fun _ => FBroken) fs) j) as [H | [H [t [H1 H2]]]].
  - rewrite H. rewrite nth_error_upd. destruct (tid a =? j) eqn:E; auto.
    destruct (nth_error fs j) eqn:F; simpl; auto.
    right. split; auto. exists a. split; auto. now apply Nat.eqb_eq.
  - right. split; auto. exists t; auto.
Qed.

Lemma break_all_nonpending : forall ts fs n, fut_nonpending fs n -> fut_nonpending (break_all ts fs) n.
Proof.
  intros ts fs n H j Hj. destruct (break_all_nth ts fs j) as [B | [B _]]; rewrite B; [auto | discriminate].
Qed.

Lemma scan_correct : forall fs ts i dup v,
  length fs = length ts ->
  (forall j u, nth_error fs j = Some (FReady u) -> exists t, nth_error ts j = Some t /\ tvalid t = u) ->
  scan i fs dup = SVerdict v ->
  v = match first_invalid i ts with Some x => VInvalid x | None => if dup then VDuplicates else VValid end.
Proof.
  induction fs as [| f fs IH]; intros ts i dup v L R HS; destruct ts as [| t ts]; simpl in *; try discriminate.
  - congruence.
  - destruct f as [| u |]; try discriminate.
    destruct (R 0 u eq_refl) as [t' [E1 E2]]. simpl in E1. inversion E1; subst t'.
    rewrite E2. destruct u.
    + eapply IH; eauto. intros j u' Hj. apply (R (S j) u'). exact Hj.
    + congruence.
Qed.

Lemma scan_stuck : forall fs i dup,
  match scan i fs dup with SBlocked => In FPending fs | SThrow => In FBroken fs | SVerdict _ => True end.
Proof.
  induction fs as [| f fs IH]; intros i dup; simpl; auto.
  destruct f as [| [] |]; auto. specialize (IH (S i) dup). destruct (scan (S i) fs dup); auto.
Qed.

Lemma Inv_init : forall w c, Inv (init w c).
Proof.
  intros. constructor; simpl; auto.
  - intros j t H. destruct j; discriminate.
  - unfold holders; simpl. rewrite holders_repeat_idle. constructor.
  - unfold holders; simpl. rewrite holders_repeat_idle. simpl; tauto.
  - intros j v H. destruct j; discriminate.
  - intros j H. unfold posted in H; simpl in H. lia.
  - unfold main_ok; simpl. intros j H; lia.
Qed.

Lemma Inv_step : forall l s s', Inv s -> step false l s = Some s' -> Inv s'.
Proof.
  intros l s s' I H. pose proof I as [Ilen Icur Inodup Ihold Iready Iunposted Imain]. unfold holders in Inodup, Ihold.
  step_cases I H; try (apply (Inv_same s); auto; fail).
  - (* call *)
    pose proof (quiescent_no_holders _ I Q) as NH. unfold holders in NH.
    constructor; rewrite ?posted_after_post by lia; unfold holders; simpl; rewrite ?NH.
    + now rewrite repeat_length.
    + intros j t T. rewrite mk_tasks_nth in T. destruct (nth_error vs j); [now injection T as <- | discriminate].
    + constructor.
    + intros t [].
    + intros j v T. apply nth_error_repeat_inv in T. destruct T; discriminate.
    + intros j T. apply nth_error_repeat. lia.
    + apply main_ok_after_post. lia.
  - (* post *)
    pose proof (push_holders _ _ _ t W) as PH.
    destruct (Icur _ _ Ck) as [Tk _].
    assert (PO : posted s = k) by (unfold posted; now rewrite M). rewrite PO in Ihold, Iunposted.
    constructor; rewrite ?posted_after_post by lia; unfold holders; simpl; auto.
    + rewrite PH. simpl. constructor; [| exact Inodup].
      intros X. apply in_map_iff in X as [t' [E1 E2]]. apply Ihold in E2. lia.
    + intros t' T. rewrite PH in T. destruct T as [<- | T].
      * rewrite Tk. repeat split; auto.
      * apply Ihold in T. intuition lia.
    + intros j T. apply Iunposted. lia.
    + unfold main_ok; simpl. apply main_ok_after_post. lia.
  - (* pop, steal, run *)
    apply (Inv_same s); auto. exact (wmove_holders _ _ _ WM).
  - (* fulfil *)
    pose proof (fulfil_holders _ _ _ _ W) as P1. set (ws1 := upd i (set_st WIdle) (workers s)) in *.
    rewrite P1 in Inodup. simpl in Inodup. apply NoDup_cons_iff in Inodup as [ND1 ND2].
    assert (SUB : forall t', In t' (flat_map holders_w ws1) -> In t' (flat_map holders_w (workers s)))
      by (intros; rewrite P1; now right).
    destruct (Ihold t) as [T1 [T2 T3]]. { rewrite P1. now left. }
    assert (PO : forall fs ws, posted (set_futures fs (set_workers ws s)) = posted s) by reflexivity.
    constructor; rewrite ?PO; unfold holders; simpl; auto.
    + now rewrite upd_length.
    + intros t' T. destruct (Ihold t' (SUB _ T)) as [A [B C]]. repeat split; auto.
      rewrite nth_error_upd_neq; auto. intros E. apply ND1. rewrite E. now apply in_map.
    + intros j v T. rewrite nth_error_upd in T. destruct (tid t =? j) eqn:E; auto.
      apply Nat.eqb_eq in E. subst j. rewrite T3 in T. injection T as <-. eauto.
    + intros j T. rewrite nth_error_upd_neq by lia. auto.
    + unfold main_ok; simpl. apply (main_ok_settle _ (futures s)); auto.
      intros n Hn j Hj. rewrite nth_error_upd. destruct (tid t =? j); [| auto].
      destruct (nth_error (futures s) j); discriminate.
  - (* wait *)
    unfold main_ok in Imain. rewrite M in Imain. destruct Imain as [_ M2].
    assert (PO : posted (set_main m s) = posted s) by (unfold posted; simpl; rewrite M; now destruct WT).
    constructor; rewrite ?PO; auto. unfold main_ok; simpl.
    destruct WT as [f F NP Kn | v -> SC | ->].
    + split; [lia |]. intros j Hj. destruct (Nat.eq_dec j k); [subst; congruence | apply M2; lia].
    + split; auto. unfold seq_verdict. eapply scan_correct; eauto.
    + exact M2.
  - (* join *)
    apply (Inv_same s); auto. exact (exit_holders _ _ _ W).
  - (* last join: queued tasks get broken promises *)
    set (Q := flat_map wq (workers s)).
    assert (PO : posted (set_pst PStopped (set_futures (break_all Q (futures s)) (set_workers [] s))) = posted s)
      by reflexivity.
    constructor; rewrite ?PO; simpl; auto.
    + now rewrite break_all_length.
    + constructor.
    + intros t [].
    + intros j v T. destruct (break_all_nth Q (futures s) j) as [B | [B _]]; rewrite B in T; [auto | discriminate].
    + intros j T. destruct (break_all_nth Q (futures s) j) as [B | [B [t [T1 T2]]]].
      * rewrite B. auto.
      * apply queues_held, Ihold in T1. lia.
    + unfold main_ok; simpl. apply (main_ok_settle _ (futures s)); [apply break_all_nonpending | auto].
  - (* start *)
    constructor; unfold holders; simpl; rewrite ?holders_repeat_idle; auto.
    + constructor.
    + intros t [].
Qed.

Lemma run_preserves : forall (P : state -> Prop) (ok : label -> bool),
  (forall l s s', P s -> ok l = true -> step false l s = Some s' -> P s') ->
  forall sched s, forallb ok sched = true -> P s -> P (run false sched s).
Proof.
  intros P ok HP. unfold run. induction sched as [| l r IH]; simpl; intros s A H; auto.
  apply andb_prop in A as [A1 A2]. apply IH; auto.
  unfold step'. destruct (step false l s) eqn:E; eauto.
Qed.

Lemma Inv_verdict : forall s v, Inv s -> main s = MReturned v -> v = seq_verdict (cur s) (curdup s).
Proof. intros s v I H. pose proof (i_main _ I) as M. unfold main_ok in M. rewrite H in M. apply M. Qed.

(** before /repo 9e8bd1f5: main returns while a queued task still references the PopData *)
Definition v0_witness_sched : list label :=
  [LCall [false; true] false; LPost; LPost; LPop 0; LRun 0; LFulfil 0; LWait].

Example current_code_waits :
  main (run false v0_witness_sched (init 1 4)) = MWait 1.
Proof. vm_compute. reflexivity. Qed.

(** no VBK_ASSERT fires while nobody stops/starts the validator and every call fits the queue
    (checkPopData rejects oversized PopData before posting; queue size >= max payload count) *)
Definition sizes_ok (c : nat) (l : label) : bool :=
  match l with
  | LCall vs _ => length vs <=? c
  | LStopReq | LJoin | LStart _ => false
  | _ => true
  end.
