(** C16 — repeated checks of the same PopData object always report the same (sequential) verdict *)
From Coq Require Import List Bool.
From VB Require Import Conc.ValidatorDefs Conc.CheckedDefs.
Import ListNotations.

(** flags are truthful: a set flag means the payload (the whole PopData) really is valid *)
Definition flags_sound (pd : popdata) : Prop :=
  (forall p, In p (pitems pd) -> pchecked p = true -> pvalid p = true) /\
  (pdchecked pd = true -> spec_verdict pd = VValid).

Lemma task_verdict_sound : forall l,
  (forall p, In p l -> pchecked p = true -> pvalid p = true) -> map task_verdict l = map pvalid l.
Proof.
  induction l; simpl; intros H; auto. f_equal.
  - unfold task_verdict. destruct (pchecked a) eqn:E; simpl; auto. symmetry. apply H; auto.
  - apply IHl. intros; apply H; auto.
Qed.

Lemma after_task_sound : forall l,
  (forall p, In p l -> pchecked p = true -> pvalid p = true) ->
  map pvalid (map after_task l) = map pvalid l /\
  (forall p, In p (map after_task l) -> pchecked p = true -> pvalid p = true).
Proof.
  intros l H. split.
  - rewrite map_map. apply map_ext. reflexivity.
  - intros p Hp C. apply in_map_iff in Hp. destruct Hp as [q [E Q]]. subst p. simpl in *.
    apply orb_prop in C. destruct C; auto.
Qed.

Lemma check_call_sound : forall pd, flags_sound pd ->
  fst (check_call pd) = spec_verdict pd /\ flags_sound (snd (check_call pd)) /\
  spec_verdict (snd (check_call pd)) = spec_verdict pd.
Proof.
  intros pd [F1 F2]. unfold check_call. destruct (pdchecked pd) eqn:C.
  - simpl. split; [symmetry; auto |]. split; [split; auto |]. reflexivity.
  - simpl. rewrite (task_verdict_sound _ F1). fold (spec_verdict pd).
    destruct (after_task_sound _ F1) as [A1 A2].
    assert (S : spec_verdict (mkPopData (map after_task (pitems pd)) (pdup pd)
                 (match spec_verdict pd with VValid => true | _ => false end)) = spec_verdict pd).
    { unfold spec_verdict; simpl. now rewrite A1. }
    split; [reflexivity |]. split; [| exact S].
    split; simpl; auto. intros E. rewrite S.
    destruct (spec_verdict pd); auto; discriminate.
Qed.

Lemma check_n_sound : forall n pd, flags_sound pd ->
  Forall (fun v => v = spec_verdict pd) (check_n n pd).
Proof.
  induction n; simpl; intros pd F; [constructor |].
  destruct (check_call_sound pd F) as [A [B C]].
  destruct (check_call pd) as [v pd']. simpl in *. constructor; auto.
  rewrite <- C. apply IHn; auto.
Qed.

Lemma fresh_copy_sound : forall pd, flags_sound (fresh_copy pd) /\ spec_verdict (fresh_copy pd) = spec_verdict pd.
Proof.
  intros. split.
  - split; simpl; intros; try discriminate.
    apply in_map_iff in H. destruct H as [q [E Q]]. subst p. simpl in *. discriminate.
  - unfold spec_verdict, fresh_copy; simpl. rewrite map_map. reflexivity.
Qed.

Lemma no_flags_sound : forall l dup, flags_sound (mkPopData (map (fun v => mkPayload v false) l) dup false).
Proof.
  intros. split; simpl; intros; try discriminate.
  apply in_map_iff in H. destruct H as [q [E Q]]. subst p. discriminate.
Qed.

(** what breaks if a flag is set before the check has completely succeeded: an invalid payload with its flag
    set makes the next check of the same object report valid *)
Example premature_flag_refuted :
  let pd := mkPopData [mkPayload false true] false false in
  fst (check_call pd) = VValid /\ spec_verdict pd = VInvalid 0.
Proof. vm_compute. auto. Qed.
