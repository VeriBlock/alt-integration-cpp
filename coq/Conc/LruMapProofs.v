(** C17 — lru11::Cache refines the unbounded map for arbitrary inserted values: a hit for k returns the value most
    recently inserted under k since the last clear (never a value stored under another key, never a stale one);
    capacity and key-uniqueness hold in every reachable state. *)
From Coq Require Import List Arith Bool.
From VB Require Import Conc.CacheDefs Conc.CacheProofs Conc.LruMapDefs.
Import ListNotations.

Section LruMapProofs.
Variables Key V : Type.
Variable key_eqb : Key -> Key -> bool.
Hypothesis key_eqb_spec : forall a b, key_eqb a b = true <-> a = b.

Notation ideal_get := (ideal_get Key V key_eqb).
Notation lop_step := (lop_step Key V key_eqb).
Notation lop_run := (lop_run Key V key_eqb).

(** every cached binding is the current binding of the unbounded map *)
Definition lmap_inv (maxsize elast : nat) (l : lru Key V) (m : ideal Key V) : Prop :=
  (forall k v, In (k, v) l -> ideal_get k m = Some v) /\ NoDup (map fst l) /\
  (maxsize = O \/ length l <= maxsize + elast).

Lemma key_eqb_refl : forall k, key_eqb k k = true.
Proof. intros. now apply key_eqb_spec. Qed.

Lemma lop_step_inv : forall maxsize elast o l m a l',
  lmap_inv maxsize elast l m -> lop_step maxsize elast o l = (a, l') ->
  lmap_inv maxsize elast l' (ideal_step Key V o m) /\
  (forall k v, o = LGet Key V k -> a = Some (Some v) -> ideal_get k m = Some v) /\
  (forall k, o = LGet Key V k -> exists r, a = Some r).
Proof.
  intros maxsize elast o l m a l' [A SH] H. destruct o as [k v | k |]; cbn [LruMapDefs.lop_step ideal_step] in *.
  - (* insert: the new binding shadows k; the other cached bindings have other keys *)
    injection H as <- <-. split; [| split; intros; discriminate].
    destruct (lru_insert_spec _ _ _ key_eqb_spec maxsize elast k v l SH) as [SH' R]. split; [| exact SH'].
    intros k' v' I. cbn. destruct (R _ I) as [[= -> ->] | [I' NE]].
    + now rewrite key_eqb_refl.
    + destruct (key_eqb k k') eqn:Q; [apply key_eqb_spec in Q; now destruct NE | now apply A].
  - destruct (lru_try_get Key V key_eqb k l) as [r l1] eqn:G. injection H as <- <-.
    destruct (lru_try_get_spec _ _ _ key_eqb_spec _ _ _ _ _ _ SH G) as [SH' [R HIT]].
    split; [split; auto |]. split; [| eauto].
    intros k' v' [= <-] [= ->]. now apply A, HIT.
  - injection H as <- <-. split; [| split; intros; discriminate].
    split; [intros k v [] | apply lru_shape_nil].
Qed.

Lemma lmap_inv_nil : forall maxsize elast, lmap_inv maxsize elast [] [].
Proof. intros. split; [intros k v [] | apply lru_shape_nil]. Qed.

Lemma lru_refines_map_lemma : forall (v_eqb : V -> V -> bool), (forall v, v_eqb v v = true) ->
  forall maxsize elast ops l m,
  lmap_inv maxsize elast l m ->
  answers_admissible Key V key_eqb v_eqb ops (fst (lop_run maxsize elast ops l)) m = true /\
  lmap_inv maxsize elast (snd (lop_run maxsize elast ops l)) (fold_left (fun m o => ideal_step Key V o m) ops m).
Proof.
  intros v_eqb v_refl maxsize elast ops. induction ops as [| o r IH]; intros l m I; cbn [LruMapDefs.lop_run fold_left].
  - cbn. auto.
  - destruct (lop_step maxsize elast o l) as [a l'] eqn:S.
    destruct (lop_step_inv _ _ _ _ _ _ _ I S) as [I' [HG HS]].
    specialize (IH l' (ideal_step Key V o m) I').
    destruct (lop_run maxsize elast r l') as [as_ l''] eqn:R. cbn [fst snd] in *.
    destruct IH as [IH1 IH2]. split; [| exact IH2].
    cbn [answers_admissible]. rewrite IH1, andb_true_r.
    destruct o as [k v | k |]; cbn [answer_ok].
    + cbn in S. inversion S; subst. reflexivity.
    + destruct (HS k eq_refl) as [res ->]. destruct res as [v |]; [| reflexivity].
      rewrite (HG k v eq_refl eq_refl). apply v_refl.
    + cbn in S. inversion S; subst. reflexivity.
Qed.

Lemma lru_key_confinement_lemma : forall maxsize elast ops l m k v l',
  lmap_inv maxsize elast l m ->
  lop_step maxsize elast (LGet Key V k)
           (snd (lop_run maxsize elast ops l)) = (Some (Some v), l') ->
  ideal_get k (fold_left (fun m o => ideal_step Key V o m) ops m) = Some v.
Proof.
  intros maxsize elast ops l m k v l' I H.
  assert (J : lmap_inv maxsize elast (snd (lop_run maxsize elast ops l))
                       (fold_left (fun m o => ideal_step Key V o m) ops m)).
  { apply (lru_refines_map_lemma (fun _ _ => true) (fun _ => eq_refl)); auto. }
  destruct (lop_step_inv _ _ _ _ _ _ _ J H) as [_ [HG _]]. now apply HG.
Qed.
End LruMapProofs.

(** concrete witness: capacity 2+0, keys 1..3; key 1 is re-bound, key 2 is evicted; the hit for 1 is the new value *)
Example lru_map_satisfiable :
  fst (lop_run nat nat Nat.eqb 2 0 [LIns nat nat 1 10; LIns nat nat 2 20; LIns nat nat 1 11; LIns nat nat 3 30;
                                     LGet nat nat 1; LGet nat nat 2; LGet nat nat 3] [])
  = [None; None; None; None; Some (Some 11); Some None; Some (Some 30)].
Proof. vm_compute. reflexivity. Qed.
