(** C16 — the theorems about the step-level MPMC ring model; Properties_C16.v restates the [ring_*_lemma]s and
    says what each claims.  The log of successful CASes (ghost state [rs_lin]) is, in every reachable state, a legal
    history of the bounded FIFO that agrees thread by thread with what the threads return and accounts for every
    value exactly once. *)
From Coq Require Import List Arith Bool Lia.
From VB Require Import Conc.RingDefs Conc.RingSteps Conc.RingStepsInv Conc.RingStepsPres Conc.RingLin.
Import ListNotations.

Local Arguments enq {A} _.
Local Arguments deq {A} _.
Local Arguments PushFull {A}.
Local Arguments PopEmpty {A}.
Local Arguments RPush {A} _.
Local Arguments RPop {A}.

Section Conc.
Variable A : Type.
Implicit Types s : rstate A.

Lemma fifo_run_snoc : forall size ops o (q0 : list A),
  fifo_run A size (ops ++ [o]) q0 = fifo_run A size ops q0 ++ [fst (fifo_step A size o (fifo_state size ops q0))].
Proof.
  induction ops as [| o' ops IH]; intros o q0.
  - cbn. now destruct (fifo_step A size o q0).
  - cbn [app fifo_run]. unfold fifo_state. cbn [fold_left]. destruct (fifo_step A size o' q0) as [a q1].
    now rewrite IH.
Qed.

Lemma fifo_state_snoc : forall size ops o (q0 : list A),
  fifo_state size (ops ++ [o]) q0 = snd (fifo_step A size o (fifo_state size ops q0)).
Proof. intros. apply fold_left_app. Qed.

Lemma proj_app : forall t (l1 l2 : list (lev A)), proj t (l1 ++ l2) = proj t l1 ++ proj t l2.
Proof. intros. unfold proj. now rewrite filter_app, map_app. Qed.

Lemma succ_of_app : forall (h1 h2 : list (rop A * rres A)), succ_of (h1 ++ h2) = succ_of h1 ++ succ_of h2.
Proof. intros. apply filter_app. Qed.

Record LinInv (size : nat) s : Prop := mkLinInv {
  l_proj : forall t, proj t (rs_lin s) = succ_of (thist (rs_thr s t)) ++ pending (tpc (rs_thr s t));
  l_legal : fifo_run A size (map lev_op (rs_lin s)) [] = map lev_res (rs_lin s);
  l_state : fifo_state size (map lev_op (rs_lin s)) [] = rs_q s;
  l_vals : map Some (pushed_vals (rs_lin s)) = popped_vals (rs_lin s) ++ map Some (rs_q s);
  l_ok : Forall (fun e => is_ok (lev_res e) = true) (rs_lin s)
}.

Lemma LinInv_init : forall size progs, LinInv size (rs_init size progs).
Proof. intros. constructor; try reflexivity. constructor. Qed.

Lemma LinInv_nolog : forall size s t th' m,
  LinInv size s ->
  succ_of (thist th') ++ pending (tpc th') = succ_of (thist (rs_thr s t)) ++ pending (tpc (rs_thr s t)) ->
  LinInv size (mkRS m (upd_thr (rs_thr s) t th') (rs_lin s) (rs_q s)).
Proof.
  intros size s t th' m [P L S V O] H. constructor; auto.
  intros t0. cbn [rs_lin rs_thr]. rewrite P. destruct (Nat.eq_dec t0 t) as [-> | N].
  - now rewrite upd_thr_same.
  - now rewrite upd_thr_other.
Qed.

Lemma LinInv_commit : forall size s t th' m o a q',
  LinInv size s -> fifo_step A size o (rs_q s) = (a, q') -> is_ok a = true ->
  succ_of (thist th') ++ pending (tpc th') =
    (succ_of (thist (rs_thr s t)) ++ pending (tpc (rs_thr s t))) ++ [(o, a)] ->
  LinInv size (mkRS m (upd_thr (rs_thr s) t th') (rs_lin s ++ [(t, o, a)]) q').
Proof.
  intros size s t th' m o a q' [P L S V O] FS OK H. constructor; cbn [rs_lin rs_q rs_thr].
  - intros t0. rewrite proj_app, P. cbn. destruct (Nat.eqb_spec t t0) as [<- | N].
    + now rewrite upd_thr_same.
    + rewrite upd_thr_other by auto. apply app_nil_r.
  - rewrite !map_app. cbn [map]. rewrite fifo_run_snoc, L, S. cbn. now rewrite FS.
  - rewrite map_app. cbn [map]. rewrite fifo_state_snoc, S. cbn. now rewrite FS.
  - unfold pushed_vals, popped_vals in *. rewrite !flat_map_app, map_app, V, <- !app_assoc. f_equal. cbn.
    destruct o as [x |]; cbn [fifo_step] in FS.
    + destruct (length (rs_q s) <? size); inversion FS; subst; [symmetry; apply map_app | discriminate].
    + destruct (rs_q s); inversion FS; subst; [discriminate | cbn; now rewrite app_nil_r].
  - apply Forall_app. auto.
Qed.

Ltac nolog Ht :=
  apply LinInv_nolog; auto; cbn [thist tpc]; rewrite ?succ_of_app, ?Ht; cbn; rewrite ?app_nil_r; reflexivity.

Lemma LinInv_step : forall size s t b, Inv A size s -> LinInv size s -> LinInv size (rs_step t b s).
Proof.
  intros size s t b I LI. pose proof (i_thr _ _ _ _ _ I t) as T. cbv beta in T.
  unfold rs_step, goto, goto_m, ret_m, commit.
  destruct (tpc (rs_thr s t)) eqn:Ht; cbn in T;
    [destruct (tprog (rs_thr s t)) as [| [x |] rest]; [exact LI | ..] | ..];
    try destruct (Nat.compare _ _); try nolog Ht.
  - (* PushCas: it succeeds only with room in the queue *)
    destruct (Nat.eqb_spec (enq (rs_mem s)) pos) as [<- | E]; destruct b; cbn [andb negb]; try nolog Ht.
    destruct (push_cas_room I Ht) as [F _]. pose proof (i_size _ _ _ _ _ I).
    assert (Q : length (rs_q s) <? size = true) by (apply Nat.ltb_lt; rewrite (i_q _ _ _ _ _ I); lia).
    apply LinInv_commit; auto.
    + cbn [fifo_step]. now rewrite Q.
    + cbn [thist tpc]. rewrite Ht. cbn. now rewrite app_nil_r.
  - (* PopCas: it succeeds only on the published oldest element *)
    destruct (Nat.eqb_spec (deq (rs_mem s)) pos) as [<- | E]; destruct b; cbn [andb negb]; try nolog Ht.
    destruct (pop_cas_elem I Ht) as (_ & _ & y & F3 & F4).
    rewrite F4. apply LinInv_commit; auto.
    + now rewrite F3.
    + cbn [thist tpc]. rewrite Ht. cbn. now rewrite app_nil_r.
  - (* PopMove: the ghost value is what the cell holds *)
    destruct T as (_ & _ & _ & <-). nolog Ht.
Qed.

Lemma LinInv_reachable : forall size (progs : nat -> list (rop A)) sched, 2 <= size ->
  LinInv size (rs_run sched (rs_init size progs)).
Proof.
  intros size progs sched H. induction sched as [| e sched IH] using rev_ind; [apply LinInv_init |].
  unfold rs_run. rewrite fold_left_app. apply LinInv_step; [now apply Inv_reachable | exact IH].
Qed.

Lemma ring_linearizable_lemma : forall size (progs : nat -> list (rop A)) sched, 2 <= size ->
  let s := rs_run sched (rs_init size progs) in
  fifo_run A size (map lev_op (rs_lin s)) [] = map lev_res (rs_lin s) /\
  Forall (fun e => is_ok (lev_res e) = true) (rs_lin s) /\
  fifo_state size (map lev_op (rs_lin s)) [] = rs_q s /\
  (forall t, proj t (rs_lin s) = succ_of (thist (rs_thr s t)) ++ pending (tpc (rs_thr s t))).
Proof.
  intros size progs sched H s. destruct (LinInv_reachable size progs sched H) as [P L S V O]. auto.
Qed.

Lemma ring_conservation_lemma : forall size (progs : nat -> list (rop A)) sched, 2 <= size ->
  let s := rs_run sched (rs_init size progs) in
  map Some (pushed_vals (rs_lin s)) = popped_vals (rs_lin s) ++ map Some (rs_q s) /\
  length (rs_q s) <= size /\
  length (rs_q s) = enq (rs_mem s) - deq (rs_mem s) /\
  deq (rs_mem s) <= enq (rs_mem s) <= deq (rs_mem s) + size.
Proof.
  intros size progs sched H s. destruct (LinInv_reachable size progs sched H) as [_ _ _ V _].
  destruct (Inv_reachable A size progs sched H) as [_ _ DE CAP LQ _ _ _ _ _ _ _]. fold s in DE, CAP, LQ.
  repeat split; auto; lia.
Qed.

Definition grows (t : nat) s s' : Prop :=
  (forall t0, t0 <> t -> rs_thr s' t0 = rs_thr s t0) /\
  (exists ext, rs_lin s' = rs_lin s ++ ext) /\
  (exists hext, thist (rs_thr s' t) = thist (rs_thr s t) ++ hext).

Lemma step_frame : forall s t b, grows t s (rs_step t b s).
Proof.
  intros s t b.
  assert (N : forall X (l : list X), exists ext, l = l ++ ext) by (intros; exists []; now rewrite app_nil_r).
  (* the shape of every result of [rs_step] but "idle, nothing left to do" *)
  assert (U : forall pc pr h' m l' q',
            (exists hext, h' = thist (rs_thr s t) ++ hext) -> (exists ext, l' = rs_lin s ++ ext) ->
            grows t s (mkRS m (upd_thr (rs_thr s) t (mkThread pc pr h')) l' q')).
  { intros pc pr h' m l' q' Hh Hl. repeat split; cbn; auto; intros; now rewrite ?upd_thr_same, ?upd_thr_other. }
  unfold rs_step, goto, goto_m, ret_m, commit.
  destruct (tpc (rs_thr s t)); [destruct (tprog (rs_thr s t)) as [| [x |] rest]; [repeat split; auto | ..] | ..];
    try destruct (Nat.compare _ _); try destruct (_ && _); apply U; eauto.
Qed.

Lemma run_frame : forall sched s,
  (exists ext, rs_lin (rs_run sched s) = rs_lin s ++ ext) /\
  (forall t, exists hext, thist (rs_thr (rs_run sched s) t) = thist (rs_thr s t) ++ hext) /\
  (forall t, Forall (fun e => fst e <> t) sched -> rs_thr (rs_run sched s) t = rs_thr s t).
Proof.
  induction sched as [| [t0 b] sched IH]; intros s; simpl.
  - split; [| split]; intros; auto; exists []; now rewrite app_nil_r.
  - destruct (IH (rs_step t0 b s)) as ([x2 E2] & H2 & O2). destruct (step_frame s t0 b) as (O1 & [x1 E1] & [h1 H1]).
    split; [| split].
    + exists (x1 ++ x2). now rewrite E2, E1, app_assoc.
    + intros t. destruct (H2 t) as [h2 Q2]. rewrite Q2. destruct (Nat.eq_dec t t0) as [-> | N].
      * exists (h1 ++ h2). now rewrite H1, app_assoc.
      * rewrite O1 by auto. eauto.
    + intros t F. inversion F; subst. rewrite O2, O1; auto.
Qed.

Lemma ring_real_time_lemma : forall size (progs : nat -> list (rop A)) sched1 sched2, 2 <= size ->
  let s1 := rs_run sched1 (rs_init size progs) in
  let s2 := rs_run sched2 s1 in
  exists ext, rs_lin s2 = rs_lin s1 ++ ext /\
    forall t, exists hext, thist (rs_thr s2 t) = thist (rs_thr s1 t) ++ hext /\
      pending (tpc (rs_thr s1 t)) ++ proj t ext = succ_of hext ++ pending (tpc (rs_thr s2 t)).
Proof.
  intros size progs sched1 sched2 H s1 s2.
  destruct (LinInv_reachable size progs sched1 H) as [P1 _ _ _ _]. fold s1 in P1.
  assert (R2 : s2 = rs_run (sched1 ++ sched2) (rs_init size progs)) by (symmetry; apply fold_left_app).
  destruct (LinInv_reachable size progs (sched1 ++ sched2) H) as [P2 _ _ _ _]. rewrite <- R2 in P2.
  destruct (run_frame sched2 s1) as ([ext E1] & E2 & _). fold s2 in E1, E2.
  exists ext. split; auto. intros t. destruct (E2 t) as [hext Hx]. exists hext. split; auto.
  specialize (P2 t). rewrite E1, Hx, proj_app, succ_of_app, P1, <- !app_assoc in P2.
  now apply app_inv_head in P2.
Qed.

Lemma tpc_goto : forall s t p, tpc (rs_thr (goto s t p) t) = p.
Proof. intros. cbn. now rewrite upd_thr_same. Qed.

Lemma thist_goto : forall s t p, thist (rs_thr (goto s t p) t) = thist (rs_thr s t).
Proof. intros. cbn. now rewrite upd_thr_same. Qed.

Lemma snoc_neq : forall X (l : list X) e, l <> l ++ [e].
Proof. intros X l e H. apply (f_equal (@length X)) in H. rewrite app_length in H. simpl in H. lia. Qed.

(** the answer "full" rests on the sequence number loaded at [PushLoadSeq] alone: the thread's next own step
    compares it with the position, and [full_seen] says what dif < 0 means in the state of the load *)
Lemma ring_full_justified_lemma : forall size (progs : nat -> list (rop A)) sched t x pos b mid b', 2 <= size ->
  let s := rs_run sched (rs_init size progs) in
  tpc (rs_thr s t) = PushLoadSeq x pos ->
  Forall (fun e => fst e <> t) mid ->
  let s' := rs_step t b' (rs_run mid (rs_step t b s)) in
  thist (rs_thr s' t) = thist (rs_thr s t) ++ [(RPush x, PushFull)] ->
  enq (rs_mem s) = pos /\
  (length (rs_q s) = size \/
   (size <= pos /\ exists t', ipop (tpc (rs_thr s t')) = Some (pos - size))).
Proof.
  intros size progs sched t x pos b mid b' H s Ht F s' Hh.
  pose proof (Inv_reachable A size progs sched H) as I. fold s in I.
  pose proof (i_thr _ _ _ _ _ I t) as T. cbv beta in T. rewrite Ht in T.
  apply (full_seen I); [exact T |].
  destruct (run_frame mid (rs_step t b s)) as (_ & _ & T2). specialize (T2 t F).
  assert (T1 : rs_step t b s = goto s t (PushCmp x pos (seq_at (rs_mem s) pos))) by (unfold rs_step; now rewrite Ht).
  unfold s' in Hh. rewrite T1 in *. unfold rs_step in Hh. rewrite T2, tpc_goto in Hh.
  destruct (Nat.compare_spec (seq_at (rs_mem s) pos) pos); auto;
    rewrite thist_goto, T2, thist_goto in Hh; destruct (snoc_neq _ _ _ Hh).
Qed.

Lemma ring_empty_justified_lemma : forall size (progs : nat -> list (rop A)) sched t pos b mid b', 2 <= size ->
  let s := rs_run sched (rs_init size progs) in
  tpc (rs_thr s t) = PopLoadSeq pos ->
  Forall (fun e => fst e <> t) mid ->
  let s' := rs_step t b' (rs_run mid (rs_step t b s)) in
  thist (rs_thr s' t) = thist (rs_thr s t) ++ [(RPop, PopEmpty)] ->
  deq (rs_mem s) = pos /\
  (rs_q s = [] \/ exists t', ipush (tpc (rs_thr s t')) = Some pos).
Proof.
  intros size progs sched t pos b mid b' H s Ht F s' Hh.
  pose proof (Inv_reachable A size progs sched H) as I. fold s in I.
  pose proof (i_thr _ _ _ _ _ I t) as T. cbv beta in T. rewrite Ht in T.
  apply (empty_seen I); [exact T |].
  destruct (run_frame mid (rs_step t b s)) as (_ & _ & T2). specialize (T2 t F).
  assert (T1 : rs_step t b s = goto s t (PopCmp pos (seq_at (rs_mem s) pos))) by (unfold rs_step; now rewrite Ht).
  unfold s' in Hh. rewrite T1 in *. unfold rs_step in Hh. rewrite T2, tpc_goto in Hh.
  destruct (Nat.compare_spec (seq_at (rs_mem s) pos) (S pos)); auto;
    rewrite thist_goto, T2, thist_goto in Hh; destruct (snoc_neq _ _ _ Hh).
Qed.

End Conc.
