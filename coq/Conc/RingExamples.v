(** C16 — concrete interleavings of the step-level MPMC ring model (capacity 2, values are naturals), evaluated by
    vm_compute: the model really contains colliding CAS loops, spurious CAS failures, and the two situations in
    which a failing answer is given although the abstract queue is neither full nor empty. *)
From Coq Require Import List.
From VB Require Import Conc.RingDefs Conc.RingSteps.
Import ListNotations.

Local Arguments PushOk {A}.
Local Arguments PushFull {A}.
Local Arguments PopOk {A} _.
Local Arguments PopEmpty {A}.
Local Arguments RPush {A} _.
Local Arguments RPop {A}.

Definition ex_progs (t : nat) : list (rop nat) :=
  match t with 0 => [RPush 10] | 1 => [RPush 20] | 2 => [RPop; RPop] | _ => [] end.

(** a schedule without spurious failures *)
Definition plain (l : list nat) : list (nat * bool) := map (fun t => (t, false)) l.

(** what the examples look at: cells, counters, (pc, returned answers) of threads 0..3, log, abstract queue *)
Definition view (s : rstate nat) :=
  (cells nat (rs_mem s), enq nat (rs_mem s), deq nat (rs_mem s),
   map (fun t => (tpc (rs_thr s t), thist (rs_thr s t))) [0; 1; 2; 3], rs_lin s, rs_q s).

(** threads 0 and 1 both read position 0 and the sequence number 0 of cell 0 and reach the CAS *)
Definition ex_collide := plain [0; 1; 0; 1; 0; 1; 0; 1; 0; 1].

(** thread 0 wins the CAS; the CAS of thread 1 fails, hands it the new position 1 and sends it back to load the
    sequence number of cell 1 *)
Lemma ring_cas_collision_example :
  view (rs_run ex_collide (rs_init 2 ex_progs)) =
  ([(0, None); (1, None)], 1, 0,
   [(PushWrite 10 0, []); (PushLoadSeq 20 1, []); (PcIdle, []); (PcIdle, [])],
   [(0, RPush 10, PushOk)], [10]).
Proof. vm_compute. reflexivity. Qed.

(** ... thread 1 retries and completes first, then thread 0 completes, then thread 2 pops both in FIFO order *)
Lemma ring_cas_collision_outcome_example :
  view (rs_run (ex_collide ++ plain [1; 1; 1; 1; 1] ++ plain [0; 0] ++ plain [2; 2; 2; 2; 2; 2; 2; 2; 2; 2; 2; 2; 2; 2])
               (rs_init 2 ex_progs)) =
  ([(2, Some 10); (3, Some 20)], 2, 2,
   [(PcIdle, [(RPush 10, PushOk)]); (PcIdle, [(RPush 20, PushOk)]);
    (PcIdle, [(RPop, PopOk (Some 10)); (RPop, PopOk (Some 20))]); (PcIdle, [])],
   [(0, RPush 10, PushOk); (1, RPush 20, PushOk); (2, RPop, PopOk (Some 10)); (2, RPop, PopOk (Some 20))], []).
Proof. vm_compute. reflexivity. Qed.

(** a spurious failure of compare_exchange_weak: a thread running alone retries and succeeds *)
Lemma ring_spurious_cas_example :
  view (rs_run (plain [0; 0; 0; 0]) (rs_init 2 ex_progs)) =
    ([(0, None); (1, None)], 0, 0, [(PushCas 10 0, []); (PcIdle, []); (PcIdle, []); (PcIdle, [])], [], []) /\
  view (rs_run (plain [0; 0; 0; 0] ++ [(0, true)]) (rs_init 2 ex_progs)) =
    ([(0, None); (1, None)], 0, 0, [(PushLoadSeq 10 0, []); (PcIdle, []); (PcIdle, []); (PcIdle, [])], [], []) /\
  view (rs_run (plain [0; 0; 0; 0] ++ [(0, true)] ++ plain [0; 0; 0; 0; 0]) (rs_init 2 ex_progs)) =
    ([(1, Some 10); (1, None)], 1, 0, [(PcIdle, [(RPush 10, PushOk)]); (PcIdle, []); (PcIdle, []); (PcIdle, [])],
     [(0, RPush 10, PushOk)], [10]).
Proof. vm_compute. repeat split; reflexivity. Qed.

(** "empty" is NOT linearizable in the strict sense.  Thread 0 has claimed position 0 but not yet published it;
    the push of thread 1 has completely returned (first state) BEFORE thread 2 even invokes its pop, no pop has
    taken anything - yet the pop of thread 2, running alone, answers "empty" (second state), because the oldest
    element is still in flight.  This is the case [exists t', ipush ... = Some pos] of the justification theorem;
    the worker loop of the pool treats "empty" as "try again later" (sleep 1 ms and poll), never as "done". *)
Lemma ring_empty_with_inflight_push_example :
  view (rs_run (ex_collide ++ plain [1; 1; 1; 1; 1]) (rs_init 2 ex_progs)) =
    ([(0, None); (2, Some 20)], 2, 0,
     [(PushWrite 10 0, []); (PcIdle, [(RPush 20, PushOk)]); (PcIdle, []); (PcIdle, [])],
     [(0, RPush 10, PushOk); (1, RPush 20, PushOk)], [10; 20]) /\
  view (rs_run (ex_collide ++ plain [1; 1; 1; 1; 1] ++ plain [2; 2; 2; 2]) (rs_init 2 ex_progs)) =
    ([(0, None); (2, Some 20)], 2, 0,
     [(PushWrite 10 0, []); (PcIdle, [(RPush 20, PushOk)]); (PcIdle, [(RPop, PopEmpty)]); (PcIdle, [])],
     [(0, RPush 10, PushOk); (1, RPush 20, PushOk)], [10; 20]).
Proof. vm_compute. split; reflexivity. Qed.

(** the mirror image for "full": thread 0 pushes 10 and 20 (capacity 2), thread 2 claims the oldest element but has
    not yet released the cell; one element is queued, yet the push of thread 3 answers "full" *)
Definition ex_progs2 (t : nat) : list (rop nat) :=
  match t with 0 => [RPush 10; RPush 20] | 2 => [RPop] | 3 => [RPush 30] | _ => [] end.

Lemma ring_full_with_inflight_pop_example :
  view (rs_run (plain [0; 0; 0; 0; 0; 0; 0; 0; 0; 0; 0; 0; 0; 0] ++ plain [2; 2; 2; 2; 2] ++ plain [3; 3; 3; 3])
               (rs_init 2 ex_progs2)) =
  ([(1, Some 10); (2, Some 20)], 2, 1,
   [(PcIdle, [(RPush 10, PushOk); (RPush 20, PushOk)]); (PcIdle, []); (PopMove 0 (Some 10), []);
    (PcIdle, [(RPush 30, PushFull)])],
   [(0, RPush 10, PushOk); (0, RPush 20, PushOk); (2, RPop, PopOk (Some 10))], [20]).
Proof. vm_compute. reflexivity. Qed.
