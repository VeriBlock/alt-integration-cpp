(** C16 — obstruction freedom of the step-level MPMC ring model: from every reachable state, a thread inside a
    push or pop that runs alone (no other thread scheduled, no spurious CAS failure) returns within 8 of its own
    steps; in particular the [dif > 0] retry branch never spins on its own. *)
From Coq Require Import List Arith Bool Lia.
From VB Require Import Conc.RingDefs Conc.RingSteps Conc.RingStepsInv Conc.RingLin.
Import ListNotations.

Local Arguments enq {A} _.
Local Arguments deq {A} _.

Section Solo.
Variable A : Type.
Implicit Types s : rstate A.

Definition solo (n t : nat) s : rstate A := rs_run (repeat (t, false) n) s.

(** own steps left for a thread running alone: straight through while its position is the counter's,
    else via the failing CAS or dif > 0 and a reload *)
Definition rank (r : ring A) (pc : rpc A) : nat :=
  match pc with
  | PcIdle => 0
  | PushLoadPos _ | PopLoadPos => 6
  | PushLoadSeq _ pos => if enq r =? pos then 5 else 8
  | PushCmp _ pos _ => if enq r =? pos then 4 else 7
  | PushCas _ pos => if enq r =? pos then 3 else 6
  | PopLoadSeq pos => if deq r =? pos then 5 else 8
  | PopCmp pos _ => if deq r =? pos then 4 else 7
  | PopCas pos => if deq r =? pos then 3 else 6
  | PushWrite _ _ | PopMove _ _ => 2
  | PushStore _ _ | PopStore _ _ => 1
  end.

Ltac fin :=
  intros ->; cbn [rs_thr rs_mem]; rewrite upd_thr_same; cbn; rewrite ?Nat.eqb_refl; try destruct (_ =? _);
  (split; [lia | first [left; split; [reflexivity | eexists; reflexivity] | right; split; [discriminate | reflexivity]]]).

Lemma rank_step : forall size s t, Inv A size s ->
  let s' := rs_step t false s in
  tpc (rs_thr s t) <> PcIdle ->
  rank (rs_mem s') (tpc (rs_thr s' t)) < rank (rs_mem s) (tpc (rs_thr s t)) /\
  (tpc (rs_thr s' t) = PcIdle /\ (exists e, thist (rs_thr s' t) = thist (rs_thr s t) ++ [e]) \/
   tpc (rs_thr s' t) <> PcIdle /\ thist (rs_thr s' t) = thist (rs_thr s t)).
Proof.
  intros size s t I s' NI. pose proof (i_thr _ _ _ _ _ I t) as T. cbv beta in T.
  pose proof (seq_enq I) as SE. pose proof (seq_deq I) as SD.
  assert (E : s' = rs_step t false s) by reflexivity. clearbody s'. revert E.
  unfold rs_step, goto, goto_m, ret_m, commit.
  destruct (tpc (rs_thr s t)) eqn:Ht; [congruence | ..]; cbn in T; cbn [negb rank]; rewrite ?andb_true_r.
  - fin.
  - fin.
  - destruct (Nat.compare_spec sq pos); [fin | fin |].
    destruct (Nat.eqb_spec (enq (rs_mem s)) pos) as [<- | N]; [exfalso; lia | fin].
  - destruct (Nat.eqb_spec (enq (rs_mem s)) pos); fin.
  - fin.
  - fin.
  - fin.
  - fin.
  - destruct (Nat.compare_spec sq (S pos)); [fin | fin |].
    destruct (Nat.eqb_spec (deq (rs_mem s)) pos) as [<- | N]; [exfalso; lia | fin].
  - destruct (Nat.eqb_spec (deq (rs_mem s)) pos); fin.
  - fin.
  - fin.
Qed.

Lemma solo_returns : forall k size s t, Inv A size s ->
  rank (rs_mem s) (tpc (rs_thr s t)) <= k -> tpc (rs_thr s t) <> PcIdle ->
  exists n, n <= k /\ tpc (rs_thr (solo n t s) t) = PcIdle /\
            exists e, thist (rs_thr (solo n t s) t) = thist (rs_thr s t) ++ [e].
Proof.
  induction k as [| k IH]; intros size s t I R NI;
    destruct (rank_step size s t I NI) as [R' [[ID E] | [NI' E]]]; try lia.
  - exists 1. split; [lia | auto].
  - destruct (IH size (rs_step t false s) t) as (n & Hn & H); auto using Inv_step; [lia |].
    exists (S n). split; [lia |]. rewrite <- E. exact H.
Qed.

Lemma ring_obstruction_free_lemma : forall size (progs : nat -> list (rop A)) sched t, 2 <= size ->
  let s := rs_run sched (rs_init size progs) in
  tpc (rs_thr s t) <> PcIdle ->
  exists n, n <= 8 /\ tpc (rs_thr (solo n t s) t) = PcIdle /\
            exists e, thist (rs_thr (solo n t s) t) = thist (rs_thr s t) ++ [e].
Proof.
  intros size progs sched t H s NI. apply solo_returns with size; [now apply Inv_reachable | | exact NI].
  destruct (tpc (rs_thr s t)); cbn; try destruct (_ =? _); lia.
Qed.

End Solo.
