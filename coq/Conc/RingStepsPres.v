(** C16 — the steps that change shared memory preserve the ring invariant. *)
From Coq Require Import List Arith Lia.
From VB Require Import Conc.RingDefs Conc.RingSteps Conc.RingStepsInv.
Import ListNotations.

Local Arguments enq {A} _.
Local Arguments deq {A} _.

Section Accessors.
Variable A : Type.
Implicit Types r : ring A.

Lemma enq_set_enq : forall r v, enq (set_enq r v) = v. Proof. reflexivity. Qed.
Lemma deq_set_enq : forall r v, deq (set_enq r v) = deq r. Proof. reflexivity. Qed.
Lemma enq_set_deq : forall r v, enq (set_deq r v) = enq r. Proof. reflexivity. Qed.
Lemma deq_set_deq : forall r v, deq (set_deq r v) = v. Proof. reflexivity. Qed.
Lemma enq_set_seq : forall r p v, enq (set_seq r p v) = enq r. Proof. reflexivity. Qed.
Lemma deq_set_seq : forall r p v, deq (set_seq r p v) = deq r. Proof. reflexivity. Qed.
Lemma enq_set_dat : forall r p v, enq (set_dat r p v) = enq r. Proof. reflexivity. Qed.
Lemma deq_set_dat : forall r p v, deq (set_dat r p v) = deq r. Proof. reflexivity. Qed.
Lemma rsize_set_enq : forall r v, rsize (set_enq r v) = rsize r. Proof. reflexivity. Qed.
Lemma rsize_set_deq : forall r v, rsize (set_deq r v) = rsize r. Proof. reflexivity. Qed.

End Accessors.

Local Hint Rewrite seq_at_set_enq dat_at_set_enq : set_enq.
Local Hint Rewrite seq_at_set_deq dat_at_set_deq : set_deq.

Section OneThread.
Context {A : Type} (f : rpc A -> option nat) (pcs pcs' : nat -> rpc A) (t : nat).
Hypothesis Hoth : forall t0, t0 <> t -> pcs' t0 = pcs t0.

Lemma ex_upd : forall p, f (pcs t) <> Some p ->
  (exists t0, f (pcs t0) = Some p) -> exists t0, f (pcs' t0) = Some p.
Proof. intros p Ht [t0 H0]. exists t0. rewrite Hoth; [exact H0 | now intros ->]. Qed.

Lemma uniq_upd :
  (forall a b p, f (pcs a) = Some p -> f (pcs b) = Some p -> a = b) ->
  (forall t0 p, t0 <> t -> f (pcs' t) = Some p -> f (pcs t0) = Some p -> False) ->
  forall a b p, f (pcs' a) = Some p -> f (pcs' b) = Some p -> a = b.
Proof.
  intros U N a b p Ha Hb.
  destruct (Nat.eq_dec a t) as [-> | Na], (Nat.eq_dec b t) as [-> | Nb]; auto.
  - rewrite (Hoth b Nb) in Hb. destruct (N b p Nb Ha Hb).
  - rewrite (Hoth a Na) in Ha. destruct (N a p Na Hb Ha).
  - rewrite (Hoth a Na) in Ha. rewrite (Hoth b Nb) in Hb. eauto.
Qed.

Lemma same_upd : f (pcs' t) = f (pcs t) -> forall t0, f (pcs' t0) = f (pcs t0).
Proof. intros H t0. destruct (Nat.eq_dec t0 t) as [-> | N]; [exact H | now rewrite Hoth]. Qed.

End OneThread.

Section Pres.
Context {A : Type}.
Implicit Types r : ring A.

Lemma TInv_other : forall size r q r' q' (pc : rpc A),
  TInv A size r q pc ->
  enq r <= enq r' -> deq r <= deq r' -> (forall p, seq_at r p <= seq_at r' p) ->
  (forall p, ipush pc = Some p \/ ipop pc = Some p -> seq_at r' p = seq_at r p /\ dat_at r' p = dat_at r p) ->
  (forall p, ipush pc = Some p -> deq r <= p -> deq r' <= p /\ nth_error q' (p - deq r') = nth_error q (p - deq r)) ->
  (forall p, ipop pc = Some p -> enq r <= p + size -> enq r' <= p + size) ->
  TInv A size r' q' pc.
Proof.
  intros size r q r' q' pc T He Hd Hs Hc Hp Ho.
  destruct pc; cbn in *; auto; try (pose proof (Hs pos); lia).
  - destruct (Hc pos (or_introl eq_refl)) as [-> _]. destruct T as (T1 & T2 & T3).
    destruct (Hp pos eq_refl) as [? ->]; repeat split; auto; lia.
  - destruct (Hc pos (or_introl eq_refl)) as [-> ->]. destruct T as (T1 & T2 & T3 & T4).
    destruct (Hp pos eq_refl) as [? ->]; repeat split; auto; lia.
  - destruct (Hc pos (or_intror eq_refl)) as [-> ->]. destruct T as (T1 & T2 & T3 & T4).
    specialize (Ho pos eq_refl). repeat split; auto; lia.
  - destruct (Hc pos (or_intror eq_refl)) as [-> _]. destruct T as (T1 & T2 & T3).
    specialize (Ho pos eq_refl). repeat split; auto; lia.
Qed.

Lemma TInv_other_cell : forall size r q r' (pc : rpc A),
  TInv A size r q pc ->
  enq r' = enq r -> deq r' = deq r -> (forall p, seq_at r p <= seq_at r' p) ->
  (forall p, ipush pc = Some p \/ ipop pc = Some p -> seq_at r' p = seq_at r p /\ dat_at r' p = dat_at r p) ->
  TInv A size r' q pc.
Proof.
  intros size r q r' pc T He Hd Hs Hc. apply TInv_other with r q; rewrite ?He, ?Hd; auto.
Qed.

Lemma pres_local {size r q pcs pcs' t} :
  InvC A size r q pcs -> (forall t0, t0 <> t -> pcs' t0 = pcs t0) ->
  ipush (pcs' t) = ipush (pcs t) -> ipop (pcs' t) = ipop (pcs t) -> TInv A size r q (pcs' t) ->
  InvC A size r q pcs'.
Proof.
  intros I Hoth EP EO T.
  pose proof (same_upd ipush pcs pcs' t Hoth EP) as HP. pose proof (same_upd ipop pcs pcs' t Hoth EO) as HO.
  destruct I as [L S2 DE CAP LQ FULL FREE LOE LOD THR UP UO]. constructor; auto.
  - intros p Hp. destruct (FULL p Hp) as [[t0 H0] | R]; [left; exists t0; rewrite HP; exact H0 | right; exact R].
  - intros p Hp. destruct (FREE p Hp) as [[S1 [t0 H0]] | R]; [left; split; auto; exists t0; rewrite HO; exact H0 | right; exact R].
  - intros t0. destruct (Nat.eq_dec t0 t) as [-> | N]; [exact T | rewrite Hoth; auto].
  - intros a b p. rewrite !HP. apply UP.
  - intros a b p. rewrite !HO. apply UO.
Qed.

Lemma push_cas_room {size r q pcs t x} :
  InvC A size r q pcs -> pcs t = PushCas x (enq r) -> enq r < deq r + size /\ seq_at r (enq r) = enq r.
Proof.
  intros I Ht. pose proof (i_thr _ _ _ _ _ I t) as T. rewrite Ht in T. cbn in T.
  destruct (seq_enq I); lia.
Qed.

Lemma pop_cas_elem {size r q pcs t} :
  InvC A size r q pcs -> pcs t = PopCas (deq r) ->
  deq r < enq r /\ seq_at r (deq r) = S (deq r) /\ exists x, q = x :: tl q /\ dat_at r (deq r) = Some x.
Proof.
  intros I Ht. pose proof (i_thr _ _ _ _ _ I t) as T. rewrite Ht in T. cbn in T.
  destruct (seq_deq I) as [? | [E L]]; [lia |]. split; [| split]; auto.
  destruct (i_full _ _ _ _ _ I (deq r)) as [[t0 H0] | (_ & x & Q & D)]; [lia | |].
  - destruct (inv_ipush I t0 _ H0). lia.
  - exists x. split; auto. rewrite Nat.sub_diag in Q. destruct q; inversion Q. reflexivity.
Qed.

Lemma pres_push_cas {size r q pcs pcs' t x} :
  InvC A size r q pcs -> pcs t = PushCas x (enq r) ->
  (forall t0, t0 <> t -> pcs' t0 = pcs t0) -> pcs' t = PushWrite x (enq r) ->
  InvC A size (set_enq r (S (enq r))) (q ++ [x]) pcs'.
Proof.
  intros I Ht Hoth Ht'.
  destruct (push_cas_room I Ht) as [F1 F2].
  pose proof I as [L S2 DE CAP LQ FULL FREE LOE LOD THR UP UO].
  constructor; cbn [enq deq set_enq];
    [exact L | exact S2 | lia | lia | rewrite app_length; cbn [length]; lia | | | | exact LOD | | |].
  - intros p0 Hp0. autorewrite with set_enq. destruct (Nat.eq_dec p0 (enq r)) as [-> | N].
    + left. exists t. rewrite Ht'. reflexivity.
    + destruct (FULL p0) as [EX | (Q1 & y & Q2 & Q3)]; [lia | left | right].
      * apply (ex_upd ipush pcs pcs' t Hoth); auto. rewrite Ht. discriminate.
      * split; auto. exists y. split; auto. rewrite nth_error_app1; auto. lia.
  - intros p0 Hp0. autorewrite with set_enq. destruct (FREE p0) as [[Q1 EX] | Q]; [lia | left | right; exact Q].
    split; auto. apply (ex_upd ipop pcs pcs' t Hoth); auto. rewrite Ht. discriminate.
  - intros p0 Hp0. autorewrite with set_enq. destruct (Nat.eq_dec p0 (enq r)) as [-> | N]; [lia | apply LOE; lia].
  - intros t0. destruct (Nat.eq_dec t0 t) as [-> | N].
    + rewrite Ht'. cbn [TInv enq deq set_enq]. autorewrite with set_enq. repeat split; auto; try lia.
      rewrite nth_error_app2 by lia. replace (enq r - deq r - length q) with 0 by lia. reflexivity.
    + rewrite (Hoth t0 N). apply TInv_other with r q; cbn [enq deq set_enq]; auto; try lia.
      * intros p0 H0. destruct (inv_ipush I t0 p0 H0) as (? & _). split; [lia | apply nth_error_app1; lia].
      * (* a pop in flight at [enq r - size] left [enq r - size + 1] in its cell *)
        intros p0 H0 ?. destruct (inv_ipop I t0 p0 H0) as (_ & _ & Q).
        assert (p0 + size <> enq r) by (intros E; rewrite <- (seq_at_plus I), E in Q; lia). lia.
  - apply (uniq_upd ipush pcs pcs' t Hoth UP). intros t0 p0 N H H0. rewrite Ht' in H. injection H as <-.
    destruct (inv_ipush I t0 _ H0). lia.
  - apply (uniq_upd ipop pcs pcs' t Hoth UO). intros t0 p0 N H. rewrite Ht' in H. discriminate.
Qed.

Lemma pres_pop_cas {size r q pcs pcs' t} :
  InvC A size r q pcs -> pcs t = PopCas (deq r) ->
  (forall t0, t0 <> t -> pcs' t0 = pcs t0) -> pcs' t = PopMove (deq r) (dat_at r (deq r)) ->
  InvC A size (set_deq r (S (deq r))) (tl q) pcs'.
Proof.
  intros I Ht Hoth Ht'.
  destruct (pop_cas_elem I Ht) as (F1 & F2 & x & F3 & F4).
  pose proof I as [L S2 DE CAP LQ FULL FREE LOE LOD THR UP UO].
  destruct q as [| x' q']; [discriminate |]. cbn [tl length] in *.
  constructor; cbn [enq deq set_deq]; [exact L | exact S2 | lia | lia | lia | | | exact LOE | | | |].
  - intros p0 Hp0. autorewrite with set_deq.
    destruct (FULL p0) as [EX | (Q1 & y & Q2 & Q3)]; [lia | left | right].
    + apply (ex_upd ipush pcs pcs' t Hoth); auto. rewrite Ht. discriminate.
    + split; auto. exists y. split; auto. replace (p0 - deq r) with (S (p0 - S (deq r))) in Q2 by lia. exact Q2.
  - intros p0 Hp0. autorewrite with set_deq. destruct (Nat.eq_dec p0 (deq r + size)) as [-> | N].
    + left. split; [lia |]. exists t. rewrite Ht'. cbn. f_equal. lia.
    + destruct (FREE p0) as [[Q1 EX] | Q]; [lia | left | right; exact Q].
      split; auto. apply (ex_upd ipop pcs pcs' t Hoth); auto. rewrite Ht. discriminate.
  - intros p0 Hp0. autorewrite with set_deq. destruct (Nat.eq_dec p0 (deq r)) as [-> | N]; [lia | apply LOD; lia].
  - intros t0. destruct (Nat.eq_dec t0 t) as [-> | N].
    + rewrite Ht'. cbn [TInv enq deq set_deq]. autorewrite with set_deq. repeat split; auto; lia.
    + rewrite (Hoth t0 N). apply TInv_other with r (x' :: q'); cbn [enq deq set_deq]; auto; try lia.
      intros p0 H0 ?. destruct (inv_ipush I t0 p0 H0) as (_ & Q & _). assert (p0 <> deq r) by (intros ->; lia).
      split; [lia |]. replace (p0 - deq r) with (S (p0 - S (deq r))) by lia. reflexivity.
  - apply (uniq_upd ipush pcs pcs' t Hoth UP). intros t0 p0 N H. rewrite Ht' in H. discriminate.
  - apply (uniq_upd ipop pcs pcs' t Hoth UO). intros t0 p0 N H H0. rewrite Ht' in H. injection H as <-.
    destruct (inv_ipop I t0 _ H0). lia.
Qed.

Lemma pres_push_write {size r q pcs pcs' t x p} :
  InvC A size r q pcs -> pcs t = PushWrite x p ->
  (forall t0, t0 <> t -> pcs' t0 = pcs t0) -> pcs' t = PushStore x p ->
  InvC A size (set_dat r p (Some x)) q pcs'.
Proof.
  intros I Ht Hoth Ht'.
  assert (IT : ipush (pcs t) = Some p) by (rewrite Ht; reflexivity).
  pose proof (i_thr _ _ _ _ _ I t) as Tt. rewrite Ht in Tt. destruct Tt as (TR & TS & TQ).
  pose proof (inv_pos I) as SZ.
  pose proof I as [L S2 DE CAP LQ FULL FREE LOE LOD THR UP UO].
  assert (HP := same_upd ipush pcs pcs' t Hoth ltac:(rewrite Ht, Ht'; reflexivity)).
  assert (HO := same_upd ipop pcs pcs' t Hoth ltac:(rewrite Ht, Ht'; reflexivity)).
  assert (OTHC : forall p0, idx r p0 <> idx r p -> dat_at (set_dat r p (Some x)) p0 = dat_at r p0).
  { intros p0 N. rewrite dat_at_set_dat by auto. apply Nat.eqb_neq in N. rewrite N. reflexivity. }
  constructor; cbn [enq deq set_dat]; [rewrite rsize_set_dat; exact L | assumption.. | | | | | | |].
  - intros p0 Hp0. rewrite seq_at_set_dat by auto.
    destruct (FULL p0 Hp0) as [[t0 H0] | (Q1 & Q2)]; [left; exists t0; rewrite HP; exact H0 | right].
    rewrite OTHC; auto. intros E. apply (push_cell_window I t p p0 IT) in E; [| lia]. subst p0. lia.
  - intros p0 Hp0. rewrite seq_at_set_dat by auto.
    destruct (FREE p0 Hp0) as [[Q1 [t0 H0]] | Q]; [left; split; auto; exists t0; rewrite HO; exact H0 | right; exact Q].
  - intros p0 Hp0. rewrite seq_at_set_dat by auto. auto.
  - intros p0 Hp0. rewrite seq_at_set_dat by auto. auto.
  - intros t0. destruct (Nat.eq_dec t0 t) as [-> | N].
    + rewrite Ht'. cbn [TInv enq deq set_dat]. rewrite seq_at_set_dat, dat_at_set_dat, Nat.eqb_refl by auto. auto.
    + rewrite (Hoth t0 N). apply TInv_other_cell with r; auto.
      * intros p0. rewrite seq_at_set_dat by auto. reflexivity.
      * intros p0 H0. rewrite seq_at_set_dat by auto. split; auto. apply OTHC, (inflight_cells I t p t0 p0); auto.
  - intros a b p0. rewrite !HP. apply UP.
  - intros a b p0. rewrite !HO. apply UO.
Qed.

Lemma pres_store {size r q pcs pcs' t p v} :
  InvC A size r q pcs ->
  (exists x, pcs t = PushStore x p /\ v = S p) \/ (exists d, pcs t = PopStore p d /\ v = p + (rsize r - 1) + 1) ->
  (forall t0, t0 <> t -> pcs' t0 = pcs t0) -> pcs' t = PcIdle ->
  InvC A size (set_seq r p v) q pcs'.
Proof.
  intros I Ht Hoth Ht'.
  pose proof (i_thr _ _ _ _ _ I t) as Tt. pose proof (inv_pos I) as SZ.
  pose proof I as [L S2 DE CAP LQ FULL FREE LOE LOD THR UP UO].
  replace (p + (rsize r - 1) + 1) with (p + size) in Ht by lia.
  assert (IT : ipush (pcs t) = Some p \/ ipop (pcs t) = Some p)
    by (destruct Ht as [(x & -> & _) | (d & -> & _)]; cbn; auto).
  assert (MONO : forall p0, seq_at r p0 <= seq_at (set_seq r p v) p0).
  { apply set_seq_mono; auto. destruct Ht as [(x & E & ->) | (d & E & ->)]; rewrite E in Tt; cbn in Tt; lia. }
  assert (OTHC : forall p0, idx r p0 <> idx r p -> seq_at (set_seq r p v) p0 = seq_at r p0).
  { intros p0 N. rewrite seq_at_set_seq by auto. apply Nat.eqb_neq in N. rewrite N. reflexivity. }
  assert (SAME : seq_at (set_seq r p v) p = v) by (rewrite seq_at_set_seq, Nat.eqb_refl; auto).
  constructor; cbn [enq deq set_seq]; [rewrite rsize_set_seq; exact L | assumption.. | | | | | | |].
  - intros p0 Hp0. rewrite dat_at_set_seq by auto.
    destruct Ht as [(x & E & ->) | (d & E & ->)]; rewrite E in Tt; cbn in Tt.
    + destruct (Nat.eq_dec p0 p) as [-> | N]; [right; rewrite SAME; intuition eauto |].
      destruct (FULL p0 Hp0) as [EX | (Q1 & Q2)]; [left | right].
      * apply (ex_upd ipush pcs pcs' t Hoth); auto. rewrite E. intros [= ?]. lia.
      * rewrite OTHC; auto. intros C. apply N, (push_cell_window I t p p0); auto. rewrite E. reflexivity. lia.
    + destruct (FULL p0 Hp0) as [EX | (Q1 & Q2)]; [left | right].
      * apply (ex_upd ipush pcs pcs' t Hoth); auto. rewrite E. discriminate.
      * rewrite OTHC; auto. intros C. apply (pop_cell_window I t p p0) in C; [lia | rewrite E; reflexivity | lia].
  - intros p0 Hp0.
    destruct Ht as [(x & E & ->) | (d & E & ->)]; rewrite E in Tt; cbn in Tt.
    + destruct (FREE p0 Hp0) as [[Q1 EX] | Q]; [left; split; auto | right].
      * apply (ex_upd ipop pcs pcs' t Hoth); auto. rewrite E. discriminate.
      * rewrite OTHC; auto. intros C. apply (push_cell_window I t p p0) in C; [lia | rewrite E; reflexivity | lia].
    + destruct (Nat.eq_dec p0 (p + size)) as [-> | N].
      { right. rewrite seq_at_set_seq, (idx_plus_size I), Nat.eqb_refl by auto. reflexivity. }
      destruct (FREE p0 Hp0) as [[Q1 EX] | Q]; [left; split; auto | right].
      * apply (ex_upd ipop pcs pcs' t Hoth); auto. rewrite E. intros [= ?]. lia.
      * rewrite OTHC; auto. intros C. apply N, (pop_cell_window I t p p0); auto. rewrite E. reflexivity. lia.
  - intros p0 Hp0. eapply Nat.le_trans; [apply LOE | apply MONO]; auto.
  - intros p0 Hp0. eapply Nat.le_trans; [apply LOD | apply MONO]; auto.
  - intros t0. destruct (Nat.eq_dec t0 t) as [-> | N].
    + rewrite Ht'. constructor.
    + rewrite (Hoth t0 N). apply TInv_other_cell with r; auto.
      intros p0 H0. rewrite dat_at_set_seq by auto. split; auto. apply OTHC, (inflight_cells I t p t0 p0); auto.
  - apply (uniq_upd ipush pcs pcs' t Hoth UP). intros t0 p0 N H. rewrite Ht' in H. discriminate.
  - apply (uniq_upd ipop pcs pcs' t Hoth UO). intros t0 p0 N H. rewrite Ht' in H. discriminate.
Qed.

End Pres.
