(** C17 — header-field sensitivity: VbkBlock::toRaw is injective on the value ranges of the field types, and the
    three things progPowHashImpl extracts from the 65 bytes determine all of them. *)
From Coq Require Import List ZArith Lia Bool.
From VB Require Import Conc.HeaderDefs.
Import ListNotations.
Local Open Scope Z_scope.

Lemma le_length : forall n z, length (le n z) = n.
Proof. induction n; intros; cbn [le length]; [reflexivity | now rewrite IHn]. Qed.

Lemma be_length : forall n z, length (be n z) = n.
Proof. intros. unfold be. now rewrite rev_length, le_length. Qed.

Lemma unle_le : forall n z, unle (le n z) = z mod 256 ^ Z.of_nat n.
Proof.
  induction n; intros; cbn [le unle].
  - change (256 ^ Z.of_nat 0) with 1. now rewrite Z.mod_1_r.
  - rewrite IHn. rewrite Nat2Z.inj_succ, Z.pow_succ_r by lia.
    rewrite Z.rem_mul_r; [reflexivity | lia | apply Z.pow_pos_nonneg; lia].
Qed.

Lemma unbe_be : forall n z, unbe (be n z) = z mod 256 ^ Z.of_nat n.
Proof. intros. unfold unbe, be. now rewrite rev_involutive, unle_le. Qed.

Lemma is_byte_spec : forall b, is_byte b = true <-> 0 <= b < 256.
Proof. intros. unfold is_byte. now rewrite andb_true_iff, Z.leb_le, Z.ltb_lt. Qed.

Lemma bytes_rev : forall l, forallb is_byte l = true -> forallb is_byte (rev l) = true.
Proof. intros l H. rewrite forallb_forall in *. intros x Hx. apply H. now apply in_rev. Qed.

Lemma le_bytes : forall n z, forallb is_byte (le n z) = true.
Proof.
  induction n; intros; cbn [le forallb]; [reflexivity |].
  rewrite IHn, andb_true_r. apply is_byte_spec. apply Z.mod_pos_bound. lia.
Qed.

Lemma be_bytes : forall n z, forallb is_byte (be n z) = true.
Proof. intros. apply bytes_rev, le_bytes. Qed.

Lemma le_unle : forall l, forallb is_byte l = true -> le (length l) (unle l) = l.
Proof.
  induction l as [| b r IH]; intros H; cbn [length le unle]; [reflexivity |].
  cbn [forallb] in H. apply andb_true_iff in H. destruct H as [Hb Hr]. apply is_byte_spec in Hb.
  rewrite (Z.mul_comm 256), Z.mod_add, Z.div_add, Z.mod_small, Z.div_small, Z.add_0_l by lia.
  now rewrite IH.
Qed.

Lemma be_unbe : forall l, forallb is_byte l = true -> be (length l) (unbe l) = l.
Proof.
  intros l H. unfold be, unbe. rewrite <- (rev_length l), le_unle by now apply bytes_rev.
  apply rev_involutive.
Qed.

Lemma be_inj : forall n m lo a b, m = 256 ^ Z.of_nat n ->
  lo <= a < lo + m -> lo <= b < lo + m -> be n a = be n b -> a = b.
Proof.
  intros n m lo a b -> Ha Hb E.
  assert (M : (a - lo) mod 256 ^ Z.of_nat n = (b - lo) mod 256 ^ Z.of_nat n).
  { rewrite <- (Zminus_mod_idemp_l a), <- (Zminus_mod_idemp_l b), <- !unbe_be, E. reflexivity. }
  rewrite !Z.mod_small in M by lia. lia.
Qed.

Lemma app_inv_len : forall (A : Type) (a a' b b' : list A),
  length a = length a' -> a ++ b = a' ++ b' -> a = a' /\ b = b'.
Proof.
  induction a as [| x a IH]; destruct a' as [| y a']; cbn; intros b b' HL H; try discriminate.
  - auto.
  - injection H as -> H. injection HL as HL. destruct (IH _ _ _ HL H) as [-> ->]. auto.
Qed.

Lemma firstn_app_len : forall (A : Type) (a b : list A) n, length a = n -> firstn n (a ++ b) = a.
Proof. intros A a b n <-. rewrite firstn_app, Nat.sub_diag, firstn_all. cbn. apply app_nil_r. Qed.

Lemma bytes_n_spec : forall n l, bytes_n n l = true -> length l = n /\ forallb is_byte l = true.
Proof. intros n l H. unfold bytes_n in H. apply andb_true_iff in H. now rewrite Nat.eqb_eq in H. Qed.

Lemma hdr_wf_spec : forall h, hdr_wf h = true ->
  -2147483648 <= h_height h < 2147483648 /\ -32768 <= h_version h < 32768 /\
  bytes_n 12 (h_prev h) = true /\ bytes_n 9 (h_ks1 h) = true /\ bytes_n 9 (h_ks2 h) = true /\
  bytes_n 16 (h_merkle h) = true /\
  0 <= h_ts h < 4294967296 /\ -2147483648 <= h_diff h < 2147483648 /\ 0 <= h_nonce h < 18446744073709551616.
Proof.
  intros h H. unfold hdr_wf in H. repeat (apply andb_prop in H; destruct H as [H ?]).
  repeat split; try assumption; (apply Z.leb_le || apply Z.ltb_lt); assumption.
Qed.

Lemma nonce40_spec : forall h, nonce40 h = true -> 0 <= h_nonce h < 1099511627776.
Proof. intros h H. apply andb_prop in H. split; [apply Z.leb_le | apply Z.ltb_lt]; apply H. Qed.

Lemma bytes_app : forall n m a b, bytes_n n a = true -> bytes_n m b = true -> bytes_n (n + m) (a ++ b) = true.
Proof.
  intros n m a b [<- A]%bytes_n_spec [<- B]%bytes_n_spec. unfold bytes_n.
  now rewrite app_length, Nat.eqb_refl, forallb_app, A, B.
Qed.

Lemma app_inv_bytes : forall n (a a' b b' : list Z),
  bytes_n n a = true -> bytes_n n a' = true -> a ++ b = a' ++ b' -> a = a' /\ b = b'.
Proof. intros n a a' b b' [A _]%bytes_n_spec [A' _]%bytes_n_spec. apply app_inv_len. congruence. Qed.

Lemma skipn_bytes_app : forall n m (a b : list Z), bytes_n n a = true -> skipn (n + m) (a ++ b) = skipn m b.
Proof.
  intros n m a b [<- _]%bytes_n_spec. rewrite skipn_app, skipn_all2, Nat.add_comm, Nat.add_sub by lia. reflexivity.
Qed.

Lemma be_bytes_n : forall n z, bytes_n n (be n z) = true.
Proof. intros. unfold bytes_n. now rewrite be_length, Nat.eqb_refl, be_bytes. Qed.

Lemma hdr_raw_bytes : forall h, hdr_wf h = true -> bytes_n 65 (hdr_raw h) = true.
Proof.
  intros h W. destruct (hdr_wf_spec h W) as (_ & _ & P & K1 & K2 & M & _). unfold hdr_raw.
  apply (bytes_app 4 61), (bytes_app 2 59), (bytes_app 12 47), (bytes_app 9 38), (bytes_app 9 29),
    (bytes_app 16 13), (bytes_app 4 9), (bytes_app 4 5); auto using be_bytes_n.
Qed.

(** the nine chunks have fixed lengths, so equal strings have equal chunks, and each numeric chunk determines
    its field within the type's range (the nonce within its 5 bytes) *)
Lemma hdr_raw_injective_lemma : forall h1 h2,
  hdr_wf h1 = true -> hdr_wf h2 = true -> nonce40 h1 = true -> nonce40 h2 = true ->
  hdr_raw h1 = hdr_raw h2 -> h1 = h2.
Proof.
  intros h1 h2 W1 W2 N1 N2 E.
  apply hdr_wf_spec in W1 as (A1 & A2 & A3 & A4 & A5 & A6 & A7 & A8 & _).
  apply hdr_wf_spec in W2 as (B1 & B2 & B3 & B4 & B5 & B6 & B7 & B8 & _).
  apply nonce40_spec in N1, N2.
  destruct h1 as [a1 a2 a3 a4 a5 a6 a7 a8 a9], h2 as [b1 b2 b3 b4 b5 b6 b7 b8 b9].
  unfold hdr_raw in E. cbn [h_height h_version h_prev h_ks1 h_ks2 h_merkle h_ts h_diff h_nonce] in *.
  apply (app_inv_bytes 4) in E as [E1 E]; auto using be_bytes_n.
  apply (app_inv_bytes 2) in E as [E2 E]; auto using be_bytes_n.
  apply (app_inv_bytes 12) in E as [-> E]; auto.
  apply (app_inv_bytes 9) in E as [-> E]; auto.
  apply (app_inv_bytes 9) in E as [-> E]; auto.
  apply (app_inv_bytes 16) in E as [-> E]; auto.
  apply (app_inv_bytes 4) in E as [E7 E]; auto using be_bytes_n.
  apply (app_inv_bytes 4) in E as [E8 E9]; auto using be_bytes_n.
  rewrite (be_inj 4 4294967296 (-2147483648) a1 b1 eq_refl A1 B1 E1).
  rewrite (be_inj 2 65536 (-32768) a2 b2 eq_refl A2 B2 E2).
  rewrite (be_inj 4 4294967296 0 a7 b7 eq_refl A7 B7 E7).
  rewrite (be_inj 4 4294967296 (-2147483648) a8 b8 eq_refl A8 B8 E8).
  rewrite (be_inj 5 1099511627776 0 a9 b9 eq_refl N1 N2 E9).
  reflexivity.
Qed.

(** without the 40-bit premise the statement is false: setNonce(2^40) and setNonce(0) serialise alike *)
Definition nonce_wit (n : Z) : vhdr :=
  mkVhdr 1 2 (repeat 0 12) (repeat 0 9) (repeat 0 9) (repeat 0 16) 5 6 n.
Lemma hdr_raw_injective_all_nonces_refuted_lemma :
  exists h1 h2, hdr_wf h1 = true /\ hdr_wf h2 = true /\ h1 <> h2 /\ hdr_raw h1 = hdr_raw h2.
Proof.
  exists (nonce_wit 0), (nonce_wit 1099511627776).
  split; [vm_compute; reflexivity|]. split; [vm_compute; reflexivity|].
  split; [intro E; discriminate E | vm_compute; reflexivity].
Qed.

Lemma to_i32_mod : forall z, -2147483648 <= z < 2147483648 -> to_i32 (z mod 4294967296) = z.
Proof.
  intros z Hz. unfold to_i32. destruct (Z_lt_le_dec z 0).
  - rewrite <- (Z_mod_plus_full z 1), Z.mod_small by lia.
    destruct (Z.ltb_spec (z + 1 * 4294967296) 2147483648); lia.
  - rewrite Z.mod_small by lia. destruct (Z.ltb_spec z 2147483648); lia.
Qed.

Lemma raw_reads_lemma : forall h, hdr_wf h = true ->
  raw_height (hdr_raw h) = h_height h /\
  raw_epoch (hdr_raw h) = (((Z.quot (h_height h) 8000) mod 4294967296) + 323) mod 4294967296 /\
  raw_nonce (hdr_raw h) = h_nonce h mod 1099511627776.
Proof.
  intros h W. destruct (hdr_wf_spec h W) as (HH & _ & P & K1 & K2 & M & _).
  assert (EH : raw_height (hdr_raw h) = h_height h).
  { unfold raw_height, hdr_raw. rewrite firstn_app_len, unbe_be by apply be_length. now apply to_i32_mod. }
  split; [exact EH |]. split.
  - unfold raw_epoch. now rewrite EH.
  - unfold raw_nonce, hdr_raw.
    rewrite (skipn_bytes_app 4 56), (skipn_bytes_app 2 54), (skipn_bytes_app 12 42), (skipn_bytes_app 9 33),
      (skipn_bytes_app 9 24), (skipn_bytes_app 16 8), (skipn_bytes_app 4 4), (skipn_bytes_app 4 0)
      by auto using be_bytes_n.
    apply unbe_be.
Qed.

Lemma kernel_inputs_injective_lemma : forall r1 r2,
  bytes_n 65 r1 = true -> bytes_n 65 r2 = true -> kernel_inputs r1 = kernel_inputs r2 -> r1 = r2.
Proof.
  assert (T : forall r, bytes_n 65 r = true -> skipn 60 r = be 5 (raw_nonce r)).
  { intros r B. apply bytes_n_spec in B as [L Y].
    rewrite <- (firstn_skipn 60 r), forallb_app in Y. apply andb_true_iff, proj2, be_unbe in Y.
    rewrite skipn_length, L in Y. symmetry. exact Y. }
  intros r1 r2 B1 B2 E. unfold kernel_inputs in E. injection E as _ En Ep. unfold raw_prefix in Ep.
  rewrite <- (firstn_skipn 60 r1), <- (firstn_skipn 60 r2), (T r1 B1), (T r2 B2). congruence.
Qed.

(** the hypotheses are met by distinct concrete headers (negative height, all-ones bytes, maximal nonce) *)
Definition ex_hdr (hgt nn : Z) : vhdr :=
  mkVhdr hgt (-2) (repeat 255 12) (repeat 1 9) (repeat 2 9) (repeat 3 16) 4294967295 (-1) nn.
Example hdr_satisfiable :
  hdr_wf (ex_hdr (-8001) 1099511627775) = true /\ nonce40 (ex_hdr (-8001) 1099511627775) = true /\
  hdr_wf (ex_hdr 16000 7) = true /\ nonce40 (ex_hdr 16000 7) = true /\
  hdr_raw (ex_hdr (-8001) 1099511627775) <> hdr_raw (ex_hdr 16000 7) /\
  raw_epoch (hdr_raw (ex_hdr (-8001) 1099511627775)) = 322 /\ raw_epoch (hdr_raw (ex_hdr 16000 7)) = 325.
Proof. repeat split; try (vm_compute; reflexivity). vm_compute. intro E. discriminate E. Qed.
