(** C16 — pool shape, progress (no deadlock), stop()/start() *)
From Coq Require Import List Arith Lia Permutation.
From VB Require Import Conc.ValidatorDefs Conc.ListUpd Conc.ValidatorProofs.
Import ListNotations.

Definition exited (wk : worker) : bool := match wst wk with WExited => true | _ => false end.
Definition exit_flags (s : state) : list bool := map exited (workers s).

(** stop() joins the workers in order: while it runs exactly the first k have exited *)
Definition pool_ok (s : state) : Prop :=
  match pst s with
  | PRun => workers s <> [] /\ exit_flags s = repeat false (length (workers s))
  | PStopping k => k < length (workers s) /\
                   exit_flags s = repeat true k ++ repeat false (length (workers s) - k)
  | PStopped => workers s = []
  end.

Definition pending_held (s : state) : Prop :=
  forall j, j < posted s -> nth_error (futures s) j = Some FPending -> exists t, In t (holders s) /\ tid t = j.

Record Inv2 (s : state) : Prop := mkInv2 { j_pool : pool_ok s; j_held : pending_held s }.

Lemma wmove_exited : forall ws l ws', wmove ws l ws' -> map exited ws' = map exited ws.
Proof.
  destruct 1 as [i t q W | i d t q std wk D W WI | i q t W].
  - now apply (map_upd_same _ _ exited _ _ _ _ W).
  - rewrite (map_upd_same _ _ exited _ _ _ _ W); [now apply (map_upd_same _ _ exited _ _ _ _ D) |].
    unfold exited; simpl. now rewrite WI.
  - now apply (map_upd_same _ _ exited _ _ _ _ W).
Qed.

Lemma exited_iff : forall ws k m i wk,
  map exited ws = repeat true k ++ repeat false m -> nth_error ws i = Some wk -> (exited wk = true <-> i < k).
Proof.
  intros ws k m i wk E W. apply (map_nth_error exited) in W. rewrite E in W. clear E. revert i W.
  induction k; simpl; intros i W.
  - apply nth_error_repeat_inv in W as [-> _]. split; [discriminate | lia].
  - destruct i; simpl in W; [injection W as <-; split; auto; lia |]. rewrite (IHk _ W). lia.
Qed.

Lemma exit_next : forall k ws m,
  map exited ws = repeat true k ++ repeat false (S m) ->
  map exited (upd k (set_st WExited) ws) = repeat true (S k) ++ repeat false m.
Proof.
  induction k; intros [| wk ws] m E; try discriminate; injection E as E1 E2.
  - simpl. now rewrite E2.
  - change (exited wk :: map exited (upd k (set_st WExited) ws) = true :: repeat true (S k) ++ repeat false m).
    now rewrite E1, (IHk _ _ E2).
Qed.

Lemma parked_holders : forall ws, (forall wk, In wk ws -> wst wk = WIdle \/ wst wk = WExited) ->
  flat_map holders_w ws = flat_map wq ws.
Proof.
  induction ws as [| wk ws IH]; simpl; intros H; auto. rewrite IH by auto. f_equal.
  unfold holders_w. destruct (H wk) as [-> | ->]; auto using app_nil_r.
Qed.

Lemma no_holders_parked : forall ws, flat_map holders_w ws = [] ->
  forall wk, In wk ws -> wq wk = [] /\ (wst wk = WIdle \/ wst wk = WExited).
Proof.
  intros ws NH wk K.
  assert (HW : holders_w wk = []).
  { destruct (holders_w wk) as [| t r] eqn:E; auto.
    assert (X : In t (flat_map holders_w ws)); [| now rewrite NH in X].
    apply in_flat_map. exists wk. rewrite E. simpl; auto. }
  unfold holders_w in HW. apply app_eq_nil in HW as [-> Hs]. split; auto.
  destruct (wst wk); auto; discriminate.
Qed.

Lemma pool_ok_fresh : forall n, n <> 0 ->
  repeat idle_worker n <> [] /\ map exited (repeat idle_worker n) = repeat false (length (repeat idle_worker n)).
Proof.
  intros n N. split; [destruct n; [easy | discriminate] |].
  rewrite repeat_length. clear N. induction n; simpl; auto. now rewrite IHn.
Qed.

Lemma pool_ok_same : forall s s', exit_flags s' = exit_flags s -> pst s' = pst s -> pool_ok s -> pool_ok s'.
Proof.
  intros s s' E PS J1.
  assert (L : length (workers s') = length (workers s)).
  { apply (f_equal (@length bool)) in E. unfold exit_flags in E. now rewrite !map_length in E. }
  unfold pool_ok in *. rewrite PS, E, L. destruct (pst s); auto.
  - destruct J1 as [N ?]; split; auto. intros X. rewrite X in L. destruct (workers s); [auto | discriminate].
  - rewrite J1 in L. destruct (workers s'); auto; discriminate.
Qed.

Lemma pending_held_same : forall s s',
  Permutation (holders s') (holders s) -> futures s' = futures s -> posted s' = posted s ->
  pending_held s -> pending_held s'.
Proof.
  unfold pending_held. intros s s' P F PO J2 j. rewrite PO, F. intros H1 H2. destruct (J2 j H1 H2) as [t T].
  exists t. now rewrite P.
Qed.

Lemma Inv2_same : forall s s',
  Permutation (holders s') (holders s) -> exit_flags s' = exit_flags s -> pst s' = pst s -> futures s' = futures s ->
  posted s' = posted s -> Inv2 s -> Inv2 s'.
Proof. intros s s' P E PS F PO [J1 J2]. constructor; [apply (pool_ok_same s) | apply (pending_held_same s)]; auto. Qed.

Lemma Inv2_init : forall w c, Inv2 (init w c).
Proof.
  intros. constructor.
  - apply pool_ok_fresh. lia.
  - unfold pending_held, posted; simpl. intros; lia.
Qed.

Lemma break_all_breaks : forall ts fs t,
  In t ts -> tid t < length fs -> nth_error (break_all ts fs) (tid t) = Some FBroken.
Proof.
  induction ts; simpl; intros fs t H L; [tauto |].
  change (break_all (a :: ts) fs) with (break_all ts (upd (tid a) (fun _ => FBroken) fs)).
  destruct H as [-> | H].
  - assert (B : nth_error (upd (tid t) (fun _ => FBroken) fs) (tid t) = Some FBroken).
    { rewrite nth_error_upd, Nat.eqb_refl. destruct (nth_error fs (tid t)) eqn:E; auto.
      apply nth_error_None in E. lia. }
    destruct (break_all_nth ts (upd (tid t) (fun _ => FBroken) fs) (tid t)) as [X | [X _]]; congruence.
  - apply IHts; auto. now rewrite upd_length.
Qed.

Lemma Inv2_step : forall l s s', Inv s -> Inv2 s -> step false l s = Some s' -> Inv2 s'.
Proof.
  intros l s s' I [J1 J2] H. step_cases I H.
  - (* call *)
    constructor; [exact J1 |]. unfold pending_held. rewrite posted_after_post by lia. intros; lia.
  - (* post *)
    pose proof (push_holders _ _ _ t W) as PH.
    constructor.
    + apply (pool_ok_same s); auto. now apply (map_upd_same _ _ exited _ _ _ _ W).
    + unfold pending_held. rewrite posted_after_post by lia. unfold holders; simpl. intros j H1 H2.
      setoid_rewrite PH. destruct (Nat.eq_dec j k) as [-> | N].
      * exists t. split; [now left | apply (i_cur _ I _ _ Ck)].
      * destruct (J2 j) as [t' [T1 T2]]; auto. { unfold posted; rewrite M; lia. }
        exists t'. split; auto. now right.
  - (* abort *)
    apply (Inv2_same s); auto. now split.
  - (* pop, steal, run *)
    apply (Inv2_same s); [.. | now split]; auto.
    + exact (wmove_holders _ _ _ WM).
    + exact (wmove_exited _ _ _ WM).
  - (* fulfil *)
    pose proof (fulfil_holders _ _ _ _ W) as P1.
    constructor.
    + apply (pool_ok_same s); auto. now apply (map_upd_same _ _ exited _ _ _ _ W).
    + change (forall j, j < posted s ->
        nth_error (upd (tid t) (fun _ => FReady (tvalid t)) (futures s)) j = Some FPending ->
        exists t', In t' (flat_map holders_w (upd i (set_st WIdle) (workers s))) /\ tid t' = j).
      intros j H1 H2. rewrite nth_error_upd in H2. destruct (tid t =? j) eqn:E.
      * destruct (nth_error (futures s) j); discriminate.
      * destruct (J2 j H1 H2) as [t' [T1 T2]]. exists t'. split; auto.
        unfold holders in T1. rewrite P1 in T1. destruct T1 as [<- | T1]; auto.
        apply Nat.eqb_neq in E. congruence.
  - (* wait *)
    apply (Inv2_same s); [.. | now split]; auto. unfold posted; simpl. rewrite M. now destruct WT.
  - (* stopreq *)
    constructor; [| exact J2]. unfold pool_ok in *; simpl. rewrite P in J1. destruct J1 as [A B]. split.
    + destruct (workers s); simpl; [tauto | lia].
    + now rewrite Nat.sub_0_r.
  - (* join *)
    unfold pool_ok in J1. rewrite P in J1. destruct J1 as [A B]. constructor.
    + unfold pool_ok, exit_flags; simpl. rewrite upd_length. split; [lia |]. apply exit_next.
      now replace (S (length (workers s) - S k)) with (length (workers s) - k) by lia.
    + apply (pending_held_same s); auto. exact (exit_holders _ _ _ W).
  - (* last join: what was held sat in a queue and now has a broken promise *)
    unfold pool_ok in J1. rewrite P in J1. destruct J1 as [A B]. constructor; [reflexivity |].
    set (Q := flat_map wq (workers s)).
    change (forall j, j < posted s -> nth_error (break_all Q (futures s)) j = Some FPending ->
                      exists t, In t [] /\ tid t = j).
    intros j H1 H2. exfalso.
    destruct (break_all_nth Q (futures s) j) as [X | [X _]]; rewrite X in H2; [| discriminate].
    destruct (J2 j H1 H2) as [t [T1 <-]].
    assert (TL : tid t < length (futures s)).
    { rewrite (i_len _ I). apply nth_error_Some. destruct (i_hold _ I t T1) as [_ [Y _]]. congruence. }
    unfold holders in T1. rewrite parked_holders in T1.
    + rewrite (break_all_breaks Q _ _ T1 TL) in X. congruence.
    + intros wk' K. apply In_nth_error in K as [i' K].
      assert (i' < S k) by (rewrite L; apply nth_error_Some; congruence).
      destruct (Nat.eq_dec i' k) as [-> | N]; [rewrite W in K; injection K as <-; now left | right].
      assert (E : exited wk' = true) by (apply (exited_iff _ _ _ _ _ B K); lia).
      unfold exited in E. now destruct (wst wk').
  - (* start *)
    unfold pool_ok in J1. rewrite P in J1. constructor.
    + apply pool_ok_fresh. lia.
    + apply (pending_held_same s); auto. unfold holders; simpl. now rewrite holders_repeat_idle, J1.
Qed.

Lemma Inv2_reach : forall w c sched, Inv (run false sched (init w c)) /\ Inv2 (run false sched (init w c)).
Proof.
  intros. apply (run_preserves (fun s => Inv s /\ Inv2 s) (fun _ => true)).
  - intros l s s' [I J] _ H. split; [eapply Inv_step | eapply Inv2_step]; eauto.
  - induction sched; auto.
  - split; [apply Inv_init | apply Inv2_init].
Qed.

(** labels of the main thread inside checkPopData and of the workers *)
Definition inner (l : label) : bool :=
  match l with LPost | LPop _ | LSteal _ | LRun _ | LFulfil _ | LWait => true | _ => false end.

Lemma holder_moves : forall s i wk t,
  aborted s = false -> nth_error (workers s) i = Some wk -> exited wk = false -> In t (holders_w wk) ->
  exists l s', inner l = true /\ step false l s = Some s'.
Proof.
  intros s i [q st] t AB W NE K. unfold step. rewrite AB. unfold exited in NE. unfold holders_w in K.
  destruct st; simpl in *; try discriminate.
  - rewrite app_nil_r in K. destruct q as [| t0 q]; [destruct K |].
    exists (LPop i). unfold step_pop. rewrite W. eauto.
  - exists (LRun i). unfold step_run. rewrite W. eauto.
  - exists (LFulfil i). unfold step_fulfil. rewrite W. eauto.
Qed.

Lemma progress_state : forall s, Inv s -> Inv2 s -> aborted s = false -> pst s = PRun ->
  quiescent_main (main s) = false -> exists l s', inner l = true /\ step false l s = Some s'.
Proof.
  intros s I [J1 J2] AB P Q.
  pose proof (i_main _ I) as M. unfold main_ok, main_ok_m in M.
  unfold pool_ok in J1. rewrite P in J1. destruct J1 as [WN EX].
  destruct (main s) as [| k | k | k | |] eqn:E; try discriminate; try tauto.
  - (* posting *)
    exists LPost. unfold step. rewrite AB. unfold step_post. rewrite E, P.
    destruct (nth_error (cur s) k) eqn:C. 2:{ apply nth_error_None in C. lia. }
    destruct (nth_error (workers s) (nextw s mod length (workers s))) eqn:W.
    + destruct (length (wq w) <? qcap s); eauto.
    + apply nth_error_None in W. destruct (workers s); [tauto |].
      pose proof (Nat.mod_upper_bound (nextw s) (length (w :: l))). simpl in *. lia.
  - (* waiting *)
    destruct M as [M1 M2].
    assert (WT : forall s', step_wait s = Some s' -> exists l s', inner l = true /\ step false l s = Some s').
    { intros s' H. exists LWait, s'. unfold step. now rewrite AB. }
    unfold step_wait in WT. rewrite E in WT.
    destruct (nth_error (futures s) k) as [f |] eqn:F.
    + destruct f; eauto.
      (* pending: its task is held by a worker that can move *)
      assert (Kp : k < posted s).
      { unfold posted. rewrite E. rewrite <- (i_len _ I). apply nth_error_Some. congruence. }
      destruct (J2 k Kp F) as [t [T1 T2]].
      unfold holders in T1. apply in_flat_map in T1 as [wk [K1 K2]]. apply In_nth_error in K1 as [i K1].
      apply (holder_moves s i wk t); auto.
      destruct (exited wk) eqn:X; auto. apply (exited_iff _ 0 _ _ _ EX K1) in X. lia.
    + (* all futures are settled, so the scan does not block *)
      pose proof (scan_stuck (futures s) 0 (curdup s)) as NB.
      destruct (scan 0 (futures s) (curdup s)); eauto.
      apply In_nth_error in NB as [j NB]. destruct (M2 j); auto.
      apply nth_error_None in F. assert (j < length (futures s)) by (apply nth_error_Some; congruence). lia.
Qed.

Lemma stop_restart_state : forall s,
  Inv s -> pool_ok s -> aborted s = false -> quiescent_main (main s) = true ->
  (forall k, pst s = PStopping k ->
     exists s', step false LJoin s = Some s' /\ futures s' = futures s /\ holders s' = [] /\ main s' = main s) /\
  (pst s = PStopped ->
     holders s = [] /\
     forall w', exists s', step false (LStart w') s = Some s' /\ pst s' = PRun /\
                workers s' = repeat idle_worker (Nat.max 1 w') /\ main s' = main s /\ aborted s' = false).
Proof.
  intros s I J1 AB Q.
  pose proof (quiescent_no_holders _ I Q) as NH. pose proof (no_holders_parked _ NH) as PK.
  unfold step. rewrite AB. split.
  - (* worker k has not exited and holds nothing, so it is idle with an empty queue *)
    intros k P. unfold pool_ok in J1. rewrite P in J1. destruct J1 as [A B].
    destruct (nth_error (workers s) k) as [[q st] |] eqn:W. 2:{ apply nth_error_None in W. lia. }
    destruct (PK _ (nth_error_In _ _ W)) as [Eq [Ei | Ee]]; simpl in *; subst.
    2:{ assert (k < k) by (now apply (exited_iff _ _ _ _ _ B W)). lia. }
    assert (HQ : flat_map wq (upd k (set_st WExited) (workers s)) = []).
    { rewrite queues_upd_st, <- parked_holders; [exact NH | apply PK]. }
    unfold step_join. rewrite P, W. destruct (S k =? length (workers s)).
    + eexists; split; [reflexivity |]. simpl. now rewrite HQ.
    + eexists; split; [reflexivity |]. simpl. repeat split.
      apply Permutation_nil. rewrite <- NH. symmetry. exact (exit_holders _ _ _ W).
  - intros P. split; auto. intros w'. unfold step_start. rewrite P.
    eexists; split; [reflexivity |]. simpl. auto.
Qed.

Definition NoAbortInv (c : nat) (s : state) : Prop :=
  pst s = PRun /\ aborted s = false /\ qcap s = c /\ length (cur s) <= c.

(** held tasks are distinct posted tasks of the current call, so no queue is longer than [posted] *)
Lemma queue_bound : forall s wk, Inv s -> In wk (workers s) -> length (wq wk) <= posted s.
Proof.
  intros s wk I W.
  assert (B1 : length (wq wk) <= length (holders s)).
  { unfold holders. induction (workers s) as [| a ws IH]; simpl in *; [tauto |]. rewrite app_length.
    destruct W as [-> | W]; [unfold holders_w; rewrite app_length | apply IH in W]; lia. }
  assert (B2 : incl (map tid (holders s)) (seq 0 (posted s))).
  { intros j H. apply in_map_iff in H as [t [<- H2]]. apply (i_hold _ I) in H2. apply in_seq. lia. }
  apply NoDup_incl_length in B2; [| apply (i_nodup _ I)].
  rewrite map_length, seq_length in B2. lia.
Qed.

Lemma NoAbort_step : forall c l s s', Inv s -> NoAbortInv c s -> sizes_ok c l = true ->
  step false l s = Some s' -> NoAbortInv c s'.
Proof.
  unfold NoAbortInv. intros c l s s' I [PR [A [QC LC]]] SZ H. step_cases I H; try discriminate; simpl; auto.
  - rewrite mk_tasks_length. apply Nat.leb_le in SZ. auto.
  - destruct AB as [k wk M _ W LQ | NP | w P]; [| congruence | discriminate].
    pose proof (queue_bound s wk I W) as B. unfold posted in B. rewrite M in B.
    pose proof (i_main _ I) as MO. unfold main_ok in MO. rewrite M in MO. simpl in MO. lia.
Qed.

Lemma NoAbort_run : forall w c sched, forallb (sizes_ok c) sched = true ->
  let s := run false sched (init w c) in Inv s /\ Inv2 s /\ NoAbortInv c s.
Proof.
  intros w c sched H. apply (run_preserves (fun s => Inv s /\ Inv2 s /\ NoAbortInv c s) (sizes_ok c)); auto.
  - intros l s s' [I [J N]] SZ ST.
    split; [eapply Inv_step | split; [eapply Inv2_step | eapply NoAbort_step]]; eauto.
  - split; [apply Inv_init | split; [apply Inv2_init |]]. unfold NoAbortInv; simpl. repeat split; auto. lia.
Qed.
