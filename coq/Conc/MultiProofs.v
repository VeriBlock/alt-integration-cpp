(** C16 — with several clients on one pool, each client's verdict depends only on its own payloads *)
From Coq Require Import List Arith Bool.
From VB Require Import Conc.ValidatorDefs Conc.ListUpd Conc.ValidatorProofs Conc.MultiDefs.
Import ListNotations.

Definition client_spec (progs : list (list bool * bool)) (c : nat) (v : verdict) : Prop :=
  exists vs dup, nth_error progs c = Some (vs, dup) /\ v = seq_verdict (mk_tasks 0 0 vs) dup.

Definition futs_ok (vs : list bool) (fs : list fut) : Prop :=
  length fs = length vs /\
  forall i, match nth_error fs i with
            | Some (FReady b) => nth_error vs i = Some b
            | Some FBroken => False
            | _ => True
            end.

Lemma futs_ok_ready : forall vs fs i b,
  futs_ok vs fs -> nth_error vs i = Some b -> futs_ok vs (upd i (fun _ => FReady b) fs).
Proof.
  intros vs fs i b [L R] B. split; [now rewrite upd_length |].
  intros j. rewrite nth_error_upd. destruct (i =? j) eqn:E; [| apply R].
  apply Nat.eqb_eq in E. subst j. now destruct (nth_error fs i).
Qed.

Lemma futs_ok_scan : forall vs fs dup,
  futs_ok vs fs ->
  match scan 0 fs dup with
  | SVerdict v => v = seq_verdict (mk_tasks 0 0 vs) dup
  | SThrow => False
  | SBlocked => True
  end.
Proof.
  intros vs fs dup [L R]. destruct (scan 0 fs dup) as [v | |] eqn:SC; auto.
  - unfold seq_verdict. apply (scan_correct fs (mk_tasks 0 0 vs) 0 dup v); auto.
    + now rewrite mk_tasks_length.
    + intros j u X. specialize (R j). rewrite X in R.
      rewrite mk_tasks_nth, R. simpl. eauto.
  - pose proof (scan_stuck fs 0 dup) as X. rewrite SC in X. apply In_nth_error in X as [j X].
    specialize (R j). now rewrite X in R.
Qed.

Record MInv (progs : list (list bool * bool)) (s : mstate) : Prop := mkMInv {
  m_futs : forall c fs vs dup, nth_error (mfuts s) c = Some fs -> nth_error progs c = Some (vs, dup) -> futs_ok vs fs;
  m_pend : forall t, In t (mpend s) ->
           exists vs dup, nth_error progs (mc t) = Some (vs, dup) /\ nth_error vs (mi t) = Some (mv t);
  m_res : forall c r, nth_error (mresults s) c = Some r ->
          match r with MRunning => True | MRet v => client_spec progs c v | MThrown => False end
}.

Lemma MInv_init : forall progs, MInv progs (minit progs).
Proof.
  intros. constructor; unfold minit; simpl.
  - intros c fs vs dup H EP. rewrite nth_error_map, EP in H. injection H as <-. split; [apply repeat_length |].
    intros i. destruct (nth_error _ i) as [f |] eqn:X; auto.
    apply nth_error_repeat_inv in X as [-> _]. exact I.
  - intros t [].
  - intros c r H. rewrite nth_error_map in H. destruct (nth_error progs c); simpl in H; try discriminate.
    inversion H; subst. exact I.
Qed.

Lemma in_remove_nth : forall A (l : list A) j x, In x (remove_nth j l) -> In x l.
Proof. induction l; destruct j; simpl; intros; auto. destruct H; auto. right; eauto. Qed.

Lemma MInv_step : forall progs l s s', MInv progs s -> mstep false progs l s = Some s' -> MInv progs s'.
Proof.
  intros progs l s s' [F P R] H. destruct l as [c | j | c]; simpl in H.
  - (* post *)
    destruct (nth_error progs c) as [[vs dup] |] eqn:EP; try discriminate.
    destruct (nth_error (mposted s) c) as [k |]; try discriminate.
    destruct (nth_error (mresults s) c) as [[] |]; try discriminate.
    destruct (nth_error vs k) as [v |] eqn:EV; try discriminate.
    injection H as <-. constructor; simpl; auto.
    intros t Ht. apply in_app_or in Ht as [Ht | [<- | []]]; auto. simpl. eauto.
  - (* run *)
    destruct (nth_error (mpend s) j) as [t |] eqn:ET; try discriminate.
    injection H as <-.
    destruct (P t (nth_error_In _ _ ET)) as [vs [dup [T1 T2]]].
    constructor; simpl; auto.
    + intros c fs vs' dup' H EP. rewrite nth_error_upd in H. destruct (mc t =? c) eqn:E; [| now apply (F c _ _ dup')].
      apply Nat.eqb_eq in E. subst c. rewrite T1 in EP. injection EP as <- <-.
      destruct (nth_error (mfuts s) (mc t)) as [fs0 |] eqn:E0; [| discriminate]. injection H as <-.
      apply futs_ok_ready; auto. exact (F _ _ _ _ E0 T1).
    + intros t' Ht'. apply P. eapply in_remove_nth; eauto.
  - (* return: the client's own futures decide *)
    destruct (nth_error progs c) as [[vs dup] |] eqn:EP; try discriminate.
    destruct (nth_error (mposted s) c) as [k |]; try discriminate.
    destruct (nth_error (mresults s) c) as [[] |]; try discriminate.
    destruct (nth_error (mfuts s) c) as [fs |] eqn:EF; try discriminate.
    destruct ((k =? length vs) && all_ready fs); try discriminate.
    pose proof (futs_ok_scan vs fs dup (F _ _ _ _ EF EP)) as SC.
    destruct (scan 0 fs dup) as [v | |]; [| destruct SC | discriminate].
    replace s' with (mkMS (mpend s) (mfuts s) (mposted s) (upd c (fun _ => MRet v) (mresults s)))
      by (destruct v; congruence).
    constructor; simpl; auto. intros c' r X. rewrite nth_error_upd in X. destruct (c =? c') eqn:E; [| now apply R].
    apply Nat.eqb_eq in E. subst c'. destruct (nth_error (mresults s) c); [| discriminate].
    injection X as <-. now exists vs, dup.
Qed.

Lemma MInv_run : forall progs sched s, MInv progs s -> MInv progs (mrun false progs sched s).
Proof.
  unfold mrun. induction sched; simpl; intros; auto. apply IHsched.
  destruct (mstep false progs a s) eqn:E; auto. eapply MInv_step; eauto.
Qed.

(** if clear() restarted the pool: client 1's invalid PopData destroys client 0's two queued checks *)
Definition restart_witness_progs : list (list bool * bool) := [([true; true], false); ([false], false)].
Definition restart_witness_sched : list mlabel :=
  [MLPost 0; MLPost 0; MLPost 1; MLRun 2; MLReturn 1; MLReturn 0].

Example same_schedule_current_code :
  mresults (mrun false restart_witness_progs (restart_witness_sched ++ [MLRun 0; MLRun 0; MLReturn 0])
                 (minit restart_witness_progs)) = [MRet VValid; MRet (VInvalid 0)].
Proof. vm_compute. reflexivity. Qed.
