(** C16 — the ring buffer refines a bounded FIFO (sequential executions) *)
From Coq Require Import List Arith Lia.
From VB Require Import Conc.ValidatorDefs Conc.ListUpd Conc.RingDefs.
Import ListNotations.

Lemma mod_distinct : forall s a b, a < b -> b < a + s -> a mod s <> b mod s.
Proof.
  intros s a b Hab Hb E.
  pose proof (Nat.div_mod_eq a s) as Da. pose proof (Nat.div_mod_eq b s) as Db. rewrite E in Da.
  (* b - a is a multiple of s strictly between 0 and s *)
  assert (D : b - a = s * (b / s - a / s)) by (rewrite Nat.mul_sub_distr_l; lia).
  destruct (b / s - a / s); lia.
Qed.

Lemma mod_plus : forall s a, 0 < s -> (a + s) mod s = a mod s.
Proof. intros. rewrite <- (Nat.mul_1_l s) at 1. apply Nat.mod_add. lia. Qed.

Lemma nth_upd_eq : forall A (f : A -> A) l i d, i < length l -> nth i (upd i f l) d = f (nth i l d).
Proof. induction l; destruct i; simpl; intros; try lia; auto. apply IHl. lia. Qed.

Lemma nth_upd_neq : forall A (f : A -> A) l i j d, i <> j -> nth j (upd i f l) d = nth j l d.
Proof. induction l; destruct i, j; simpl; intros; try lia; auto. Qed.

Section RingProofs.
Variable A : Type.
Notation ring := (ring A).
Notation d0 := (0, @None A).

(** positions deq <= p < enq hold the queue, published (sequence p + 1); the others up to deq + size are free
    (sequence p) *)
Definition RInv (size : nat) (r : ring) (q : list A) : Prop :=
  length (cells A r) = size /\ 2 <= size /\ deq A r <= enq A r /\ enq A r <= deq A r + size /\
  length q = enq A r - deq A r /\
  (forall p, deq A r <= p < enq A r ->
     exists x, nth_error q (p - deq A r) = Some x /\ nth (p mod size) (cells A r) d0 = (S p, Some x)) /\
  (forall p, enq A r <= p < deq A r + size -> fst (nth (p mod size) (cells A r) d0) = p).

Lemma ring_init_length : forall size, length (cells A (ring_init A size)) = size.
Proof. intros. cbn. now rewrite map_length, seq_length. Qed.

Lemma ring_init_nth : forall size p, p < size -> nth p (cells A (ring_init A size)) d0 = (p, None).
Proof. intros. cbn. change d0 with ((fun i => (i, @None A)) 0). now rewrite map_nth, seq_nth. Qed.

Lemma RInv_init : forall size, 2 <= size -> RInv size (ring_init A size) [].
Proof.
  intros size H. unfold RInv. rewrite ring_init_length. repeat split; cbn [enq deq ring_init length]; auto; try lia.
  intros p Hp. now rewrite Nat.mod_small, ring_init_nth by lia.
Qed.

Lemma RInv_push : forall size r q x, RInv size r q -> enq A r < deq A r + size ->
  RInv size (mkRing A (upd (enq A r mod size) (fun _ => (S (enq A r), Some x)) (cells A r)) (S (enq A r)) (deq A r))
       (q ++ [x]).
Proof.
  intros size r q x (L & S2 & DE & ED & LQ & FULLC & EMPTYC) F. unfold RInv. cbn [cells enq deq].
  rewrite upd_length, app_length. cbn [length]. repeat split; auto; try lia.
  - intros p Hp. destruct (Nat.eq_dec p (enq A r)) as [-> | E].
    + exists x. split.
      * rewrite nth_error_app2 by lia. replace (enq A r - deq A r - length q) with 0 by lia. reflexivity.
      * apply nth_upd_eq. rewrite L. apply Nat.mod_upper_bound. lia.
    + destruct (FULLC p) as (y & Y1 & Y2); [lia |]. exists y. split.
      * rewrite nth_error_app1; auto. lia.
      * rewrite nth_upd_neq; auto. apply not_eq_sym, mod_distinct; lia.
  - intros p Hp. rewrite nth_upd_neq; [apply EMPTYC; lia |]. apply mod_distinct; lia.
Qed.

Lemma RInv_pop : forall size r q y d, RInv size r (y :: q) ->
  RInv size (mkRing A (upd (deq A r mod size) (fun _ => (deq A r + (size - 1) + 1, d)) (cells A r)) (enq A r) (S (deq A r))) q.
Proof.
  intros size r q y d (L & S2 & DE & ED & LQ & FULLC & EMPTYC). unfold RInv. cbn [cells enq deq length] in *.
  rewrite upd_length. repeat split; auto; try lia.
  - intros p Hp. destruct (FULLC p) as (z & Z1 & Z2); [lia |]. exists z. split.
    + replace (p - deq A r) with (S (p - S (deq A r))) in Z1 by lia. exact Z1.
    + rewrite nth_upd_neq; auto. apply mod_distinct; lia.
  - intros p Hp. destruct (Nat.eq_dec p (deq A r + size)) as [-> | X].
    + rewrite mod_plus by lia. rewrite nth_upd_eq; [cbn; lia |]. rewrite L. apply Nat.mod_upper_bound. lia.
    + rewrite nth_upd_neq; [apply EMPTYC; lia |]. apply mod_distinct; lia.
Qed.

Lemma ring_step_refines : forall size o r q,
  RInv size r q ->
  fst (ring_step A o r) = fst (fifo_step A size o q) /\
  RInv size (snd (ring_step A o r)) (snd (fifo_step A size o q)).
Proof.
  intros size o r q I. pose proof I as (L & S2 & DE & ED & LQ & FULLC & EMPTYC).
  destruct o as [x |]; cbn [ring_step fifo_step]; unfold ring_push, ring_pop, cell_at; rewrite L.
  - destruct (Nat.eq_dec (enq A r) (deq A r + size)) as [F | F].
    + (* full: the cell of enq is the cell of deq, whose sequence is deq + 1 < enq *)
      destruct (FULLC (deq A r)) as (y & _ & C); [lia |].
      rewrite F, mod_plus, C, <- F by lia. cbn [fst].
      destruct (Nat.compare_spec (S (deq A r)) (enq A r)); try lia.
      destruct (Nat.ltb_spec (length q) size); [lia | auto].
    + rewrite (EMPTYC (enq A r)), Nat.compare_refl by lia.
      destruct (Nat.ltb_spec (length q) size); [| lia]. split; [reflexivity | apply RInv_push; auto; lia].
  - destruct (Nat.eq_dec (deq A r) (enq A r)) as [E | E].
    + destruct q as [| y t]; [| cbn in LQ; lia].
      rewrite (EMPTYC (deq A r)) by lia.
      destruct (Nat.compare_spec (deq A r) (S (deq A r))); try lia. auto.
    + destruct (FULLC (deq A r)) as (y & Y1 & Y2); [lia |].
      rewrite Nat.sub_diag in Y1. destruct q as [| y' t]; [discriminate |]. injection Y1 as ->.
      rewrite Y2. cbn [fst snd]. rewrite Nat.compare_refl. split; [reflexivity | now apply RInv_pop with y].
Qed.

Lemma ring_refines_fifo_lemma : forall size ops r q,
  RInv size r q -> ring_run A ops r = fifo_run A size ops q.
Proof.
  induction ops as [| o t IH]; simpl; intros r q I; auto.
  destruct (ring_step_refines size o r q I) as [E I'].
  destruct (ring_step A o r) as [a r']. destruct (fifo_step A size o q) as [a' q']. simpl in *.
  subst. f_equal. apply IH; auto.
Qed.

Lemma ring_refines_fifo_init : forall size ops,
  2 <= size -> ring_run A ops (ring_init A size) = fifo_run A size ops [].
Proof. intros. apply ring_refines_fifo_lemma. apply RInv_init; auto. Qed.

End RingProofs.
