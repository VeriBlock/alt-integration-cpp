(** C17 — value transparency of the caches, for all request sequences and all interleavings *)
From Coq Require Import List Arith Bool NArith Lia Permutation.
From VB Require Import Conc.ValidatorDefs Conc.ListUpd Conc.CacheDefs.
Import ListNotations.

Lemma in_firstn : forall A (l : list A) n x, In x (firstn n l) -> In x l.
Proof. induction l; destruct n; simpl; intros; auto; try tauto. destruct H; auto. right; eauto. Qed.

Lemma NoDup_firstn : forall A (l : list A) n, NoDup l -> NoDup (firstn n l).
Proof.
  induction l; destruct n; simpl; intros; auto; try constructor.
  - inversion H; subst. intros X. apply in_firstn in X. auto.
  - inversion H; subst. auto.
Qed.

Section CacheProofs.
Variables Hdr Key Ep Ent V : Type.
Variable hk : Hdr -> Key.
Variable key_eqb : Key -> Key -> bool.
Variable ep : Hdr -> Ep.
Variable ep_eqb : Ep -> Ep -> bool.
Variable mk : Ep -> Ent.
Variable hash : Hdr -> Ent -> V.
Variable is_zero : V -> bool.
Variable zero : V.

Hypothesis key_eqb_spec : forall a b, key_eqb a b = true <-> a = b.
Hypothesis ep_eqb_spec : forall a b, ep_eqb a b = true <-> a = b.
(** sha256twice is treated as collision-free on headers *)
Hypothesis hk_inj : forall h1 h2, hk h1 = hk h2 -> h1 = h2.
Hypothesis zero_is_zero : is_zero zero = true.

Notation f := (f Hdr Ep Ent V ep mk hash).
Notation item := (item Ep Ent).
Notation lfru_get := (lfru_get Ep Ent ep_eqb).
Notation lfru_insert := (lfru_insert Ep Ent).
Notation lfru_get_or_default := (lfru_get_or_default Ep Ent ep_eqb mk).
Notation lfru_run := (lfru_run Ep Ent ep_eqb mk).
Notation lru_find := (lru_find Key V key_eqb).
Notation lru_insert := (lru_insert Key V key_eqb).
Notation lru_try_get := (lru_try_get Key V key_eqb).
Notation sys_step := (sys_step Hdr Key Ep Ent V hk key_eqb ep ep_eqb mk hash).
Notation sys_run := (sys_run Hdr Key Ep Ent V hk key_eqb ep ep_eqb mk hash).
Notation blk_step := (blk_step Hdr V is_zero zero).

Definition item_ok (it : item) : Prop := ival _ _ it = mk (ikey _ _ it).

Definition lfru_ok (size : nat) (l : list item) : Prop :=
  Forall item_ok l /\ NoDup (map (ikey _ _) l) /\ (length l <= size)%nat.

Lemma lfru_get_some : forall k now l v l',
  lfru_get k now l = Some (v, l') ->
  map (ikey _ _) l' = map (ikey _ _) l /\ (Forall item_ok l -> v = mk k /\ Forall item_ok l').
Proof.
  induction l as [| it r IH]; simpl; intros v l' H; try discriminate.
  destruct (ep_eqb (ikey _ _ it) k) eqn:E.
  - injection H as <- <-. apply ep_eqb_spec in E. split; [reflexivity |].
    intros F. inversion F as [| ? ? F1 F2]; subst. split; [exact F1 | now constructor].
  - destruct (lfru_get k now r) as [[v' r'] |]; try discriminate.
    injection H as <- <-. destruct (IH _ _ eq_refl) as [A B]. split; [simpl; now rewrite A |].
    intros F. inversion F as [| ? ? F1 F2]; subst. destruct (B F2). split; auto.
Qed.

Lemma lfru_get_none : forall k now l, lfru_get k now l = None -> ~ In k (map (ikey _ _) l).
Proof.
  induction l as [| it r IH]; simpl; intros H; auto.
  destruct (ep_eqb (ikey _ _ it) k) eqn:E; try discriminate.
  destruct (lfru_get k now r) as [[v' r'] |] eqn:G; try discriminate.
  intros [X | X].
  - apply ep_eqb_spec in X. congruence.
  - apply IH; auto.
Qed.

Lemma lfru_insert_ok : forall size tw k now l,
  lfru_ok size l -> ~ In k (map (ikey _ _) l) -> lfru_ok size (lfru_insert size tw k (mk k) now l).
Proof.
  unfold lfru_ok, lfru_insert. intros size tw k now l [A [B C]] NI.
  destruct (length l <? size)%nat eqn:L.
  - apply Nat.ltb_lt in L. split; [| split].
    + apply Forall_app. split; auto. constructor; auto. reflexivity.
    + rewrite map_app. simpl. rewrite <- Permutation_cons_append. now constructor.
    + rewrite app_length. simpl. lia.
  - split; [| split].
    + apply Forall_upd; auto. reflexivity.
    + apply NoDup_map_upd; auto.
    + rewrite upd_length. auto.
Qed.

Lemma lfru_get_or_default_ok : forall size tw k now l e hit l',
  lfru_ok size l -> lfru_get_or_default size tw k now l = (e, hit, l') ->
  e = mk k /\ lfru_ok size l'.
Proof.
  unfold CacheDefs.lfru_get_or_default. intros size tw k now l e hit l' OK H.
  destruct (lfru_get k now l) as [[v r] |] eqn:G; injection H as <- _ <-.
  - destruct (lfru_get_some _ _ _ _ _ G) as [A B]. destruct OK as [O1 [O2 O3]]. destruct (B O1). split; auto.
    unfold lfru_ok. rewrite A, <- (map_length (ikey _ _)), A, map_length. auto.
  - split; auto. apply lfru_insert_ok; auto. eapply lfru_get_none; eauto.
Qed.

Lemma lfru_ok_nil : forall size, lfru_ok size [].
Proof. intros. unfold lfru_ok. split; [constructor |]. split; [constructor |]. simpl. lia. Qed.

Definition lfru_expected (ops : list (lfru_op Ep)) : list (option Ent) :=
  map (fun o => match o with FGet _ k _ => Some (mk k) | FClear _ => None end) ops.

Lemma lfru_transparent_lemma : forall size tw ops l,
  lfru_ok size l ->
  fst (lfru_run size tw ops l) = lfru_expected ops /\ lfru_ok size (snd (lfru_run size tw ops l)).
Proof.
  induction ops as [| o r IH]; simpl; intros l OK; auto.
  destruct o as [k now |]; simpl.
  - destruct (lfru_get_or_default size tw k now l) as [[e hit] l'] eqn:G.
    destruct (lfru_get_or_default_ok _ _ _ _ _ _ _ _ OK G) as [E OK'].
    destruct (IH l' OK') as [A B].
    destruct (lfru_run size tw r l') as [as_ l'']. simpl in *. subst. auto.
  - destruct (IH [] (lfru_ok_nil size)) as [A B].
    destruct (lfru_run size tw r []) as [as_ l'']. simpl in *. subst. auto.
Qed.

Definition lru_shape (maxsize elast : nat) (l : list (Key * V)) : Prop :=
  NoDup (map fst l) /\ (maxsize = O \/ length l <= maxsize + elast)%nat.

Lemma lru_find_split : forall k l v r,
  lru_find k l = Some (v, r) -> exists l1 l2, l = l1 ++ (k, v) :: l2 /\ r = l1 ++ l2.
Proof.
  induction l as [| [k' v'] l IH]; simpl; intros v r H; try discriminate.
  destruct (key_eqb k' k) eqn:E.
  - injection H as <- <-. apply key_eqb_spec in E. subst k'. now exists [], l.
  - destruct (lru_find k l) as [[v'' r'] |]; try discriminate. injection H as <- <-.
    destruct (IH _ _ eq_refl) as [l1 [l2 [-> ->]]]. now exists ((k', v') :: l1), l2.
Qed.

Lemma lru_find_none : forall k l, lru_find k l = None -> ~ In k (map fst l).
Proof.
  induction l as [| [k' v'] l IH]; simpl; intros H; auto.
  destruct (key_eqb k' k) eqn:E; try discriminate.
  destruct (lru_find k l) as [[v'' r'] |] eqn:G; try discriminate.
  intros [X | X].
  - apply key_eqb_spec in X. congruence.
  - apply IH; auto.
Qed.

Lemma lru_front : forall maxsize elast k l v v' r,
  lru_shape maxsize elast l -> lru_find k l = Some (v, r) ->
  In (k, v) l /\ lru_shape maxsize elast ((k, v') :: r) /\ (forall kv, In kv r -> In kv l /\ fst kv <> k).
Proof.
  intros maxsize elast k l v v' r [N B] G. destruct (lru_find_split _ _ _ _ G) as [l1 [l2 [-> ->]]].
  rewrite map_app in N. simpl in N. apply NoDup_remove in N as [N1 N2]. rewrite <- map_app in N1, N2.
  split; [apply in_elt |]. split; [split |].
  - simpl. now constructor.
  - simpl. rewrite app_length in *. simpl in B. lia.
  - intros kv I. split; [apply in_app_or in I; apply in_or_app; simpl; tauto |].
    intros <-. apply N2. now apply in_map.
Qed.

Lemma lru_insert_spec : forall maxsize elast k v l,
  lru_shape maxsize elast l ->
  lru_shape maxsize elast (lru_insert maxsize elast k v l) /\
  (forall kv, In kv (lru_insert maxsize elast k v l) -> kv = (k, v) \/ (In kv l /\ fst kv <> k)).
Proof.
  unfold CacheDefs.lru_insert. intros maxsize elast k v l SH.
  destruct (lru_find k l) as [[v0 r] |] eqn:G.
  - destruct (lru_front _ _ _ _ _ v _ SH G) as [_ [SH' R]]. split; auto. intros kv [<- | I]; auto.
  - apply lru_find_none in G. destruct SH as [N B]. unfold lru_prune.
    assert (N' : NoDup (map fst ((k, v) :: l))) by (simpl; now constructor).
    assert (R : forall kv, In kv ((k, v) :: l) -> kv = (k, v) \/ (In kv l /\ fst kv <> k)).
    { intros kv [<- | I]; auto. right. split; auto. intros <-. apply G. now apply in_map. }
    destruct ((maxsize =? 0)%nat || (length ((k, v) :: l) <? maxsize + elast)%nat) eqn:E.
    + split; auto. split; auto. apply orb_prop in E as [E | E].
      * left. now apply Nat.eqb_eq.
      * right. apply Nat.ltb_lt in E. lia.
    + split; [split |].
      * rewrite <- firstn_map. now apply NoDup_firstn.
      * right. rewrite firstn_length. lia.
      * intros kv I. apply R. eapply in_firstn; eauto.
Qed.

Lemma lru_try_get_spec : forall maxsize elast k l o l',
  lru_shape maxsize elast l -> lru_try_get k l = (o, l') ->
  lru_shape maxsize elast l' /\ (forall kv, In kv l' -> In kv l) /\ (forall v, o = Some v -> In (k, v) l).
Proof.
  unfold CacheDefs.lru_try_get. intros maxsize elast k l o l' SH H.
  destruct (lru_find k l) as [[v r] |] eqn:G; injection H as <- <-.
  - destruct (lru_front _ _ _ _ _ v _ SH G) as [I [SH' R]]. split; auto. split.
    + intros kv [<- | X]; auto. now apply R.
    + now intros v' [= <-].
  - split; auto. split; auto. discriminate.
Qed.

Lemma lru_shape_nil : forall maxsize elast, lru_shape maxsize elast [].
Proof. intros. split; [constructor |]. right. simpl. lia. Qed.

Definition kv_ok (kv : Key * V) : Prop := exists h, fst kv = hk h /\ snd kv = f h.

Definition lru_ok (maxsize elast : nat) (l : list (Key * V)) : Prop :=
  Forall kv_ok l /\ NoDup (map fst l) /\ (maxsize = O \/ length l <= maxsize + elast)%nat.

Lemma lru_insert_ok : forall maxsize elast h l,
  lru_ok maxsize elast l -> lru_ok maxsize elast (lru_insert maxsize elast (hk h) (f h) l).
Proof.
  intros maxsize elast h l [A SH]. destruct (lru_insert_spec _ _ (hk h) (f h) _ SH) as [SH' R].
  split; [| exact SH']. rewrite Forall_forall in *. intros kv I.
  destruct (R kv I) as [-> | [I' _]]; [now exists h | auto].
Qed.

Lemma lru_try_get_ok : forall maxsize elast h l o l',
  lru_ok maxsize elast l -> lru_try_get (hk h) l = (o, l') ->
  lru_ok maxsize elast l' /\ (forall v, o = Some v -> v = f h).
Proof.
  intros maxsize elast h l o l' [A SH] H. destruct (lru_try_get_spec _ _ _ _ _ _ SH H) as [SH' [R HIT]].
  rewrite Forall_forall in A. split; [split; [| exact SH'] |].
  - apply Forall_forall. auto.
  - intros v E. destruct (A _ (HIT v E)) as [h' [K1 K2]]. simpl in *. apply hk_inj in K1. now subst h'.
Qed.

Lemma lru_ok_nil : forall maxsize elast, lru_ok maxsize elast [].
Proof. intros. split; [constructor | apply lru_shape_nil]. Qed.

Definition thr_ok (t : tstate Hdr V) : Prop :=
  match t with TGot _ _ h v | TRet _ _ h v => v = f h | _ => True end.

Definition sys_ok (size maxsize elast : nat) (s : sys Hdr Key Ep Ent V) : Prop :=
  lru_ok maxsize elast (hdrc _ _ _ _ _ s) /\ lfru_ok size (ethc _ _ _ _ _ s) /\ Forall thr_ok (thr _ _ _ _ _ s).

(** premise of the precomputed-hash path: what insertHeaderCacheEntry is given is the hash of that header *)
Definition sop_ok (o : sop Hdr V) : Prop :=
  match o with OInsertHdr _ _ h v => v = f h | _ => True end.

Lemma sys_step_ok : forall size tw maxsize elast o s,
  sop_ok o -> sys_ok size maxsize elast s -> sys_ok size maxsize elast (sys_step size tw maxsize elast o s).
Proof.
  intros size tw maxsize elast o s PO [A [B C]].
  assert (U : forall c e t x, lru_ok maxsize elast c -> lfru_ok size e -> thr_ok x ->
                sys_ok size maxsize elast (mkSys _ _ _ _ _ c e (upd t (fun _ => x) (thr _ _ _ _ _ s)))).
  { intros. split; [| split]; auto. now apply Forall_upd. }
  destruct o; simpl.
  - destruct (nth_error (thr _ _ _ _ _ s) t) as [[] |]; try (split; auto; fail); now apply U.
  - destruct (nth_error (thr _ _ _ _ _ s) t) as [[] |] eqn:T; try (split; auto; fail).
    destruct (lru_try_get (hk h) (hdrc _ _ _ _ _ s)) as [o c'] eqn:G.
    destruct (lru_try_get_ok _ _ _ _ _ _ A G) as [A' R].
    destruct o as [v |]; apply U; simpl; auto.
  - destruct (nth_error (thr _ _ _ _ _ s) t) as [[] |] eqn:T; try (split; auto; fail).
    destruct (lfru_get_or_default size tw (ep h) now (ethc _ _ _ _ _ s)) as [[e hit] c'] eqn:G.
    destruct (lfru_get_or_default_ok _ _ _ _ _ _ _ _ B G) as [-> B']. now apply U.
  - destruct (nth_error (thr _ _ _ _ _ s) t) as [[] |] eqn:T; try (split; auto; fail).
    assert (TV : thr_ok (TGot _ _ h v)).
    { rewrite Forall_forall in C. apply C. eapply nth_error_In; eauto. }
    simpl in TV. subst v. apply U; simpl; auto. now apply lru_insert_ok.
  - split; [| split]; simpl; auto. apply lru_ok_nil.
  - split; [| split]; simpl; auto. apply lfru_ok_nil.
  - simpl in PO. subst v. split; [| split]; simpl; auto. now apply lru_insert_ok.
Qed.

Lemma sys_init_ok : forall size maxsize elast n, sys_ok size maxsize elast (sys_init Hdr Key Ep Ent V n).
Proof.
  intros. split; [apply lru_ok_nil | split; [apply lfru_ok_nil |]].
  apply Forall_forall. intros x Hx. apply repeat_spec in Hx. now subst.
Qed.

Lemma sys_run_ok : forall size tw maxsize elast ops s,
  Forall sop_ok ops -> sys_ok size maxsize elast s -> sys_ok size maxsize elast (sys_run size tw maxsize elast ops s).
Proof.
  unfold CacheDefs.sys_run. induction ops; simpl; intros; auto.
  inversion H; subst. apply IHops; auto. apply sys_step_ok; auto.
Qed.

Lemma lookup_transparent_lemma : forall size tw maxsize elast nthreads ops t h v,
  Forall sop_ok ops ->
  let s := sys_run size tw maxsize elast ops (sys_init Hdr Key Ep Ent V nthreads) in
  nth_error (thr _ _ _ _ _ s) t = Some (TRet _ _ h v) -> v = f h.
Proof.
  intros. destruct (sys_run_ok size tw maxsize elast ops _ H (sys_init_ok size maxsize elast nthreads)) as [_ [_ C]].
  fold s in C. rewrite Forall_forall in C. apply nth_error_In in H0. exact (C _ H0).
Qed.

Lemma capacity_lemma : forall size tw maxsize elast nthreads ops,
  Forall sop_ok ops ->
  let s := sys_run size tw maxsize elast ops (sys_init Hdr Key Ep Ent V nthreads) in
  (length (ethc _ _ _ _ _ s) <= size)%nat /\ NoDup (map (ikey _ _) (ethc _ _ _ _ _ s)) /\
  (maxsize = O \/ length (hdrc _ _ _ _ _ s) <= maxsize + elast)%nat /\ NoDup (map fst (hdrc _ _ _ _ _ s)).
Proof.
  intros. destruct (sys_run_ok size tw maxsize elast ops _ H (sys_init_ok size maxsize elast nthreads))
    as [[_ [A B]] [[_ [C D]] _]].
  fold s in A, B, C, D. auto.
Qed.

Definition blk_ok (b : blk Hdr V) : Prop :=
  is_zero (memo _ _ b) = true \/ memo _ _ b = f (content _ _ b).

(** premises of the operations: a supplied precalculated hash is the hash of the content it is attached to
    (deserialisation may also pass the all-zero default = no hash); an assigned-from block is itself consistent *)
Definition bop_pre (o : bop Hdr V) (b : blk Hdr V) : Prop :=
  match o with
  | BPrecalc _ _ v => v = f (content _ _ b)
  | BDeser _ _ h v => is_zero v = true \/ v = f h
  | BAssign _ _ src => blk_ok src
  | _ => True
  end.

Fixpoint bops_ok (ops : list (bop Hdr V)) (b : blk Hdr V) : Prop :=
  match ops with
  | [] => True
  | o :: r => bop_pre o b /\ bops_ok r (snd (blk_step f o b))
  end.

Fixpoint answers_ok (ops : list (bop Hdr V)) (b : blk Hdr V) : Prop :=
  match ops with
  | [] => True
  | o :: r => (match fst (blk_step f o b) with Some v => v = f (content _ _ b) | None => True end) /\
              answers_ok r (snd (blk_step f o b))
  end.

Lemma blk_step_ok : forall o b,
  blk_ok b -> bop_pre o b ->
  blk_ok (snd (blk_step f o b)) /\
  (match fst (blk_step f o b) with Some v => v = f (content _ _ b) | None => True end).
Proof.
  intros o b OK P. destruct o; simpl.
  - split; auto. left. simpl. exact zero_is_zero.
  - destruct (is_zero (memo _ _ b)) eqn:Z.
    + split; auto. right; reflexivity.
    + destruct OK as [OK | OK]; [congruence |]. split; auto. right. simpl. auto.
  - split; [right; exact P | exact I].
  - split; [exact P | exact I].
  - split; [exact P | exact I].
Qed.

Lemma deser_resets_memo_lemma : forall hf b h v,
  let b' := snd (CacheDefs.blk_step Hdr V is_zero zero hf (BDeser _ _ h v) b) in
  content _ _ b' = h /\ memo _ _ b' = v /\ ((is_zero v = true \/ v = f h) -> blk_ok b').
Proof. intros. simpl. repeat split; auto. Qed.

Lemma memo_transparent_lemma : forall ops b, blk_ok b -> bops_ok ops b -> answers_ok ops b.
Proof.
  induction ops as [| o r IH]; simpl; intros b OK H; auto. destruct H as [P Q].
  destruct (blk_step_ok o b OK P) as [A B]. split; auto.
Qed.

Lemma setter_invalidates_memo_lemma : forall hf b h,
  let b' := snd (CacheDefs.blk_step Hdr V is_zero zero hf (BSet _ _ h) b) in
  content _ _ b' = h /\ is_zero (memo _ _ b') = true /\ blk_ok b' /\
  (forall ops, bops_ok ops b' -> answers_ok ops b').
Proof.
  intros. simpl. split; [reflexivity |]. split; [exact zero_is_zero |].
  assert (blk_ok (mkBlk _ _ h zero)) by (left; exact zero_is_zero).
  split; auto. intros. apply memo_transparent_lemma; auto.
Qed.

End CacheProofs.

(** the hypotheses are satisfiable by a non-trivial instance, and the model really evicts *)
Module CacheExample.
  Definition Hdr := nat. Definition hk (h : nat) := h. Definition epx (h : nat) := Nat.div h 8.
  Definition mkx (e : nat) := (3 * e + 1)%nat. Definition hashx (h e : nat) := (h * 7 + e)%nat.
  Definition ops : list (sop nat nat) :=
    [ORequest _ _ 0 3; ORequest _ _ 1 17; OLookup _ _ 0; OLookup _ _ 1; OCompute _ _ 1 5%N; OCompute _ _ 0 6%N;
     OStore _ _ 0; OStore _ _ 1; ORequest _ _ 0 17; OLookup _ _ 0; ORequest _ _ 1 40; OLookup _ _ 1;
     OClearEth _ _; OCompute _ _ 1 700%N; OStore _ _ 1; OInsertHdr _ _ 99 (hashx 99 (mkx (epx 99)));
     ORequest _ _ 1 99; OLookup _ _ 1; ORequest _ _ 0 3; OLookup _ _ 0].
  Definition final := sys_run nat nat nat nat nat hk Nat.eqb epx Nat.eqb mkx hashx 2 600%N 2 1 ops (sys_init _ _ _ _ _ 2).
  Example hyps_satisfiable :
    (forall a b, Nat.eqb a b = true <-> a = b) /\ (forall h1 h2, hk h1 = hk h2 -> h1 = h2) /\
    Forall (sop_ok nat nat nat nat epx mkx hashx) ops.
  Proof. split; [exact Nat.eqb_eq |]. split; [auto |]. repeat constructor. Qed.
  Example final_threads :
    thr _ _ _ _ _ final = [TMissed _ _ 3; TRet _ _ 99 (hashx 99 (mkx (epx 99)))] /\
    map fst (hdrc _ _ _ _ _ final) = [99; 40].
  Proof. vm_compute. auto. Qed.
  (** without the mutex around getOrDefault (lookup / store epoch / store entry as separate steps of a
      last-epoch-only cache): two overlapping misses leave (epoch 1, entry of epoch 0) behind and the next
      request for epoch 1 is answered with a hash computed from the wrong epoch entry *)
  Definition unlocked_ops : list (uop nat) :=
    [UStart _ 0 3; UStart _ 1 9; UWriteEp _ 0; UWriteEp _ 1; UWriteEnt _ 1; UWriteEnt _ 0; UStart _ 2 10].
  Definition unlocked_final :=
    usys_run nat nat nat nat epx Nat.eqb mkx hashx unlocked_ops (usys_init _ _ _ _ 3).
  Lemma unlocked_getOrDefault_refuted_lemma :
    exists h v, nth_error (uthreads _ _ _ _ unlocked_final) 2 = Some (UDone _ _ _ h v) /\
                v <> f nat nat nat nat epx mkx hashx h.
  Proof. exists 10, (hashx 10 (mkx 0)). vm_compute. split; [reflexivity | discriminate]. Qed.
End CacheExample.
