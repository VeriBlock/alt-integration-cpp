(** C16 — termination measure: every accepted main/worker step strictly decreases it, and from every
    reachable state main can be driven to its return within that many steps *)
From Coq Require Import List Arith Lia.
From VB Require Import Conc.ValidatorDefs Conc.ValidatorProofs Conc.ValidatorProgress.
Import ListNotations.

Definition wmeasure (wk : worker) : nat :=
  3 * length (wq wk) + match wst wk with WRun _ => 2 | WDone _ => 1 | _ => 0 end.

Definition mmeasure (s : state) : nat :=
  match main s with
  | MPost k => 4 * (length (cur s) - k) + S (length (cur s))
  | MWait k | MGet k => S (length (cur s)) - k
  | _ => 0
  end.

Definition measure (s : state) : nat := mmeasure s + list_sum (map wmeasure (workers s)).

Lemma sum_upd : forall (g : worker -> nat) f l i x,
  nth_error l i = Some x ->
  list_sum (map g (upd i f l)) + g x = list_sum (map g l) + g (f x).
Proof.
  induction l; destruct i; simpl; intros; try discriminate.
  - inversion H; subst. lia.
  - pose proof (IHl _ _ H). lia.
Qed.

(** a task costs 3 in a queue, 2 while it runs, 1 until its promise is fulfilled *)
Lemma wmove_measure : forall ws l ws', wmove ws l ws' ->
  S (list_sum (map wmeasure ws')) = list_sum (map wmeasure ws).
Proof.
  destruct 1 as [i t q W | i d t q std wk D W WI | i q t W].
  - pose proof (sum_upd wmeasure (fun _ => mkWorker q (WRun t)) _ _ _ W) as S1.
    unfold wmeasure in S1 at 2 4; simpl in S1. lia.
  - pose proof (sum_upd wmeasure (set_q q) _ _ _ D) as S1.
    pose proof (sum_upd wmeasure (set_st (WRun t)) _ _ _ W) as S2.
    unfold wmeasure in S1 at 2 4, S2 at 2 4; simpl in S1, S2. rewrite WI in S2. lia.
  - pose proof (sum_upd wmeasure (set_st (WDone t)) _ _ _ W) as S1.
    unfold wmeasure in S1 at 2 4; simpl in S1. lia.
Qed.

Lemma mmeasure_after_post : forall ws p c nx fs ts d tk a k,
  S k <= length ts ->
  mmeasure (mkState ws p c nx fs ts d tk (after_post false (S k) (length ts)) a) + 4 =
  4 * (length ts - k) + S (length ts).
Proof.
  intros. unfold mmeasure, after_post. cbn [main cur].
  destruct (S k =? length ts) eqn:E.
  - apply Nat.eqb_eq in E. lia.
  - apply Nat.eqb_neq in E. lia.
Qed.

Lemma measure_decreases : forall l s s',
  Inv s -> inner l = true -> step false l s = Some s' -> aborted s' = false -> measure s' < measure s.
Proof.
  intros l s s' I IN H AB'. unfold measure. step_cases I H; try discriminate.
  - (* post: a queue gains 3, main loses 4 *)
    pose proof (sum_upd wmeasure (push_q t) _ _ _ W) as SU.
    unfold wmeasure in SU at 2 4; simpl in SU. rewrite app_length in SU; simpl in SU.
    pose proof (mmeasure_after_post (upd i (push_q t) (workers s)) (pst s) (qcap s) (S (nextw s)) (futures s)
                  (cur s) (curdup s) (token s) false k Kn) as MA.
    assert (mmeasure s = 4 * (length (cur s) - k) + S (length (cur s))) by (unfold mmeasure; now rewrite M).
    cbn [workers]. lia.
  - (* pop, steal, run *)
    apply wmove_measure in WM. change (mmeasure (set_workers ws' s)) with (mmeasure s). cbn [workers set_workers]. lia.
  - (* fulfil *)
    pose proof (sum_upd wmeasure (set_st WIdle) _ _ _ W) as SU. unfold wmeasure in SU at 2 4; simpl in SU.
    change (mmeasure (set_futures (upd (tid t) (fun _ => FReady (tvalid t)) (futures s))
                        (set_workers (upd i (set_st WIdle) (workers s)) s))) with (mmeasure s).
    cbn [workers set_workers set_futures]. lia.
  - (* wait *)
    unfold mmeasure. cbn [main cur workers set_main]. rewrite M. destruct WT; lia.
Qed.

Lemma inner_sizes_ok : forall c l, inner l = true -> sizes_ok c l = true.
Proof. destruct l; simpl; intros; auto; discriminate. Qed.

(** the hypotheses hold in every reachable state while nobody stops the pool and calls fit the queue
    ([NoAbort_run]) *)
Lemma eventually_returns_state : forall c s,
  Inv s -> Inv2 s -> NoAbortInv c s ->
  exists sched, forallb inner sched = true /\ length sched <= measure s /\
                quiescent_main (main (run false sched s)) = true.
Proof.
  intros c s. remember (measure s) as n eqn:E. revert s E.
  induction n as [n IH] using lt_wf_ind. intros s -> I J N.
  destruct (quiescent_main (main s)) eqn:Q.
  { exists []. simpl. repeat split; auto. lia. }
  destruct (progress_state s I J (proj1 (proj2 N)) (proj1 N) Q) as [l [s' [IN ST]]].
  pose proof (NoAbort_step c l s s' I N (inner_sizes_ok c l IN) ST) as N'.
  pose proof (measure_decreases l s s' I IN ST (proj1 (proj2 N'))) as D.
  destruct (IH _ D s' eq_refl) as [sched [S1 [S2 S3]]]; eauto using Inv_step, Inv2_step.
  exists (l :: sched). simpl. rewrite IN, S1. repeat split; [lia |].
  unfold run in *. simpl. unfold step' at 2. now rewrite ST.
Qed.
