(** C16 — the invariant of the step-level ring model (Conc/RingSteps.v).  Positions p < deq were claimed
    by a pop, deq <= p < enq hold the queue, p >= enq are unclaimed; a claimed position whose sequence
    number is not yet stored is "in flight". *)
From Coq Require Import List Arith Lia.
From VB Require Import Conc.ValidatorDefs Conc.ListUpd Conc.RingDefs Conc.RingProofs Conc.RingSteps.
Import ListNotations.

Local Arguments cells {A} _.
Local Arguments enq {A} _.
Local Arguments deq {A} _.
Local Arguments mkRing {A} _ _ _.
Local Arguments cell_at {A} _ _.

Section Cells.
Variable A : Type.
Implicit Types r : ring A.

Lemma rsize_set_seq : forall r p v, rsize (set_seq r p v) = rsize r.
Proof. intros. apply upd_length. Qed.
Lemma rsize_set_dat : forall r p d, rsize (set_dat r p d) = rsize r.
Proof. intros. apply upd_length. Qed.

Lemma idx_lt : forall r p, 0 < rsize r -> idx r p < rsize r.
Proof. intros. apply Nat.mod_upper_bound. lia. Qed.

Lemma cell_at_upd : forall r f e d p p', 0 < rsize r ->
  cell_at (mkRing (upd (idx r p) f (cells r)) e d) p' =
  if Nat.eqb (idx r p') (idx r p) then f (cell_at r p') else cell_at r p'.
Proof.
  intros r f e d p p' H. unfold cell_at. cbn [cells]. rewrite upd_length. fold (rsize r) (idx r p').
  destruct (Nat.eqb_spec (idx r p') (idx r p)) as [E | E].
  - rewrite E. apply nth_upd_eq, idx_lt, H.
  - apply nth_upd_neq. auto.
Qed.

Lemma seq_at_set_seq : forall r p v p', 0 < rsize r ->
  seq_at (set_seq r p v) p' = if Nat.eqb (idx r p') (idx r p) then v else seq_at r p'.
Proof. intros. unfold seq_at, set_seq. rewrite cell_at_upd by auto. now destruct (Nat.eqb _ _). Qed.

Lemma dat_at_set_seq : forall r p v p', 0 < rsize r -> dat_at (set_seq r p v) p' = dat_at r p'.
Proof. intros. unfold dat_at, set_seq. rewrite cell_at_upd by auto. now destruct (Nat.eqb _ _). Qed.

Lemma seq_at_set_dat : forall r p d p', 0 < rsize r -> seq_at (set_dat r p d) p' = seq_at r p'.
Proof. intros. unfold seq_at, set_dat. rewrite cell_at_upd by auto. now destruct (Nat.eqb _ _). Qed.

Lemma dat_at_set_dat : forall r p d p', 0 < rsize r ->
  dat_at (set_dat r p d) p' = if Nat.eqb (idx r p') (idx r p) then d else dat_at r p'.
Proof. intros. unfold dat_at, set_dat. rewrite cell_at_upd by auto. now destruct (Nat.eqb _ _). Qed.

Lemma cell_at_idx : forall r a b, idx r a = idx r b -> cell_at r a = cell_at r b.
Proof. intros r a b H. unfold cell_at. fold (rsize r) (idx r a) (idx r b). now rewrite H. Qed.

Lemma seq_at_idx : forall r a b, idx r a = idx r b -> seq_at r a = seq_at r b.
Proof. intros r a b H. unfold seq_at. now rewrite (cell_at_idx r a b H). Qed.

Lemma dat_at_idx : forall r a b, idx r a = idx r b -> dat_at r a = dat_at r b.
Proof. intros r a b H. unfold dat_at. now rewrite (cell_at_idx r a b H). Qed.

Lemma set_seq_mono : forall r p v, 0 < rsize r -> seq_at r p <= v ->
  forall p', seq_at r p' <= seq_at (set_seq r p v) p'.
Proof.
  intros r p v H Hv p'. rewrite seq_at_set_seq by auto.
  destruct (Nat.eqb_spec (idx r p') (idx r p)) as [E | E]; auto. now rewrite (seq_at_idx r p' p E).
Qed.

Lemma idx_window : forall r a b, a < b + rsize r -> b < a + rsize r -> idx r a = idx r b -> a = b.
Proof.
  intros r a b Ha Hb E. destruct (lt_eq_lt_dec a b) as [[Q | Q] | Q]; auto; exfalso.
  - revert E. apply mod_distinct; lia.
  - symmetry in E. revert E. apply mod_distinct; lia.
Qed.

Lemma seq_at_set_enq : forall r v p, seq_at (set_enq r v) p = seq_at r p.
Proof. reflexivity. Qed.
Lemma seq_at_set_deq : forall r v p, seq_at (set_deq r v) p = seq_at r p.
Proof. reflexivity. Qed.
Lemma dat_at_set_enq : forall r v p, dat_at (set_enq r v) p = dat_at r p.
Proof. reflexivity. Qed.
Lemma dat_at_set_deq : forall r v p, dat_at (set_deq r v) p = dat_at r p.
Proof. reflexivity. Qed.

End Cells.

Section Inv.
Variable A : Type.
Implicit Types r : ring A.

Definition TInv (size : nat) r (q : list A) (p : rpc A) : Prop :=
  match p with
  | PushLoadSeq _ pos => pos <= enq r
  | PushCmp _ pos sq => pos <= enq r /\ sq <= seq_at r pos
  | PushCas _ pos => pos <= enq r /\ pos <= seq_at r pos
  | PushWrite x p => deq r <= p < enq r /\ seq_at r p = p /\ nth_error q (p - deq r) = Some x
  | PushStore x p => deq r <= p < enq r /\ seq_at r p = p /\ nth_error q (p - deq r) = Some x /\ dat_at r p = Some x
  | PopLoadSeq pos => pos <= deq r
  | PopCmp pos sq => pos <= deq r /\ sq <= seq_at r pos
  | PopCas pos => pos <= deq r /\ S pos <= seq_at r pos
  | PopMove p g => p < deq r /\ enq r <= p + size /\ seq_at r p = S p /\ dat_at r p = g
  | PopStore p _ => p < deq r /\ enq r <= p + size /\ seq_at r p = S p
  | _ => True
  end.

Record InvC (size : nat) r (q : list A) (pcs : nat -> rpc A) : Prop := mkInvC {
  i_len : rsize r = size;
  i_size : 2 <= size;
  i_de : deq r <= enq r;
  i_cap : enq r <= deq r + size;
  i_q : length q = enq r - deq r;
  i_full : forall p, deq r <= p < enq r ->
     (exists t, ipush (pcs t) = Some p) \/
     (seq_at r p = S p /\ exists x, nth_error q (p - deq r) = Some x /\ dat_at r p = Some x);
  i_free : forall p, enq r <= p < deq r + size ->
     (size <= p /\ exists t, ipop (pcs t) = Some (p - size)) \/ seq_at r p = p;
  i_lo_e : forall p, p < enq r -> p <= seq_at r p;
  i_lo_d : forall p, p < deq r -> S p <= seq_at r p;
  i_thr : forall t, TInv size r q (pcs t);
  i_upush : forall t t' p, ipush (pcs t) = Some p -> ipush (pcs t') = Some p -> t = t';
  i_upop : forall t t' p, ipop (pcs t) = Some p -> ipop (pcs t') = Some p -> t = t'
}.

Definition Inv (size : nat) (s : rstate A) : Prop :=
  InvC size (rs_mem s) (rs_q s) (fun t => tpc (rs_thr s t)).

Lemma Inv_init : forall size progs, 2 <= size -> Inv size (rs_init size progs).
Proof.
  intros size progs H. pose proof (ring_init_length A size) as L.
  constructor; cbn; auto; try lia; try discriminate.
  intros p Hp. right. unfold seq_at, cell_at. now rewrite L, Nat.mod_small, ring_init_nth by lia.
Qed.

End Inv.

Section InvFacts.
Context {A : Type} {size : nat} {r : ring A} {q : list A} {pcs : nat -> rpc A}.
Hypothesis I : InvC A size r q pcs.
Let L : rsize r = size := i_len _ _ _ _ _ I.
Let S2 : 2 <= size := i_size _ _ _ _ _ I.
Let DE : deq r <= enq r := i_de _ _ _ _ _ I.
Let CAP : enq r <= deq r + size := i_cap _ _ _ _ _ I.

Lemma inv_ipush : forall t p, ipush (pcs t) = Some p ->
  deq r <= p < enq r /\ seq_at r p = p /\ exists x, nth_error q (p - deq r) = Some x.
Proof.
  intros t p H. pose proof (i_thr _ _ _ _ _ I t) as T.
  destruct (pcs t); try discriminate; injection H as <-; cbn in T; intuition eauto.
Qed.

Lemma inv_ipop : forall t p, ipop (pcs t) = Some p -> p < deq r /\ enq r <= p + size /\ seq_at r p = S p.
Proof.
  intros t p H. pose proof (i_thr _ _ _ _ _ I t) as T.
  destruct (pcs t); try discriminate; injection H as <-; cbn in T; intuition.
Qed.

Lemma inv_pos : 0 < rsize r.
Proof. lia. Qed.

Lemma idx_plus_size : forall p, idx r (p + size) = idx r p.
Proof. intros. rewrite <- L. apply mod_plus, inv_pos. Qed.

Lemma seq_at_plus : forall p, seq_at r (p + size) = seq_at r p.
Proof. intros. apply seq_at_idx, idx_plus_size. Qed.

Lemma seq_claimed : forall p, deq r <= p < enq r -> seq_at r p = p \/ seq_at r p = S p.
Proof.
  intros p Hp. destruct (i_full _ _ _ _ _ I p Hp) as [[t H] | [H _]]; auto.
  left. apply (inv_ipush t p H).
Qed.

Lemma seq_unclaimed : forall p, enq r <= p < deq r + size ->
  seq_at r p = p \/ size <= p /\ seq_at r p = S (p - size).
Proof.
  intros p Hp. destruct (i_free _ _ _ _ _ I p Hp) as [[S1 [t H]] | H]; auto.
  right. split; auto. destruct (inv_ipop t _ H) as (_ & _ & Q).
  rewrite <- Q, <- (seq_at_plus (p - size)). f_equal. lia.
Qed.

(** push() at [enq r] never sees dif > 0, and dif = 0 only with room; likewise pop() at [deq r] *)
Lemma seq_enq : seq_at r (enq r) < enq r \/ seq_at r (enq r) = enq r /\ enq r < deq r + size.
Proof.
  destruct (Nat.eq_dec (enq r) (deq r + size)) as [E | E].
  - left. rewrite E, seq_at_plus. destruct (seq_claimed (deq r)); lia.
  - destruct (seq_unclaimed (enq r)); lia.
Qed.

Lemma seq_deq : seq_at r (deq r) < S (deq r) \/ seq_at r (deq r) = S (deq r) /\ deq r < enq r.
Proof.
  destruct (Nat.eq_dec (deq r) (enq r)) as [E | E].
  - destruct (seq_unclaimed (deq r)); lia.
  - destruct (seq_claimed (deq r)); lia.
Qed.

(** dif < 0 at a position read earlier: the counter has not moved, and the queue is full (empty) or an
    in-flight pop (push) owns the cell *)
Lemma full_seen : forall pos, pos <= enq r -> seq_at r pos < pos ->
  enq r = pos /\ (length q = size \/ size <= pos /\ exists t, ipop (pcs t) = Some (pos - size)).
Proof.
  intros pos P SQ. pose proof (i_lo_e _ _ _ _ _ I pos). assert (E : enq r = pos) by lia. split; auto.
  destruct (Nat.eq_dec (enq r) (deq r + size)) as [Q | Q]; [left; rewrite (i_q _ _ _ _ _ I); lia | right].
  destruct (i_free _ _ _ _ _ I pos) as [[Q1 Q2] | Q1]; [lia | auto | lia].
Qed.

Lemma empty_seen : forall pos, pos <= deq r -> seq_at r pos < S pos ->
  deq r = pos /\ (q = [] \/ exists t, ipush (pcs t) = Some pos).
Proof.
  intros pos P SQ. pose proof (i_lo_d _ _ _ _ _ I pos). assert (E : deq r = pos) by lia. split; auto.
  destruct (Nat.eq_dec (enq r) (deq r)) as [Q | Q].
  - left. apply length_zero_iff_nil. rewrite (i_q _ _ _ _ _ I). lia.
  - right. destruct (i_full _ _ _ _ _ I pos) as [Q1 | [Q1 _]]; [lia | auto | lia].
Qed.

Lemma push_cell_window : forall t p w, ipush (pcs t) = Some p ->
  deq r <= w < deq r + size -> idx r w = idx r p -> w = p.
Proof.
  intros t p w H Hw E. destruct (inv_ipush t p H) as (P & _).
  apply idx_window in E; [exact E | lia | lia].
Qed.

Lemma pop_cell_window : forall t p w, ipop (pcs t) = Some p ->
  deq r <= w < deq r + size -> idx r w = idx r p -> w = p + size.
Proof.
  intros t p w H Hw E. destruct (inv_ipop t p H) as (P1 & P2 & _). rewrite <- (idx_plus_size p) in E.
  apply idx_window in E; [exact E | lia | lia].
Qed.

Lemma inflight_cells : forall t p t0 p0, t0 <> t ->
  ipush (pcs t) = Some p \/ ipop (pcs t) = Some p -> ipush (pcs t0) = Some p0 \/ ipop (pcs t0) = Some p0 ->
  idx r p0 <> idx r p.
Proof.
  intros t p t0 p0 N [H | H] [H0 | H0] E.
  - destruct (inv_ipush t0 p0 H0) as (P & _).
    apply (push_cell_window t p p0 H) in E; [| lia]. subst p0. apply N, (i_upush _ _ _ _ _ I t0 t p); auto.
  - destruct (inv_ipush t p H) as (P & _). destruct (inv_ipop t0 p0 H0) as (_ & Q & _).
    symmetry in E. apply (pop_cell_window t0 p0 p H0) in E; lia.
  - destruct (inv_ipush t0 p0 H0) as (P & _). destruct (inv_ipop t p H) as (_ & Q & _).
    apply (pop_cell_window t p p0 H) in E; lia.
  - destruct (inv_ipop t p H) as (P1 & P2 & _). destruct (inv_ipop t0 p0 H0) as (Q1 & Q2 & _).
    apply idx_window in E; [| lia | lia]. subst p0. apply N, (i_upop _ _ _ _ _ I t0 t p); auto.
Qed.

End InvFacts.
