(** C09 — property theorems only; each closed by [exact] of a lemma proved under Store/.
    Model: Store/FinalizeDefs.v (isBlockOutdated, finalizeBlocks, finalizeBlockImpl incl. fix 057feaed,
    the TIP_IS_FINAL short-cuts of comparePopScore, setState with assertBlockCanBeUnapplied). *)
From Coq Require Import NArith List Bool.
From VB Require Import Store.FinalizeDefs Store.FinalizeProofs Store.FinalizeTheorems Store.FinalizeOutdated Store.FinalizeTips Store.FinalizeWindow Store.FinalizeBound.
Import ListNotations.
Local Open Scope N_scope.

(* once final, a block of the active chain stays on it and final under EVERY history of tip switches,
   finalizations, block additions and saves that does not abort - or it has been deallocated behind the root *)
Theorem C09_final_monotone :
  forall fuel ops t t' b,
  never_readds b ops = true ->
  In b (t_chain t) -> is_final t b = true ->
  frun fuel ops t = FOk t' ->
  (In b (t_chain t') /\ is_final t' b = true) \/ flookup (t_blocks t') b = None.
Proof. exact final_monotone. Qed.
Print Assumptions C09_final_monotone.

(* a successful setState never drops a final block from the active chain (assertBlockCanBeUnapplied) *)
Theorem C09_setState_keeps_final :
  forall fuel t to t' b,
  setTip fuel t to = FOk t' -> In b (t_chain t) -> is_final t b = true -> In b (t_chain t').
Proof. exact setTip_keeps_final. Qed.
Print Assumptions C09_setState_keeps_final.

(* fork resolution refuses every candidate whose fork point lies below a finalized block of the active chain,
   before touching any payload (TIP_IS_FINAL) *)
Theorem C09_cmp_refuses_below_final :
  forall fuel t cand fk f nx,
  consecutive t (t_chain t) -> final_prefix t (t_chain t) ->
  In f (t_chain t) -> is_final t f = true ->
  fork_block fuel t (tip_of t) cand = Some fk ->
  height_of t fk < height_of t f ->
  chain_at t (height_of t fk + 1) = Some nx ->
  cmp_shortcut fuel t cand = Some 1.
Proof. exact cmp_refuses_below_final. Qed.
Print Assumptions C09_cmp_refuses_below_final.

(* the finalized payload index keeps every entry and receives the payload ids of every active-chain block
   that is deallocated before it was marked final *)
Theorem C09_retained :
  forall fuel t idx preserve,
  (forall x, In x (t_fpidx t) -> In x (t_fpidx (finalizeBlockImpl fuel t idx preserve))) /\
  ((idx =? root_of t) = false ->
   forall tips' fin newRoot rp id b p,
   erase_tips fuel t (t_tips t) (lowest_dirty fuel t idx idx) = (tips', fin) ->
   chain_at t (N.max (height_of t (root_of t)) (height_of t fin - preserve)) = Some newRoot ->
   parent_of t newRoot = Some rp ->
   In id (unfinal_path fuel t rp) -> flookup (t_blocks t) id = Some b -> In p (f_pl b) ->
   In (p, id) (t_fpidx (finalizeBlockImpl fuel t idx preserve))).
Proof. exact retained. Qed.
Print Assumptions C09_retained.

(* every block that descends from the new root and is not under a sibling of the final block survives with
   the same height, payload ids, dirty bit and parent (the new root loses its parent).  PARTIAL: POP command
   execution is outside this model; see the comment at the lemma and known finding ctx-keystone-dealloc *)
Theorem C09_finalize_transparent_partial :
  forall fuel t idx preserve,
  (idx =? root_of t) = false ->
  forall tips' fin newRoot,
  erase_tips fuel t (t_tips t) (lowest_dirty fuel t idx idx) = (tips', fin) ->
  chain_at t (N.max (height_of t (root_of t)) (height_of t fin - preserve)) = Some newRoot ->
  forall id b,
  flookup (t_blocks t) id = Some b ->
  descends fuel t id newRoot = true ->
  (negb (newRoot =? root_of t) && under_sibling fuel t fin id) = false ->
  exists b', flookup (t_blocks (finalizeBlockImpl fuel t idx preserve)) id = Some b' /\
             f_height b' = f_height b /\ f_pl b' = f_pl b /\ f_dirty b' = f_dirty b /\
             (id <> newRoot -> f_parent b' = f_parent b).
Proof. exact finalize_transparent_partial. Qed.
Print Assumptions C09_finalize_transparent_partial.

(* isBlockOutdated decides as documented on the three clear cases *)
Theorem C09_outdated_cases :
  forall rec fuel t fin cand b,
  flookup (t_blocks t) cand = Some b ->
  (descends fuel t cand fin = true -> outdated rec fuel t fin cand = false) /\
  (height_of t cand < height_of t fin -> outdated rec fuel t fin cand = true) /\
  (height_of t cand = height_of t fin -> cand <> fin -> outdated rec fuel t fin cand = true).
Proof. exact outdated_cases. Qed.
Print Assumptions C09_outdated_cases.

(* on a well-formed tree isBlockOutdated(final, candidate) is exactly "candidate does not descend from final" *)
Theorem C09_outdated_iff_not_descendant :
  forall r fuel t fin cand bf bc,
  wf_tree t -> flookup (t_blocks t) fin = Some bf -> flookup (t_blocks t) cand = Some bc ->
  outdated (S r) fuel t fin cand = negb (descends fuel t cand fin).
Proof. exact outdated_iff_not_descends. Qed.
Print Assumptions C09_outdated_iff_not_descendant.

(* the tip erasure of finalizeBlockImpl keeps every tip that descends from the final block and does not lower the
   final block - EXCEPT when an outdated off-chain tip has an unsaved block on its branch (carved out by
   [no_dirty_outdated_forks], known finding tips-dirty-fork-erased) *)
Theorem C09_tips_kept_except_dirty_forks :
  forall fuel t fin tips tp,
  no_dirty_outdated_forks fuel t fin tips ->
  In tp tips -> descends fuel t tp fin = true ->
  In tp (fst (erase_tips fuel t tips fin)) /\ snd (erase_tips fuel t tips fin) = fin.
Proof. exact tips_kept_except_dirty_forks. Qed.
Print Assumptions C09_tips_kept_except_dirty_forks.

(* ... and without that condition the statement is false (corpus/C09/F10_dirty_fork_erased_from_tips.json):
   the final block is lowered to block 1, block 16 descends from it and is retained, but it is erased from tips_ *)
Theorem C09_tips_dirty_fork_erased_refuted :
  let t' := finalizeBlocks 40 f10_tree 8 12 1000000 in
  highest_final t' = Some 1 /\ descends 40 t' 16 1 = true /\ flookup (t_blocks t') 16 <> None /\
  ~ In 16 (t_tips t') /\ In 13 (t_tips t').
Proof. exact tips_dirty_fork_erased_refuted. Qed.
Print Assumptions C09_tips_dirty_fork_erased_refuted.

(* preserved window: every block of the active chain at or above max(old root, final - preserve) - the final block,
   the `preserve` blocks below it and the chain above it - is retained with unchanged height, payload ids, dirty
   bit and parent (the new root loses its parent) and stays on the active chain *)
Theorem C09_preserved_window :
  forall fuel t idx preserve,
  wf_tree t -> chain_is_path t ->
  (forall id b, flookup (t_blocks t) id = Some b -> (N.to_nat (f_height b) <= fuel)%nat) ->
  (idx =? root_of t) = false ->
  forall tips' fin newRoot,
  erase_tips fuel t (t_tips t) (lowest_dirty fuel t idx idx) = (tips', fin) ->
  In fin (t_chain t) ->
  chain_at t (N.max (height_of t (root_of t)) (height_of t fin - preserve)) = Some newRoot ->
  forall c b,
  In c (t_chain t) -> flookup (t_blocks t) c = Some b ->
  N.max (height_of t (root_of t)) (height_of t fin - preserve) <= height_of t c ->
  exists b', flookup (t_blocks (finalizeBlockImpl fuel t idx preserve)) c = Some b' /\
             f_height b' = f_height b /\ f_pl b' = f_pl b /\ f_dirty b' = f_dirty b /\
             (c <> newRoot -> f_parent b' = f_parent b) /\
             In c (t_chain (finalizeBlockImpl fuel t idx preserve)).
Proof. exact preserved_window. Qed.
Print Assumptions C09_preserved_window.

(* requested block [idx] vs actually finalized block [fin]: among the descendants of the new root only blocks
   under a sibling of the ACTUAL final block are deallocated *)
Theorem C09_only_siblings_of_actual_final :
  forall fuel t idx preserve,
  (idx =? root_of t) = false ->
  forall tips' fin newRoot,
  erase_tips fuel t (t_tips t) (lowest_dirty fuel t idx idx) = (tips', fin) ->
  chain_at t (N.max (height_of t (root_of t)) (height_of t fin - preserve)) = Some newRoot ->
  forall id b,
  flookup (t_blocks t) id = Some b ->
  descends fuel t id newRoot = true ->
  flookup (t_blocks (finalizeBlockImpl fuel t idx preserve)) id = None ->
  under_sibling fuel t fin id = true /\ (newRoot =? root_of t) = false.
Proof. exact only_siblings_of_actual_final. Qed.
Print Assumptions C09_only_siblings_of_actual_final.

(* VBK finalization takes the bound min_or_default(refs of the BTC tip) explicitly: if any reference of the BTC tip
   is at or below the VBK block finalization would request, nothing is finalized or deallocated *)
Theorem C09_vbk_finalization_bounded :
  forall fuel t maxReorg preserve refs fi r,
  (height_of t (tip_of t) <? maxReorg) = false ->
  chain_at t (N.max (height_of t (root_of t)) (height_of t (tip_of t) - maxReorg)) = Some fi ->
  In r refs -> r <= height_of t fi ->
  vbk_finalizeBlocks fuel t maxReorg preserve refs = t.
Proof. exact vbk_finalization_bounded. Qed.
Print Assumptions C09_vbk_finalization_bounded.

(* a min_or_default that answers the default when the minimum is the first element loses the bound *)
Theorem C09_min_or_default_first_bug_refuted :
  min_or_default [0] 2147483647 = 0 /\ min_or_default_first_bug [0] 2147483647 = 2147483647 /\
  min_or_default [5; 9] 2147483647 = 5 /\ min_or_default_first_bug [5; 9] 2147483647 = 2147483647.
Proof. exact min_or_default_first_bug_refuted. Qed.
Print Assumptions C09_min_or_default_first_bug_refuted.

(* the final-block guard of the POP state machine (Store/FinalGuard.v): assertBlockCanBeUnapplied's
   `!index.finalized` is a VBK_ASSERT_MSG, i.e. an explicit abort in EVERY build (also with NDEBUG) *)
From VB Require Import Store.FinalGuard.

(* the walk PopStateMachine::unapply spelled out, with the guard, is the setState of the finalization model *)
Theorem C09_guarded_walk_is_setState :
  forall fuel t to, setTip_g true fuel t to = setTip fuel t to.
Proof. exact setTip_g_true. Qed.
Print Assumptions C09_guarded_walk_is_setState.

(* the walk stops AT the first finalized block from the tip: that block and everything below it stays applied *)
Theorem C09_guard_stops_at_first_final :
  forall t l x,
  unapply_walk true t l = UAbort x ->
  is_final t x = true /\ exists above below, l = above ++ x :: below /\ existsb (is_final t) above = false.
Proof. exact unapply_walk_stops. Qed.
Print Assumptions C09_guard_stops_at_first_final.

(* a direct setState whose path does not keep a finalized active block is an abort, never a success *)
Theorem C09_setState_below_final_aborts :
  forall fuel t to b,
  In b (t_chain t) -> is_final t b = true ->
  ~ In b (common_prefix (t_chain t) (path_to fuel t to [])) ->
  setTip_g true fuel t to = FAbort.
Proof. exact setTip_g_aborts_on_final. Qed.
Print Assumptions C09_setState_below_final_aborts.

(* removeSubtree / invalidateSubtree (their state change: setState(pprev) of an active block) keep every finalized
   block on the active chain whenever they return *)
Theorem C09_remove_invalidate_keep_final :
  forall fuel t a t' b,
  unapplyFrom true fuel t a = FOk t' -> In b (t_chain t) -> is_final t b = true ->
  In b (t_chain t') /\ t_blocks t' = t_blocks t.
Proof. exact unapplyFrom_keeps_final. Qed.
Print Assumptions C09_remove_invalidate_keep_final.

(* C09_final_monotone for histories that also contain direct remove / invalidate calls *)
Theorem C09_guarded_history_keeps_final :
  forall fuel ops t t' b,
  g_never_readds b ops = true ->
  In b (t_chain t) -> is_final t b = true ->
  grun true fuel ops t = FOk t' ->
  (In b (t_chain t') /\ is_final t' b = true) \/ flookup (t_blocks t') b = None.
Proof. exact guarded_history_keeps_final. Qed.
Print Assumptions C09_guarded_history_keeps_final.

(* ... and with the check compiled out (VBK_ASSERT_MSG_DEBUG in a Release build) the statement is false: the
   history of corpus/C09/G1_final_guard_stale_fork.fin (finalize at tip 20, setState onto the stale fork on block 4;
   removeSubtree of the active final block 7) succeeds and leaves finalized blocks off the active chain, while the
   code as it is aborts *)
Theorem C09_final_guard_debug_only_refuted :
  (exists t', setTip_g false 40 stale_fork_final 106 = FOk t' /\
              t_chain t' = [0;1;2;3;4;105;106] /\
              is_final t' 9 = true /\ ~ In 9 (t_chain t') /\ is_final t' 5 = true /\ ~ In 5 (t_chain t')) /\
  (exists t', unapplyFrom false 40 stale_fork_final 7 = FOk t' /\
              tip_of t' = 6 /\ is_final t' 7 = true /\ ~ In 7 (t_chain t') /\ is_final t' 9 = true /\ ~ In 9 (t_chain t')) /\
  (exists t', grun false 40 [GOp (FFinalize 11 10 1000000); GOp (FSetTip 106)] stale_fork_tree = FOk t' /\
              In 9 (t_chain stale_fork_final) /\ is_final t' 9 = true /\ ~ In 9 (t_chain t') /\
              flookup (t_blocks t') 9 <> None) /\
  grun true 40 [GOp (FFinalize 11 10 1000000); GOp (FSetTip 106)] stale_fork_tree = FAbort.
Proof. exact final_guard_debug_only_refuted. Qed.
Print Assumptions C09_final_guard_debug_only_refuted.

(* read sets of the contextual checks vs. the window finalization retains (Store/Transparent*.v).
   Heights are Z, [m_previousKeystone] is what the generated getPreviousKeystoneHeight computes
   (Score/KeystoneProofs.v gen_getPreviousKeystoneHeight).  An ATV in a block of height hc endorsing a block of
   height he reads the height interval [second previous keystone of he .. hc] of the containing block's chain
   (CheckPublicationData: endorsed, endorsed->pprev, getAncestor(first), getAncestor(second);
   AddAltEndorsement: containing->getAncestor(he)); finalizeBlocks at tip height tipH retains the heights
   >= max(root, max(root, tipH - maxReorg) - preserve). *)
From Coq Require Import ZArith.
From VB Require Import Score.KeystoneDefs Store.TransparentDefs Store.TransparentArith Store.TransparentProofs Store.TransparentExamples.

(* the blocks the check names explicitly all lie in that interval *)
Theorem C09_read_marks_in_read_set :
  forall ki hc he h,
  (0 < ki)%Z -> (1 <= he)%Z -> (he <= hc)%Z -> In h (atv_read_marks ki hc he) -> atv_reads ki hc he h.
Proof. exact atv_read_marks_in_reads. Qed.
Print Assumptions C09_read_marks_in_read_set.

(* for every tip height, every containing block that is not outdated ([strict] = true: above the final block, the only
   blocks whose payloads can still be executed; false: the final block included) and every ATV that satisfies the
   settlement rule, every read that exists in the never-finalizing tree lies in the retained window, PROVIDED
   preserve >= settle + 2*ki (+ 1 when the final block is included) *)
Theorem C09_reads_within_window :
  forall strict ki settle preserve,
  (0 < ki)%Z -> (least_preserve strict ki settle <= preserve)%Z ->
  forall rootH tipH maxReorg hc he h,
  atv_situation strict settle rootH tipH maxReorg hc he ->
  atv_reads ki hc he h -> (rootH <= h)%Z ->
  (retained_low rootH tipH maxReorg preserve <= h)%Z.
Proof. exact reads_within_window. Qed.
Print Assumptions C09_reads_within_window.

(* ... and that bound is the exact least one, for every keystone interval and settlement interval *)
Theorem C09_reads_within_window_iff :
  forall strict ki settle preserve,
  (0 < ki)%Z -> (0 <= settle)%Z ->
  (reads_in_window strict ki settle preserve <-> (settle + 2 * ki + (if strict then 0 else 1) <= preserve)%Z).
Proof. exact reads_in_window_iff. Qed.
Print Assumptions C09_reads_within_window_iff.

(* the bound cannot be lowered by one: heights that satisfy the situation while the second previous keystone of the
   endorsed block exists in the never-finalizing tree but lies below the new root *)
Theorem C09_least_bound_tight :
  forall strict ki settle,
  (0 < ki)%Z -> (0 <= settle)%Z ->
  exists rootH tipH maxReorg hc he,
    window_miss strict ki settle (least_preserve strict ki settle - 1) rootH tipH maxReorg hc he.
Proof. exact least_bound_tight. Qed.
Print Assumptions C09_least_bound_tight.

(* the same on the tree model: ki 3, settle 4, block 13 final; an ATV in block 14 endorsing block 10 is accepted by the
   never-finalizing tree, rejected (bad-sf-context) after finalization with preserve = 9, accepted with preserve = 10 *)
Theorem C09_least_bound_tight_tree :
  let t := chain20 in
  let ctx := f_honest_ctx 40 t 3 10 in
  ctx = (10, Some 6, Some 3) /\
  highest_final (finalizeBlocks 40 t 7 9 1000000) = Some 13 /\
  root_of (finalizeBlocks 40 t 7 9 1000000) = 4 /\ root_of (finalizeBlocks 40 t 7 10 1000000) = 3 /\
  f_check_atv 40 t 3 4 14 10 ctx = AOk /\
  f_check_atv 40 (finalizeBlocks 40 t 7 9 1000000) 3 4 14 10 ctx = ASfContext /\
  f_check_atv 40 (finalizeBlocks 40 t 7 10 1000000) 3 4 14 10 ctx = AOk.
Proof. exact least_bound_tight_tree. Qed.
Print Assumptions C09_least_bound_tight_tree.

(* known finding ctx-keystone-dealloc on the model: with preserve = settle (the library's default and the only relation
   its parameters assert; here ki 3, settle = preserve = 4, maxReorg 8 as in corpus/C09/F12_ctx_keystone_dealloc.json)
   at tip 20 the fork block 113 on the final block 12 is not outdated, the ATV endorsing block 9 with the honest
   context (keystones 6 and 3) is accepted by the never-finalizing tree and rejected with bad-sf-context by the
   finalized one, which has deallocated both keystones (new root 8) *)
Theorem C09_preserve_equals_settle_refuted :
  (let t := chain20 in
   let t' := finalizeBlocks 40 t 8 4 1000000 in
   let ctx := f_honest_ctx 40 t 3 9 in
   t_chain t' = [8;9;10;11;12;13;14;15;16;17;18;19;20] /\ highest_final t' = Some 12 /\
   descends 40 t' 113 12 = true /\ outdated 40 40 t' 12 113 = false /\
   ctx = (9, Some 6, Some 3) /\
   prevks 9 3 0 = 6 /\ prevks 9 3 1 = 3 /\ flookup (t_blocks t') 6 = None /\ flookup (t_blocks t') 3 = None /\
   f_check_atv 40 t 3 4 113 9 ctx = AOk /\
   f_check_atv 40 t' 3 4 113 9 ctx = ASfContext /\
   f_honest_ctx 40 t' 3 9 = (9, None, None) /\
   f_check_atv 40 t 3 4 13 9 ctx = AOk /\ f_check_atv 40 t' 3 4 13 9 ctx = ASfContext) /\
  (final_height 0 20 8 = 12 /\ retained_low 0 20 8 4 = 8 /\
   atv_first_keystone 3 9 = 6 /\ atv_second_keystone 3 9 = 3 /\
   window_miss true 3 4 4 0 20 8 13 9)%Z.
Proof. exact (conj preserve_equals_settle_refuted_tree preserve_equals_settle_concrete). Qed.
Print Assumptions C09_preserve_equals_settle_refuted.

(* ... for EVERY keystone interval and settlement interval preserve = settle misses a keystone at some height *)
Theorem C09_preserve_equals_settle_never_suffices :
  forall strict ki settle,
  (0 < ki)%Z -> (0 <= settle)%Z ->
  (exists rootH tipH maxReorg hc he, window_miss strict ki settle settle rootH tipH maxReorg hc he) /\
  ~ reads_in_window strict ki settle settle.
Proof. exact preserve_equals_settle_misses. Qed.
Print Assumptions C09_preserve_equals_settle_never_suffices.

(* transparency of the ATV check as coded (CheckPublicationData + AddAltEndorsement over the finalization model's
   tree): under preserve >= settle + 2*ki the verdict for every ATV context in every non-outdated containing block
   above the final block ([strict] = false: the final block too, one more preserved block) is the same on the
   finalized and on the never-finalized tree.  Built on C09_finalize_transparent_partial *)
Theorem C09_finalize_transparent_atv_check :
  forall fuel t idx preserve tips' fin newRoot,
  wf_tree t -> chain_is_path t -> root_lowest t -> fuel_ok fuel t ->
  (idx =? root_of t) = false ->
  erase_tips fuel t (t_tips t) (lowest_dirty fuel t idx idx) = (tips', fin) ->
  In fin (t_chain t) ->
  chain_at t (N.max (height_of t (root_of t)) (height_of t fin - preserve)) = Some newRoot ->
  forall (strict : bool) ki settle c e ctx,
  0 < ki ->
  settle + 2 * ki + (if strict then 0 else 1) <= preserve ->
  anc t fin c ->
  (if strict then height_of t fin < height_of t c else True) ->
  anc t e c -> height_of t c - height_of t e <= settle ->
  height_of t (root_of t) < height_of t e ->
  height_of t (root_of t) <= prevks (height_of t e) ki 1 ->
  f_check_atv fuel (finalizeBlockImpl fuel t idx preserve) ki settle c e ctx = f_check_atv fuel t ki settle c e ctx.
Proof. exact finalize_transparent_atv_check. Qed.
Print Assumptions C09_finalize_transparent_atv_check.

(* ANY function that looks at the tree only through the blocks of the read set (height, pprev, dirty bit, payload
   ids) returns the same value on the finalized and on the never-finalized tree; one more preserved block than
   above because such a reader may follow the pprev of the lowest block it reaches, which finalization cuts at the
   new root (preserve >= settle + 2*ki + 1 above the final block, + 2 with the final block included) *)
Theorem C09_finalize_transparent_reads :
  forall fuel t idx preserve tips' fin newRoot,
  wf_tree t -> chain_is_path t -> root_lowest t -> fuel_ok fuel t ->
  (idx =? root_of t) = false ->
  erase_tips fuel t (t_tips t) (lowest_dirty fuel t idx idx) = (tips', fin) ->
  In fin (t_chain t) ->
  chain_at t (N.max (height_of t (root_of t)) (height_of t fin - preserve)) = Some newRoot ->
  forall (A : Type) (f : ftree -> A) (strict : bool) ki settle c e,
  0 < ki ->
  settle + 2 * ki + (if strict then 1 else 2) <= preserve ->
  anc t fin c ->
  (if strict then height_of t fin < height_of t c else True) ->
  anc t e c -> height_of t c - height_of t e <= settle ->
  height_of t (root_of t) < prevks (height_of t e) ki 1 ->
  reads_only (atv_read_ids t ki c e) f ->
  f (finalizeBlockImpl fuel t idx preserve) = f t.
Proof. exact finalize_transparent_reads. Qed.
Print Assumptions C09_finalize_transparent_reads.

(* getPopPayout(tip) reads the heights tip - (payoutDelay - 1) - difficultyAveragingInterval .. tip: inside the
   retained window iff payoutDelay - 1 + averagingInterval <= maxReorg + preserve *)
Theorem C09_payout_reads_within_window :
  forall delay avg preserve rootH tipH maxReorg h,
  (0 <= preserve -> maxReorg <= tipH -> delay - 1 + avg <= maxReorg + preserve ->
   payout_reads delay avg tipH h -> rootH <= h -> retained_low rootH tipH maxReorg preserve <= h)%Z.
Proof. exact payout_reads_within_window. Qed.
Print Assumptions C09_payout_reads_within_window.

Theorem C09_payout_bound_tight :
  forall delay avg maxReorg preserve,
  (1 <= delay -> 0 <= avg -> 0 <= maxReorg -> 0 <= preserve -> maxReorg + preserve < delay - 1 + avg ->
   let tipH := delay + avg + maxReorg in
   let h := tipH - (delay - 1) - avg in
   maxReorg <= tipH /\ payout_reads delay avg tipH h /\ 0 <= h /\ h < retained_low 0 tipH maxReorg preserve)%Z.
Proof. exact payout_bound_tight. Qed.
Print Assumptions C09_payout_bound_tight.

(* the finalization cascade over the three trees (Store/StackDefs.v, Store/StackHistory.v):
   AltBlockTree::finalizeBlocks -> VbkBlockTree::finalizeBlocks (bounded by the refs of the BTC tip) ->
   BlockTree<BtcBlock>::finalizeBlocks; per-tree operations are what addPayloads / removePayloads / setState of
   the tree above do to an SP tree (tip switch through assertBlockCanBeUnapplied, block addition, save,
   removeSubtree / invalidateSubtree) *)
From VB Require Import Store.StackDefs Store.StackHistory.

(* a finalized block of the ALT, VBK or BTC best chain stays on that chain and final under EVERY history of
   per-tree operations on the three trees interleaved with cascades carrying any reference list (or has been
   deallocated behind the root) *)
Theorem C09_stack_history_keeps_final :
  forall fuel p ops s s' w b,
  s_never_readds w b ops = true ->
  In b (t_chain (tree_of s w)) -> is_final (tree_of s w) b = true ->
  srun true fuel p ops s = SOk s' ->
  (In b (t_chain (tree_of s' w)) /\ is_final (tree_of s' w) b = true) \/ flookup (t_blocks (tree_of s' w)) b = None.
Proof. exact stack_history_keeps_final. Qed.
Print Assumptions C09_stack_history_keeps_final.

(* a tip switch of any of the three trees that would leave a finalized block of it aborts *)
Theorem C09_sp_setState_below_final_aborts :
  forall fuel p s w to b,
  In b (t_chain (tree_of s w)) -> is_final (tree_of s w) b = true ->
  ~ In b (common_prefix (t_chain (tree_of s w)) (path_to fuel (tree_of s w) to [])) ->
  sstep true fuel p s (SOn w (GOp (FSetTip to))) = SAbort.
Proof. exact sp_setState_below_final_aborts. Qed.
Print Assumptions C09_sp_setState_below_final_aborts.

(* the VBK step of the cascade respects the bound: a reference of the BTC tip at or below the requested block
   leaves the VBK tree untouched *)
Theorem C09_cascade_vbk_bounded :
  forall fuel p refs s fi r,
  (height_of (s_vbk s) (tip_of (s_vbk s)) <? sp_vbk_maxreorg p) = false ->
  chain_at (s_vbk s) (N.max (height_of (s_vbk s) (root_of (s_vbk s)))
                            (height_of (s_vbk s) (tip_of (s_vbk s)) - sp_vbk_maxreorg p)) = Some fi ->
  In r refs -> r <= height_of (s_vbk s) fi ->
  s_vbk (stack_finalize fuel p refs s) = s_vbk s.
Proof. exact cascade_vbk_bounded. Qed.
Print Assumptions C09_cascade_vbk_bounded.

(* a BTC tree whose tip is below maxReorgBlocks (asserted >= 2016 by BtcChainParams) is untouched by the cascade *)
Theorem C09_cascade_tree_below_maxreorg_untouched :
  forall fuel p refs s,
  (height_of (s_btc s) (tip_of (s_btc s)) <? sp_btc_maxreorg p) = true ->
  s_btc (stack_finalize fuel p refs s) = s_btc s.
Proof. exact cascade_tree_below_maxreorg_untouched. Qed.
Print Assumptions C09_cascade_tree_below_maxreorg_untouched.

(* the hypotheses are met by a concrete stack (VBK 0..20 with a stale fork on block 4, cascade finalizes VBK 0..9) *)
Theorem C09_stack_cascade_satisfiable :
  highest_final (s_vbk demo_after) = Some 9 /\ root_of (s_vbk demo_after) = 0 /\ tip_of (s_vbk demo_after) = 20 /\
  In 9 (t_chain (tree_of demo_after TVbk)) /\ is_final (tree_of demo_after TVbk) 9 = true /\
  flookup (t_blocks (s_vbk demo_after)) 106 <> None /\
  s_vbk (stack_finalize 40 demo_params [15; 9] demo_stack) = s_vbk demo_stack /\
  s_btc demo_after = s_btc demo_stack /\ s_alt demo_after = s_alt demo_stack /\
  sstep true 40 demo_params demo_after (SOn TVbk (GOp (FSetTip 106))) = SAbort /\
  sstep true 40 demo_params demo_after (SOn TVbk (GUnapplyFrom 7)) = SAbort /\
  s_never_readds TVbk 9 [SCascade [15;12]; SOn TVbk (GOp (FAdd 21 20 [])); SOn TBtc (GOp (FAdd 9 5 [])); SOn TVbk (GOp (FSetTip 21))] = true /\
  (exists s', srun true 40 demo_params
                [SCascade [15;12]; SOn TVbk (GOp (FAdd 21 20 [])); SOn TBtc (GOp (FAdd 9 5 [])); SOn TVbk (GOp (FSetTip 21))]
                demo_stack = SOk s' /\ tip_of (s_vbk s') = 21 /\ In 9 (t_chain (s_vbk s'))).
Proof. exact stack_cascade_satisfiable. Qed.
Print Assumptions C09_stack_cascade_satisfiable.

(* with assertBlockCanBeUnapplied compiled out the SP statement is false: the stale VBK fork is activated and the
   finalized VBK block 9 is off the best chain while still in memory *)
Theorem C09_stack_guard_debug_only_refuted :
  (exists s', srun false 40 demo_params [SCascade [15;12]; SOn TVbk (GOp (FSetTip 106))] demo_stack = SOk s' /\
              is_final (s_vbk s') 9 = true /\ ~ In 9 (t_chain (s_vbk s')) /\ flookup (t_blocks (s_vbk s')) 9 <> None) /\
  srun true 40 demo_params [SCascade [15;12]; SOn TVbk (GOp (FSetTip 106))] demo_stack = SAbort.
Proof. exact stack_guard_debug_only_refuted. Qed.
Print Assumptions C09_stack_guard_debug_only_refuted.
