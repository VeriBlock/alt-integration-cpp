(** Serde layer: the premise [addr_norm_sound] of the address-carrying codec theorems
    (EntityDefs.v) discharged for the CONCRETE normalisation [addr_norm_c18] of
    AddrNorm.v, i.e. for what DeserializeFromVbkEncoding(Address) computes: bytes ->
    EncodeBase58|59 by the wire type -> Address::fromString (length, 'V', alphabet,
    multisig m/n, checksum; the type is derived from the TEXT) -> DecodeBase58|59 by that
    type. Only sha256 stays abstract, with NO premise about it.

    Argument (text-only, so that it also covers the wire forms whose type byte disagrees
    with the text, e.g. wire type 3 whose base59 text does not end in '0'):
    - every character EncodeBase58/EncodeBase59 emit is a byte and not a space (for
      EncodeBase59 this holds for inputs of ANY length, also where the size_t counter of
      the leading-'1' loop would wrap);
    - for a text [s] without spaces that fromString accepts with type [t] and whose
      decoding by [t] is [w]: [w] has at most |s| = 30 bytes, and re-encoding [w] by [t]
      gives [s] back (C18 converse round trips b58_decode_encode / b59_encode_decode);
    - hence normalising (t, w) again rebuilds the same text, the same Address, the same
      decoding. *)
From Coq Require Import ZArith List Bool Lia.
From VB Require Import Gen.Consts Gen.TextTables Serde.StreamDefs Serde.StreamLemmas Serde.EntityDefs
  Serde.AddrNorm Text.TextCommon Text.Base58Defs Text.Base58Proofs Text.Base58Proofs3
  Text.Base58Proofs5 Text.AddressDefs Text.AddressProofs Text.AddressProofs2.
From VB Require Text.Base59Defs Text.Base59Proofs Text.Base59Proofs2.
Import ListNotations.
Local Open Scope Z_scope.

Lemma map_b2z_bytes (b : list byte) : bytes (map b2z b).
Proof.
  unfold bytes. apply Forall_forall. intros x Hx. apply in_map_iff in Hx.
  destruct Hx as [y [<- _]]. unfold is_byte. apply b2z_range.
Qed.

Lemma map_b2z_z2b (w : list Z) : bytes w -> map b2z (map z2b w) = w.
Proof.
  unfold bytes. induction w as [|x r IH]; intros H; [reflexivity|].
  inversion H as [|? ? Hx Hr]; subst. cbn [map]. rewrite IH by exact Hr.
  rewrite b2z_z2b_small by exact Hx. reflexivity.
Qed.

Definition plain (c : Z) : Prop := is_byte c /\ is_space c = false.

Lemma b59_char_plain m : plain (Base59Defs.char_of_digit m).
Proof.
  unfold Base59Defs.char_of_digit.
  destruct (nth_in_or_default (Z.to_nat m) b59_alphabet 0) as [Hin|E].
  - split.
    + pose proof Base59Proofs.b59_alphabet_lt128 as A. rewrite Forall_forall in A.
      specialize (A _ Hin). cbv beta in A. unfold is_byte. lia.
    + pose proof b59_alphabet_no_space_nul_all as A. rewrite forallb_forall in A.
      specialize (A _ Hin). apply andb_true_iff in A. destruct A as [A1 _].
      apply negb_true_iff in A1. exact A1.
  - rewrite E. split; [unfold is_byte; lia|reflexivity].
Qed.

Lemma b59_enc_loop_plain : forall j input st acc r j',
  Forall plain acc -> Base59Defs.enc_loop j input st acc = Ok (r, j') -> Forall plain r.
Proof.
  induction j as [|j IH]; intros input st acc r j' Ha H; rewrite Base59Proofs2.enc_loop_unfold in H.
  - destruct (st <? length input)%nat; [discriminate|]. inversion H; subst. exact Ha.
  - destruct (st <? length input)%nat.
    + cbv zeta in H. eapply IH; [|exact H]. constructor; [apply b59_char_plain|exact Ha].
    + inversion H; subst. exact Ha.
Qed.

Lemma b59_strip_lead_plain x : forall acc j, Forall plain acc -> Forall plain (fst (Base59Defs.strip_lead x acc j)).
Proof.
  induction acc as [|c r IH]; intros j Ha; [exact Ha|]. cbn [Base59Defs.strip_lead].
  destruct (c =? x); [|exact Ha]. apply IH. inversion Ha; assumption.
Qed.

Lemma b59_ones_loop_plain : forall j zc acc r,
  Forall plain acc -> Base59Defs.ones_loop j zc acc = Ok r -> Forall plain r.
Proof.
  induction j as [|j IH]; intros zc acc r Ha H; rewrite Base59Proofs2.ones_loop_unfold in H.
  - destruct (zc =? Base59Defs.size_max); [|discriminate]. inversion H; subst. exact Ha.
  - destruct (zc =? Base59Defs.size_max).
    + inversion H; subst. exact Ha.
    + eapply IH; [|exact H]. constructor; [apply b59_char_plain|exact Ha].
Qed.

Lemma b59_encode_plain bs : Forall plain (Base59Defs.b59_encode bs).
Proof.
  unfold Base59Defs.b59_encode. destruct (Base59Defs.b59_encode_o bs) as [v| |] eqn:E; try constructor.
  unfold Base59Defs.b59_encode_o in E. destruct bs as [|b0 bt]; [inversion E; constructor|].
  destruct (Base59Defs.enc_loop (2 * length (b0 :: bt)) (b0 :: bt) (Base59Defs.zero_count (b0 :: bt)) [])
    as [[acc j]| |] eqn:EL; try discriminate.
  cbv zeta in E. eapply b59_ones_loop_plain; [|exact E].
  apply b59_strip_lead_plain. eapply b59_enc_loop_plain; [|exact EL]. constructor.
Qed.

Lemma b58_encode_plain bs s : bytes bs -> b58_encode bs = Ok s -> Forall plain s.
Proof.
  intros Hb E. pose proof (b58_encode_alphabet bs s Hb E) as A.
  assert (S : forallb is_byteb b58_alphabet = true) by (vm_compute; reflexivity). rewrite forallb_forall in S.
  eapply Forall_impl; [|exact A]. cbv beta. intros c Hc. split.
  - specialize (S c Hc). unfold is_byteb in S. unfold is_byte. lia.
  - apply (b58_alphabet_no_space c Hc).
Qed.

Lemma plain_bytes s : Forall plain s -> bytes s.
Proof. intros H. eapply Forall_impl; [|exact H]. intros c [Hc _]. exact Hc. Qed.

Lemma b59_decode_out s v : bytes s -> Base59Defs.b59_decode s = Ok v -> bytes v /\ (length v <= length s)%nat.
Proof.
  intros Hb E.
  assert (Hall : Forall (fun c => In c b59_alphabet) s).
  { apply Forall_forall. intros c Hc. exact (b59_ok_chars s v Hb E c Hc). }
  destruct (Base59Proofs.alphabet_text_digits s Hall) as [ds [Hds ->]].
  destruct (Base59Proofs2.b59_decode_digits ds Hds) as [bs' [E' [Hb' [_ Hl']]]].
  rewrite E' in E. injection E as <-. split.
  - apply Forall_app. split; [|apply Base59Proofs2.strip0_Forall; exact Hb'].
    apply Forall_forall. intros x Hx. apply repeat_spec in Hx. unfold is_byte. lia.
  - rewrite app_length, repeat_length, map_length.
    pose proof (Base59Proofs2.strip0_length_le bs') as L1.
    pose proof (Base59Proofs2.strip0_length ds) as L2. lia.
Qed.

(** a base58 text without spaces is the encoding of its decoding *)
Lemma b58_plain_reencodes s v : Forall plain s -> b58_decode s = Ok v ->
  bytes v /\ b58_encode v = Ok s /\ (length v <= length s)%nat.
Proof.
  intros Hp E. pose proof (plain_bytes s Hp) as Hb.
  pose proof (b58_decode_bytes s v Hb E) as Hv.
  destruct (b58_decode_encode s v Hb E) as [sp1 [body [sp2 [Es [A1 [A2 Eb]]]]]].
  assert (Nil : forall sp, all_space sp -> (forall c, In c sp -> In c s) -> sp = []).
  { intros sp A Hin. destruct sp as [|c r]; [reflexivity|exfalso].
    unfold all_space in A. inversion A as [|? ? Hc _]; subst.
    rewrite Forall_forall in Hp. destruct (Hp c (Hin c (or_introl eq_refl))) as [_ Hn]. congruence. }
  assert (E1 : sp1 = []).
  { apply Nil; [exact A1|]. intros c Hc. rewrite Es. apply in_or_app. left. exact Hc. }
  assert (E2 : sp2 = []).
  { apply Nil; [exact A2|]. intros c Hc. rewrite Es. apply in_or_app. right. apply in_or_app. right. exact Hc. }
  subst sp1 sp2. cbn [app] in Es. rewrite app_nil_r in Es. subst body.
  split; [exact Hv|]. split; [exact Eb|]. exact (b58_encode_length v s Hv Eb).
Qed.

Section AddrNormSound.
  Variable sha256 : list Z -> list Z.

  Lemma text_of_wire_plain ty b text : text_of_wire ty b = Ok text -> Forall plain text.
  Proof.
    unfold text_of_wire. destruct (ty =? ADDR_STANDARD).
    - apply b58_encode_plain, map_b2z_bytes.
    - destruct (ty =? ADDR_MULTISIG); [|discriminate]. intros H. inversion H; subst. apply b59_encode_plain.
  Qed.

  (** the heart: for an accepted text without spaces, (type of the text, its decoding) is at most
      30 bytes long and is rebuilt into the very same text *)
  Lemma accepted_text_renormalises text a w :
    Forall plain text -> addr_from_string sha256 text = Ok a ->
    (if AddressDefs.addr_type a =? ADDR_MULTISIG then Base59Defs.b59_decode text else b58_decode text) = Ok w ->
    (AddressDefs.addr_type a = ADDR_STANDARD \/ AddressDefs.addr_type a = ADDR_MULTISIG) /\
    Z.of_nat (length w) <= addr_size /\
    text_of_wire (AddressDefs.addr_type a) (map z2b w) = Ok text.
  Proof.
    intros Hp Ha Hw. pose proof (plain_bytes text Hp) as Hb.
    destruct (addr_from_string_sound sha256 text a Ha) as [_ [EL [_ [Ety _]]]].
    destruct (addr_is_multisig text); rewrite Ety in *; clear Ety.
    - change (ADDR_MULTISIG =? ADDR_MULTISIG) with true in Hw. cbv iota in Hw.
      destruct (b59_decode_out text w Hb Hw) as [Hv Hl].
      split; [right; reflexivity|]. split; [lia|].
      unfold text_of_wire. change (ADDR_MULTISIG =? ADDR_STANDARD) with false.
      change (ADDR_MULTISIG =? ADDR_MULTISIG) with true. cbv iota.
      rewrite (map_b2z_z2b w Hv). f_equal.
      apply Base59Proofs2.b59_encode_decode; [exact Hb| |exact Hw].
      rewrite EL. vm_compute. discriminate.
    - change (ADDR_STANDARD =? ADDR_MULTISIG) with false in Hw. cbv iota in Hw.
      destruct (b58_plain_reencodes text w Hp Hw) as [Hv [Ee Hl]].
      split; [left; reflexivity|]. split; [lia|].
      unfold text_of_wire. change (ADDR_STANDARD =? ADDR_STANDARD) with true. cbv iota.
      rewrite (map_b2z_z2b w Hv). exact Ee.
  Qed.

  Theorem addr_norm_c18_sound : addr_norm_sound (addr_norm_c18 sha256).
  Proof.
    unfold addr_norm_sound. intros ty b t' b' H. unfold addr_norm_c18 in H.
    destruct (text_of_wire ty b) as [text| |] eqn:Et; try discriminate.
    destruct (addr_from_string sha256 text) as [a| |] eqn:Ea; try discriminate.
    destruct (if AddressDefs.addr_type a =? ADDR_MULTISIG then Base59Defs.b59_decode text else b58_decode text)
      as [w| |] eqn:Ew; try discriminate.
    inversion H; subst t' b'. clear H.
    pose proof (text_of_wire_plain ty b text Et) as Hp.
    destruct (accepted_text_renormalises text a w Hp Ea Ew) as [Hty [Hl Hre]].
    split; [|split].
    - destruct Hty as [-> | ->]; vm_compute; split; congruence.
    - unfold len. rewrite map_length. change VBK_ADDRESS_SIZE with addr_size. exact Hl.
    - unfold addr_norm_c18. rewrite Hre, Ea, Ew. reflexivity.
  Qed.
End AddrNormSound.
