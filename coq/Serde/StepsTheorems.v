(** The time-bound statements exported to Properties_C06.v.
    [steps_bound s c a b]: the counted decoder [s] returns exactly what the decoder [dec c] returns,
    and takes at most a * |input| + b steps — on EVERY byte string, whatever counts and lengths it announces. *)
From Coq Require Import ZArith List Lia.
From Coq Require Import Strings.Byte.
From VB Require Import Gen.Consts Serde.StreamDefs Serde.StreamLemmas Serde.StreamProofs Serde.EntityDefs
  Serde.StepsDefs Serde.StepsProofs.
Import ListNotations.
Local Open Scope Z_scope.

Definition steps_bound {A} (s : sdec A) (c : codec A) (a b : Z) : Prop :=
  forall bs, fst (s_run s bs) = dec c bs /\ 0 <= snd (s_run s bs) <= a * len bs + b.

Lemma steps_bound_of {A} (s : sdec A) c : s_counts s c -> steps_bound s c (s_a s) (s_b s).
Proof. intros (Ha & _ & _ & H). exact (counts_total _ _ _ _ _ Ha H). Qed.

(** slope and constant of each decoder below are its [s_a] and [s_b], evaluated *)
Section Entities.
  Variable an : Z -> list byte -> option (Z * list byte).

  Lemma popdata_steps : steps_bound (s_popdata an) (c_popdata an) 7 8.
  Proof. exact (steps_bound_of _ _ (s_popdata_counts an)). Qed.

  (** C06_steps_linear: the composite decoders *)
  Lemma steps_linear :
    steps_bound (s_vbktx an) (c_vbktx an) 6 1 /\ steps_bound (s_vbkpoptx an) (c_vbkpoptx an) 6 2 /\
    steps_bound (s_atv an) (c_atv an) 6 2 /\ steps_bound (s_vtb an) (c_vtb an) 6 3 /\
    steps_bound (s_popdata an) (c_popdata an) 7 8.
  Proof.
    exact (conj (steps_bound_of _ _ (s_vbktx_counts an)) (conj (steps_bound_of _ _ (s_vbkpoptx_counts an))
          (conj (steps_bound_of _ _ (s_atv_counts an)) (conj (steps_bound_of _ _ (s_vtb_counts an)) popdata_steps)))).
  Qed.
  Lemma steps_linear_parts :
    steps_bound (s_output an) (c_output an) 2 0 /\ steps_bound s_vbkblock c_vbkblock 2 0 /\
    steps_bound s_btcblock c_btcblock 2 0 /\ steps_bound s_merklepath c_merklepath 4 1 /\
    steps_bound s_vbkmerklepath c_vbkmerklepath 2 1 /\ steps_bound s_pubdata c_pubdata 2 0.
  Proof.
    exact (conj (steps_bound_of _ _ (s_output_counts an)) (conj (steps_bound_of _ _ s_vbkblock_counts)
          (conj (steps_bound_of _ _ s_btcblock_counts) (conj (steps_bound_of _ _ s_merklepath_counts)
          (conj (steps_bound_of _ _ s_vbkmerklepath_counts) (steps_bound_of _ _ s_pubdata_counts)))))).
  Qed.
End Entities.

(** the generic array combinator readArrayOf(min, max, readFunc) over ANY element reader that is itself
    linear (slope a, constant b) and consumes at least m >= 1 bytes when it succeeds: same results as
    [read_array_of], steps <= max(2, a + ceil((b+1)/m)) * |input| + b + 1 — no dependence on min, max or
    the announced count *)
Lemma array_steps {A} mn mx a b m (P : list byte -> sres A) p :
  refines P p -> 0 <= a -> 0 <= b -> 1 <= m -> lin a b m P ->
  forall bs, fst (read_array_of_s mn mx P bs) = read_array_of mn mx p bs /\
             0 <= snd (read_array_of_s mn mx P bs) <= Z.max 2 (a + amort b m) * len bs + (b + 1).
Proof.
  intros HP Ha Hb Hm Hl. apply (counts_total _ _ _ _ 1); [lia | exact (read_array_of_s_counts mn mx P p a b m Ha Hb Hm (conj HP Hl))].
Qed.

Lemma loop_steps_count_independent {A} a b m (P : list byte -> sres A) :
  0 <= a -> 0 <= b -> 1 <= m -> lin a b m P ->
  forall n bs, 0 <= snd (read_n_s P n bs) <= (a + amort b m) * len bs + (b + 1).
Proof.
  intros Ha Hb Hm Hl n bs. destruct (amort_ok b m Hb Hm) as [Hq Hqm].
  apply (lin_total (a + amort b m) _ _ _ ltac:(lia) (proj2 (read_n_s_counts P (fun bs => fst (P bs)) a b m _ Hb Hq Hqm (conj (fun _ => eq_refl) Hl) n))).
Qed.

(** * the count prefix costs at most 9 steps, and a count outside [min, max] stops the array there *)
Lemma read_sbl_s_cost mn mx bs :
  match fst (read_sbl_s mn mx bs) with
  | Value d r => snd (read_sbl_s mn mx bs) = 1 + len d
  | _ => 0 <= snd (read_sbl_s mn mx bs) <= 1
  end.
Proof.
  unfold read_sbl_s, read_be_s, read_slice_s.
  destruct (read_slice 1 bs) as [a r| | |] eqn:E; cbn [sbind sret fst snd]; try lia.
  apply read_slice_inv in E. destruct E as [_ E].
  destruct (check_range (wrap_t U8 (be_val a 0)) mn mx); cbn [sret fst snd]; [|lia].
  destruct (read_slice (wrap_t U8 (be_val a 0)) r) as [d r'| | |]; cbn [fst snd]; lia.
Qed.

Lemma read_single_be_s_const t bs : 0 <= ibytes t -> 0 <= snd (read_single_be_s t bs) <= 1 + 2 * ibytes t.
Proof.
  intros Ht. unfold read_single_be_s, sbind. pose proof (read_sbl_s_cost 0 (ibytes t) bs) as C.
  pose proof (proj1 (read_sbl_s_counts 0 (ibytes t)) bs) as E.
  destruct (read_sbl_s 0 (ibytes t) bs) as [[d r| | |] s]; cbn [fst snd] in C, E |- *; try lia.
  symmetry in E. apply read_sbl_inv in E. destruct E as (Hd & _ & _). unfold in_sub_s. cbn [snd].
  pose proof (lin_total 1 0 _ _ ltac:(lia) (proj2 (read_be_s_counts t (len d))) d). lia.
Qed.

(** checkRange(count, min, max) BEFORE reserve() and the loop: a count outside the declared limits ends the
    array after the <= 9 steps of its own prefix — no element reader is called, nothing is reserved *)
Lemma array_count_out_of_range {A} mn mx (P : list byte -> sres A) bs c r :
  fst (read_single_be_s I32 bs) = Value c r -> check_range c mn mx = false ->
  read_array_of_s mn mx P bs = (Invalid, snd (read_single_be_s I32 bs)) /\ snd (read_single_be_s I32 bs) <= 9.
Proof.
  intros E C. split.
  - unfold read_array_of_s, read_count_s.
    rewrite (sbind_value (read_single_be_s I32 bs) _ c r E). rewrite C. cbn [sret fst snd].
    unfold sbind. cbn [fst snd]. rewrite Z.add_0_r. reflexivity.
  - pose proof (read_single_be_s_const I32 bs ltac:(cbn; lia)) as H. cbn [ibytes I32] in H. lia.
Qed.

(** ... and WITHOUT that check the loop runs [count] times when an element can succeed on no bytes:
    5 input bytes, more than 2^31 steps. (For the real element types — every one consumes >= 1 byte —
    the loop stops at the first missing element, see [loop_steps_count_independent]; the check is what
    bounds reserve() and zero-size elements.) *)
Lemma read_n_s_empty : forall n bs, read_n_s (s_run s_empty) n bs = (Value (repeat tt n) bs, Z.of_nat n).
Proof.
  induction n as [|k IH]; intros bs; [reflexivity|].
  cbn [read_n_s]. rewrite (sbind_value _ _ tt bs) by reflexivity.
  rewrite IH. cbn [s_run s_empty tick sret sbind fst snd repeat]. f_equal. lia.
Qed.

Lemma unchecked_cost bs c r : fst (read_single_be_s I32 bs) = Value c r -> 0 <= c ->
  snd (read_array_unchecked_s (s_run s_empty) bs) = snd (read_single_be_s I32 bs) + c.
Proof.
  intros E Hc. unfold read_array_unchecked_s. rewrite (sbind_value _ _ c r E).
  rewrite read_n_s_empty. cbn [fst snd]. rewrite Z2Nat.id by exact Hc. reflexivity.
Qed.

Definition huge_count : list byte := [x04; x7f; xff; xff; xff].
Lemma huge_count_prefix : read_single_be_s I32 huge_count = (Value 2147483647 [], 9).
Proof. vm_compute. reflexivity. Qed.
Lemma unchecked_count_refuted :
  len huge_count = 5 /\
  2 ^ 31 <= snd (read_array_unchecked_s (s_run s_empty) huge_count) /\
  read_array_of_s 0 MAX_POPDATA_VTB (s_run s_empty) huge_count = (Invalid, 9).
Proof.
  split; [reflexivity|]. split.
  - rewrite (unchecked_cost huge_count 2147483647 []); [|rewrite huge_count_prefix; reflexivity | discriminate].
    rewrite huge_count_prefix. cbn [snd]. change (2 ^ 31) with 2147483648. lia.
  - pose proof (array_count_out_of_range 0 MAX_POPDATA_VTB (s_run s_empty) huge_count 2147483647 []) as H.
    rewrite huge_count_prefix in H. apply H; reflexivity.
Qed.
