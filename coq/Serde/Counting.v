(** Serde layer: the abstract container arithmetic of CountingContext
    (coq/Mempool/CountDefs.v, property C12: [prefix], [estimate], [popsize]) IS
    the overhead of the PopData codec of this development:
      CountDefs.prefix n            = singleBEValueSize(n)       (single_be_size)
      CountDefs.estimate sv st sa   = esize c_popdata p          when sv/st/sa are the esize of p's context/vtbs/atvs
    so the per-kind length prefix is tied to the counter of its own kind, and — with [codec_ok] of PopData —
    the running figure of CountingContext is the number of bytes toVbkEncoding() produces. *)
From Coq Require Import ZArith List Lia.
From VB Require Import Serde.StreamDefs Serde.CodecSpec Serde.StreamLemmas Serde.EntityDefs Serde.EntityProofs
  Mempool.CountDefs Mempool.CountProofs.
Import ListNotations.
Local Open Scope Z_scope.

(** trim_x is the minimal byte count *)
Lemma trim_x_unique v k : 1 <= k <= 8 -> 0 <= v < 2 ^ (8 * k) -> (k = 1 \/ 2 ^ (8 * (k - 1)) <= v) -> trim_x 7 v = k.
Proof.
  intros Hk Hv Hlow.
  assert (Hle : trim_x 7 v <= k) by (apply trim_x_le; lia).
  pose proof (trim_x_range 7 v) as Hr.
  destruct Hlow as [->|Hlow]; [lia|].
  destruct (Z_lt_le_dec (trim_x 7 v) k) as [Hlt|]; [|lia].
  pose proof (pow2_mono (8 * k) 64). pose proof (trim_x7_upper v).
  pose proof (pow2_mono (8 * trim_x 7 v) (8 * (k - 1))). lia.
Qed.

Lemma prefix_is_single_be_size n : (n < 2 ^ 63)%N -> single_be_size (Z.of_N n) = Z.of_N (CountDefs.prefix n).
Proof.
  intros Hn. unfold single_be_size, CountDefs.prefix. rewrite len_trimmed. rewrite N2Z.inj_add. f_equal.
  unfold trimmed_len.
  repeat match goal with |- context [(?a <? ?b)%N] => destruct (N.ltb_spec a b) end;
    (apply trim_x_unique; [lia | lia | first [left; reflexivity | right; lia]]).
Qed.

Lemma sum_map (l : list N) : Z.of_N (CountDefs.sum l) = sumZ (map Z.of_N l).
Proof. induction l as [|x l IH]; cbn [CountDefs.sum fold_right map sumZ]; [reflexivity|]. fold (CountDefs.sum l). lia. Qed.

Lemma len_map_N (l : list N) (m : list Z) : map Z.of_N l = m -> Z.of_N (CountDefs.len l) = StreamDefs.len m.
Proof. intros <-. unfold CountDefs.len, StreamDefs.len. rewrite map_length. lia. Qed.

Section WithAddr.
  Variable addr_norm : Z -> list byte -> option (Z * list byte).

  (** estimateSize of PopData, field by field (popdata.cpp) *)
  Lemma popdata_esize p : esize (c_popdata addr_norm) p =
    4 + ((single_be_size (StreamDefs.len (pop_context p)) + 0 + sumZ (map (esize c_vbkblock) (pop_context p))) +
         ((single_be_size (StreamDefs.len (pop_vtbs p)) + 0 + sumZ (map (esize (c_vtb addr_norm)) (pop_vtbs p))) +
          (single_be_size (StreamDefs.len (pop_atvs p)) + 0 + sumZ (map (esize (c_atv addr_norm)) (pop_atvs p))))).
  Proof. destruct p. reflexivity. Qed.

  (** the composition: abstract sizes sv/st/sa = the estimateSize of the elements  ==>  CountDefs.estimate = esize PopData *)
  Theorem counting_estimate_is_popdata_esize p sv st sa :
    map Z.of_N sv = map (esize c_vbkblock) (pop_context p) ->
    map Z.of_N st = map (esize (c_vtb addr_norm)) (pop_vtbs p) ->
    map Z.of_N sa = map (esize (c_atv addr_norm)) (pop_atvs p) ->
    (CountDefs.len sv < 2 ^ 63)%N -> (CountDefs.len st < 2 ^ 63)%N -> (CountDefs.len sa < 2 ^ 63)%N ->
    Z.of_N (CountDefs.estimate sv st sa) = esize (c_popdata addr_norm) p.
  Proof.
    intros Ev Et Ea Lv Lt La. rewrite popdata_esize. unfold CountDefs.estimate.
    rewrite !N2Z.inj_add, !sum_map, Ev, Et, Ea.
    rewrite <- !prefix_is_single_be_size by assumption.
    rewrite (len_map_N _ _ Ev), (len_map_N _ _ Et), (len_map_N _ _ Ea).
    assert (Hl : forall (A : Type) (f : A -> Z) (l : list A), StreamDefs.len (map f l) = StreamDefs.len l)
      by (intros; unfold StreamDefs.len; rewrite map_length; reflexivity).
    rewrite !Hl. change (Z.of_N 4) with 4. lia.
  Qed.

  (** with C12's [popsize c = est_kept r] and [codec_ok] of PopData: the running figure = bytes written *)
  Corollary counting_figure_is_encoded_size (Hn : addr_norm_sound addr_norm) p c r :
    agrees c r -> wfd (c_popdata addr_norm) p = true -> StreamDefs.fits (c_popdata addr_norm) p = true ->
    map Z.of_N (k_vbk r) = map (esize c_vbkblock) (pop_context p) ->
    map Z.of_N (k_vtb r) = map (esize (c_vtb addr_norm)) (pop_vtbs p) ->
    map Z.of_N (k_atv r) = map (esize (c_atv addr_norm)) (pop_atvs p) ->
    (CountDefs.len (k_vbk r) < 2 ^ 63)%N -> (CountDefs.len (k_vtb r) < 2 ^ 63)%N -> (CountDefs.len (k_atv r) < 2 ^ 63)%N ->
    Z.of_N (popsize c) = StreamDefs.len (enc (c_popdata addr_norm) p).
  Proof.
    intros Ha Hw Hf Ev Et Ea Lv Lt La. rewrite (popsize_estimate c r Ha). unfold est_kept.
    rewrite (counting_estimate_is_popdata_esize p _ _ _ Ev Et Ea Lv Lt La).
    apply (ok_size _ (c_popdata_ok addr_norm Hn)); assumption.
  Qed.
End WithAddr.
