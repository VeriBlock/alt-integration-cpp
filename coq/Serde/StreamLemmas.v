(** Serde layer: basic facts about bytes, lengths, big-endian conversion,
    [wrap], [trim_x] and the ReadStream primitives. *)
From Coq Require Import ZArith List Bool Lia ZifyBool.
From VB Require Import Serde.StreamDefs Serde.CodecSpec.
Import ListNotations.
Local Open Scope Z_scope.

Lemma b2z_range b : 0 <= b2z b < 256.
Proof. unfold b2z. pose proof (Byte.to_N_bounded b). lia. Qed.

Lemma z2b_b2z b : z2b (b2z b) = b.
Proof.
  unfold z2b. rewrite Z.mod_small by apply b2z_range.
  unfold b2z. rewrite N2Z.id. rewrite Byte.of_to_N. reflexivity.
Qed.

Lemma b2z_z2b z : b2z (z2b z) = z mod 256.
Proof.
  unfold z2b, b2z. pose proof (Z.mod_pos_bound z 256 ltac:(lia)) as Hm.
  destruct (Byte.of_N (Z.to_N (z mod 256))) eqn:E.
  - apply Byte.to_of_N in E. rewrite E. rewrite Z2N.id; lia.
  - apply Byte.of_N_None_iff in E. lia.
Qed.

Lemma b2z_z2b_small z : 0 <= z < 256 -> b2z (z2b z) = z.
Proof. intros. rewrite b2z_z2b. apply Z.mod_small. assumption. Qed.

Lemma z2b_mod z : z2b (z mod 256) = z2b z.
Proof. unfold z2b. rewrite Z.mod_mod by lia. reflexivity. Qed.

Lemma len_nil {A} : len (@nil A) = 0. Proof. reflexivity. Qed.
Lemma len_cons {A} (x : A) l : len (x :: l) = 1 + len l.
Proof. unfold len. cbn [length]. lia. Qed.
Lemma len_app {A} (a b : list A) : len (a ++ b) = len a + len b.
Proof. unfold len. rewrite app_length. lia. Qed.
Lemma len_nonneg {A} (l : list A) : 0 <= len l.
Proof. unfold len. lia. Qed.
Lemma len_rev {A} (l : list A) : len (rev l) = len l.
Proof. unfold len. rewrite rev_length. reflexivity. Qed.
Lemma len_0_nil {A} (l : list A) : len l = 0 -> l = [].
Proof. destruct l; [reflexivity|]. rewrite len_cons. pose proof (len_nonneg l). lia. Qed.

Lemma forallb_all {A} (f : A -> bool) (l : list A) : (forall x, f x = true) -> forallb f l = true.
Proof. intros H. induction l; cbn [forallb]; [reflexivity|]. rewrite H. assumption. Qed.

Lemma has_more_spec bs : forall n, has_more bs n = (n <=? len bs).
Proof.
  induction bs as [|b t IH]; intros n; cbn [has_more].
  - change (len (@nil byte)) with 0. destruct (n <=? 0); reflexivity.
  - rewrite len_cons, IH. pose proof (len_nonneg t). destruct (Z.leb_spec n 0); lia.
Qed.

Lemma raw_take_0 bs n : n <= 0 -> raw_take bs n = Some ([], bs).
Proof. intros H. destruct bs; cbn [raw_take]; destruct (Z.leb_spec n 0); try lia; reflexivity. Qed.

Lemma raw_take_app a : forall r, raw_take (a ++ r) (len a) = Some (a, r).
Proof.
  induction a as [|b a IH]; intros r.
  - apply raw_take_0. change (len (@nil byte)) with 0. lia.
  - cbn [app raw_take]. rewrite len_cons. pose proof (len_nonneg a).
    destruct (Z.leb_spec (1 + len a) 0); [lia|].
    replace (1 + len a - 1) with (len a) by lia. rewrite IH. reflexivity.
Qed.

Lemma raw_take_some bs : forall n a r, raw_take bs n = Some (a, r) -> bs = a ++ r /\ len a = Z.max 0 n.
Proof.
  induction bs as [|b t IH]; intros n a r; cbn [raw_take]; destruct (Z.leb_spec n 0).
  1, 3: intros [= <- <-]; split; [reflexivity | rewrite len_nil; lia].
  - discriminate.
  - destruct (raw_take t (n - 1)) as [[a' r']|] eqn:E; [|discriminate].
    intros [= <- <-]. apply IH in E. destruct E as [-> El]. split; [reflexivity | rewrite len_cons; lia].
Qed.

Lemma raw_take_has_more bs : forall n, has_more bs n = true -> raw_take bs n <> None.
Proof.
  induction bs as [|b t IH]; intros n; cbn [has_more raw_take].
  - destruct (n <=? 0); [discriminate|]. intros H; discriminate.
  - destruct (n <=? 0); [discriminate|]. intros H. apply IH in H.
    destruct (raw_take t (n - 1)) as [[? ?]|]; [discriminate|contradiction].
Qed.

Lemma read_slice_app a r : read_slice (len a) (a ++ r) = Value a r.
Proof.
  unfold read_slice. rewrite has_more_spec, len_app. pose proof (len_nonneg r).
  destruct (Z.leb_spec (len a) (len a + len r)); [|lia]. rewrite raw_take_app. reflexivity.
Qed.

Lemma read_slice_app' n a r : n = len a -> read_slice n (a ++ r) = Value a r.
Proof. intros ->. apply read_slice_app. Qed.

Lemma read_slice_all a : read_slice (len a) a = Value a [].
Proof. rewrite <- (app_nil_r a) at 2. apply read_slice_app. Qed.

Lemma read_slice_inv n bs a r : read_slice n bs = Value a r -> bs = a ++ r /\ len a = Z.max 0 n.
Proof.
  unfold read_slice. destruct (has_more bs n); [|discriminate].
  destruct (raw_take bs n) as [[a' r']|] eqn:E; [|discriminate].
  intros Hq; inversion Hq; subst. eapply raw_take_some; eassumption.
Qed.

Lemma bind_inv {A B} (x : res A) (f : A -> list byte -> res B) b r :
  bind x f = Value b r -> exists a r1, x = Value a r1 /\ f a r1 = Value b r.
Proof. destruct x as [a r1| | |]; cbn [bind]; [eauto | discriminate ..]. Qed.

Lemma safe_value {A} bs (x : A) : safe bs (Value x bs).
Proof. exists []. reflexivity. Qed.

Lemma safe_bind {A B} bs (r : res A) (f : A -> list byte -> res B) :
  safe bs r -> (forall x rest, r = Value x rest -> safe rest (f x rest)) -> safe bs (bind r f).
Proof.
  destruct r as [x rest| | |]; cbn [safe bind]; intros H Hf; try assumption.
  destruct H as [pre ->]. specialize (Hf x rest eq_refl).
  destruct (f x rest) as [y rest'| | |]; cbn [safe] in *; try assumption.
  destruct Hf as [pre' ->]. exists (pre ++ pre'). rewrite app_assoc. reflexivity.
Qed.

Lemma safe_in_sub {A} (p : list byte -> res A) d r : safe d (p d) -> safe r (in_sub p d r).
Proof.
  unfold in_sub. destruct (p d); cbn [safe]; intros H; try assumption. exists []. reflexivity.
Qed.

Lemma safe_weaken {A} pre bs (r : res A) : safe bs r -> safe (pre ++ bs) r.
Proof.
  destruct r; cbn [safe]; intros H; try assumption. destruct H as [p ->]. exists (pre ++ p). rewrite app_assoc. reflexivity.
Qed.

Lemma read_slice_safe n bs : safe bs (read_slice n bs).
Proof.
  unfold read_slice. destruct (has_more bs n) eqn:Hm; [|exact I].
  pose proof (raw_take_has_more bs n Hm) as Hn.
  destruct (raw_take bs n) as [[a r]|] eqn:E; [|contradiction].
  apply raw_take_some in E. destruct E as [-> _]. exists a. reflexivity.
Qed.

Lemma pow2_8 n : 0 <= n -> 2 ^ (8 * n) = 256 ^ n.
Proof. intros. rewrite Z.pow_mul_r by lia. reflexivity. Qed.
Lemma pow256_pos n : 0 <= n -> 0 < 256 ^ n.
Proof. intros. apply Z.pow_pos_nonneg; lia. Qed.
Lemma pow2_pos n : 0 <= n -> 0 < 2 ^ n.
Proof. intros. apply Z.pow_pos_nonneg; lia. Qed.
Lemma pow2_double n : 0 < n -> 2 ^ n = 2 * 2 ^ (n - 1).
Proof. intros. replace n with (Z.succ (n - 1)) at 1 by lia. apply Z.pow_succ_r. lia. Qed.
Lemma pow2_mono a b : 0 <= a <= b -> 2 ^ a <= 2 ^ b.
Proof. intros. apply Z.pow_le_mono_r; lia. Qed.

Lemma be_val_acc l : forall acc, be_val l acc = acc * 256 ^ (len l) + be_val l 0.
Proof.
  induction l as [|b t IH]; intros acc; cbn [be_val].
  - change (len (@nil byte)) with 0. cbn. lia.
  - rewrite (IH (acc * 256 + b2z b)), (IH (0 * 256 + b2z b)). rewrite len_cons.
    rewrite Z.pow_add_r by (pose proof (len_nonneg t); lia). lia.
Qed.

Lemma be_val_range l : 0 <= be_val l 0 < 256 ^ (len l).
Proof.
  induction l as [|b t IH]; cbn [be_val].
  - change (len (@nil byte)) with 0. cbn. lia.
  - rewrite be_val_acc, len_cons. pose proof (b2z_range b). pose proof (len_nonneg t).
    rewrite Z.pow_add_r by lia. pose proof (pow256_pos (len t) ltac:(lia)). nia.
Qed.

Lemma be_val_app l1 l2 acc : be_val (l1 ++ l2) acc = be_val l2 (be_val l1 acc).
Proof. revert acc. induction l1 as [|b t IH]; intros acc; cbn [app be_val]; [reflexivity|apply IH]. Qed.

Lemma be_bytes_length n : forall v, length (be_bytes n v) = n.
Proof. induction n as [|k IH]; intros v; cbn [be_bytes]; [reflexivity|]. rewrite app_length, IH. cbn. lia. Qed.

Lemma len_be_bytes n v : len (be_bytes n v) = Z.of_nat n.
Proof. unfold len. rewrite be_bytes_length. reflexivity. Qed.

Lemma len_write_be n v : 0 <= n -> len (write_be n v) = n.
Proof. intros. unfold write_be. rewrite len_be_bytes. lia. Qed.

Lemma be_val_be_bytes n : forall v, be_val (be_bytes n v) 0 = v mod 256 ^ (Z.of_nat n).
Proof.
  induction n as [|k IH]; intros v; cbn [be_bytes].
  - cbn. rewrite Z.mod_1_r. reflexivity.
  - rewrite be_val_app, IH. cbn [be_val]. rewrite b2z_z2b.
    replace (Z.of_nat (S k)) with (1 + Z.of_nat k) by lia.
    rewrite Z.pow_add_r by lia. change (256 ^ 1) with 256.
    rewrite Z.rem_mul_r by (pose proof (pow256_pos (Z.of_nat k)); lia). lia.
Qed.

Lemma be_val_write_be n v : 0 <= n -> be_val (write_be n v) 0 = v mod 2 ^ (8 * n).
Proof. intros. unfold write_be. rewrite be_val_be_bytes, Z2Nat.id, pow2_8 by lia. reflexivity. Qed.

Lemma be_bytes_be_val d : be_bytes (length d) (be_val d 0) = d.
Proof.
  induction d as [|b d IH] using rev_ind; [reflexivity|].
  rewrite app_length. cbn [length]. rewrite Nat.add_1_r. cbn [be_bytes].
  rewrite be_val_app. cbn [be_val]. pose proof (b2z_range b).
  replace ((be_val d 0 * 256 + b2z b) / 256) with (be_val d 0).
  2:{ symmetry. rewrite Z.div_add_l by lia. rewrite Z.div_small by lia. lia. }
  rewrite IH. f_equal. f_equal. rewrite <- z2b_mod.
  rewrite Z.add_comm, Z.mod_add by lia. rewrite Z.mod_small by lia. apply z2b_b2z.
Qed.

Lemma be_bytes_mod n : forall v, be_bytes n (v mod 256 ^ Z.of_nat n) = be_bytes n v.
Proof.
  intros v. rewrite <- be_val_be_bytes.
  rewrite <- (be_bytes_length n v) at 1. apply be_bytes_be_val.
Qed.

Lemma mod_neg_once v N : - N <= v < 0 -> v mod N = v + N.
Proof. intros. symmetry. apply Z.mod_unique with (q := -1); lia. Qed.

Lemma wrap_small bits s m : 0 < bits -> 0 <= m < 2 ^ (bits - 1) -> wrap bits s m = m.
Proof.
  intros Hb Hm. unfold wrap. pose proof (pow2_double bits Hb).
  rewrite Z.mod_small by lia.
  destruct (Z.leb_spec (2 ^ (bits - 1)) m); [lia|]. rewrite andb_false_r. reflexivity.
Qed.

Lemma wrap_unsigned bits m : 0 <= m < 2 ^ bits -> wrap bits false m = m.
Proof. intros. unfold wrap. cbn [andb]. apply Z.mod_small. assumption. Qed.

Lemma wrap_signed_rt bits v : 0 < bits -> - 2 ^ (bits - 1) <= v < 2 ^ (bits - 1) -> wrap bits true (v mod 2 ^ bits) = v.
Proof.
  intros Hb Hv. unfold wrap. rewrite Z.mod_mod by (pose proof (pow2_pos bits); lia).
  pose proof (pow2_double bits Hb) as Hd. cbn [andb].
  destruct (Z_lt_le_dec v 0).
  - rewrite mod_neg_once by lia. destruct (Z.leb_spec (2 ^ (bits - 1)) (v + 2 ^ bits)); lia.
  - rewrite Z.mod_small by lia. destruct (Z.leb_spec (2 ^ (bits - 1)) v); lia.
Qed.

Lemma wrap_range bits (s : bool) v : 0 < bits ->
  (if s then - 2 ^ (bits - 1) else 0) <= wrap bits s v < (if s then 2 ^ (bits - 1) else 2 ^ bits).
Proof.
  intros Hb. unfold wrap. pose proof (pow2_double bits Hb).
  pose proof (Z.mod_pos_bound v (2 ^ bits) (pow2_pos bits ltac:(lia))).
  destruct s; cbn [andb]; [|lia].
  destruct (Z.leb_spec (2 ^ (bits - 1)) (v mod 2 ^ bits)); lia.
Qed.

(** reading back [n] bytes of a value in the range of readBE<T>(.., n) *)
Lemma wrap_t_rt t n v : 0 < n <= ibytes t -> in_be_range t n v = true ->
  wrap_t t (v mod 2 ^ (8 * n)) = v.
Proof.
  intros Hn Hr. unfold in_be_range, be_lo, be_hi in Hr. unfold wrap_t.
  destruct (isigned t && (n =? ibytes t)) eqn:E.
  - assert (n = ibytes t) as -> by lia. replace (isigned t) with true by lia. apply wrap_signed_rt; lia.
  - rewrite Z.mod_small by lia. pose proof (pow2_mono (8 * n) (8 * ibytes t - 1)) as M.
    destruct (isigned t); [apply wrap_small | apply wrap_unsigned]; try lia.
    pose proof (pow2_mono (8 * n) (8 * ibytes t)). lia.
Qed.

Lemma wrap_t_in_range t n m : 0 < n <= ibytes t -> 0 <= m < 2 ^ (8 * n) -> in_be_range t n (wrap_t t m) = true.
Proof.
  intros Hn Hm. unfold in_be_range, be_lo, be_hi, wrap_t.
  destruct (isigned t && (n =? ibytes t)) eqn:E.
  - assert (n = ibytes t) as -> by lia. replace (isigned t) with true by lia.
    pose proof (wrap_range (8 * ibytes t) true m ltac:(lia)) as W. cbn beta iota in W. lia.
  - pose proof (pow2_mono (8 * n) (8 * ibytes t - 1)). pose proof (pow2_mono (8 * n) (8 * ibytes t)).
    destruct (isigned t); [rewrite wrap_small | rewrite wrap_unsigned]; lia.
Qed.

Lemma shiftr_eq0 v k : 0 <= k -> (Z.shiftr v k =? 0) = true -> 0 <= v < 2 ^ k.
Proof.
  intros Hk H. apply Z.eqb_eq in H. rewrite Z.shiftr_div_pow2 in H by lia.
  pose proof (pow2_pos k Hk) as Hp. apply Z.div_small_iff in H; lia.
Qed.

Lemma shiftr_neq0_neg v k : 0 <= k -> v < 0 -> (Z.shiftr v k =? 0) = false.
Proof.
  intros Hk Hv. apply Z.eqb_neq. rewrite Z.shiftr_div_pow2 by lia. pose proof (pow2_pos k Hk) as Hp.
  intros Hd. apply Z.div_small_iff in Hd; lia.
Qed.

Lemma shiftr_neq0 v k : 0 <= k -> 0 <= v -> (Z.shiftr v k =? 0) = false -> 2 ^ k <= v.
Proof.
  intros Hk Hv H. apply Z.eqb_neq in H. rewrite Z.shiftr_div_pow2 in H by lia. pose proof (pow2_pos k Hk) as Hp.
  destruct (Z_lt_le_dec v (2 ^ k)); [|assumption]. exfalso. apply H. apply Z.div_small. lia.
Qed.

Lemma trim_x_range k v : 1 <= trim_x k v <= Z.of_nat k + 1.
Proof.
  induction k as [|k IH]; cbn [trim_x]; [lia|].
  destruct (Z.shiftr v (8 * Z.of_nat (S k)) =? 0); lia.
Qed.

Lemma trim_x_neg k v : v < 0 -> trim_x k v = Z.of_nat k + 1.
Proof.
  intros Hv. destruct k as [|k]; cbn [trim_x]; [reflexivity|].
  rewrite shiftr_neq0_neg by lia. reflexivity.
Qed.

(** for non-negative v the result is the minimal byte count (at least 1) *)
Lemma trim_x_upper k v : 0 <= v < 2 ^ (8 * (Z.of_nat k + 1)) -> v < 2 ^ (8 * trim_x k v).
Proof.
  induction k as [|k IH]; cbn [trim_x]; intros Hv; [exact (proj2 Hv)|].
  destruct (Z.shiftr v (8 * Z.of_nat (S k)) =? 0) eqn:E.
  - apply shiftr_eq0 in E; [|lia]. apply IH. replace (8 * (Z.of_nat k + 1)) with (8 * Z.of_nat (S k)) by lia. exact E.
  - exact (proj2 Hv).
Qed.

Lemma trim_x_le k v j : 0 <= v < 2 ^ (8 * j) -> 1 <= j -> trim_x k v <= j.
Proof.
  intros Hv Hj. induction k as [|k IH]; cbn [trim_x]; [lia|].
  destruct (Z.shiftr v (8 * Z.of_nat (S k)) =? 0) eqn:E; [exact IH|].
  apply shiftr_neq0 in E; [|lia|lia].
  destruct (Z_lt_le_dec j (Z.of_nat (S k) + 1)); [|lia].
  pose proof (pow2_mono (8 * j) (8 * Z.of_nat (S k))). lia.
Qed.

Lemma trim_x7_upper v : 0 <= v < 2 ^ 64 -> v < 2 ^ (8 * trim_x 7 v).
Proof. exact (trim_x_upper 7 v). Qed.

Lemma len_trimmed v : len (trimmed_array v) = trim_x 7 v.
Proof. unfold trimmed_array. rewrite len_be_bytes. pose proof (trim_x_range 7 v). lia. Qed.

Lemma trimmed_rt64 v : - 2 ^ 63 <= v < 2 ^ 63 ->
  wrap_t I64 (be_val (trimmed_array v) 0) = v.
Proof.
  intros Hv. unfold trimmed_array. pose proof (trim_x_range 7 v) as Hr.
  rewrite be_val_be_bytes, Z2Nat.id by lia. rewrite <- pow2_8 by lia.
  destruct (Z_lt_le_dec v 0).
  - rewrite trim_x_neg by assumption. apply (wrap_signed_rt 64); lia.
  - pose proof (trim_x7_upper v). rewrite Z.mod_small by lia.
    rewrite <- (Z.mod_small v (2 ^ 64)) at 1 by lia. apply (wrap_signed_rt 64); lia.
Qed.

Lemma trimmed_rt32 v : 0 <= v < 2 ^ 31 ->
  trim_x 7 v <= 4 /\ wrap_t I32 (be_val (trimmed_array v) 0) = v.
Proof.
  intros Hv. pose proof (trim_x_range 7 v) as Hr. pose proof (trim_x7_upper v).
  split; [apply trim_x_le; lia|].
  unfold trimmed_array. rewrite be_val_be_bytes, Z2Nat.id by lia. rewrite <- pow2_8 by lia.
  rewrite Z.mod_small by lia. apply (wrap_small 32); lia.
Qed.
