(** Serde layer: two boundary statements of C11 that are FALSE for the code as
    it is (witnesses replayed on the implementation by ./check C11):
    (a) a PublicationData whose every field is within its declared limit has a
        canonical encoding longer than MAX_PUBLICATIONDATA_SIZE, so the VbkTx
        that carries it encodes but its own encoding does not decode;
    (b) a decodable nested buffer that uses a shorter non-canonical form (here:
        MerklePath index 0 written as the empty single-BE value) re-encodes
        canonically into MORE bytes, so at the limit of the enclosing length
        prefix the re-encoding no longer decodes. Stated on lengths. *)
From Coq Require Import ZArith List Bool Lia.
From Coq Require Import Strings.Byte.
From VB Require Import Gen.Consts Serde.StreamDefs Serde.StreamLemmas Serde.StreamProofs Serde.EntityDefs.
Import ListNotations.
Local Open Scope Z_scope.

Definition zeros (n : Z) : list byte := repeat x00 (Z.to_nat n).

(** every field at its declared maximum, 8-byte identifier *)
Definition pub_max : PublicationData :=
  mkPublicationData (2 ^ 62) (zeros MAX_HEADER_SIZE_PUBLICATION_DATA)
                    (zeros MAX_CONTEXT_SIZE_PUBLICATION_DATA) (zeros MAX_PAYOUT_INFO_SIZE).

Definition c_pub_in_vbktx : codec PublicationData :=
  c_nested (c_var_len 0 MAX_PUBLICATIONDATA_SIZE) var_len_size c_pubdata.

Lemma var_len_too_long_rejected limit payload : limit < len payload < 2 ^ 31 ->
  dec (c_var_len 0 limit) (enc (c_var_len 0 limit) payload) = Invalid.
Proof.
  intros Hl. cbn [c_var_len enc dec]. unfold write_var_len, read_var_len. pose proof (len_nonneg payload).
  rewrite read_single_be32_count by lia. cbn [bind]. unfold check_range, u64. rewrite Z.mod_small by lia.
  destruct (Z.leb_spec (len payload) limit); [lia|]. rewrite andb_false_r. reflexivity.
Qed.

Lemma pubdata_max_size_refuted :
  wfd c_pubdata pub_max = true /\ fits c_pubdata pub_max = true /\
  len (enc c_pubdata pub_max) = MAX_PUBLICATIONDATA_SIZE + 6 /\
  fits c_pub_in_vbktx pub_max = false /\
  dec c_pub_in_vbktx (enc c_pub_in_vbktx pub_max) = Invalid.
Proof.
  assert (L : len (enc c_pubdata pub_max) = MAX_PUBLICATIONDATA_SIZE + 6) by (vm_compute; reflexivity).
  refine (conj _ (conj _ (conj L (conj _ _)))); [vm_compute; reflexivity | reflexivity | |]; cbn [c_pub_in_vbktx c_nested fits enc dec].
  - cbn [c_var_len wfd]. rewrite L. apply andb_false_r.
  - rewrite var_len_too_long_rejected by (rewrite L; vm_compute; split; reflexivity). reflexivity.
Qed.

(** (b) the two raw MerklePath encodings of (index 0, no layers): the accepted short form and the canonical one *)
Definition mp0 : MerklePath := mkMerklePath 0 [].
Definition mp0_short_raw : list byte :=
  [x00] ++ write_single_fixed_be I32 0 ++ write_single_fixed_be I32 4 ++ write_be 4 SHA256_HASH_SIZE.

Lemma noncanonical_shorter_refuted :
  dec c_merklepath_raw mp0_short_raw = Value mp0 [] /\
  dec c_merklepath_raw (enc c_merklepath_raw mp0) = Value mp0 [] /\
  len (enc c_merklepath_raw mp0) = len mp0_short_raw + 4.
Proof. vm_compute. repeat split; reflexivity. Qed.

(** hence: a buffer of exactly [limit] bytes that contains the short form decodes, while the canonical
    re-encoding of the decoded value has [limit + 4] bytes and is rejected by the range check of the prefix *)
Lemma limit_plus_4_rejected limit : 0 <= limit -> limit + 4 < 2 ^ 31 ->
  forall payload, len payload = limit + 4 -> dec (c_var_len 0 limit) (enc (c_var_len 0 limit) payload) = Invalid.
Proof. intros _ H1 payload Hl. apply var_len_too_long_rejected. lia. Qed.
