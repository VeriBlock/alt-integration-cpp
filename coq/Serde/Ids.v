(** Serde layer: ids / hashes as the code computes them, over ABSTRACT hash
    functions (Section variables): they are functions of the raw encodings only.
      BtcTx::getHash      = sha256d(tx)                         (btctx.cpp)
      BtcBlock::getHash   = reverse(sha256d(toRaw))             (btcblock.cpp)
      VbkBlock::getHash   = progPowHash(toRaw)                  (vbkblock.cpp)
      VbkTx/VbkPopTx::getHash = sha256(toRaw)                   (vbktx.cpp, vbkpoptx.cpp)
      ATV::getId          = sha256(tx.getHash() ++ blockOfProof.getHash())            (atv.cpp)
      VTB::getId          = sha256(btcTx.getHash() ++ sha256(blockOfProof.getHash() ++ containingBlock.getHash()))
    The memoised paths (hash_ caches) are exercised by the harness oracle, not modelled. *)
From Coq Require Import ZArith List.
From VB Require Import Serde.StreamDefs Serde.EntityDefs.
Local Open Scope Z_scope.

Section Ids.
  Variable addr_norm : Z -> list byte -> option (Z * list byte).
  Variables sha256 sha256d progpow : list byte -> list byte.

  Definition vbktx_raw (t : VbkTx) : list byte :=
    enc (c_vbktx_raw addr_norm) (tx_net t, (tx_src t, (tx_amount t, (tx_outputs t, (tx_sig_index t, tx_pub t))))).
  Definition vbkpoptx_raw (t : VbkPopTx) : list byte :=
    enc (c_vbkpoptx_raw addr_norm)
        (ptx_net t, (ptx_addr t, (ptx_published t, (ptx_btctx t, (ptx_merkle t, (ptx_bop t, ptx_context t)))))).

  Definition btctx_hash (tx : list byte) := sha256d tx.
  Definition btcblock_hash (b : BtcBlock) := rev (sha256d (enc c_btcblock_raw b)).
  Definition vbkblock_hash (b : VbkBlock) := progpow (enc c_vbkblock_raw b).
  Definition vbktx_hash (t : VbkTx) := sha256 (vbktx_raw t).
  Definition vbkpoptx_hash (t : VbkPopTx) := sha256 (vbkpoptx_raw t).
  Definition atv_id (a : ATV) := sha256 (vbktx_hash (atv_tx a) ++ vbkblock_hash (atv_block a)).
  Definition vtb_id (v : VTB) :=
    sha256 (btctx_hash (ptx_btctx (vtb_tx v)) ++
            sha256 (btcblock_hash (ptx_bop (vtb_tx v)) ++ vbkblock_hash (vtb_block v))).

  (** ids depend only on the raw encodings of the parts they hash — not on signature/public key,
      merkle paths, context, nor on how the value was obtained *)
  Lemma ids_of_content :
    (forall a b, enc c_vbkblock_raw a = enc c_vbkblock_raw b -> vbkblock_hash a = vbkblock_hash b) /\
    (forall a b, enc c_btcblock_raw a = enc c_btcblock_raw b -> btcblock_hash a = btcblock_hash b) /\
    (forall a b, vbktx_raw a = vbktx_raw b -> vbktx_hash a = vbktx_hash b) /\
    (forall a b, vbkpoptx_raw a = vbkpoptx_raw b -> vbkpoptx_hash a = vbkpoptx_hash b) /\
    (forall a b, vbktx_raw (atv_tx a) = vbktx_raw (atv_tx b) ->
                 enc c_vbkblock_raw (atv_block a) = enc c_vbkblock_raw (atv_block b) -> atv_id a = atv_id b) /\
    (forall a b, ptx_btctx (vtb_tx a) = ptx_btctx (vtb_tx b) ->
                 enc c_btcblock_raw (ptx_bop (vtb_tx a)) = enc c_btcblock_raw (ptx_bop (vtb_tx b)) ->
                 enc c_vbkblock_raw (vtb_block a) = enc c_vbkblock_raw (vtb_block b) -> vtb_id a = vtb_id b).
  Proof.
    unfold vbkblock_hash, btcblock_hash, vbktx_hash, vbkpoptx_hash, atv_id, vtb_id, btctx_hash,
           vbkblock_hash, btcblock_hash, vbktx_hash.
    repeat split; intros; congruence.
  Qed.

  (** two byte strings that decode to the same ATV give the same id (whatever non-canonical form they used) *)
  Lemma atv_id_of_decoded bs1 bs2 a r1 b r2 :
    dec (c_atv addr_norm) bs1 = Value a r1 -> dec (c_atv addr_norm) bs2 = Value b r2 -> a = b -> atv_id a = atv_id b.
  Proof. intros _ _ ->. reflexivity. Qed.
End Ids.
