(** From [codec_ok] to what C11 claims of a codec, the primitives on every input, the declared
    limits, and witnesses for the premises. *)
From Coq Require Import ZArith List Bool.
From Coq Require Import Strings.Byte.
From VB Require Import Gen.Consts Serde.StreamDefs Serde.CodecSpec Serde.StreamLemmas Serde.StreamProofs
  Serde.EntityDefs.
Import ListNotations.
Local Open Scope Z_scope.

Lemma c11_of_ok {A} (c : codec A) : codec_ok c -> c11_ok c.
Proof. intros H. repeat split; try apply H. apply stable_of_ok. exact H. Qed.

Lemma primitives_safe : forall bs,
  (forall n, safe bs (read_slice n bs)) /\ (forall t n, safe bs (read_be t n bs)) /\ (forall t, safe bs (read_le t bs)) /\
  (forall mn mx, safe bs (read_sbl mn mx bs)) /\ (forall t, safe bs (read_single_be t bs)) /\
  (forall mn mx, safe bs (read_var_len mn mx bs)) /\ (forall mn mx, safe bs (read_count mn mx bs)).
Proof.
  intros bs. repeat split; intros.
  - apply read_slice_safe.
  - apply read_be_safe.
  - apply read_le_safe.
  - apply read_sbl_safe.
  - apply read_single_be_safe.
  - apply read_var_len_safe.
  - apply read_count_safe.
Qed.

(** every reserve() of an entity decoder is preceded by a range check against a
    declared limit that is at most [alloc_cap] elements *)
Lemma declared_limits_below_cap :
  MAX_LAYER_COUNT_MERKLE <= alloc_cap /\ MAX_BTC_BLOCKS_IN_VBKPOPTX <= alloc_cap /\
  MAX_POPDATA_VBK <= alloc_cap /\ MAX_POPDATA_VTB <= alloc_cap /\ MAX_POPDATA_ATV <= alloc_cap /\ 255 <= alloc_cap.
Proof. vm_compute. repeat split; discriminate. Qed.

(** the hypotheses are satisfiable by non-trivial values, and the decoder really
    accepts non-canonical encodings (so byte equality would be false) *)
Definition ex_pub : PublicationData :=
  mkPublicationData (-5) [x01; x02; x03] [] [xff].
Example ex_pub_wf : wfd c_pubdata ex_pub && fits c_pubdata ex_pub = true.
Proof. vm_compute. reflexivity. Qed.
Example ex_pub_rt : dec c_pubdata (enc c_pubdata ex_pub ++ [x07]) = Value ex_pub [x07].
Proof. vm_compute. reflexivity. Qed.
Example ex_noncanonical : dec c_coin [x00] = Value 0 [] /\ dec c_coin [x02; x00; x00] = Value 0 [] /\ enc c_coin 0 = [x01; x00].
Proof. vm_compute. repeat split; reflexivity. Qed.
Definition ex_vbk : VbkBlock :=
  mkVbkBlock 5 2 (repeat x01 12) (repeat x02 9) (repeat x03 9) (repeat x04 16) 1000 (-7) 1099511627775.
Example ex_vbk_wf : wfd c_vbkblock ex_vbk && fits c_vbkblock ex_vbk = true.
Proof. vm_compute. reflexivity. Qed.
