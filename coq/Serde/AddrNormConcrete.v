(** The concrete address normalisation [addr_norm_c18 sha256] (AddrNorm.v) satisfies
    [addr_norm_sound] (AddrNormProofs.addr_norm_c18_sound), so the address-carrying theorems hold for it
    with only [sha256] abstract; here the counting figure for it and a non-vacuity example. *)
From Coq Require Import ZArith List.
From VB Require Import Serde.StreamDefs Serde.EntityDefs Serde.Counting Serde.AddrNorm Serde.AddrNormProofs
  Text.AddressProofs.
From VB Require Mempool.CountDefs Mempool.CountProofs.
Import ListNotations.
Local Open Scope Z_scope.

Section Concrete.
  Variable sha256 : list Z -> list Z.
  Let an := addr_norm_c18 sha256.
  Let Hn : addr_norm_sound an := addr_norm_c18_sound sha256.

  Lemma counting_figure_is_encoded_size_concrete p c r :
    CountProofs.agrees c r -> wfd (c_popdata an) p = true -> StreamDefs.fits (c_popdata an) p = true ->
    map Z.of_N (CountDefs.k_vbk r) = map (esize c_vbkblock) (pop_context p) ->
    map Z.of_N (CountDefs.k_vtb r) = map (esize (c_vtb an)) (pop_vtbs p) ->
    map Z.of_N (CountDefs.k_atv r) = map (esize (c_atv an)) (pop_atvs p) ->
    (CountDefs.len (CountDefs.k_vbk r) < 2 ^ 63)%N -> (CountDefs.len (CountDefs.k_vtb r) < 2 ^ 63)%N ->
    (CountDefs.len (CountDefs.k_atv r) < 2 ^ 63)%N ->
    Z.of_N (CountDefs.popsize c) = StreamDefs.len (enc (c_popdata an) p).
  Proof. exact (counting_figure_is_encoded_size an Hn p c r). Qed.
End Concrete.

(** The concrete normalisation is not vacuous, and it does normalise: with the stub sha256 of
    AddressProofs.sha_demo the text "V" ++ 24 x '1' ++ "US517" is a valid STANDARD address;
    - wire (1, DecodeBase58 text) is accepted unchanged;
    - wire (3, DecodeBase59 text) is accepted too, as the STANDARD address (type 1, DecodeBase58 text):
      the type comes from the text, not from the wire byte (the C++ does the same with the real sha256 on
      "V111111111111111111111111G3LuZ": type byte 3 + a95dc853..ee50 deserialises to the STANDARD address
      and re-serialises as 01 16 672a2145..1dd4);
    - wire (1, DecodeBase59 text) is rejected (its base58 text does not start with 'V'). *)
Definition demo_b58 : list byte := map z2b
  [103; 42; 33; 69; 142; 123; 202; 220; 27; 43; 140; 146; 191; 78; 119; 228; 10; 45; 146; 128; 227; 46].
Definition demo_b59 : list byte := map z2b
  [169; 93; 200; 83; 195; 201; 126; 23; 231; 150; 109; 94; 171; 114; 200; 54; 130; 196; 42; 140; 235; 148].

Example addr_norm_c18_nontrivial :
  addr_norm_c18 sha_demo 1 demo_b58 = Some (1, demo_b58) /\
  addr_norm_c18 sha_demo 3 demo_b59 = Some (1, demo_b58) /\
  addr_norm_c18 sha_demo 1 demo_b59 = None /\
  wfd (c_address (addr_norm_c18 sha_demo)) (mkAddress 1 demo_b58) = true /\
  wfd (c_address (addr_norm_c18 sha_demo)) (mkAddress 3 demo_b59) = false.
Proof.
  assert (N : addr_norm_c18 sha_demo 1 demo_b58 = Some (1, demo_b58)) by (vm_compute; reflexivity).
  assert (T : text_of_wire 3 demo_b59 = text_of_wire 1 demo_b58) by (vm_compute; reflexivity).
  pose proof (eq_trans (addr_norm_c18_of_text sha_demo _ _ _ _ T) N) as N'.
  refine (conj N (conj N' (conj _ (conj _ _)))); [vm_compute; reflexivity | |];
    cbn [c_address wfd addr_type addr_bytes]; [rewrite N | rewrite N']; vm_compute; reflexivity.
Qed.
