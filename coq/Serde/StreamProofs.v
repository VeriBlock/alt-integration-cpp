(** Serde layer: every primitive codec and every combinator of StreamDefs.v
    satisfies [codec_ok] (round trip, decode => well-formed, estimateSize
    exact, total + memory safe). *)
From Coq Require Import ZArith List Bool Lia.
From VB Require Import Serde.StreamDefs Serde.CodecSpec Serde.StreamLemmas.
Import ListNotations.
Local Open Scope Z_scope.

Lemma read_be_app t d r : read_be t (len d) (d ++ r) = Value (wrap_t t (be_val d 0)) r.
Proof. unfold read_be. rewrite read_slice_app. reflexivity. Qed.

Lemma read_be_inv t n bs v r : read_be t n bs = Value v r ->
  exists d, bs = d ++ r /\ len d = Z.max 0 n /\ v = wrap_t t (be_val d 0).
Proof.
  unfold read_be. intros H. apply bind_inv in H. destruct H as (d & r' & E & H).
  inversion H; subst. apply read_slice_inv in E. destruct E as [-> El]. exists d. auto.
Qed.

Lemma read_be_safe t n bs : safe bs (read_be t n bs).
Proof. unfold read_be. apply safe_bind; [apply read_slice_safe|]. intros. apply safe_value. Qed.

Lemma read_le_safe t bs : safe bs (read_le t bs).
Proof. unfold read_le. apply safe_bind; [apply read_slice_safe|]. intros. apply safe_value. Qed.

Lemma wrap_u8 b : wrap_t U8 (be_val [b] 0) = b2z b.
Proof.
  cbn [be_val]. unfold wrap_t. cbn [ibytes isigned U8]. pose proof (b2z_range b).
  apply wrap_unsigned. change (2 ^ (8 * 1)) with 256. lia.
Qed.

Lemma read_u8_cons b r : read_be U8 1 (b :: r) = Value (b2z b) r.
Proof. change (b :: r) with ([b] ++ r). change 1 with (len [b]). rewrite read_be_app, wrap_u8. reflexivity. Qed.

Lemma read_u8_inv bs v r : read_be U8 1 bs = Value v r -> exists b, bs = b :: r /\ v = b2z b.
Proof.
  intros H. apply read_be_inv in H. destruct H as (d & -> & Hl & ->).
  destruct d as [|b [|b' d]].
  - discriminate Hl.
  - exists b. rewrite wrap_u8. auto.
  - rewrite !len_cons in Hl. pose proof (len_nonneg d). lia.
Qed.

Lemma check_range_ok c mn mx : 0 <= c < 2 ^ 64 -> mn <= c <= mx -> check_range c mn mx = true.
Proof.
  intros Hc Hr. unfold check_range, u64. rewrite Z.mod_small by assumption. lia.
Qed.

Lemma check_range_inv c mn mx : 0 <= c < 2 ^ 64 -> check_range c mn mx = true -> mn <= c <= mx.
Proof.
  intros Hc. unfold check_range, u64. rewrite Z.mod_small by assumption. lia.
Qed.

Lemma check_range_i32 c mn mx : mx < 2 ^ 31 -> - 2 ^ 31 <= c < 2 ^ 31 -> check_range c mn mx = true ->
  0 <= c /\ mn <= c <= mx /\ u64 c = c.
Proof.
  intros Hm Hc H. unfold check_range, u64 in *.
  destruct (Z_lt_le_dec c 0); [rewrite mod_neg_once in H by lia | rewrite Z.mod_small in * by lia]; lia.
Qed.

Lemma c_be_ok t n : 0 < n <= ibytes t -> codec_ok (c_be t n).
Proof.
  intros Hn. split.
  - intros x r Hw _. cbn [c_be enc dec wfd] in *.
    rewrite <- (len_write_be n x) at 1 by lia. rewrite read_be_app. f_equal.
    rewrite be_val_write_be by lia. apply wrap_t_rt; assumption.
  - intros bs x r H. cbn [c_be dec wfd] in *. apply read_be_inv in H. destruct H as (d & -> & Hl & ->).
    apply wrap_t_in_range; [assumption|]. pose proof (be_val_range d). rewrite pow2_8 by lia.
    replace n with (len d) by lia. assumption.
  - intros x _ _. cbn [c_be esize enc]. rewrite len_write_be; lia.
  - intros bs. apply read_be_safe.
Qed.

Lemma c_le_ok t : 0 < ibytes t -> codec_ok (c_le t).
Proof.
  intros Hn. split.
  - intros x r Hw _. cbn [c_le enc dec wfd] in *. unfold read_le, write_le.
    rewrite read_slice_app' by (rewrite len_rev, len_be_bytes; lia). cbn [bind]. f_equal.
    rewrite rev_involutive. fold (write_be (ibytes t) x). rewrite be_val_write_be by lia.
    apply wrap_t_rt; [lia|assumption].
  - intros bs x r H. cbn [c_le dec wfd] in *. unfold read_le in H.
    apply bind_inv in H. destruct H as (d & r' & E & H).
    inversion H; subst. apply read_slice_inv in E. destruct E as [_ El].
    apply wrap_t_in_range; [lia|]. pose proof (be_val_range (rev d)) as Hr. rewrite len_rev in Hr.
    rewrite pow2_8 by lia. replace (ibytes t) with (len d) by lia. assumption.
  - intros x _ _. cbn [c_le esize enc]. unfold write_le. rewrite len_rev, len_be_bytes. lia.
  - intros bs. apply read_le_safe.
Qed.

Lemma c_bytes_ok n : 0 <= n -> codec_ok (c_bytes n).
Proof.
  intros Hn. split.
  - intros x r Hw _. cbn [c_bytes enc dec wfd] in *. apply read_slice_app'. lia.
  - intros bs x r H. cbn [c_bytes dec wfd] in *. apply read_slice_inv in H. lia.
  - intros x _ _. reflexivity.
  - intros bs. apply read_slice_safe.
Qed.

Lemma read_sbl_enc mn mx v r : mn <= len v <= mx -> len v <= 255 ->
  read_sbl mn mx (z2b (len v) :: v ++ r) = Value v r.
Proof.
  intros Hr H255. unfold read_sbl. rewrite read_u8_cons. cbn [bind]. pose proof (len_nonneg v).
  rewrite b2z_z2b_small by lia.
  rewrite check_range_ok by lia.
  apply read_slice_app.
Qed.

Lemma read_sbl_inv mn mx bs v r : read_sbl mn mx bs = Value v r ->
  mn <= len v <= mx /\ len v <= 255 /\ exists pre, bs = pre ++ r.
Proof.
  unfold read_sbl. intros H. apply bind_inv in H. destruct H as (n & r0 & E & H).
  apply read_u8_inv in E. destruct E as (b & -> & ->). pose proof (b2z_range b) as Hb.
  destruct (check_range (b2z b) mn mx) eqn:C; [|discriminate].
  apply check_range_inv in C; [|lia].
  apply read_slice_inv in H. destruct H as [-> Hl].
  repeat split; try lia. exists (b :: v). reflexivity.
Qed.

Lemma read_sbl_safe mn mx bs : safe bs (read_sbl mn mx bs).
Proof.
  unfold read_sbl. apply safe_bind; [apply read_be_safe|]. intros n r _.
  destruct (check_range n mn mx); [apply read_slice_safe|exact I].
Qed.

Lemma c_sbl_ok mn mx : codec_ok (c_sbl mn mx).
Proof.
  split.
  - intros x r Hw _. cbn [c_sbl enc dec wfd] in *. unfold write_sbl. cbn [app]. apply read_sbl_enc; lia.
  - intros bs x r H. cbn [c_sbl dec wfd] in *. apply read_sbl_inv in H. lia.
  - intros x _ _. cbn [c_sbl esize enc]. unfold write_sbl, sbl_size. rewrite len_cons. reflexivity.
  - intros bs. apply read_sbl_safe.
Qed.

Lemma read_single_be_enc t d r : len d <= ibytes t -> len d <= 255 ->
  read_single_be t (z2b (len d) :: d ++ r) = Value (wrap_t t (be_val d 0)) r.
Proof.
  intros H1 H2. unfold read_single_be. pose proof (len_nonneg d).
  rewrite read_sbl_enc by lia. cbn [bind]. unfold in_sub.
  rewrite <- (app_nil_r d) at 2. rewrite read_be_app. reflexivity.
Qed.

Lemma read_single_be_inv t bs v r : 0 < ibytes t -> read_single_be t bs = Value v r ->
  in_be_range t (ibytes t) v = true /\ exists pre, bs = pre ++ r.
Proof.
  intros Ht H. unfold read_single_be in H. apply bind_inv in H. destruct H as (d & r0 & E & H).
  apply read_sbl_inv in E. destruct E as (Hl & _ & Hpre).
  unfold in_sub in H. destruct (read_be t (len d) d) as [v' r'| | |] eqn:E2; try discriminate.
  inversion H; subst. split; [|assumption].
  apply read_be_inv in E2. destruct E2 as (d' & -> & Hl' & ->).
  apply wrap_t_in_range; [lia|]. pose proof (be_val_range d') as Hr. pose proof (len_nonneg d').
  split; [lia|]. eapply Z.lt_le_trans; [apply Hr|]. rewrite pow2_8 by lia.
  apply Z.pow_le_mono_r; [lia|]. rewrite len_app in Hl. pose proof (len_nonneg r'). lia.
Qed.

Lemma read_single_be_safe t bs : safe bs (read_single_be t bs).
Proof.
  unfold read_single_be. apply safe_bind; [apply read_sbl_safe|]. intros d r _.
  apply safe_in_sub. apply read_be_safe.
Qed.

Lemma in_range_i64 v : in_be_range I64 8 v = true -> - 2 ^ 63 <= v < 2 ^ 63.
Proof.
  unfold in_be_range, be_lo, be_hi. cbn [isigned ibytes I64 andb Z.eqb Pos.eqb]. lia.
Qed.

Lemma in_range_i32 v : in_be_range I32 4 v = true -> - 2 ^ 31 <= v < 2 ^ 31.
Proof.
  unfold in_be_range, be_lo, be_hi. cbn [isigned ibytes I32 andb Z.eqb Pos.eqb]. lia.
Qed.

Lemma single_be_size_len v : single_be_size v = len (write_single_be v).
Proof. unfold single_be_size, write_single_be. rewrite len_cons. reflexivity. Qed.

Lemma c_single_be64_ok : codec_ok c_single_be64.
Proof.
  split.
  - intros x r Hw _. cbn [c_single_be64 enc dec wfd] in *. apply in_range_i64 in Hw.
    unfold write_single_be. cbn [app]. pose proof (trim_x_range 7 x).
    rewrite read_single_be_enc by (rewrite len_trimmed; cbn [ibytes I64]; lia).
    rewrite trimmed_rt64 by assumption. reflexivity.
  - intros bs x r H. cbn [c_single_be64 dec wfd] in *. apply read_single_be_inv in H; [|cbn; lia]. apply H.
  - intros x _ _. apply single_be_size_len.
  - intros bs. apply read_single_be_safe.
Qed.

Lemma c_single_fixed_be_ok t : 0 < ibytes t <= 255 -> codec_ok (c_single_fixed_be t).
Proof.
  intros Ht. split.
  - intros x r Hw _. cbn [c_single_fixed_be enc dec wfd] in *. unfold write_single_fixed_be, write_sbl. cbn [app].
    rewrite read_single_be_enc by (rewrite len_write_be; lia). f_equal.
    rewrite be_val_write_be by lia. apply wrap_t_rt; [lia|assumption].
  - intros bs x r H. cbn [c_single_fixed_be dec wfd] in *. apply read_single_be_inv in H; [|lia]. apply H.
  - intros x _ _. cbn [c_single_fixed_be esize enc]. unfold single_fixed_be_size, write_single_fixed_be, write_sbl, sbl_size.
    rewrite len_cons, len_write_be; lia.
  - intros bs. apply read_single_be_safe.
Qed.

Lemma read_single_be32_count c r : 0 <= c < 2 ^ 31 ->
  read_single_be I32 (write_single_be c ++ r) = Value c r.
Proof.
  intros Hc. unfold write_single_be. cbn [app]. destruct (trimmed_rt32 c Hc) as [Hle Hv].
  pose proof (trim_x_range 7 c).
  rewrite read_single_be_enc by (rewrite len_trimmed; cbn [ibytes I32]; lia).
  rewrite Hv. reflexivity.
Qed.

(** counts and var-len lengths: an int32 read by readSingleBEValue, then range-checked as uint64 *)
Lemma read_i32_checked mn mx bs c r : mx < 2 ^ 31 -> read_single_be I32 bs = Value c r ->
  check_range c mn mx = true -> 0 <= c /\ mn <= c <= mx /\ u64 c = c.
Proof.
  intros Hm E C. apply read_single_be_inv in E; [|cbn; lia].
  exact (check_range_i32 _ _ _ Hm (in_range_i32 _ (proj1 E)) C).
Qed.

Lemma read_count_safe mn mx bs : safe bs (read_count mn mx bs).
Proof.
  unfold read_count. apply safe_bind; [apply read_single_be_safe|].
  intros c r _. destruct (check_range c mn mx); [apply safe_value|exact I].
Qed.

Lemma read_var_len_safe mn mx bs : safe bs (read_var_len mn mx bs).
Proof.
  unfold read_var_len. apply safe_bind; [apply read_single_be_safe|].
  intros c r _. destruct (check_range c mn mx); [apply read_slice_safe|exact I].
Qed.

Lemma c_count_ok mn mx : mx < 2 ^ 31 -> codec_ok (c_count mn mx).
Proof.
  intros Hm. split.
  - intros x r Hw _. cbn [c_count enc dec wfd] in *. unfold read_count. rewrite read_single_be32_count by lia. cbn [bind].
    rewrite check_range_ok by lia. reflexivity.
  - intros bs x r H. cbn [c_count dec wfd] in *. unfold read_count in H.
    apply bind_inv in H. destruct H as (c & r0 & E & H).
    destruct (check_range c mn mx) eqn:C; [|discriminate]. inversion H; subst.
    pose proof (read_i32_checked _ _ _ _ _ Hm E C). lia.
  - intros x _ _. apply single_be_size_len.
  - intros bs. apply read_count_safe.
Qed.

(** the element count about to be reserved by readArrayOf is within the declared limit *)
Lemma read_count_bounded mn mx bs c r : mx < 2 ^ 31 -> read_count mn mx bs = Value c r -> 0 <= c /\ mn <= c <= mx.
Proof.
  intros Hm H. pose proof (ok_wf _ (c_count_ok mn mx Hm) bs c r H) as Hw. cbn [c_count wfd] in Hw. lia.
Qed.

Lemma c_var_len_ok mn mx : mx < 2 ^ 31 -> codec_ok (c_var_len mn mx).
Proof.
  intros Hm. split.
  - intros x r Hw _. cbn [c_var_len enc dec wfd] in *. pose proof (len_nonneg x). unfold read_var_len, write_var_len.
    rewrite <- app_assoc. rewrite read_single_be32_count by lia. cbn [bind].
    rewrite check_range_ok by lia.
    unfold u64. rewrite Z.mod_small by lia. apply read_slice_app.
  - intros bs x r H. cbn [c_var_len dec wfd] in *. unfold read_var_len in H.
    apply bind_inv in H. destruct H as (c & r0 & E & H).
    destruct (check_range c mn mx) eqn:C; [|discriminate].
    destruct (read_i32_checked _ _ _ _ _ Hm E C) as (Hc & Hr & Hu). rewrite Hu in H.
    apply read_slice_inv in H. lia.
  - intros x _ _. cbn [c_var_len esize enc]. unfold var_len_size, write_var_len.
    rewrite len_app, single_be_size_len. reflexivity.
  - intros bs. apply read_var_len_safe.
Qed.

Lemma c_empty_ok : codec_ok c_empty.
Proof.
  split.
  - intros [] r _ _. reflexivity.
  - intros bs x r _. reflexivity.
  - intros x _ _. reflexivity.
  - intros bs. apply safe_value.
Qed.

Lemma c_pair_ok {A B} (ca : codec A) (cb : codec B) : codec_ok ca -> codec_ok cb -> codec_ok (c_pair ca cb).
Proof.
  intros Ha Hb. split.
  - intros [a b] r Hw Hf. cbn [c_pair enc dec wfd fits fst snd] in *.
    apply andb_true_iff in Hw, Hf. destruct Hw as [Hwa Hwb]. destruct Hf as [Hfa Hfb].
    rewrite <- app_assoc. rewrite (ok_rt _ Ha) by assumption. cbn [bind].
    rewrite (ok_rt _ Hb) by assumption. reflexivity.
  - intros bs [a b] r H. cbn [c_pair dec wfd fst snd] in *.
    apply bind_inv in H. destruct H as (a' & r1 & Ea & H).
    apply bind_inv in H. destruct H as (b' & r2 & Eb & H).
    inversion H; subst. apply andb_true_iff. split; [eapply (ok_wf _ Ha)|eapply (ok_wf _ Hb)]; eassumption.
  - intros [a b] Hw Hf. cbn [c_pair enc esize wfd fits fst snd] in *.
    apply andb_true_iff in Hw, Hf. destruct Hw as [Hwa Hwb]. destruct Hf as [Hfa Hfb].
    rewrite len_app, (ok_size _ Ha), (ok_size _ Hb) by assumption. reflexivity.
  - intros bs. cbn [c_pair dec]. apply safe_bind; [apply (ok_safe _ Ha)|]. intros a r _.
    apply safe_bind; [apply (ok_safe _ Hb)|]. intros b r' _. apply safe_value.
Qed.

Lemma c_iso_ok {A B} (f : B -> A) (g : A -> B) (c : codec A) :
  (forall b, g (f b) = b) -> (forall a, wfd c a = true -> f (g a) = a) ->
  codec_ok c -> codec_ok (c_iso f g c).
Proof.
  intros Hgf Hfg Hc. split.
  - intros b r Hw Hf. cbn [c_iso enc dec wfd fits] in *. rewrite (ok_rt _ Hc) by assumption. cbn [bind].
    rewrite Hgf. reflexivity.
  - intros bs b r H. cbn [c_iso dec wfd] in *.
    apply bind_inv in H. destruct H as (a & r1 & Ea & H).
    inversion H; subst. pose proof (ok_wf _ Hc _ _ _ Ea) as Hw. rewrite Hfg by assumption. assumption.
  - intros b Hw Hf. cbn [c_iso enc esize wfd fits] in *. apply (ok_size _ Hc); assumption.
  - intros bs. cbn [c_iso dec]. apply safe_bind; [apply (ok_safe _ Hc)|]. intros. apply safe_value.
Qed.

Lemma c_refine_ok {A} (c : codec A) (p : A -> bool) : codec_ok c -> codec_ok (c_refine c p).
Proof.
  intros Hc. split.
  - intros a r Hw Hf. cbn [c_refine enc dec wfd fits] in *. apply andb_true_iff in Hw. destruct Hw as [Hw Hp].
    rewrite (ok_rt _ Hc) by assumption. cbn [bind]. rewrite Hp. reflexivity.
  - intros bs a r H. cbn [c_refine dec wfd] in *.
    apply bind_inv in H. destruct H as (a' & r1 & Ea & H).
    destruct (p a') eqn:Hp; [|discriminate]. inversion H; subst.
    apply andb_true_iff. split; [eapply (ok_wf _ Hc); eassumption|assumption].
  - intros a Hw Hf. cbn [c_refine enc esize wfd fits] in *. apply andb_true_iff in Hw. apply (ok_size _ Hc); tauto.
  - intros bs. cbn [c_refine dec]. apply safe_bind; [apply (ok_safe _ Hc)|]. intros a r _.
    destruct (p a); [apply safe_value|exact I].
Qed.

Lemma c_nested_ok {A} (lc : codec (list byte)) (lsz : Z -> Z) (c : codec A) :
  codec_ok lc -> (forall d, fits lc d = true) -> (forall d, esize lc d = lsz (len d)) ->
  codec_ok c -> codec_ok (c_nested lc lsz c).
Proof.
  intros Hl Hlf Hsz Hc. split.
  - intros x r Hw Hf. cbn [c_nested enc dec wfd fits] in *. apply andb_true_iff in Hf. destruct Hf as [Hf Hlw].
    rewrite (ok_rt _ Hl) by auto. cbn [bind]. unfold in_sub.
    rewrite <- (app_nil_r (enc c x)). rewrite (ok_rt _ Hc) by assumption. reflexivity.
  - intros bs x r H. cbn [c_nested dec wfd] in *.
    apply bind_inv in H. destruct H as (d & r1 & Ea & H).
    unfold in_sub in H. destruct (dec c d) as [x' r2| | |] eqn:Ed; try discriminate.
    inversion H; subst. eapply (ok_wf _ Hc); eassumption.
  - intros x Hw Hf. cbn [c_nested enc esize wfd fits] in *. apply andb_true_iff in Hf. destruct Hf as [Hf Hlw].
    rewrite (ok_size _ Hc), <- Hsz by assumption. apply (ok_size _ Hl); auto.
  - intros bs. cbn [c_nested dec]. apply safe_bind; [apply (ok_safe _ Hl)|]. intros d r _.
    apply safe_in_sub. apply (ok_safe _ Hc).
Qed.

Lemma read_n_rt {A} (c : codec A) : rt_ok c -> forall xs r,
  forallb (wfd c) xs = true -> forallb (fits c) xs = true ->
  read_n (dec c) (length xs) (concat (map (enc c) xs) ++ r) = Value xs r.
Proof.
  intros Hc. induction xs as [|x xs IH]; intros r Hw Hf; cbn [length map concat read_n app]; [reflexivity|].
  cbn [forallb] in Hw, Hf. apply andb_true_iff in Hw, Hf. destruct Hw as [Hw Hws]. destruct Hf as [Hf Hfs].
  rewrite <- app_assoc. rewrite Hc by assumption. cbn [bind]. rewrite IH by assumption. reflexivity.
Qed.

Lemma read_n_wf {A} (c : codec A) : wf_ok c -> forall n bs xs r,
  read_n (dec c) n bs = Value xs r -> length xs = n /\ forallb (wfd c) xs = true.
Proof.
  intros Hc. induction n as [|n IH]; intros bs xs r H; cbn [read_n] in H.
  - inversion H; subst. split; reflexivity.
  - apply bind_inv in H. destruct H as (x & r1 & Ex & H).
    apply bind_inv in H. destruct H as (xs' & r2 & En & H).
    inversion H; subst. apply IH in En. destruct En as [El Ew]. cbn [length forallb].
    split; [congruence|]. apply andb_true_iff. split; [eapply Hc; eassumption|assumption].
Qed.

Lemma read_n_safe {A} (p : list byte -> res A) : (forall bs, safe bs (p bs)) -> forall n bs, safe bs (read_n p n bs).
Proof.
  intros Hp. induction n as [|n IH]; intros bs; cbn [read_n]; [apply safe_value|].
  apply safe_bind; [apply Hp|]. intros x r _. apply safe_bind; [apply IH|]. intros. apply safe_value.
Qed.

Lemma sum_sizes {A} (c : codec A) : size_ok c -> forall xs,
  forallb (wfd c) xs = true -> forallb (fits c) xs = true ->
  sumZ (map (esize c) xs) = len (concat (map (enc c) xs)).
Proof.
  intros Hc. induction xs as [|x xs IH]; intros Hw Hf; cbn [map sumZ concat]; [reflexivity|].
  cbn [forallb] in Hw, Hf. apply andb_true_iff in Hw, Hf. destruct Hw as [Hw Hws]. destruct Hf as [Hf Hfs].
  rewrite len_app, Hc, IH by assumption. reflexivity.
Qed.

Lemma reserve_in_cap {A} n (k : res A) : 0 <= n <= alloc_cap -> reserve n k = k.
Proof. intros H. unfold reserve. replace ((0 <=? n) && (n <=? alloc_cap)) with true by lia. reflexivity. Qed.

Lemma c_counted_ok {A} (cc : codec Z) (mid : codec unit) (c : codec A) :
  codec_ok cc -> (forall n, fits cc n = true) -> (forall n, wfd cc n = true -> 0 <= n <= alloc_cap) ->
  codec_ok mid -> wfd mid tt = true -> fits mid tt = true ->
  codec_ok c -> codec_ok (c_counted cc mid c).
Proof.
  intros Hcc Hccf Hcap Hmid Hmw Hmf Hc. split.
  - intros xs r Hw Hf. cbn [c_counted enc dec wfd fits] in *. apply andb_true_iff in Hw. destruct Hw as [Hwn Hws].
    rewrite <- !app_assoc. rewrite (ok_rt _ Hcc) by auto. cbn [bind].
    rewrite (ok_rt _ Hmid) by auto. cbn [bind]. rewrite reserve_in_cap by exact (Hcap _ Hwn).
    unfold len at 1. rewrite Nat2Z.id. apply read_n_rt; [apply (ok_rt _ Hc)|assumption|assumption].
  - intros bs xs r H. cbn [c_counted dec wfd] in *.
    apply bind_inv in H. destruct H as (n & r1 & En & H).
    apply bind_inv in H. destruct H as (u & r2 & Em & H).
    pose proof (ok_wf _ Hcc _ _ _ En) as Hwn. pose proof (Hcap _ Hwn) as Hn. rewrite reserve_in_cap in H by exact Hn.
    apply (read_n_wf _ (ok_wf _ Hc)) in H. destruct H as [Hl Hws].
    apply andb_true_iff. split; [|assumption]. unfold len. rewrite Hl, Z2Nat.id by apply Hn. assumption.
  - intros xs Hw Hf. cbn [c_counted enc esize wfd fits] in *. apply andb_true_iff in Hw. destruct Hw as [Hwn Hws].
    rewrite !len_app. rewrite (ok_size _ Hcc), (ok_size _ Hmid) by auto.
    rewrite (sum_sizes _ (ok_size _ Hc)) by assumption. symmetry. apply Z.add_assoc.
  - intros bs. cbn [c_counted dec]. apply safe_bind; [apply (ok_safe _ Hcc)|]. intros n r En.
    apply safe_bind; [apply (ok_safe _ Hmid)|]. intros u r1 _.
    rewrite reserve_in_cap by exact (Hcap _ (ok_wf _ Hcc _ _ _ En)). apply read_n_safe. apply (ok_safe _ Hc).
Qed.

Lemma c_network_byte_ok ty : 0 <= ty < 256 -> codec_ok (c_network_byte ty).
Proof.
  intros Hty. split.
  - intros [[n|] t] r Hw _; cbn [c_network_byte enc dec wfd fst snd] in *.
    + cbn [app]. rewrite read_u8_cons. cbn [bind]. rewrite b2z_z2b_small by lia.
      replace (n =? ty) with false by lia.
      rewrite read_u8_cons. cbn [bind]. rewrite b2z_z2b_small by lia. reflexivity.
    + assert (t = ty) as -> by lia. cbn [app]. rewrite read_u8_cons. cbn [bind].
      rewrite b2z_z2b_small by lia. rewrite Z.eqb_refl. reflexivity.
  - intros bs x r H. cbn [c_network_byte dec wfd] in *.
    apply bind_inv in H. destruct H as (b & r1 & Eb & H).
    apply read_u8_inv in Eb. destruct Eb as (b0 & -> & ->). pose proof (b2z_range b0).
    destruct (b2z b0 =? ty) eqn:Et.
    + inversion H; subst. cbn [fst snd]. assumption.
    + apply bind_inv in H. destruct H as (t & r2 & E2 & H).
      apply read_u8_inv in E2. destruct E2 as (b1 & -> & ->). pose proof (b2z_range b1).
      inversion H; subst. cbn [fst snd]. lia.
  - intros [[n|] t] _ _; reflexivity.
  - intros bs. cbn [c_network_byte dec]. apply safe_bind; [apply read_be_safe|]. intros b r _.
    destruct (b =? ty); [apply safe_value|]. apply safe_bind; [apply read_be_safe|]. intros. apply safe_value.
Qed.

Theorem stable_of_ok {A} (c : codec A) : codec_ok c -> stable c.
Proof.
  intros Hc bs x r r' H Hf. apply (ok_rt _ Hc); [eapply (ok_wf _ Hc); eassumption|assumption].
Qed.

(** canonical encodings are unique: two well-formed values with the same encoding are equal *)
Theorem enc_injective {A} (c : codec A) : codec_ok c -> forall x y,
  wfd c x = true -> fits c x = true -> wfd c y = true -> fits c y = true -> enc c x = enc c y -> x = y.
Proof.
  intros Hc x y Hx Hfx Hy Hfy E.
  pose proof (ok_rt _ Hc x [] Hx Hfx) as R1. pose proof (ok_rt _ Hc y [] Hy Hfy) as R2.
  rewrite E in R1. rewrite R1 in R2. inversion R2. reflexivity.
Qed.
