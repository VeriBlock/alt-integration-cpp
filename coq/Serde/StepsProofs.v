(** The counted decoders of StepsDefs.v refine the decoders of StreamDefs.v / EntityDefs.v and
    take a number of steps linear in the bytes consumed (on failure: available). *)
From Coq Require Import ZArith List Bool Lia.
From VB Require Import Serde.StreamDefs Serde.StreamLemmas Serde.EntityDefs Serde.StepsDefs.
Import ListNotations.
Local Open Scope Z_scope.

Lemma fst_sbind {A B} (x : sres A) (f : A -> list byte -> sres B) :
  fst (sbind x f) = bind (fst x) (fun a r => fst (f a r)).
Proof. unfold sbind, bind. destruct (fst x); reflexivity. Qed.

Lemma bind_ext {A B} (x : res A) (f g : A -> list byte -> res B) :
  (forall a r, f a r = g a r) -> bind x f = bind x g.
Proof. intros H. destruct x; cbn [bind]; [apply H | reflexivity ..]. Qed.

Lemma sbind_value {A B} (x : sres A) (f : A -> list byte -> sres B) a r :
  fst x = Value a r -> sbind x f = (fst (f a r), snd x + snd (f a r)).
Proof. unfold sbind. intros ->. reflexivity. Qed.

Lemma slope_le a a' k : a <= a' -> 0 <= k -> a * k <= a' * k.
Proof. intros. apply Z.mul_le_mono_nonneg_r; assumption. Qed.

Lemma lin_total {A} a b m (R : list byte -> sres A) : 0 <= a -> lin a b m R ->
  forall bs, 0 <= snd (R bs) <= a * len bs + b.
Proof.
  intros Ha H bs. specialize (H bs). destruct (R bs) as [[x r| | |] s]; cbn [fst snd] in H |- *; try lia.
  pose proof (len_nonneg r). nia.
Qed.

Lemma lin_weaken {A} a b m a' b' m' (R : list byte -> sres A) :
  a <= a' -> b <= b' -> m' <= m -> lin a b m R -> lin a' b' m' R.
Proof.
  intros Ha Hb Hm H bs. specialize (H bs). pose proof (len_nonneg bs). pose proof (slope_le a a' (len bs)).
  destruct (R bs) as [[x r| | |] s]; cbn [fst snd] in H |- *.
  1: pose proof (slope_le a a' (len bs - len r)).
  all: lia.
Qed.

Definition counts {A} (R : list byte -> sres A) (p : list byte -> res A) (a b m : Z) : Prop :=
  refines R p /\ lin a b m R.

Lemma counts_total {A} (R : list byte -> sres A) p a b m : 0 <= a -> counts R p a b m ->
  forall bs, fst (R bs) = p bs /\ 0 <= snd (R bs) <= a * len bs + b.
Proof. intros Ha [Hr Hl] bs. split; [apply Hr | apply (lin_total _ _ _ _ Ha Hl)]. Qed.

Lemma counts_weaken {A} a b m a' b' m' (R : list byte -> sres A) p :
  counts R p a b m -> a <= a' -> b <= b' -> m' <= m -> counts R p a' b' m'.
Proof. intros [Hr Hl] Ha Hb Hm. split; [exact Hr | exact (lin_weaken _ _ _ _ _ _ R Ha Hb Hm Hl)]. Qed.

(** [q] extra steps per byte pay off [q * m1] of the constant on the at least [m1] bytes the first
    part consumes ([q = 0]: plain sequencing; [q > 0]: one iteration of an element loop) *)
Lemma counts_bind_amortized {A B} (R : list byte -> sres A) p a1 b1 m1 (F : A -> list byte -> sres B) f a2 b2 m2 q a b m :
  counts R p a1 b1 m1 -> (forall x, counts (F x) (f x) a2 b2 m2) ->
  0 <= q -> a1 + q <= a -> a2 <= a -> b1 <= b -> b1 + b2 <= b + q * m1 -> m <= m1 + m2 ->
  counts (fun bs => sbind (R bs) F) (fun bs => bind (p bs) f) a b m.
Proof.
  intros [Rp HR] HF Hq Ha1 Ha2 Hb1 Hb Hm. split.
  - intros bs. rewrite fst_sbind, Rp. apply bind_ext. intros x r. apply (HF x).
  - intros bs. specialize (HR bs). pose proof (len_nonneg bs). pose proof (slope_le a1 a (len bs)). unfold sbind.
    destruct (R bs) as [[x r| | |] s]; cbn [fst snd] in HR |- *; [|lia ..].
    pose proof (proj2 (HF x) r) as G. pose proof (len_nonneg r).
    pose proof (slope_le (a1 + q) a (len bs - len r)).
    assert (q * m1 <= q * (len bs - len r)) by (apply Z.mul_le_mono_nonneg_l; lia).
    pose proof (slope_le a2 a (len r)).
    destruct (F x r) as [[y r'| | |] t]; cbn [fst snd] in G |- *.
    1: pose proof (slope_le a2 a (len r - len r')).
    all: lia.
Qed.

Lemma counts_bind {A B} (R : list byte -> sres A) p a1 b1 m1 (F : A -> list byte -> sres B) f a2 b2 m2 a b m :
  counts R p a1 b1 m1 -> (forall x, counts (F x) (f x) a2 b2 m2) ->
  a1 <= a -> a2 <= a -> 0 <= b2 -> b1 + b2 <= b -> m <= m1 + m2 ->
  counts (fun bs => sbind (R bs) F) (fun bs => bind (p bs) f) a b m.
Proof. intros HR HF **. apply (counts_bind_amortized R p a1 b1 m1 F f a2 b2 m2 0 a b m HR HF); lia. Qed.

Lemma counts_ret {A} a (v : A) : counts (fun r => sret (Value v r)) (fun r => Value v r) a 0 0.
Proof. split; [intros bs; reflexivity|]. intros bs. cbn [sret fst snd]. lia. Qed.

Lemma counts_invalid {A} a : 0 <= a -> counts (fun _ => sret (@Invalid A)) (fun _ => Invalid) a 0 0.
Proof. intros Ha. split; intros bs; [reflexivity|]. cbn [sret fst snd]. pose proof (len_nonneg bs). nia. Qed.

Lemma counts_map {A B} (R : list byte -> sres A) p a b m (g : A -> B) : counts R p a b m ->
  counts (fun bs => sbind (R bs) (fun x r => sret (Value (g x) r))) (fun bs => bind (p bs) (fun x r => Value (g x) r)) a b m.
Proof. intros H. eapply counts_bind; [exact H | intros x; apply (counts_ret a (g x)) | lia ..]. Qed.

Lemma read_slice_s_counts n : counts (read_slice_s n) (read_slice n) 1 0 (Z.max 0 n).
Proof.
  split; intros bs; unfold read_slice_s.
  - destruct (read_slice n bs); reflexivity.
  - destruct (read_slice n bs) as [a r| | |] eqn:E; cbn [fst snd]; pose proof (len_nonneg bs); try lia.
    apply read_slice_inv in E. destruct E as [-> E]. rewrite len_app. pose proof (len_nonneg a). lia.
Qed.

Lemma read_be_s_counts t n : counts (read_be_s t n) (read_be t n) 1 0 (Z.max 0 n).
Proof. apply counts_map, read_slice_s_counts. Qed.

Lemma counts_checked_slice (c : Z -> bool) (n : Z -> Z) a : 1 <= a ->
  forall x, counts (fun r => if c x then read_slice_s (n x) r else sret Invalid)
                   (fun r => if c x then read_slice (n x) r else Invalid) a 0 0.
Proof.
  intros Ha x. destruct (c x).
  - apply (counts_weaken _ _ _ _ _ _ _ _ (read_slice_s_counts (n x))); lia.
  - apply counts_invalid. lia.
Qed.

Lemma read_sbl_s_counts mn mx : counts (read_sbl_s mn mx) (read_sbl mn mx) 1 0 1.
Proof.
  eapply counts_bind; [apply (read_be_s_counts U8 1) | apply (counts_checked_slice (fun n => check_range n mn mx) (fun n => n) 1); lia | lia ..].
Qed.

Lemma read_slice_s_payload n : payload_le (read_slice_s n).
Proof.
  intros bs. unfold read_slice_s. destruct (read_slice n bs) as [a r| | |] eqn:E; cbn [fst]; try exact I.
  apply read_slice_inv in E. destruct E as [-> E]. rewrite len_app. lia.
Qed.

Lemma payload_checked_slice {A} a b m (R : list byte -> sres A) (c : A -> bool) (n : A -> Z) :
  lin a b m R -> payload_le (fun bs => sbind (R bs) (fun x r => if c x then read_slice_s (n x) r else sret Invalid)).
Proof.
  intros HR bs. specialize (HR bs). unfold sbind. destruct (R bs) as [[x r| | |] s]; cbn [fst snd] in HR |- *; try exact I.
  destruct (c x); [|exact I]. pose proof (read_slice_s_payload (n x) r) as P.
  destruct (fst (read_slice_s (n x) r)) as [d r'| | |]; [lia | exact I ..].
Qed.

Lemma s_sbl_payload mn mx : payload_le (s_run (s_sbl mn mx)).
Proof. apply (payload_checked_slice 1 0 (Z.max 0 1)), read_be_s_counts. Qed.

Lemma counts_nested {A} (L : list byte -> sres (list byte)) l a1 b1 m1 (P : list byte -> list byte -> sres A) p a2 b2 :
  counts L l a1 b1 m1 -> payload_le L -> 0 <= a1 -> 0 <= a2 -> 0 <= b2 ->
  (forall d, refines (P d) (p d)) -> (forall d x, 0 <= snd (P d x) <= a2 * len x + b2) ->
  counts (fun bs => sbind (L bs) (fun d r => in_sub_s (P d) d r)) (fun bs => bind (l bs) (fun d r => in_sub (p d) d r))
         (a1 + a2) (b1 + b2) m1.
Proof.
  intros [Ll HL] HP Ha1 Ha2 Hb2 Pp HB. split.
  - intros bs. rewrite fst_sbind, Ll. apply bind_ext. intros d r. unfold in_sub_s, in_sub. cbn [fst]. rewrite Pp. reflexivity.
  - intros bs. specialize (HL bs). specialize (HP bs). pose proof (len_nonneg bs). pose proof (slope_le 0 a2 (len bs)). unfold sbind.
    destruct (L bs) as [[d r| | |] s]; cbn [fst snd] in HL, HP |- *; [|lia ..].
    specialize (HB d d). pose proof (len_nonneg r). pose proof (len_nonneg d).
    pose proof (slope_le 0 a2 (len bs - len r - len d)). unfold in_sub_s. cbn [fst snd].
    destruct (fst (P d d)) as [y r'| | |]; nia.
Qed.

Lemma read_single_be_s_counts t : counts (read_single_be_s t) (read_single_be t) 2 0 1.
Proof.
  apply (counts_nested _ _ 1 0 1 (fun d => read_be_s t (len d)) (fun d => read_be t (len d)) 1 0); try lia.
  - apply read_sbl_s_counts.
  - apply s_sbl_payload.
  - intros d. apply read_be_s_counts.
  - intros d. apply (lin_total 1 0 (Z.max 0 (len d))); [lia | apply read_be_s_counts].
Qed.

Lemma s_var_len_payload mn mx : payload_le (s_run (s_var_len mn mx)).
Proof. apply (payload_checked_slice 2 0 1), read_single_be_s_counts. Qed.

Lemma counts_guard {A} (c : bool) (v : A) a : 0 <= a ->
  counts (fun r => if c then sret (Value v r) else sret Invalid) (fun r => if c then Value v r else Invalid) a 0 0.
Proof. intros Ha. destruct c; [apply counts_ret | apply counts_invalid, Ha]. Qed.

Lemma read_count_s_counts mn mx : counts (read_count_s mn mx) (read_count mn mx) 2 0 1.
Proof.
  eapply counts_bind; [apply (read_single_be_s_counts I32) | intros c; apply (counts_guard (check_range c mn mx) c 2) | ..]; lia.
Qed.

(** the element loop, paid for in this way: the bound does not depend on the announced count [n] *)
Lemma counts_tick {A} (R : list byte -> sres A) p a b m : counts R p a b m -> counts (fun bs => tick (R bs)) p a (b + 1) m.
Proof.
  intros [Rp HR]. split; intros bs; unfold tick; cbn [fst snd]; [apply Rp|].
  destruct (HR bs) as [H0 H]. split; [lia|]. destruct (fst (R bs)); lia.
Qed.

Lemma read_n_s_counts {A} (E : list byte -> sres A) e a b m q :
  0 <= b -> 0 <= q -> b + 1 <= q * m -> counts E e a b m ->
  forall n, counts (read_n_s E n) (read_n e n) (a + q) (b + 1) 0.
Proof.
  intros Hb Hq Hqm HE. induction n as [|k IH].
  - apply (counts_weaken _ _ _ _ _ _ _ _ (counts_ret (a + q) [])); lia.
  - apply (counts_bind_amortized (fun bs => tick (E bs)) e a (b + 1) m
             (fun x r => sbind (read_n_s E k r) (fun xs r' => sret (Value (x :: xs) r')))
             (fun x r => bind (read_n e k r) (fun xs r' => Value (x :: xs) r')) (a + q) (b + 1) 0 q);
      [apply counts_tick, HE | intros x; apply counts_map, IH | lia ..].
Qed.

Lemma amort_ok b m : 0 <= b -> 1 <= m -> 0 <= amort b m /\ b + 1 <= amort b m * m.
Proof.
  intros Hb Hm. unfold amort.
  pose proof (Z.div_mod (b + m) m ltac:(lia)) as D. pose proof (Z.mod_pos_bound (b + m) m ltac:(lia)) as M.
  assert (0 <= (b + m) / m) by (apply Z.div_pos; lia).
  split; [lia|]. rewrite Z.mul_comm. lia.
Qed.

Lemma counts_reserve {A} (K : list byte -> sres A) k a b m n : 0 <= a -> 0 <= b -> counts K k a b m ->
  counts (fun bs => reserve_s n (K bs)) (fun bs => reserve n (k bs)) a b m.
Proof.
  intros Ha Hb HK. unfold reserve_s, reserve. destruct ((0 <=? n) && (n <=? alloc_cap)); [exact HK|].
  split; intros bs; [reflexivity|]. cbn [sret fst snd]. pose proof (len_nonneg bs). nia.
Qed.

(** the generic array combinator readArrayOf(min, max, readFunc) *)
Lemma read_array_of_s_counts {A} mn mx (P : list byte -> sres A) p a b m :
  0 <= a -> 0 <= b -> 1 <= m -> counts P p a b m ->
  counts (read_array_of_s mn mx P) (read_array_of mn mx p) (Z.max 2 (a + amort b m)) (b + 1) 1.
Proof.
  intros Ha Hb Hm HP. destruct (amort_ok b m Hb Hm) as [Hq Hqm].
  eapply counts_bind; [apply read_count_s_counts | intros c; apply counts_reserve; [| | apply (read_n_s_counts P p a b m (amort b m) Hb Hq Hqm HP)] | ..]; lia.
Qed.

Definition s_counts {A} (s : sdec A) (c : codec A) : Prop :=
  0 <= s_a s /\ 0 <= s_b s /\ 0 <= s_min s /\ counts (s_run s) (dec c) (s_a s) (s_b s) (s_min s).

Lemma s_counts_intro {A} (c' c : codec A) R a b m : 0 <= a -> 0 <= b -> 0 <= m -> counts R (dec c) a b m -> s_counts (mkS c' R a b m) c.
Proof. intros Ha Hb Hm H. exact (conj Ha (conj Hb (conj Hm H))). Qed.

Lemma s_pair_counts {A B} (x : sdec A) (y : sdec B) cx cy : s_counts x cx -> s_counts y cy -> s_counts (s_pair x y) (c_pair cx cy).
Proof.
  intros (Ha & Hb & Hm & Hx) (Ha' & Hb' & Hm' & Hy). apply s_counts_intro; try lia.
  eapply counts_bind; [exact Hx | intros a; apply counts_map, Hy | lia ..].
Qed.

Lemma s_iso_counts {A B} (f : B -> A) (g : A -> B) (x : sdec A) cx : s_counts x cx -> s_counts (s_iso f g x) (c_iso f g cx).
Proof. intros (Ha & Hb & Hm & Hx). apply s_counts_intro; try lia. apply counts_map, Hx. Qed.

Lemma s_refine_counts {A} (x : sdec A) (p : A -> bool) cx : s_counts x cx -> s_counts (s_refine x p) (c_refine cx p).
Proof.
  intros (Ha & Hb & Hm & Hx). apply s_counts_intro; try lia.
  eapply counts_bind; [exact Hx | intros a; apply (counts_guard (p a) a), Ha | lia ..].
Qed.

Lemma s_nested_counts {A} (lc : sdec (list byte)) lsz (x : sdec A) clc cx :
  s_counts lc clc -> payload_le (s_run lc) -> s_counts x cx -> s_counts (s_nested lc lsz x) (c_nested clc lsz cx).
Proof.
  intros (Ha & Hb & Hm & Hl) Hp (Ha' & Hb' & Hm' & [Hr' Hl']). apply s_counts_intro; try lia.
  apply (counts_nested _ _ _ _ _ (fun _ => s_run x) (fun _ => dec cx)); try assumption.
  - intros _. exact Hr'.
  - intros _. exact (lin_total _ _ _ _ Ha' Hl').
Qed.

Lemma s_counted_counts {A} (cc : sdec Z) (mid : sdec unit) (e : sdec A) ccc cmid ce :
  s_counts cc ccc -> s_counts mid cmid -> s_counts e ce -> (1 <=? s_min e) = true ->
  s_counts (s_counted cc mid e) (c_counted ccc cmid ce).
Proof.
  intros (Ha & Hb & Hm & Hcc) (Ha' & Hb' & Hm' & Hmid) (Ha'' & Hb'' & Hm'' & He) Hmin.
  apply Z.leb_le in Hmin. destruct (amort_ok (s_b e) (s_min e) Hb'' Hmin) as [Hq Hqm]. apply s_counts_intro; try lia.
  eapply (counts_bind _ _ _ _ _ _ _ (Z.max (s_a mid) (s_a e + amort (s_b e) (s_min e))) (s_b mid + (s_b e + 1)) (s_min mid));
    [exact Hcc | intros n; eapply counts_bind; [exact Hmid | intros _; apply counts_reserve;
      [| | apply (read_n_s_counts _ _ _ _ _ _ Hb'' Hq Hqm He)] | ..] | ..]; lia.
Qed.

Lemma s_be_counts t n : s_counts (s_be t n) (c_be t n).
Proof. apply s_counts_intro; [lia .. | apply read_be_s_counts]. Qed.
Lemma s_le_counts t : s_counts (s_le t) (c_le t).
Proof. apply s_counts_intro; [lia .. | apply counts_map, read_slice_s_counts]. Qed.
Lemma s_bytes_counts n : s_counts (s_bytes n) (c_bytes n).
Proof. apply s_counts_intro; [lia .. | apply read_slice_s_counts]. Qed.
Lemma s_sbl_counts mn mx : s_counts (s_sbl mn mx) (c_sbl mn mx).
Proof. apply s_counts_intro; [lia .. | apply read_sbl_s_counts]. Qed.
Lemma s_var_len_counts mn mx : s_counts (s_var_len mn mx) (c_var_len mn mx).
Proof.
  apply s_counts_intro; try lia.
  eapply counts_bind; [apply (read_single_be_s_counts I32) | apply (counts_checked_slice (fun n => check_range n mn mx) u64 2); lia | lia ..].
Qed.
Lemma s_single_be64_counts : s_counts s_single_be64 c_single_be64.
Proof. apply s_counts_intro; [lia .. | apply read_single_be_s_counts]. Qed.
Lemma s_single_fixed_be_counts t : s_counts (s_single_fixed_be t) (c_single_fixed_be t).
Proof. apply s_counts_intro; [lia .. | apply read_single_be_s_counts]. Qed.
Lemma s_count_counts mn mx : s_counts (s_count mn mx) (c_count mn mx).
Proof. apply s_counts_intro; [lia .. | apply read_count_s_counts]. Qed.
Lemma s_empty_counts : s_counts s_empty c_empty.
Proof. apply s_counts_intro; [lia .. | apply (counts_ret 0 tt)]. Qed.

Lemma s_network_byte_counts ty : s_counts (s_network_byte ty) (c_network_byte ty).
Proof.
  apply s_counts_intro; try lia.
  eapply (counts_bind _ _ _ _ _ _ _ 1 0 0); [apply (read_be_s_counts U8 1) | intros b; destruct (b =? ty) | lia ..].
  - apply (counts_ret 1 (None, b)).
  - eapply counts_weaken; [apply counts_map, (read_be_s_counts U8 1) | lia ..].
Qed.

Lemma s_address_counts an : s_counts (s_address an) (c_address an).
Proof.
  apply s_counts_intro; try lia.
  eapply (counts_bind _ _ _ _ _ _ _ 1 0 1); [apply (read_be_s_counts U8 1) | intros ty | lia ..].
  eapply (counts_bind _ _ _ _ _ _ _ 1 0 0); [apply read_sbl_s_counts | intros b | lia ..].
  destruct (an ty b) as [[t' b']|]; [apply (counts_ret 1 (mkAddress t' b')) | apply counts_invalid; lia].
Qed.

(** a counted decoder and its codec are built alike: the outermost combinator selects the hint;
    entities stay folded unless a proof unfolds them *)
Create HintDb s_counts discriminated.
#[local] Hint Constants Opaque : s_counts.
#[local] Hint Resolve s_pair_counts s_iso_counts s_refine_counts s_nested_counts s_counted_counts
  s_sbl_payload s_var_len_payload s_be_counts s_le_counts s_bytes_counts s_sbl_counts s_var_len_counts
  s_single_be64_counts s_single_fixed_be_counts s_count_counts s_empty_counts s_network_byte_counts
  s_address_counts : s_counts.
#[local] Hint Extern 1 ((1 <=? _) = true) => reflexivity : s_counts.

Section Entities.
  Variable an : Z -> list byte -> option (Z * list byte).

  Lemma s_output_counts : s_counts (s_output an) (c_output an).
  Proof. unfold s_output, c_output, s_coin, c_coin. auto 20 with s_counts nocore. Qed.
  Hint Resolve s_output_counts : s_counts.
  Lemma s_btcblock_counts : s_counts s_btcblock c_btcblock.
  Proof. unfold s_btcblock, c_btcblock, s_btcblock_raw, c_btcblock_raw, s_rev_bytes, c_rev_bytes. auto 20 with s_counts nocore. Qed.
  Hint Resolve s_btcblock_counts : s_counts.
  Lemma s_vbkblock_counts : s_counts s_vbkblock c_vbkblock.
  Proof. unfold s_vbkblock, c_vbkblock, s_vbkblock_raw, c_vbkblock_raw. auto 20 with s_counts nocore. Qed.
  Hint Resolve s_vbkblock_counts : s_counts.
  Lemma s_merklepath_counts : s_counts s_merklepath c_merklepath.
  Proof.
    unfold s_merklepath, c_merklepath, s_merklepath_raw, c_merklepath_raw, s_merkle_mid, c_merkle_mid, s_count_fixed32, c_count_fixed32.
    auto 20 with s_counts nocore.
  Qed.
  Hint Resolve s_merklepath_counts : s_counts.
  Lemma s_vbkmerklepath_counts : s_counts s_vbkmerklepath c_vbkmerklepath.
  Proof. unfold s_vbkmerklepath, c_vbkmerklepath, s_count_fixed32, c_count_fixed32. auto 20 with s_counts nocore. Qed.
  Hint Resolve s_vbkmerklepath_counts : s_counts.
  Lemma s_pubdata_counts : s_counts s_pubdata c_pubdata.
  Proof. unfold s_pubdata, c_pubdata. auto 20 with s_counts nocore. Qed.
  Hint Resolve s_pubdata_counts : s_counts.
  Lemma s_vbktx_counts : s_counts (s_vbktx an) (c_vbktx an).
  Proof.
    unfold s_vbktx, c_vbktx, s_vbktx_raw, c_vbktx_raw, s_coin, c_coin.
    auto 20 with s_counts nocore.
  Qed.
  Hint Resolve s_vbktx_counts : s_counts.
  Lemma s_vbkpoptx_counts : s_counts (s_vbkpoptx an) (c_vbkpoptx an).
  Proof.
    unfold s_vbkpoptx, c_vbkpoptx, s_vbkpoptx_raw, c_vbkpoptx_raw, s_btctx, c_btctx.
    auto 20 with s_counts nocore.
  Qed.
  Hint Resolve s_vbkpoptx_counts : s_counts.
  Lemma s_atv_counts : s_counts (s_atv an) (c_atv an).
  Proof.
    unfold s_atv, c_atv, s_version1, c_version1.
    auto 20 with s_counts nocore.
  Qed.
  Hint Resolve s_atv_counts : s_counts.
  Lemma s_vtb_counts : s_counts (s_vtb an) (c_vtb an).
  Proof.
    unfold s_vtb, c_vtb, s_version1, c_version1.
    auto 20 with s_counts nocore.
  Qed.
  Hint Resolve s_vtb_counts : s_counts.
  Lemma s_popdata_counts : s_counts (s_popdata an) (c_popdata an).
  Proof.
    unfold s_popdata, c_popdata, s_version1, c_version1.
    auto 20 with s_counts nocore.
  Qed.
End Entities.
