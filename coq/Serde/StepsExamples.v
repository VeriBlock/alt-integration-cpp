(** Serde layer: non-vacuity of the step bounds — an honest PopData (3 context blocks, 2 VTBs, 1 ATV,
    2661 bytes) with its concrete step count, and the same bytes behind a count prefix announcing
    50000 context blocks. *)
From Coq Require Import ZArith List.
From Coq Require Import Strings.Byte.
From VB Require Import Gen.Consts Serde.StreamDefs Serde.EntityDefs Serde.StepsDefs Serde.StepsTheorems.
Import ListNotations.
Local Open Scope Z_scope.

Definition an0 (t : Z) (b : list byte) : option (Z * list byte) := Some (t, b).
Definition ex_vbk : VbkBlock :=
  mkVbkBlock 5 2 (repeat x01 12) (repeat x02 9) (repeat x03 9) (repeat x04 16) 1000 (-7) 1099511627775.
Definition ex_btc : BtcBlock := mkBtcBlock 1 (repeat x05 32) (repeat x06 32) 7 8 9.
Definition ex_addr : Address := mkAddress 1 (repeat x11 22).
Definition ex_vmp : VbkMerklePath := mkVbkMerklePath 1 0 (repeat x07 32) [repeat x08 32; repeat x09 32].
Definition ex_poptx : VbkPopTx :=
  mkVbkPopTx (None, TX_TYPE_VBK_POP_TX) ex_addr ex_vbk (repeat x0a 200) (mkMerklePath 3 [repeat x0b 32; repeat x0c 32])
             ex_btc [ex_btc; ex_btc] (repeat x0d 70) (repeat x0e 88).
Definition ex_vtb : VTB := mkVTB 1 ex_poptx ex_vmp ex_vbk.
Definition ex_pub : PublicationData := mkPublicationData 7 (repeat x01 40) (repeat x02 10) (repeat x03 20).
Definition ex_tx : VbkTx :=
  mkVbkTx (None, TX_TYPE_VBK_TX) ex_addr 1000 [mkOutput ex_addr 5; mkOutput ex_addr 6] 3 ex_pub (repeat x0d 70) (repeat x0e 88).
Definition ex_atv : ATV := mkATV 1 ex_tx ex_vmp ex_vbk.
Definition ex_pop : PopData := mkPopData 1 [ex_vbk; ex_vbk; ex_vbk] [ex_vtb; ex_vtb] [ex_atv].
Definition ex_bytes : list byte := enc (c_popdata an0) ex_pop.

Example popdata_steps_example :
  len ex_bytes = 2661 /\ s_run (s_popdata an0) ex_bytes = (Value ex_pop [], 5428) /\
  dec (c_popdata an0) ex_bytes = Value ex_pop [] /\ 5428 <= 7 * len ex_bytes + 8.
Proof.
  assert (L : len ex_bytes = 2661) by (vm_compute; reflexivity).
  assert (R : s_run (s_popdata an0) ex_bytes = (Value ex_pop [], 5428)) by (vm_compute; reflexivity).
  refine (conj L (conj R (conj _ _))); [|rewrite L; discriminate].
  rewrite <- (proj1 (popdata_steps an0 ex_bytes)), R. reflexivity.
Qed.

(** version, then "context: 50000 blocks" (02 c3 50) in front of the 3 blocks, 2 VTBs, 1 ATV that are there:
    the loop ends at the fourth element, after 407 steps on 2662 bytes *)
Definition hostile_bytes : list byte := [x00; x00; x00; x01; x02; xc3; x50] ++ skipn 6 ex_bytes.
Example popdata_hostile_count_example :
  len hostile_bytes = 2662 /\ s_run (s_popdata an0) hostile_bytes = (Invalid, 407) /\
  dec (c_popdata an0) hostile_bytes = Invalid.
Proof.
  assert (R : s_run (s_popdata an0) hostile_bytes = (Invalid, 407)) by (vm_compute; reflexivity).
  refine (conj _ (conj R _)); [vm_compute; reflexivity|].
  rewrite <- (proj1 (popdata_steps an0 hostile_bytes)), R. reflexivity.
Qed.

(** a count of 2^31-1 with nothing behind it: 9 steps *)
Example array_huge_count_example :
  read_array_of_s 0 MAX_POPDATA_VTB (s_run (s_vtb an0)) huge_count = (Invalid, 9) /\
  read_array_of_s 0 MAX_POPDATA_VTB (s_run (s_vtb an0)) [x02; xc3; x50] = (Invalid, 6).
Proof. split; vm_compute; reflexivity. Qed.
