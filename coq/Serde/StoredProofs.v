(** [codec_ok] and C11 for endorsements, stored addons and stored block indices. *)
From Coq Require Import ZArith List.
From VB Require Import Serde.StreamDefs Serde.CodecSpec Serde.StreamLemmas Serde.StreamProofs Serde.EntityProofs
  Serde.FitsProofs Serde.StoredDefs.
Import ListNotations.
Local Open Scope Z_scope.

Lemma c_endorsement_ok a b c d : codec_ok (c_endorsement a b c d).
Proof. unfold c_endorsement. repeat codec_step. Qed.

Lemma c_ids_ok n mx : mx <= alloc_cap -> codec_ok (c_ids n mx).
Proof. intros. apply counted_ok; [assumption|apply c_sbl_ok]. Qed.

Lemma c_popstate_ok c : codec_ok c -> codec_ok (c_popstate c).
Proof. intros. apply counted_ok; [discriminate|assumption]. Qed.

Lemma c_stored_index_ok {H A} (hc : codec H) (ac : codec A) : codec_ok hc -> codec_ok ac -> codec_ok (c_stored_index hc ac).
Proof. intros. unfold c_stored_index. repeat codec_step; assumption. Qed.

Ltac stored_step :=
  lazymatch goal with
  | |- codec_ok (c_ids _ _) => apply c_ids_ok; discriminate
  | |- codec_ok (c_popstate _) => apply c_popstate_ok, c_endorsement_ok
  | |- _ => codec_step
  end.

Lemma c_stored_btc_addon_ok : codec_ok c_stored_btc_addon.
Proof. unfold c_stored_btc_addon. repeat stored_step. Qed.
Lemma c_stored_vbk_addon_ok : codec_ok c_stored_vbk_addon.
Proof. unfold c_stored_vbk_addon. repeat stored_step. Qed.
Lemma c_stored_alt_addon_ok : codec_ok c_stored_alt_addon.
Proof. unfold c_stored_alt_addon. repeat stored_step. Qed.

Lemma c_stored_btc_ok : codec_ok c_stored_btc.
Proof. apply c_stored_index_ok; [apply c_btcblock_raw_ok|apply c_stored_btc_addon_ok]. Qed.
Lemma c_stored_vbk_ok : codec_ok c_stored_vbk.
Proof. apply c_stored_index_ok; [apply c_vbkblock_raw_ok|apply c_stored_vbk_addon_ok]. Qed.
Lemma c_stored_alt_ok : codec_ok c_stored_alt.
Proof. apply c_stored_index_ok; [apply c_altblock_ok|apply c_stored_alt_addon_ok]. Qed.

(** [fits] is vacuous for all of them: no nested length-prefixed buffers *)
Lemma endorsement_fits a b c d x : fits (c_endorsement a b c d) x = true.
Proof. destruct x. reflexivity. Qed.
Lemma ids_fits n mx x : fits (c_ids n mx) x = true.
Proof. cbn [c_ids c_counted fits]. apply forallb_all. reflexivity. Qed.
Lemma popstate_fits a b c d x : fits (c_popstate (c_endorsement a b c d)) x = true.
Proof. cbn [c_popstate c_counted fits]. apply forallb_all. apply endorsement_fits. Qed.
Lemma stored_btc_addon_fits x : fits c_stored_btc_addon x = true.
Proof.
  destruct x as [i r]. cbn [c_stored_btc_addon c_iso c_pair fits fst snd sba_bop_ids sba_refs].
  rewrite ids_fits. cbn [andb c_counted fits]. apply forallb_all. reflexivity.
Qed.
Lemma stored_vbk_addon_fits x : fits c_stored_vbk_addon x = true.
Proof.
  destruct x as [e b r v p].
  cbn [c_stored_vbk_addon c_iso c_pair fits fst snd sva_endorsed_by sva_bop_ids sva_ref_count sva_vtb_ids sva_pop_state].
  rewrite !ids_fits. unfold c_vbk_endorsement. rewrite popstate_fits. reflexivity.
Qed.
Lemma stored_alt_addon_fits x : fits c_stored_alt_addon x = true.
Proof.
  destruct x as [e a v b p].
  cbn [c_stored_alt_addon c_iso c_pair fits fst snd saa_endorsed_by saa_atv_ids saa_vtb_ids saa_vbk_ids saa_pop_state].
  rewrite !ids_fits. unfold c_alt_endorsement. rewrite popstate_fits. reflexivity.
Qed.

Lemma stored_index_fits {H A} (hc : codec H) (ac : codec A) :
  (forall h, fits hc h = true) -> (forall a, fits ac a = true) -> forall x, fits (c_stored_index hc ac) x = true.
Proof.
  intros Hh Ha [h [hd [s a]]]. cbn [c_stored_index c_pair fits fst snd c_be tt_true]. rewrite Hh, Ha. reflexivity.
Qed.

Lemma vbk_endorsement_full : c11_full c_vbk_endorsement.
Proof. apply c11_full_of; [apply c_endorsement_ok|intros; apply endorsement_fits]. Qed.
Lemma alt_endorsement_full : c11_full c_alt_endorsement.
Proof. apply c11_full_of; [apply c_endorsement_ok|intros; apply endorsement_fits]. Qed.
Lemma stored_btc_full : c11_full c_stored_btc.
Proof.
  apply c11_full_of; [apply c_stored_btc_ok|]. intros x _.
  apply stored_index_fits; [intros []; reflexivity|apply stored_btc_addon_fits].
Qed.
Lemma stored_vbk_full : c11_full c_stored_vbk.
Proof.
  apply c11_full_of; [apply c_stored_vbk_ok|]. intros x _.
  apply stored_index_fits; [intros []; reflexivity|apply stored_vbk_addon_fits].
Qed.
Lemma stored_alt_full : c11_full c_stored_alt.
Proof.
  apply c11_full_of; [apply c_stored_alt_ok|]. intros x _.
  apply stored_index_fits; [intros []; reflexivity|apply stored_alt_addon_fits].
Qed.
