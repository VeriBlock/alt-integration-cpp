(** For which entities [fits] (canonical sizes of nested buffers
    within the limit of their length prefix) is already implied by [wfd]. *)
From Coq Require Import ZArith List Bool Lia.
From VB Require Import Gen.Consts Serde.StreamDefs Serde.CodecSpec Serde.StreamLemmas Serde.EntityDefs
  Serde.EntityProofs.
Import ListNotations.
Local Open Scope Z_scope.

Definition c11_full {A} (c : codec A) : Prop :=
  (forall x r, wfd c x = true -> dec c (enc c x ++ r) = Value x r) /\
  (forall bs x r r', dec c bs = Value x r -> dec c (enc c x ++ r') = Value x r') /\
  (forall x, wfd c x = true -> esize c x = len (enc c x)).

Lemma c11_full_of {A} (c : codec A) : codec_ok c -> (forall x, wfd c x = true -> fits c x = true) -> c11_full c.
Proof.
  intros Hc Hf. repeat split.
  - intros x r Hw. apply (ok_rt _ Hc); auto.
  - intros bs x r r' Hd. pose proof (ok_wf _ Hc _ _ _ Hd) as Hw. apply (ok_rt _ Hc); auto.
  - intros x Hw. apply (ok_size _ Hc); auto.
Qed.

Lemma coin_full : c11_full c_coin.
Proof. apply c11_full_of; [apply c_coin_ok|reflexivity]. Qed.
Lemma btctx_full : c11_full c_btctx.
Proof. apply c11_full_of; [apply c_btctx_ok|reflexivity]. Qed.
Lemma pubdata_full : c11_full c_pubdata.
Proof. apply c11_full_of; [apply c_pubdata_ok|intros [] _; reflexivity]. Qed.
Lemma altblock_full : c11_full c_altblock.
Proof. apply c11_full_of; [apply c_altblock_ok|intros [] _; reflexivity]. Qed.
Lemma keystones_full : c11_full c_keystones.
Proof. apply c11_full_of; [apply c_keystones_ok|intros [] _; reflexivity]. Qed.
Lemma ctxinfo_full : c11_full c_ctxinfo.
Proof. apply c11_full_of; [apply c_ctxinfo_ok|intros [? []] _; reflexivity]. Qed.
Lemma authctx_full : c11_full c_authctx.
Proof. apply c11_full_of; [apply c_authctx_ok|intros [[? []] ?] _; reflexivity]. Qed.

Section WithAddr.
  Variable addr_norm : Z -> list byte -> option (Z * list byte).
  Hypothesis Hnorm : addr_norm_sound addr_norm.
  Lemma address_full : c11_full (c_address addr_norm).
  Proof. apply c11_full_of; [apply c_address_ok; exact Hnorm|intros [] _; reflexivity]. Qed.
  Lemma output_full : c11_full (c_output addr_norm).
  Proof. apply c11_full_of; [apply c_output_ok; exact Hnorm|intros [[] ?] _; reflexivity]. Qed.
End WithAddr.

Lemma vbkmerklepath_full : c11_full c_vbkmerklepath.
Proof.
  apply c11_full_of; [apply c_vbkmerklepath_ok|]. intros [t i s l] _.
  cbn [c_vbkmerklepath c_iso c_pair c_counted fits fst snd vmp_tree_index vmp_index vmp_subject vmp_layers
       c_single_fixed_be c_sbl tt_true andb]. apply forallb_all. reflexivity.
Qed.

Lemma nested_fits {A} lc lsz (c : codec A) x : codec_ok c -> fits c x = true -> wfd c x = true ->
  (forall d, len d = esize c x -> wfd lc d = true) -> fits (c_nested lc lsz c) x = true.
Proof.
  intros Hc Hf Hw H. cbn [c_nested fits]. rewrite Hf. apply H. symmetry. apply (ok_size _ Hc); assumption.
Qed.

Definition const_size {A} (c : codec A) (k : Z) : Prop := forall x, wfd c x = true -> esize c x = k.

Lemma const_size_pair {A B} (ca : codec A) (cb : codec B) k1 k2 :
  const_size ca k1 -> const_size cb k2 -> const_size (c_pair ca cb) (k1 + k2).
Proof.
  intros H1 H2 [a b] Hw. cbn [c_pair wfd esize fst snd] in *. apply andb_true_iff in Hw. destruct Hw as [Ha Hb].
  rewrite (H1 _ Ha), (H2 _ Hb). reflexivity.
Qed.
Lemma const_size_iso {A B} (f : B -> A) (g : A -> B) (c : codec A) k : const_size c k -> const_size (c_iso f g c) k.
Proof. intros H b Hw. cbn [c_iso wfd esize] in *. apply H. assumption. Qed.
Lemma const_size_le t : const_size (c_le t) (ibytes t).
Proof. intros x _. reflexivity. Qed.
Lemma const_size_be t n : const_size (c_be t n) n.
Proof. intros x _. reflexivity. Qed.
Lemma const_size_bytes n : const_size (c_bytes n) n.
Proof. intros x Hw. cbn [c_bytes wfd esize] in *. lia. Qed.
Lemma const_size_sbl n : const_size (c_sbl n n) (1 + n).
Proof. intros x Hw. cbn [c_sbl wfd esize] in *. unfold sbl_size. lia. Qed.

Lemma fixed_size_nested_full {A} n (c : codec A) : codec_ok c -> (forall x, fits c x = true) -> const_size c n ->
  0 <= n <= 255 -> c11_full (c_nested (c_sbl n n) sbl_size c).
Proof.
  intros Hc Hf Hs Hn. apply c11_full_of; [apply nested_sbl_ok, Hc|]. intros x Hw.
  apply nested_fits; [exact Hc | apply Hf | exact Hw |].
  intros d Hd. rewrite (Hs x Hw) in Hd. cbn [c_sbl wfd]. lia.
Qed.

Lemma btcblock_raw_size : const_size c_btcblock_raw BTC_HEADER_SIZE.
Proof.
  change BTC_HEADER_SIZE with (ibytes I32 + (SHA256_HASH_SIZE + (SHA256_HASH_SIZE + (ibytes U32 + (ibytes U32 + ibytes U32))))).
  unfold c_btcblock_raw. apply const_size_iso.
  repeat apply const_size_pair; try apply const_size_le; apply const_size_iso, const_size_bytes.
Qed.

Lemma btcblock_full : c11_full c_btcblock.
Proof.
  apply (fixed_size_nested_full _ _ c_btcblock_raw_ok); [intros []; reflexivity | exact btcblock_raw_size | split; discriminate].
Qed.

Lemma vbkblock_raw_size : const_size c_vbkblock_raw VBK_HEADER_SIZE_PROGPOW.
Proof.
  change VBK_HEADER_SIZE_PROGPOW with (4 + (2 + (VBK_PREVIOUS_BLOCK_HASH_SIZE + (VBK_PREVIOUS_KEYSTONE_HASH_SIZE +
    (VBK_PREVIOUS_KEYSTONE_HASH_SIZE + (VBK_MERKLE_ROOT_HASH_SIZE + (4 + (4 + 5)))))))).
  unfold c_vbkblock_raw. apply const_size_iso.
  repeat apply const_size_pair; try apply const_size_be; apply const_size_bytes.
Qed.

Lemma vbkblock_full : c11_full c_vbkblock.
Proof.
  apply (fixed_size_nested_full _ _ c_vbkblock_raw_ok); [intros []; reflexivity | exact vbkblock_raw_size | split; discriminate].
Qed.

Lemma sum_const {A} (c : codec A) k : const_size c k -> forall xs, forallb (wfd c) xs = true ->
  sumZ (map (esize c) xs) = k * len xs.
Proof.
  intros Hc. induction xs as [|x xs IH]; intros Hw; cbn [map sumZ].
  - change (len (@nil A)) with 0. lia.
  - cbn [forallb] in Hw. apply andb_true_iff in Hw. destruct Hw as [Hx Hxs].
    rewrite (Hc _ Hx), (IH Hxs), len_cons. lia.
Qed.

(** not by [cbn]: on an entity codec it copies every nested codec record into each of its five fields *)
Lemma wfd_pair_inv {A B} (ca : codec A) (cb : codec B) a b :
  wfd (c_pair ca cb) (a, b) = true -> wfd ca a = true /\ wfd cb b = true.
Proof. cbn [c_pair wfd fst snd]. intros H. apply andb_true_iff in H. exact H. Qed.
Lemma esize_pair {A B} (ca : codec A) (cb : codec B) a b : esize (c_pair ca cb) (a, b) = esize ca a + esize cb b.
Proof. reflexivity. Qed.
Lemma wfd_counted_inv {A} cc mid (c : codec A) xs :
  wfd (c_counted cc mid c) xs = true -> wfd cc (len xs) = true /\ forallb (wfd c) xs = true.
Proof. cbn [c_counted wfd]. intros H. apply andb_true_iff in H. exact H. Qed.
Lemma esize_counted {A} cc mid (c : codec A) xs :
  esize (c_counted cc mid c) xs = esize cc (len xs) + esize mid tt + sumZ (map (esize c) xs).
Proof. reflexivity. Qed.

Lemma merklepath_raw_size x : wfd c_merklepath_raw x = true ->
  esize c_merklepath_raw x <= 19 + 33 * MAX_LAYER_COUNT_MERKLE.
Proof.
  destruct x as [i ls]. intros Hw. unfold c_merklepath_raw in Hw. cbn [c_iso wfd mp_index mp_layers] in Hw.
  apply wfd_pair_inv in Hw. destruct Hw as [_ Hw]. apply wfd_counted_inv in Hw. destruct Hw as [Hn Hls].
  apply c_count_fixed32_range in Hn; [|reflexivity].
  (* index 5, count 5, size-of-size and size 9, then the layers *)
  change (esize c_merklepath_raw (mkMerklePath i ls))
    with (5 + (5 + 9 + sumZ (map (esize (c_sbl SHA256_HASH_SIZE SHA256_HASH_SIZE)) ls))).
  rewrite (sum_const _ _ (const_size_sbl SHA256_HASH_SIZE) _ Hls). unfold SHA256_HASH_SIZE. lia.
Qed.

Lemma merklepath_full : c11_full c_merklepath.
Proof.
  apply c11_full_of; [apply c_merklepath_ok|]. intros x Hw.
  apply nested_fits; [apply c_merklepath_raw_ok | | exact Hw |].
  - destruct x as [i ls].
    cbn [c_merklepath_raw c_iso c_pair c_counted fits fst snd mp_index mp_layers c_single_fixed_be tt_true andb].
    apply forallb_all. reflexivity.
  - intros d Hd. pose proof (merklepath_raw_size x Hw). pose proof (len_nonneg d). cbn [c_var_len wfd].
    unfold MAX_LAYER_COUNT_MERKLE, MAX_POPDATA_SIZE in *. lia.
Qed.
