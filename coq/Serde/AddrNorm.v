(** Serde layer: which address wire forms the deserializer accepts, stated over
    the address model of property C18 (coq/Text/AddressDefs.v, Base58/59Defs.v):
    [addr_norm_c18 sha256 ty bytes] rebuilds the text with EncodeBase58 (ty = 1)
    or EncodeBase59 (ty = 3), runs Address::fromString on it — which derives the
    address type from the TEXT — and decodes the text with the alphabet of that
    type. This is the function the Section variable [addr_norm] of EntityDefs.v
    stands for (the OCaml driver implements the same steps).
    Proved here: the shape of the result (a wire form is accepted only with
    type byte 1 or 3 and a rebuilt text that fromString accepts; the resulting
    type is that of the text). The premise [addr_norm_sound] of the codec
    theorems is proved for it in AddrNormProofs.v. *)
From Coq Require Import ZArith List.
From VB Require Import Serde.StreamDefs Text.TextCommon Text.Base58Defs Text.Base59Defs Text.AddressDefs.
Import ListNotations.
Local Open Scope Z_scope.

Section AddrNorm.
  Variable sha256 : list Z -> list Z.

  Definition text_of_wire (ty : Z) (b : list byte) : outcome (list Z) :=
    if ty =? ADDR_STANDARD then b58_encode (map b2z b)
    else if ty =? ADDR_MULTISIG then Ok (b59_encode (map b2z b))
    else TextCommon.Invalid.

  Definition addr_norm_c18 (ty : Z) (b : list byte) : option (Z * list byte) :=
    match text_of_wire ty b with
    | Ok text =>
      match addr_from_string sha256 text with
      | Ok a =>
        match (if AddressDefs.addr_type a =? ADDR_MULTISIG then b59_decode text else b58_decode text) with
        | Ok v => Some (AddressDefs.addr_type a, map z2b v)
        | _ => None
        end
      | _ => None
      end
    | _ => None
    end.

  Lemma addr_norm_c18_of_text ty b ty' b' : text_of_wire ty b = text_of_wire ty' b' -> addr_norm_c18 ty b = addr_norm_c18 ty' b'.
  Proof. unfold addr_norm_c18. intros ->. reflexivity. Qed.

  (** accepted wire forms: only those whose rebuilt text passes Address::fromString *)
  Lemma addr_norm_c18_accepts ty b t' b' : addr_norm_c18 ty b = Some (t', b') ->
    exists text a, text_of_wire ty b = Ok text /\ addr_from_string sha256 text = Ok a /\
                   t' = AddressDefs.addr_type a /\ (ty = ADDR_STANDARD \/ ty = ADDR_MULTISIG).
  Proof.
    unfold addr_norm_c18. destruct (text_of_wire ty b) as [text| |] eqn:Et; try discriminate.
    destruct (addr_from_string sha256 text) as [a| |] eqn:Ea; try discriminate.
    destruct (if AddressDefs.addr_type a =? ADDR_MULTISIG then b59_decode text else b58_decode text) as [v| |]; try discriminate.
    intros H. inversion H; subst. exists text, a. repeat split; try assumption.
    unfold text_of_wire in Et. destruct (Z.eqb_spec ty ADDR_STANDARD); [left; assumption|].
    destruct (Z.eqb_spec ty ADDR_MULTISIG); [right; assumption|discriminate].
  Qed.
End AddrNorm.
