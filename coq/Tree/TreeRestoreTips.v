(** Tree/TreeRestoreTips — inv_reval_id, tip set: revalidate (invalidate s b r) b r has the tip set of s. *)
From Coq Require Import ZArith NArith List Bool.
From VB Require Import Tree.TreeDefs Tree.TreeInv Tree.TreePass Tree.TreeProofs Tree.TreeExact Tree.TreeRestore
  Tree.TreeTips Tree.TreeTipsOps Tree.TreeTipsUp.
Import ListNotations.

Definition lvd_eq (l l' : list blk) : Prop :=
  forall p y, find_blk p l = Some y ->
    exists y', find_blk p l' = Some y' /\ level (bst y') = level (bst y) /\ deleted (bst y') = deleted (bst y).

Definition same_lvd (s s' : status) : Prop := level s' = level s /\ deleted s' = deleted s.

Lemma lvd_of_pw l l' : pw same_lvd l l' -> lvd_eq l l'.
Proof. intros H p y F. destruct (pw_find _ _ _ H p y F) as (y' & F' & _ & L & D). eauto. Qed.

Lemma same_lvd_refl s : same_lvd s s.
Proof. split; reflexivity. Qed.
Lemma same_lvd_trans a b c : same_lvd a b -> same_lvd b c -> same_lvd a c.
Proof. unfold same_lvd. intros [] []. split; congruence. Qed.

(* the flag changes of invalidateSubtree / revalidateSubtree keep level and deleted *)
Lemma lvd_reason id r b l : pw same_lvd l (upd id (set_reason r b) l).
Proof. apply pw_upd_all; [apply same_lvd_refl|]. intros s. destruct r; split; reflexivity. Qed.
Lemma lvd_fchild v stop t l : pw same_lvd l (fst (gpass (set_fchild v) stop t l)).
Proof. apply pw_gpass; [apply same_lvd_refl|]. intros s. split; reflexivity. Qed.

Definition invalidate_flags_lvd :=
  invalidate_flags_R (pw same_lvd) (pw_refl _ same_lvd_refl) (pw_trans _ same_lvd_trans) lvd_reason lvd_fchild.
Definition revalidate_lvd :=
  revalidate_R (pw same_lvd) (pw_refl _ same_lvd_refl) (pw_trans _ same_lvd_trans) lvd_reason lvd_fchild.

Theorem inv_reval_id_tips s id r o1 o2 s1 s2 x :
  Inv_flags s -> tips_ok (tkind s) (blocks s) (tips s) ->
  find_blk id (blocks s) = Some x -> has_reason r (bst x) = false -> back_in (blocks s) id ->
  invalidate s id r o1 = Done s1 -> revalidate s1 id r o2 = Done s2 ->
  forall q, memN q (tips s2) = memN q (tips s).
Proof.
  intros I T Fx HR BK E1 E2 q. pose proof I as [W _ _ _].
  pose proof (invalidate_inv _ _ _ _ _ I E1) as I1.
  destruct (invalidate_tips_ok _ _ _ _ _ I T E1) as [T1 K1].
  destruct (revalidate_tips_ok _ _ _ _ _ I1 T1 E2) as [T2 K2].
  rewrite T2, T, K2, K1.
  pose proof (inv_reval_id_flags s id r o1 o2 s1 s2 x I Fx HR BK E1 E2) as FL.
  (* only setState(prev), which leads to sa, touches levels, and it keeps canBeATip *)
  destruct (invalidate_flags_lvd _ _ _ _ _ E1) as (on & pp & sa & Ea & LV1).
  destruct (off_chain_cb (tkind s) on s pp sa W Ea) as ([SKa CB] & _).
  destruct (move_tip_fl on s pp sa W Ea) as [FE _].
  pose proof (revalidate_lvd _ _ _ _ _ E2) as LV2.
  pose proof (lvd_of_pw _ _ (pw_trans _ same_lvd_trans _ _ _ LV1 LV2)) as LV.
  assert (SK : same_skel (blocks s) (blocks s2)).
  { eapply same_skel_trans; [exact SKa|]. eapply same_skel_trans; eapply pw_skel; eauto. }
  (* canBeATip in s2 and in sa: the failure flags are those of s (FL, FE), level and deleted flag those of sa (LV) *)
  apply spec_ext; auto. intros p. rewrite <- (CB p). unfold cbt.
  destruct (find_blk p (blocks s)) as [y|] eqn:Fp;
    [|rewrite (skel_find_none _ _ p SK Fp), (skel_find_none _ _ p SKa Fp); reflexivity].
  destruct (FL p y Fp) as (y2 & Fp2 & _ & E). unfold ffl in E. inversion E.
  destruct (fl_eq_sym_flags _ _ FE p y Fp) as (ya & Fa & Ba & Pa & Ca & _).
  destruct (LV p ya Fa) as (y2' & Fp2' & L2 & D2). rewrite Fp2 in Fp2'. inversion Fp2'; subst y2'.
  rewrite Fp2, Fa. apply can_be_tip_eq; auto; unfold failed, valid_upto; congruence.
Qed.
