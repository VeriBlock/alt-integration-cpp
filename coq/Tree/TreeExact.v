(** Tree/TreeExact — invalidate_exact in descendant-closure form:
    the traversal touches only proper descendants of the target; outside the subtree nothing changes;
    inside, only FAILED_CHILD changes; after invalidation every proper descendant carries FAILED_CHILD. *)
From Coq Require Import ZArith NArith List Bool.
From VB Require Import Tree.TreeDefs Tree.TreeInv Tree.TreePass Tree.TreeProofs.
Import ListNotations.

(* p is t or a descendant of t *)
Definition sub (l : list blk) (t p : N) : bool := memN t (path l p).

Lemma path_found l : forall p a, In a (path l p) -> find_blk a l <> None.
Proof.
  induction l as [|x r IH]; simpl; intros p a H; [contradiction|].
  destruct (N.eqb_spec (bid x) p) as [E|E].
  - destruct H as [<-|H].
    + rewrite E, N.eqb_refl. discriminate.
    + destruct (bparent x) as [q|]; [|contradiction].
      specialize (IH q a H). destruct (bid x =? a)%N; [discriminate|auto].
  - specialize (IH p a H). destruct (bid x =? a)%N; [discriminate|auto].
Qed.

Lemma path_skip x r p : bid x <> p -> path (x :: r) p = path r p.
Proof. intros E. simpl. destruct (N.eqb_spec (bid x) p); [contradiction|reflexivity]. Qed.

Lemma path_self l p y : find_blk p l = Some y -> exists rest, path l p = p :: rest.
Proof.
  induction l as [|x r IH]; simpl; [discriminate|].
  destruct (N.eqb_spec (bid x) p); intros H; eauto.
Qed.

Lemma path_step l : wf l -> forall p y q, find_blk p l = Some y -> bparent y = Some q -> path l p = p :: path l q.
Proof.
  induction l as [|x r IH]; intros W p y q F Q; [discriminate|].
  pose proof (wf_parent_tail x r p y q W F Q) as N. simpl in F |- *.
  destruct (N.eqb_spec (bid x) q); [contradiction|]. destruct (N.eqb_spec (bid x) p) as [E|E].
  - injection F as <-. rewrite Q. reflexivity.
  - exact (IH (wf_tail _ _ W) p y q F Q).
Qed.

Lemma sub_step l t : wf l -> forall p y q, find_blk p l = Some y -> bparent y = Some q ->
  sub l t p = (t =? p)%N || sub l t q.
Proof. intros W p y q F Q. unfold sub. rewrite (path_step l W p y q F Q). apply memN_cons. Qed.

Lemma path_root l p y : find_blk p l = Some y -> bparent y = None -> path l p = [p].
Proof.
  induction l as [|x r IH]; simpl; [discriminate|].
  destruct (N.eqb_spec (bid x) p); intros F Q; [injection F as <-; rewrite Q; reflexivity | auto].
Qed.

Lemma sub_root l t p y : find_blk p l = Some y -> bparent y = None -> sub l t p = (t =? p)%N.
Proof. intros F Q. unfold sub. rewrite (path_root l p y F Q). apply orb_false_r. Qed.

Lemma sub_parent_false l t : wf l -> forall y q, find_blk t l = Some y -> bparent y = Some q -> sub l t q = false.
Proof.
  unfold sub. induction l as [|x r IH]; intros W y q F Q; [discriminate|].
  rewrite path_skip by exact (wf_parent_tail x r t y q W F Q). simpl in F.
  destruct (N.eqb_spec (bid x) t) as [E|E].
  - apply memN_false_In. intros H. apply (path_found r q t H). rewrite <- E. exact (proj1 (proj2 W)).
  - exact (IH (wf_tail _ _ W) y q F Q).
Qed.

Lemma sub_self l t y : find_blk t l = Some y -> sub l t t = true.
Proof.
  intros F. unfold sub. destruct (path_self l t y F) as [rest ->]. rewrite memN_cons, N.eqb_refl. reflexivity.
Qed.

Lemma same_skel_path l : forall l', same_skel l l' -> forall p, path l p = path l' p.
Proof.
  intros l' S. induction S as [|x x' r r' _ Ei Ep _ IH] using same_skel_ind; simpl; auto.
  intros p. rewrite <- Ei, <- Ep. destruct (bid x =? p)%N; [|apply IH].
  destruct (bparent x); [f_equal; apply IH | reflexivity].
Qed.

Lemma same_skel_sub l l' t p : same_skel l l' -> sub l t p = sub l' t p.
Proof. intros S. unfold sub. rewrite (same_skel_path l l' S). reflexivity. Qed.

Lemma gpass_vis_sub f stop t l : wf l -> forall p y, find_blk p l = Some y ->
  vis (snd (gpass f stop t l)) y = true -> sub l t p = true /\ p <> t.
Proof.
  intros W. apply (parent_ind l (fun p y => vis (snd (gpass f stop t l)) y = true -> sub l t p = true /\ p <> t) W).
  - intros p y _ Q V. unfold vis in V. rewrite Q in V. discriminate.
  - intros p y q yq F Q Fq IH V. unfold vis in V. rewrite Q, (proj2 (gpass_find f stop t l W q yq Fq)) in V.
    assert (S : sub l t q = true).
    { destruct (N.eqb_spec q t) as [->|]; [exact (sub_self l t yq Fq)|].
      apply IH. destruct (vis _ yq); [reflexivity|discriminate]. }
    rewrite (sub_step l t W p y q F Q), S, orb_true_r. split; [reflexivity|].
    intros ->. rewrite (sub_parent_false l t W y q F Q) in S. discriminate.
Qed.

Definition ffl (s : status) := (fblock s, fpop s, fchild s).

Theorem gpass_exact v stop t l : wf l -> forall p y, find_blk p l = Some y ->
  exists y', find_blk p (fst (gpass (set_fchild v) stop t l)) = Some y' /\
    (sub l t p = false \/ p = t -> y' = y) /\
    skel y' = skel y /\ fblock (bst y') = fblock (bst y) /\ fpop (bst y') = fpop (bst y) /\
    level (bst y') = level (bst y) /\ deleted (bst y') = deleted (bst y) /\ active (bst y') = active (bst y) /\
    haspl (bst y') = haspl (bst y) /\
    (fchild (bst y') = fchild (bst y) \/ fchild (bst y') = v).
Proof.
  intros W p y F. destruct (gpass_find (set_fchild v) stop t l W p y F) as [H _].
  destruct (vis (snd (gpass (set_fchild v) stop t l)) y) eqn:V.
  - exists (with_st y (set_fchild v (bst y))). split; auto. split.
    + destruct (gpass_vis_sub _ _ _ _ W p y F V) as [S N]. intros [S2| ->]; [congruence|contradiction].
    + simpl. repeat split; auto.
  - exists y. split; auto. repeat split; auto.
Qed.

Lemma desc_failed_fchild : forall l t yt, wf l -> fl_ok l -> find_blk t l = Some yt -> failed (bst yt) = true ->
  forall p y, find_blk p l = Some y -> sub l t p = true -> p <> t -> fchild (bst y) = true.
Proof.
  intros l t yt W F Ft Fd.
  apply (parent_ind l (fun p y => sub l t p = true -> p <> t -> fchild (bst y) = true) W).
  - intros p y Fp Q S N. rewrite (sub_root l t p y Fp Q) in S. apply N.eqb_eq in S. congruence.
  - (* the parent is t, or a proper descendant that carries FAILED_CHILD: failed in both cases *)
    intros p y q yq Fp Q Fq IH S N. rewrite (sub_step l t W p y q Fp Q) in S.
    destruct (N.eqb_spec t p); [congruence|]. simpl in S.
    apply (fl_ok_find l W F p y q yq Fp Q Fq).
    destruct (N.eq_dec q t) as [->|Nq]; [congruence|]. unfold failed. rewrite (IH S Nq). apply orb_true_r.
Qed.

Definition flags_of (l : list blk) (p : N) : option (bool * bool * bool) := option_map (fun y => ffl (bst y)) (find_blk p l).

Lemma flags_of_fl_eq l l' p : fl_eq l l' -> flags_of l p = flags_of l' p.
Proof.
  intros E. unfold flags_of. destruct (find_blk p l) as [y|] eqn:F.
  - destruct (fl_eq_sym_flags _ _ E p y F) as (y' & F' & B & P & C & _). rewrite F'. simpl. unfold ffl. congruence.
  - pose proof (same_skel_find _ _ (fl_eq_skel _ _ E) p) as S. rewrite F in S.
    destruct (find_blk p l'); [contradiction|reflexivity].
Qed.

(* What giving (b = true) or taking (b = false) the reason r at block id, followed or not by a FAILED_CHILD pass
   below id, does to the failure flags: l' has the blocks of l, the only own flag that changes is r at id, and
   FAILED_CHILD changes at proper descendants of id only. *)
Definition reason_step (l : list blk) (id : N) (r : reason) (b : bool) (l' : list blk) : Prop :=
  forall p y, find_blk p l = Some y ->
  exists y', find_blk p l' = Some y' /\ skel y' = skel y /\
    (p <> id -> fblock (bst y') = fblock (bst y) /\ fpop (bst y') = fpop (bst y)) /\
    (p = id -> has_reason r (bst y') = b /\ fchild (bst y') = fchild (bst y) /\
               forall r', r' <> r -> has_reason r' (bst y') = has_reason r' (bst y)) /\
    (sub l id p = false -> fchild (bst y') = fchild (bst y)).

(* the flag itself; l0 is a store with the flags of l (setState(prev) may have run in between) *)
Lemma upd_reason_step l0 l id x r b : fl_eq l0 l -> find_blk id l = Some x ->
  reason_step l0 id r b (upd id (set_reason r b) l).
Proof.
  intros FE Fx p y0 Fp0. destruct (fl_eq_sym_flags _ _ FE p y0 Fp0) as (y & Fp & B & P & C & K & _).
  destruct (N.eq_dec p id) as [->|N].
  - rewrite Fx in Fp. injection Fp as <-. exists (with_st x (set_reason r b (bst x))).
    split; [exact (find_upd_same id _ l x Fx)|]. simpl. rewrite has_reason_set, set_reason_fchild.
    split; [exact (eq_sym K)|]. split; [contradiction|]. split; [|auto]. intros _. split; [reflexivity|]. split; [exact C|].
    intros r' N. rewrite (has_reason_set_other _ _ _ _ N). destruct r'; simpl; congruence.
  - exists y. rewrite (find_upd_other _ _ _ _ N). repeat split; auto; congruence.
Qed.

Lemma pass_reason_step l id r b l1 v stop : wf l1 -> same_skel l l1 -> reason_step l id r b l1 ->
  reason_step l id r b (fst (gpass (set_fchild v) stop id l1)).
Proof.
  intros W1 SK H p y Fp. destruct (H p y Fp) as (y1 & Fp1 & K1 & O1 & T1 & C1).
  destruct (gpass_exact v stop id l1 W1 p y1 Fp1) as (y3 & Fp3 & Out & K3 & B3 & P3 & _).
  exists y3. split; [exact Fp3|]. split; [congruence|]. split; [|split].
  - intros N. rewrite B3, P3. exact (O1 N).
  - intros E. rewrite (Out (or_intror E)). exact (T1 E).
  - intros S. rewrite (Out (or_introl (eq_trans (eq_sym (same_skel_sub _ _ id p SK)) S))). exact (C1 S).
Qed.

Lemma invalidate_flags s id r ord s' : Inv_flags s -> invalidate s id r ord = Done s' ->
  reason_step (blocks s) id r true (blocks s').
Proof.
  intros I E. pose proof I as [W _ _ _]. destruct (invalidate_Done _ _ _ _ _ E)
    as (x & pp & Fx & _ & _ & [(HR & ->) | (_ & [(_ & ->) | (_ & s1 & ES & ->)])]).
  - intros p y Fp. exists y. repeat split; auto. congruence.
  - exact (upd_reason_step _ _ id x r true (fl_eq_refl _) Fx).
  - destruct (move_tip_fl _ _ _ _ W ES) as [FE _]. rewrite (proj1 (update_tips_blocks _ ord)). simpl.
    destruct (fl_eq_sym_flags _ _ FE id x Fx) as (x1 & Fx1 & _).
    pose proof (upd_skel id (set_reason r true) (blocks s1)) as SK1.
    apply pass_reason_step.
    + exact (same_skel_wf _ _ SK1 (fl_eq_wf _ _ FE W)).
    + exact (same_skel_trans _ _ _ (fl_eq_skel _ _ FE) SK1).
    + exact (upd_reason_step _ _ id x1 r true FE Fx1).
Qed.

Theorem invalidate_exact s id r ord s' : Inv_flags s -> invalidate s id r ord = Done s' ->
  forall p y, find_blk p (blocks s) = Some y ->
  exists y', find_blk p (blocks s') = Some y' /\ skel y' = skel y /\
    (* outside the subtree: no failure flag changes *)
    (sub (blocks s) id p = false -> ffl (bst y') = ffl (bst y)) /\
    (* the block itself: it carries the reason, nothing else changes *)
    (p = id -> has_reason r (bst y') = true /\ fchild (bst y') = fchild (bst y) /\
               forall r', r' <> r -> has_reason r' (bst y') = has_reason r' (bst y)) /\
    (* proper descendants: own flags unchanged, FAILED_CHILD set *)
    (sub (blocks s) id p = true -> p <> id ->
       fblock (bst y') = fblock (bst y) /\ fpop (bst y') = fpop (bst y) /\ fchild (bst y') = true).
Proof.
  intros I E p y Fp. pose proof (invalidate_flags _ _ _ _ _ I E) as X.
  destruct (X p y Fp) as (y' & Fp' & K & O & T & C). exists y'. split; [exact Fp'|]. split; [exact K|].
  split; [|split; [exact T|]].
  - intros S. assert (N : p <> id) by (intros ->; rewrite (sub_self _ _ _ Fp) in S; discriminate).
    destruct (O N) as [B P]. unfold ffl. rewrite B, P, (C S). reflexivity.
  - (* the result satisfies the invariant and id is failed in it: everything below id carries FAILED_CHILD *)
    intros S N. destruct (O N) as [B P]. split; [exact B|]. split; [exact P|].
    pose proof (invalidate_inv _ _ _ _ _ I E) as [W' _ F' _].
    destruct (invalidate_Done _ _ _ _ _ E) as (x & _ & Fx & _).
    destruct (X id x Fx) as (x' & Fx' & _ & _ & Tx & _). destruct (Tx eq_refl) as (Rx & _).
    apply (desc_failed_fchild (blocks s') id x' W' F' Fx' (has_reason_failed _ _ Rx) p y' Fp'); [|exact N].
    rewrite <- (same_skel_sub _ _ id p (invalidate_skel _ _ _ _ _ (i_wf s I) E)). exact S.
Qed.
