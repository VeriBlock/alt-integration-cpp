(** Tree/TreeDeleted — S3: a removed block is at VALID_UNKNOWN, carries no ACTIVE / HAS_PAYLOADS, and has only
    removed children.  Preserved by every operation of both trees. *)
From Coq Require Import ZArith NArith List Bool.
From VB Require Import Tree.TreeDefs Tree.TreeInv Tree.TreePass Tree.TreeProofs Tree.TreeSteps Tree.TreeTips
  Tree.TreeTipsOps Tree.TreeTipsUp.
Import ListNotations.

Definition dzP (st : status) : Prop :=
  deleted st = true -> level st = 0%N /\ haspl st = false /\ active st = false.
Definition dz_ok (l : list blk) : Prop := forall p y, find_blk p l = Some y -> dzP (bst y).
(* a removed block has only removed children *)
Definition dc_ok (l : list blk) : Prop :=
  forall c x q y, find_blk c l = Some x -> bparent x = Some q -> find_blk q l = Some y ->
    deleted (bst y) = true -> deleted (bst x) = true.
Definition S3_ok (l : list blk) : Prop := dz_ok l /\ dc_ok l.

(* the same deleted flag, and what S3 says of a removed block is carried over *)
Definition dzq (s s' : status) : Prop := deleted s' = deleted s /\ (dzP s -> dzP s').
Definition dq : list blk -> list blk -> Prop := pw dzq.

Lemma dzq_refl s : dzq s s.
Proof. split; auto. Qed.
Lemma dzq_trans a b c : dzq a b -> dzq b c -> dzq a c.
Proof. intros [D1 Z1] [D2 Z2]. split; [congruence|auto]. Qed.

Definition dq_refl := pw_refl dzq dzq_refl.
Definition dq_trans := pw_trans dzq dzq_trans.

Lemma dq_S3 l l' : dq l l' -> S3_ok l -> S3_ok l'.
Proof.
  intros Q [Z C]. split.
  - intros p y' F'. destruct (pw_find_inv _ _ _ Q p y' F') as (y & F & _ & _ & K). apply K, (Z p y F).
  - intros c x' q y' Fc P Fq D.
    destruct (pw_find_inv _ _ _ Q c x' Fc) as (x & Fc0 & Px & [Dx _]).
    destruct (pw_find_inv _ _ _ Q q y' Fq) as (y & Fq0 & _ & [Dy _]).
    rewrite Dx. apply (C c x q y Fc0); congruence.
Qed.

Lemma dzq_fields s s' : deleted s' = deleted s -> level s' = level s -> haspl s' = haspl s -> active s' = active s ->
  dzq s s'.
Proof. intros D L H A. split; auto. unfold dzP. rewrite D, L, H, A. auto. Qed.

Lemma dzq_live s s' : (dzP s -> deleted s = false) -> deleted s' = deleted s -> dzq s s'.
Proof. intros L D. split; auto. intros Z D'. rewrite D, (L Z) in D'. discriminate. Qed.

Lemma dq_upd_live id f l x : wf l -> find_blk id l = Some x ->
  (dzP (bst x) -> deleted (bst x) = false) -> deleted (f (bst x)) = deleted (bst x) -> dq l (upd id f l).
Proof.
  intros W F L D. apply pw_upd; auto using dzq_refl. intros y Fy. rewrite F in Fy. inversion Fy; subst y.
  apply dzq_live; auto.
Qed.

Lemma live_of_haspl l p y : dz_ok l -> find_blk p l = Some y -> haspl (bst y) = true -> deleted (bst y) = false.
Proof. intros Z F A. destruct (deleted (bst y)) eqn:D; auto. destruct (Z p y F D) as (_ & C & _). congruence. Qed.

Lemma dq_reason id r b l : dq l (upd id (set_reason r b) l).
Proof. apply pw_upd_all; [apply dzq_refl|]. intros s. destruct r; apply dzq_fields; reflexivity. Qed.
Lemma dq_fchild v stop t l : dq l (fst (gpass (set_fchild v) stop t l)).
Proof. apply pw_gpass; [apply dzq_refl|]. intros s. apply dzq_fields; reflexivity. Qed.

Lemma raise_validity_deleted l x u c b : raise_validity l x u = Done (c, b) -> deleted c = deleted (bst x).
Proof. intros RV. destruct (raise_validity_Done _ _ _ _ _ RV) as [[-> _]|(-> & _)]; reflexivity. Qed.

(* the ALT state machine: ACTIVE is cleared; it is set, and the level raised, on valid blocks only, which are live *)
Lemma dq_unapply id l : dq l (upd id (set_active false) l).
Proof.
  apply pw_upd_all; [apply dzq_refl|]. intros s. split; auto. intros Z D. destruct (Z D) as (? & ? & ?). auto.
Qed.
Lemma dq_apply l id x u c b : wf l -> find_blk id l = Some x -> is_valid L_CONNECTED (bst x) = true ->
  raise_validity l x u = Done (c, b) -> dq l (upd id (fun _ => set_active true c) l).
Proof.
  intros W F V RV. apply (dq_upd_live _ _ _ x W F).
  - intros Z. destruct (deleted (bst x)) eqn:D; auto. destruct (Z D) as (L0 & _).
    unfold is_valid, valid_upto, L_CONNECTED in V. rewrite L0, andb_false_r in V. discriminate.
  - exact (raise_validity_deleted _ _ _ _ _ RV).
Qed.

(* hence (Section Closure) setState, invalidateSubtree and revalidateSubtree relate the stores by dq *)
Definition off_chain_dq := off_chain_R dq dq_refl dq_trans (pw_skel dzq) dq_unapply dq_apply.
Definition alt_set_dq := alt_set_R dq dq_refl dq_trans (pw_skel dzq) dq_unapply dq_apply.
Definition invalidate_dq := invalidate_R dq dq_refl dq_trans (pw_skel dzq) dq_unapply dq_apply dq_reason dq_fchild.
Definition revalidate_core_dq := revalidate_core_R dq dq_refl dq_trans dq_reason dq_fchild.
Definition revalidate_dq := revalidate_R dq dq_refl dq_trans dq_reason dq_fchild.

Lemma alt_body_S3 s id s' res : wf (blocks s) -> S3_ok (blocks s) -> alt_body s id = Done (s', res) -> S3_ok (blocks s').
Proof.
  intros W S3 E. destruct (alt_body_Done _ _ _ _ E) as (x & Fx & Dx & H). set (l1 := upd id (set_haspl true) (blocks s)) in *.
  assert (S1 : S3_ok l1).
  { eapply dq_S3; [|exact S3]. apply (dq_upd_live _ _ _ x W Fx); auto. }
  assert (W1 : wf l1) by (eapply same_skel_wf; [apply upd_skel|auto]).
  destruct H as [->|(l2 & tps & c & CP & ->)]; auto.
  refine (proj1 (connect_pass_steps (fun l _ => S3_ok l) l1 id _ l1 [] _ _ _ _ eq_refl S1 CP)).
  (* connectBlock works on a block with payloads: it is live *)
  intros pre y r r' tp y' tp' E0 SK Sm CB. destruct (connect_block_Done _ _ _ _ _ _ CB) as (-> & HP & _).
  assert (Wm : wf (pre ++ y :: r')).
  { eapply same_skel_wf; [|exact W1]. rewrite E0. apply same_skel_mid; auto. }
  rewrite <- (upd_mid pre y r' (fun _ => set_level L_CONNECTED (bst y)) Wm). eapply dq_S3; [|exact Sm].
  apply (dq_upd_live _ _ _ y Wm (find_mid pre y r' Wm)); auto.
  intros Z. destruct (deleted (bst y)) eqn:D; auto. destruct (Z D) as (_ & C & _). congruence.
Qed.

Lemma remove_pass_S3 t l : wf l -> S3_ok l -> S3_ok (fst (remove_pass t l)).
Proof.
  intros W [Z C]. pose proof (remove_pass_found t l W) as A. pose proof (remove_pass_mem t l W) as M.
  destruct (remove_pass t l) as [l2 vs]. simpl in *. split.
  - intros p y' F' D. destruct (A p y' F') as (y & F & _ & E). unfold dzP. rewrite E in *.
    destruct (memN p vs); simpl; auto. apply (Z p y F D).
  - intros c x' q y' Fc P Fq D. destruct (A c x' Fc) as (x & Fc0 & Px & ->). destruct (A q y' Fq) as (y & Fq0 & _ & E).
    rewrite P in Px. rewrite E in D.
    (* the child of a removed block is removed now or was removed before *)
    specialize (M c). rewrite Fc0, <- Px in M. destruct (memN c vs); simpl; auto.
    destruct (memN q vs); simpl in D; [|eapply C; eauto].
    destruct (deleted (bst x)); auto. rewrite orb_true_r in M. discriminate.
Qed.

Lemma remove_subtree_S3 s id ord s' : wf (blocks s) -> S3_ok (blocks s) -> remove_subtree s id ord = Done s' -> S3_ok (blocks s').
Proof.
  intros W S3 E. destruct (remove_subtree_Done _ _ _ _ E) as (x & pp & s1 & _ & _ & _ & E1 & U).
  destruct (maybe_update_tips _ _ _ U) as (-> & _). simpl.
  destruct (off_chain_dq _ _ _ _ W E1) as [Q _]. apply remove_pass_S3.
  - eapply same_skel_wf; [eapply pw_skel; eauto|auto].
  - eapply dq_S3; eauto.
Qed.

Lemma S3_revive l id x par p c : S3_ok l -> find_blk id l = Some x -> bparent x = Some par ->
  find_blk par l = Some p -> deleted (bst p) = false -> deleted c = false -> S3_ok (upd id (fun _ => c) l).
Proof.
  intros [Z C] Fx Px Fp Dp Dc. split.
  - intros q y' F' D. destruct (find_upd_inv _ _ _ _ _ F') as (y & F & _ & [[_ E]|[_ ->]]); [congruence|apply (Z q y F D)].
  - intros ch x' q y' Fc P Fq D. destruct (find_upd_inv _ _ _ _ _ Fc) as (x0 & Fc0 & Px0 & Hc).
    destruct (find_upd_inv _ _ _ _ _ Fq) as (y0 & Fq0 & _ & [[_ E]|[Nq ->]]); [congruence|].
    destruct Hc as [[-> _]|[_ ->]]; [|eapply C; eauto; congruence].
    (* the block itself: its parent is live *)
    rewrite Fx in Fc0. inversion Fc0; subst x0. congruence.
Qed.

Lemma S3_cons l x0 par p : S3_ok l -> find_blk (bid x0) l = None -> bparent x0 = Some par ->
  find_blk par l = Some p -> deleted (bst p) = false -> deleted (bst x0) = false -> S3_ok (x0 :: l).
Proof.
  intros [Z C] Nx Px Fp Dp D0. split.
  - intros q y F D. simpl in F. destruct (bid x0 =? q)%N; [inversion F; subst; congruence|apply (Z q y F D)].
  - intros ch x q y Fc P Fq D. simpl in Fc, Fq.
    destruct (N.eqb_spec (bid x0) q) as [Eq|Eq]; [inversion Fq; subst; congruence|].
    destruct (N.eqb_spec (bid x0) ch) as [Ec|Ec]; [inversion Fc; subst; congruence|eapply C; eauto].
Qed.

Lemma insert_header_S3 s id par w s' p : S3_ok (blocks s) ->
  (forall x, find_blk id (blocks s) = Some x -> bparent x = Some par) ->
  find_blk par (blocks s) = Some p -> deleted (bst p) = false ->
  insert_header s id par w = Done s' ->
  S3_ok (blocks s') /\ (forall x', find_blk id (blocks s') = Some x' -> deleted (bst x') = false).
Proof.
  intros S3 HX Fp Dp E.
  destruct (insert_header_Done _ _ _ _ _ E) as [(x & Fx & Dx & ->)|[(x & c & b & Fx & Dx & RV & ->)|(p' & c & b & Fx & Fp' & RV & ->)]];
    simpl.
  - split; auto. intros x' F'. congruence.
  - pose proof (raise_validity_deleted _ _ _ _ _ RV) as Dc. simpl in Dc.
    split; [eapply S3_revive; eauto|]. intros x'. rewrite (find_upd_same _ _ _ _ Fx). intros F'; inversion F'. exact Dc.
  - pose proof (raise_validity_deleted _ _ _ _ _ RV) as Dc. simpl in Dc.
    assert (p' = p) by congruence. subst p'.
    split; [eapply S3_cons; eauto; reflexivity|]. intros x'. simpl. rewrite N.eqb_refl. intros F'; inversion F'. exact Dc.
Qed.

Lemma alt_hdr_S3 s id parent s' res : S3_ok (blocks s) -> alt_hdr s id parent = Done (s', res) -> S3_ok (blocks s').
Proof.
  intros S3 E. destruct (alt_hdr_Done _ _ _ _ _ E) as [->|(par & p & s1 & HX & Fp & Dp & E1 & H)]; auto.
  destruct (insert_header_S3 _ _ _ _ _ _ S3 HX Fp Dp E1) as [S1 _]. destruct H as [->| ->]; exact S1.
Qed.

Lemma pow_hdr_S3 s id parent w s' res : wf (blocks s) -> S3_ok (blocks s) -> pow_hdr s id parent w = Done (s', res) -> S3_ok (blocks s').
Proof.
  intros W S3 E.
  destruct (pow_hdr_Done _ _ _ _ _ _ E) as [->|(par & p & s1 & x1 & c & b & HX & Fp & Dp & E1 & F1 & RV & H)]; auto.
  destruct (insert_header_S3 _ _ _ _ _ _ S3 HX Fp Dp E1) as [S1 LV].
  (* the block is live when raiseValidity runs *)
  assert (Q : dq (blocks s1) (upd id (fun _ => c) (blocks s1))).
  { apply (dq_upd_live _ _ _ x1 (insert_header_wf _ _ _ _ _ W E1) F1); [auto|].
    exact (raise_validity_deleted _ _ _ _ _ RV). }
  destruct H as [[_ ->]|[_ ->]].
  - simpl. eapply dq_S3; [|exact S1]. eapply dq_trans; [exact Q|]. apply pw_upd_all; [apply dzq_refl|].
    intros st. apply dzq_fields; reflexivity.
  - rewrite (proj1 (pow_determine_best_blocks _ id)). simpl. eapply dq_S3; eauto.
Qed.

Lemma alt_rmpl_S3 s id s' : wf (blocks s) -> S3_ok (blocks s) -> alt_rmpl s id = Done s' -> S3_ok (blocks s').
Proof.
  intros W S3 E. destruct (alt_rmpl_Done _ _ _ E) as (x & p & x2 & Fx & Dx & _ & _ & Fx2 & l3 & H & ->). simpl.
  set (s1 := with_blocks s (upd id (set_haspl false) (blocks s))) in *.
  assert (Q : dq (blocks s) (blocks (revalidate_core s1 id RPop))).
  { eapply dq_trans; [|apply revalidate_core_dq]. apply (dq_upd_live _ _ _ x W Fx); auto. }
  set (s2 := revalidate_core s1 id RPop) in *.
  eapply dq_S3; [|exact S3]. destruct H as [[_ ->]|[_ ->]]; auto. eapply dq_trans; [exact Q|].
  (* the block is live all along *)
  apply (dq_upd_live _ _ _ x2 (same_skel_wf _ _ (pw_skel _ _ _ Q) W) Fx2); auto.
  destruct (pw_find _ _ _ Q id x Fx) as (x2' & F2 & _ & D2 & _). intros _. congruence.
Qed.

Lemma S3_root x : deleted (bst x) = false -> S3_ok [x].
Proof.
  intros Dx. split.
  - intros p y F D. simpl in F. destruct (bid x =? p)%N; inversion F; subst; congruence.
  - intros c x0 q y Fc P Fq D. simpl in Fq. destruct (bid x =? q)%N; inversion Fq; subst; congruence.
Qed.
Lemma S3_init_alt h : S3_ok (blocks (alt_init h)).
Proof. apply S3_root. reflexivity. Qed.
Lemma S3_init_pow h w : S3_ok (blocks (pow_init h w)).
Proof. apply S3_root. reflexivity. Qed.

Theorem step_out_S3 s o s' res : wf (blocks s) -> S3_ok (blocks s) -> step_out s o = Done (s', res) -> S3_ok (blocks s').
Proof.
  intros W S3 E. apply step_out_Done in E. destruct o.
  - destruct (tkind s); [eapply alt_hdr_S3|eapply pow_hdr_S3]; eauto.
  - eapply alt_body_S3; eauto. apply E.
  - eapply dq_S3; [|exact S3]. eapply alt_set_dq; eauto. apply E.
  - eapply dq_S3; [eapply invalidate_dq|]; eauto.
  - eapply dq_S3; [eapply revalidate_dq|]; eauto.
  - eapply remove_subtree_S3; eauto.
  - eapply alt_rmpl_S3; eauto. apply E.
Qed.

Theorem step_S3 s o : Inv_flags s -> S3_ok (blocks s) -> S3_ok (blocks (step s o)).
Proof.
  intros I S3. unfold step. destruct (step_out s o) as [[s1 r]| |] eqn:E; auto.
  eapply step_out_S3; eauto. apply I.
Qed.
