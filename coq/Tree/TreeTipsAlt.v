(** Tree/TreeTipsAlt — the tips conjunct for the remaining ALT operations: acceptBlockHeader, acceptBlock
    (connection of the block and of its descendants), removePayloads; and the step theorem for the ALT tree. *)
From Coq Require Import ZArith NArith List Bool Lia.
From VB Require Import Tree.TreeDefs Tree.TreeInv Tree.TreeProofs Tree.TreeSteps Tree.TreeTips Tree.TreeTipsOps
  Tree.TreeTipsUp.
Import ListNotations.

Lemma try_add_tip_noop k l tps id : cbt k l id = false -> try_add_tip k l tps id = tps.
Proof.
  unfold try_add_tip, cbt. destruct (find_blk id l) as [x|]; auto. intros H.
  unfold is_valid_tip. rewrite H. reflexivity.
Qed.

Lemma tips_ok_cons k l x tps : wf (x :: l) -> can_be_tip k (bst x) = false -> tips_ok k l tps -> tips_ok k (x :: l) tps.
Proof.
  intros W C T q. pose proof W as (Wl & Nx & _). rewrite T.
  assert (Cx : forall p, cbt k (x :: l) p = if (bid x =? p)%N then false else cbt k l p).
  { intros p. unfold cbt. simpl. destruct (bid x =? p)%N; auto. }
  assert (Cn : cbt k l (bid x) = false) by (unfold cbt; rewrite Nx; reflexivity).
  apply eq_true_iff_eq. rewrite (spec_true k l q Wl), (spec_true k (x :: l) q W), Cx. simpl.
  destruct (N.eqb_spec (bid x) q) as [<-|E]; [rewrite Cn; split; intros [? _]; discriminate|].
  split; intros [A B]; split; auto; intros c y Fc P.
  - destruct (N.eqb_spec (bid x) c) as [Ec|Ec]; [inversion Fc; subst; exact C|eauto].
  - apply (B c y); auto. destruct (N.eqb_spec (bid x) c) as [<-|Ec]; auto. congruence.
Qed.

Lemma raise_tree_level l x c b : raise_validity l x L_TREE = Done (c, b) -> (level (bst x) <= 1)%N -> (level c <= 1)%N.
Proof. intros R. destruct (raise_validity_Done _ _ _ _ _ R) as [[-> _]|(-> & _)]; auto. simpl. unfold L_TREE. lia. Qed.

Lemma upd_notfound id f l : find_blk id l = None -> upd id f l = l.
Proof.
  intros N. unfold upd. rewrite <- (map_id l) at 2. apply map_ext_in. intros y Hy.
  destruct (N.eqb_spec (bid y) id) as [E|E]; auto. exfalso. apply (find_blk_none_In _ _ N y Hy E).
Qed.

(* the removed blocks stored under id are at VALID_UNKNOWN and have only removed children (S3) *)
Definition removed_ok (l : list blk) (id : N) : Prop :=
  forall x, find_blk id l = Some x -> deleted (bst x) = true ->
    level (bst x) = 0%N /\ forall ch y, find_blk ch l = Some y -> bparent y = Some id -> deleted (bst y) = true.

Lemma upd_same l id x : wf l -> find_blk id l = Some x -> upd id (fun _ => bst x) l = l.
Proof.
  intros W F. rewrite <- (upd_const_eq l id x (fun st => st) W F). unfold upd. rewrite <- (map_id l) at 2.
  apply map_ext. intros y. destruct (bid y =? id)%N; destruct y; reflexivity.
Qed.

(* insertBlockHeader leaves the tip set alone: its tryAddTip sees the block at VALID_UNKNOWN *)
Lemma insert_header_tips s id par w s1 : wf (blocks s) -> tips_ok (tkind s) (blocks s) (tips s) -> removed_ok (blocks s) id ->
  insert_header s id par w = Done s1 ->
  tips s1 = tips s /\ tkind s1 = tkind s /\
  exists L X c, wf L /\ tips_ok (tkind s) L (tips s) /\ find_blk id L = Some X /\ blocks s1 = upd id (fun _ => c) L /\
    (L = blocks s /\ c = bst X /\ deleted (bst X) = false \/
     can_be_tip (tkind s) (bst X) = false /\ (level c <= 1)%N /\
     forall ch y, find_blk ch L = Some y -> bparent y = Some id -> can_be_tip (tkind s) (bst y) = false).
Proof.
  intros W T Z E.
  destruct (insert_header_Done _ _ _ _ _ E) as [(x & Fx & Dx & ->)|[(x & c & b & Fx & Dx & RV & ->)|(p & c & b & Fx & Fp & RV & ->)]];
    simpl.
  - repeat split; auto. exists (blocks s), x, (bst x). rewrite (upd_same _ _ _ W Fx). repeat split; auto.
  - destruct (Z x Fx Dx) as (Lx & CH). apply raise_tree_level in RV; [|simpl; lia].
    split; [|split; auto; exists (blocks s), x, c; repeat split; auto; right; repeat split; eauto using can_be_tip_deleted].
    apply try_add_tip_noop. unfold cbt. rewrite (find_upd_same _ _ _ _ Fx). apply level0_not_tip. exact Lx.
  - apply raise_tree_level in RV; [|simpl; unfold L_UNKNOWN; lia]. set (x0 := mkBlk id _ _ _ _) in *.
    assert (W0 : wf (x0 :: blocks s)) by (simpl; rewrite Fp; repeat split; auto; discriminate).
    assert (C0 : can_be_tip (tkind s) (bst x0) = false) by (apply level0_not_tip; reflexivity).
    split; [apply try_add_tip_noop; unfold cbt; simpl; rewrite N.eqb_refl; exact C0|]. split; auto.
    exists (x0 :: blocks s), x0, c. split; auto. split; [apply tips_ok_cons; auto|].
    simpl. rewrite N.eqb_refl, (upd_notfound _ _ _ Fx). repeat split; auto. right. repeat split; auto.
    intros ch y Fc P. exfalso. destruct (N.eqb_spec id ch) as [Ec|Ec].
    + inversion Fc; subst y. simpl in P. congruence.
    + exact (wf_parent_found _ W ch y id Fc P Fx).
Qed.

(* a block that was not live before ends at VALID_TREE at most: it cannot be a tip before or after *)
Theorem alt_hdr_tips_ok s id parent s' res : Inv_flags s -> tkind s = ALT -> tips_ok ALT (blocks s) (tips s) ->
  removed_ok (blocks s) id ->
  alt_hdr s id parent = Done (s', res) -> tips_ok ALT (blocks s') (tips s') /\ tkind s' = ALT.
Proof.
  intros I K T Z E. pose proof I as [W _ _ _].
  destruct (alt_hdr_Done _ _ _ _ _ E) as [->|(par & p & s1 & HX & Fp & Dp & E1 & H)]; auto.
  pose proof (insert_header_wf _ _ _ _ _ W E1) as W1. rewrite <- K in T.
  destruct (insert_header_tips _ _ _ _ _ W T Z E1) as (Tp & K1 & L & X & c & WL & TL & FX & EB & U). rewrite K in *.
  assert (T1 : tips_ok ALT (blocks s1) (tips s1)).
  { rewrite Tp, EB. apply (tips_ok_cb ALT L _ (tips s) WL); [|exact TL].
    apply (cbt_upd_at _ _ X _ _ FX).
    destruct U as [(_ & -> & _)|(-> & Lc & _)]; auto using low_level_not_tip. }
  destruct H as [->| ->]; simpl; rewrite ?K1; split; auto using try_add_tip_ok.
Qed.

Theorem alt_body_tips_ok s id s' res : Inv_flags s -> tkind s = ALT -> tips_ok ALT (blocks s) (tips s) ->
  alt_body s id = Done (s', res) -> tips_ok ALT (blocks s') (tips s') /\ tkind s' = ALT.
Proof.
  intros I K T E. pose proof I as [W _ _ _].
  destruct (alt_body_Done _ _ _ _ E) as (x & Fx & Dx & H). set (l1 := upd id (set_haspl true) (blocks s)) in *.
  assert (T1 : tips_ok ALT l1 (tips s)) by (eapply tips_ok_cb; eauto; apply cbt_upd; reflexivity).
  destruct H as [->|(l2 & tps & c & CP & ->)]; simpl; split; auto.
  assert (W1 : wf l1) by (eapply same_skel_wf; [apply upd_skel|auto]).
  refine (proj1 (connect_pass_steps (tips_ok ALT) l1 id _ l1 [] _ _ _ _ eq_refl T1 CP)).
  (* connectBlock: the block was not connected, hence no tip; its children are not connected either *)
  intros pre y r r' tp y' tp' E0 SK Tm CB.
  destruct (connect_block_Done _ _ _ _ _ _ CB) as (-> & _ & NC & _ & CH & ->).
  rewrite E0 in *. apply visit_tips; auto.
  - intros ch z Fc P. apply low_level_not_tip. eauto.
  - rewrite low_level_not_tip; [discriminate|exact NC].
Qed.

Theorem alt_rmpl_tips_ok s id s' : Inv_flags s -> tkind s = ALT -> tips_ok ALT (blocks s) (tips s) ->
  alt_rmpl s id = Done s' -> tips_ok ALT (blocks s') (tips s') /\ tkind s' = ALT.
Proof.
  intros I K T E. pose proof I as [W _ _ _].
  destruct (alt_rmpl_Done _ _ _ E) as (x & p & x2 & Fx & Dx & Px & _ & Fx2 & l3 & H & ->).
  set (s1 := with_blocks s (upd id (set_haspl false) (blocks s))) in *.
  assert (I1 : Inv_flags s1).
  { eapply inv_of_fl_eq_tree; [exact I|]. simpl. apply upd_fl_eq, keeps_set_haspl. }
  destruct (revalidate_core_tips_ok s1 id RPop I1) as [T2 _].
  { simpl. rewrite K. eapply tips_ok_cb; eauto. apply cbt_upd. reflexivity. }
  pose proof (revalidate_core_inv s1 id RPop I1) as [W2 _ _ _].
  set (s2 := revalidate_core s1 id RPop) in *. simpl in T2 |- *. rewrite K in *. split; auto.
  assert (Px2 : bparent x2 = Some p).
  { destruct (skel_find _ _ id x (same_skel_trans _ _ _ (upd_skel id (set_haspl false) (blocks s)) (revalidate_core_skel s1 id RPop)) Fx)
      as (x2' & F2 & P2). fold s2 in F2. congruence. }
  (* the block ends below VALID_CONNECTED: it is no tip; nothing else changes *)
  apply (tips_worsen ALT (blocks s2) l3 (tips s2) _ (fun q => (q =? id)%N) p); auto.
  - destruct H as [[_ ->]|[_ ->]]; [apply same_skel_refl|apply upd_skel].
  - intros q Nq. destruct H as [[_ ->]|[_ ->]]; auto. apply find_upd_other, N.eqb_neq, Nq.
  - intros q Eq. apply N.eqb_eq in Eq. subst q. unfold cbt. destruct H as [[NC ->]|[_ ->]].
    + rewrite Fx2. apply low_level_not_tip. apply N.leb_gt in NC. unfold L_CONNECTED in NC. lia.
    + rewrite (find_upd_same _ _ _ _ Fx2). apply low_level_not_tip. simpl. unfold L_TREE. lia.
  - intros q y p0 Fq Eq Pq. apply N.eqb_eq in Eq. subst q. right. congruence.
  - apply N.eqb_neq. eapply wf_parent_ne; eauto.
  - intros q. rewrite memN_set_remove, (N.eqb_sym id q). reflexivity.
Qed.

(* operations covered: everything except (a) re-adding the header of a REMOVED block (needs the model invariant
   "a removed block is at VALID_UNKNOWN", S3 of harness/invariants.hpp) and (b) acceptBlockHeader of the PoW tree *)
Definition tips_op (s : tree) (o : op) : Prop :=
  match o with
  | OHdr id _ _ => tkind s = ALT /\ find_blk id (blocks s) = None
  | _ => True
  end.

Definition Tips_ok (s : tree) : Prop := tips_ok (tkind s) (blocks s) (tips s).

Lemma step_out_tips_nohdr s o s' res : Inv_flags s -> Tips_ok s -> (forall id p w, o <> OHdr id p w) ->
  step_out s o = Done (s', res) -> Tips_ok s'.
Proof.
  unfold Tips_ok. intros I T NH E. pose proof I as [W _ _ _]. apply step_out_Done in E.
  destruct o.
  - exfalso. eapply NH; eauto.
  - destruct E as [K E]. rewrite K in T. destruct (alt_body_tips_ok _ _ _ _ I K T E) as [T' ->]. exact T'.
  - exact (proj1 (alt_set_tips_ok _ _ _ _ W T (proj2 E))).
  - exact (proj1 (invalidate_tips_ok _ _ _ _ _ I T E)).
  - exact (proj1 (revalidate_tips_ok _ _ _ _ _ I T E)).
  - exact (proj1 (remove_subtree_tips_ok _ _ _ _ I T E)).
  - destruct E as [K E]. rewrite K in T. destruct (alt_rmpl_tips_ok _ _ _ I K T E) as [T' ->]. exact T'.
Qed.

Theorem step_out_tips_partial s o s' res : Inv_flags s -> Tips_ok s -> tips_op s o ->
  step_out s o = Done (s', res) -> Tips_ok s'.
Proof.
  intros I T TO E. destruct o; try (eapply step_out_tips_nohdr; eauto; discriminate).
  destruct TO as [K Fx]. unfold Tips_ok in *. apply step_out_Done in E. rewrite K in *.
  assert (Z : removed_ok (blocks s) id) by (intros x F; congruence).
  destruct (alt_hdr_tips_ok _ _ _ _ _ I K T Z E) as [T' ->]. exact T'.
Qed.

Theorem step_tips_partial s o : Inv_flags s -> Tips_ok s -> tips_op s o -> Tips_ok (step s o).
Proof.
  intros I T TO. unfold step. destruct (step_out s o) as [[s1 r]| |] eqn:E; auto.
  eapply step_out_tips_partial; eauto.
Qed.

Lemma init_tips_ok_alt h : Tips_ok (alt_init h).
Proof.
  intros q. unfold alt_init, spec. simpl. rewrite orb_false_r.
  destruct q; simpl; reflexivity.
Qed.
Lemma init_tips_ok_pow h w : Tips_ok (pow_init h w).
Proof.
  intros q. unfold pow_init, spec. simpl. rewrite orb_false_r.
  destruct q; simpl; reflexivity.
Qed.
