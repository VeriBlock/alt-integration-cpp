(** Tree/TreeTipsAll — the tips conjunct for the PoW acceptBlockHeader; with S3 (a removed block is at VALID_UNKNOWN and
    has only removed children) the tips conjunct is preserved by EVERY operation of both trees. *)
From Coq Require Import ZArith NArith List Bool Lia.
From VB Require Import Tree.TreeDefs Tree.TreeInv Tree.TreeProofs Tree.TreeSteps Tree.TreeTips Tree.TreeTipsOps
  Tree.TreeTipsUp Tree.TreeTipsAlt Tree.TreeDeleted.
Import ListNotations.

Lemma raise_validity_low l x u c b : raise_validity l x u = Done (c, b) -> (level (bst x) <= u)%N -> (level c <= u)%N.
Proof. intros R. destruct (raise_validity_Done _ _ _ _ _ R) as [[-> _]|(-> & _)]; simpl; auto. intros _. lia. Qed.

Lemma pow_determine_best_tips s c : tips (pow_determine_best s c) = tips s.
Proof.
  unfold pow_determine_best. destruct (tip s =? c)%N; auto. destruct (find_blk c (blocks s)); auto.
  destruct (find_blk (tip s) (blocks s)); auto. destruct (negb (is_valid L_TREE (bst b))); auto. destruct (bwork b0 <? bwork b)%Z; auto.
Qed.

Lemma S3_removed_ok l id : S3_ok l -> removed_ok l id.
Proof. intros [Z C] x Fx Dx. split; [apply (Z id x Fx Dx)|]. intros ch y Fc P. exact (C ch y id x Fc P Fx Dx). Qed.

Theorem pow_hdr_tips_ok s id parent w s' res : Inv_flags s -> S3_ok (blocks s) -> tkind s = POW ->
  tips_ok POW (blocks s) (tips s) -> pow_hdr s id parent w = Done (s', res) ->
  tips_ok POW (blocks s') (tips s') /\ tkind s' = POW.
Proof.
  intros I S3 K T E. pose proof I as [W _ F L].
  destruct (pow_hdr_Done _ _ _ _ _ _ E) as [->|(par & p & s1 & x1 & c & b & HX & Fp & Dp & E1 & F1 & RV & H)]; auto.
  rewrite <- K in T.
  destruct (insert_header_tips _ _ _ _ _ W T (S3_removed_ok _ id S3) E1) as (Tp & K1 & L0 & X & c1 & WL & TL & FX & EB & U).
  rewrite K in *.
  set (l2 := upd id (fun _ => c) L0).
  assert (W2 : wf l2) by (eapply same_skel_wf; [apply upd_skel|auto]).
  destruct H as [[V ->]|[_ ->]].
  - (* below an invalid parent: FAILED_CHILD, which a block of the tree has already *)
    simpl. rewrite EB, Tp, K1, !upd_upd. split; auto.
    apply (tips_ok_cb POW L0 _ (tips s) WL); [|exact TL]. apply (cbt_upd_at _ _ X _ _ FX).
    rewrite (can_be_tip_fchild POW (set_fchild true c) eq_refl). symmetry.
    destruct U as [(-> & _)|[U _]]; auto. apply can_be_tip_fchild.
    exact (fl_ok_find _ W F id X par p FX (HX X FX) Fp (live_invalid_failed _ _ _ L Fp Dp V)).
  - rewrite (proj1 (pow_determine_best_blocks _ id)), (proj2 (pow_determine_best_blocks _ id)), pow_determine_best_tips.
    simpl. rewrite EB, Tp, upd_upd. fold l2. split; auto.
    destruct U as [(-> & -> & DX)|(CX & _ & CH)].
    + (* raiseValidity(VALID_CONNECTED) leaves a live block of the PoW tree as usable as it was *)
      apply try_add_tip_ok; auto. apply (tips_ok_cb POW (blocks s) l2 (tips s) W); [|exact TL].
      apply (cbt_upd_at _ _ X _ _ FX).
      rewrite EB, (find_upd_same _ _ _ _ FX) in F1. inversion F1; subst x1.
      destruct (raise_validity_Done _ _ _ _ _ RV) as [[-> _]|(-> & _ & Lt & _)]; auto.
      apply can_be_tip_raise; [exact (proj1 (lv_ok_find _ _ _ L FX) DX)|apply N.lt_le_incl, Lt].
    + rewrite (try_add_tip_nochild POW l2 (tips s) id _ W2 (find_upd_same _ _ _ _ FX)).
      * apply (tips_improve POW L0 id X c (tips s) WL FX); auto. congruence.
      * intros ch y Fc P. unfold l2 in Fc. rewrite find_upd_other in Fc; eauto.
        intros ->. exact (wf_parent_ne l2 W2 id y id Fc P eq_refl).
Qed.

Theorem step_out_tips s o s' res : Inv_flags s -> S3_ok (blocks s) -> Tips_ok s ->
  step_out s o = Done (s', res) -> Tips_ok s'.
Proof.
  intros I S3 T E. destruct o; try (eapply step_out_tips_nohdr; eauto; discriminate).
  unfold Tips_ok in *. apply step_out_Done in E. destruct (tkind s) eqn:K.
  - destruct (alt_hdr_tips_ok _ _ _ _ _ I K T (S3_removed_ok _ id S3) E) as [T' ->]. exact T'.
  - destruct (pow_hdr_tips_ok _ _ _ _ _ _ I S3 K T E) as [T' ->]. exact T'.
Qed.

(* Inv_tree, the part proved for the model: flags + S3 + tips *)
Definition Inv_tree (s : tree) : Prop := Inv_flags s /\ S3_ok (blocks s) /\ Tips_ok s.

Theorem Inv_tree_init_alt h : Inv_tree (alt_init h).
Proof. split; [apply alt_init_inv|]. split; [apply S3_init_alt|apply init_tips_ok_alt]. Qed.
Theorem Inv_tree_init_pow h w : Inv_tree (pow_init h w).
Proof. split; [apply pow_init_inv|]. split; [apply S3_init_pow|apply init_tips_ok_pow]. Qed.

Theorem Inv_tree_step s o : Inv_tree s -> Inv_tree (step s o).
Proof.
  intros (I & S3 & T). split; [apply step_inv, I|]. split; [apply step_S3; auto|].
  unfold step. destruct (step_out s o) as [[s1 r]| |] eqn:E; auto. eapply step_out_tips; eauto.
Qed.

Theorem Inv_tree_run ops : forall s, Inv_tree s -> Inv_tree (run s ops).
Proof.
  unfold run. induction ops as [|o r IH]; simpl; intros s I; auto. apply IH, Inv_tree_step, I.
Qed.
