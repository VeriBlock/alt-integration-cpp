(** Tree/TreeTips — the tips conjunct of Inv_tree: tips_ = { b | canBeATip b and no child canBeATip }.
    Two facts carry every proof about it: the spec of a block reads canBeATip of the block and of its children only
    ([spec_mono], [spec_local]), and tryAddTip(b) repairs the set at b and at the parent of b ([tip_added]). *)
From Coq Require Import ZArith NArith List Bool Lia.
From VB Require Import Tree.TreeDefs Tree.TreeInv.
Import ListNotations.

(* canBeATip of the block stored under q *)
Definition cbt (k : kind) (l : list blk) (q : N) : bool :=
  match find_blk q l with Some x => can_be_tip k (bst x) | None => false end.
(* isValidTip of the block stored under q *)
Definition spec (k : kind) (l : list blk) (q : N) : bool :=
  match find_blk q l with Some x => is_valid_tip k l q (bst x) | None => false end.
Definition tips_ok (k : kind) (l : list blk) (tps : list N) : Prop := forall q, memN q tps = spec k l q.

(* canBeATip reads the DELETED flag, isFailed, and whether the level reaches the tip level of the tree *)
Lemma can_be_tip_eq k a b : deleted a = deleted b -> failed a = failed b ->
  valid_upto (tip_level k) a = valid_upto (tip_level k) b -> can_be_tip k a = can_be_tip k b.
Proof. unfold can_be_tip, is_valid. intros -> -> ->. reflexivity. Qed.

Lemma can_be_tip_failed k st : failed st = true -> can_be_tip k st = false.
Proof. intros H. unfold can_be_tip, is_valid. rewrite H. apply andb_false_r. Qed.

Lemma can_be_tip_raise k st u : (tip_level k <= level st)%N -> (level st <= u)%N ->
  can_be_tip k (set_level u st) = can_be_tip k st.
Proof.
  intros A B. apply can_be_tip_eq; try reflexivity. unfold valid_upto. simpl.
  rewrite !(proj2 (N.leb_le _ _)); auto. lia.
Qed.

Lemma fchild_failed st : fchild st = true -> failed st = true.
Proof. intros H. unfold failed. rewrite H. apply orb_true_r. Qed.

Lemma can_be_tip_fchild k st : fchild st = true -> can_be_tip k st = false.
Proof. intros H. apply can_be_tip_failed, fchild_failed, H. Qed.

Lemma can_be_tip_unfail k st : can_be_tip k st = true -> can_be_tip k (set_fchild false st) = true.
Proof.
  intros H. destruct (fchild st) eqn:C; [rewrite can_be_tip_fchild in H; [discriminate|auto]|].
  destruct st; simpl in C; subst; exact H.
Qed.

Lemma can_be_tip_unreason k r st : can_be_tip k st = true -> can_be_tip k (set_reason r false st) = true.
Proof.
  unfold can_be_tip, is_valid, failed, valid_upto. destruct r; simpl;
    destruct (deleted st), (fblock st), (fpop st), (fchild st); simpl; auto; discriminate.
Qed.

Lemma can_be_tip_deleted k st : deleted st = true -> can_be_tip k st = false.
Proof. intros D. unfold can_be_tip. rewrite D. reflexivity. Qed.

(* below the tip level of the tree (VALID_CONNECTED in the ALT tree, VALID_TREE in the PoW tree) *)
Lemma below_tip_level k st : (level st < tip_level k)%N -> can_be_tip k st = false.
Proof.
  intros H. unfold can_be_tip, is_valid, valid_upto. rewrite (proj2 (N.leb_gt _ _) H), !andb_false_r. reflexivity.
Qed.
Lemma level0_not_tip k st : level st = 0%N -> can_be_tip k st = false.
Proof. intros L. apply below_tip_level. rewrite L. destruct k; reflexivity. Qed.
Lemma low_level_not_tip st : (level st <= 1)%N -> can_be_tip ALT st = false.
Proof. intros H. apply below_tip_level. unfold tip_level, L_CONNECTED. lia. Qed.

Lemma memN_set_add q a t : memN q (set_add a t) = (q =? a)%N || memN q t.
Proof.
  unfold set_add. destruct (memN a t) eqn:M; [|reflexivity].
  destruct (N.eqb_spec q a) as [->|E]; simpl; auto.
Qed.
Lemma memN_filter q f t : memN q (filter f t) = memN q t && f q.
Proof.
  induction t as [|a r IH]; simpl; auto.
  destruct (N.eqb_spec q a) as [->|E], (f a) eqn:Fa; simpl; rewrite IH, ?N.eqb_refl, ?Fa; auto using andb_false_r.
  rewrite (proj2 (N.eqb_neq q a) E). reflexivity.
Qed.
Lemma memN_set_remove q a t : memN q (set_remove a t) = memN q t && negb (a =? q)%N.
Proof. unfold set_remove. apply memN_filter. Qed.

Lemma nochild_spec k l q : wf l ->
  forallb (fun c => negb (can_be_tip k (bst c))) (children l q) = true <->
  (forall c x, find_blk c l = Some x -> bparent x = Some q -> can_be_tip k (bst x) = false).
Proof.
  intros W. rewrite forallb_forall. split.
  - intros H c x F P. specialize (H x (proj2 (children_In l q x) (conj (find_blk_In _ _ _ F) P))).
    apply negb_true_iff in H. exact H.
  - intros H x Hx. apply children_In in Hx. destruct Hx as [Hi P].
    apply negb_true_iff. apply (H (bid x) x); auto. apply wf_In_find; auto.
Qed.

Lemma spec_true k l q : wf l -> spec k l q = true <->
  cbt k l q = true /\ (forall c x, find_blk c l = Some x -> bparent x = Some q -> can_be_tip k (bst x) = false).
Proof.
  intros W. unfold spec, cbt. destruct (find_blk q l) as [y|]; [|split; [discriminate|intros [? _]; discriminate]].
  unfold is_valid_tip. rewrite andb_true_iff, (nochild_spec k l q W). tauto.
Qed.

Lemma spec_false k l q : cbt k l q = false -> spec k l q = false.
Proof. unfold spec, cbt, is_valid_tip. destruct (find_blk q l); auto. intros ->. reflexivity. Qed.

Lemma spec_mono k l l' q : wf l -> same_skel l l' -> (cbt k l q = true -> cbt k l' q = true) ->
  (forall c y, find_blk c l = Some y -> bparent y = Some q -> cbt k l c = false -> cbt k l' c = false) ->
  spec k l q = true -> spec k l' q = true.
Proof.
  intros W SK Cq Cc S. apply (spec_true k l q W) in S. destruct S as [A B].
  apply (spec_true k l' q (same_skel_wf _ _ SK W)). split; [auto|].
  intros c y' Fc' P'. destruct (skel_find _ _ c y' (same_skel_sym _ _ SK) Fc') as (y & Fc & Py). rewrite P' in Py.
  specialize (Cc c y Fc Py). unfold cbt in Cc. rewrite Fc, Fc' in Cc. apply Cc, (B c y Fc Py).
Qed.

Lemma spec_local k l l' q : wf l -> same_skel l l' -> cbt k l' q = cbt k l q ->
  (forall c y, find_blk c l = Some y -> bparent y = Some q -> cbt k l' c = cbt k l c) ->
  spec k l' q = spec k l q.
Proof.
  intros W SK Cq Cc. apply eq_true_iff_eq. split; apply spec_mono; auto using same_skel_sym; try congruence.
  - eapply same_skel_wf; eauto.
  - intros c y' Fc' P'. destruct (skel_find _ _ c y' (same_skel_sym _ _ SK) Fc') as (y & Fc & Py). rewrite P' in Py.
    rewrite (Cc c y Fc Py). auto.
  - intros c y Fc Py. rewrite (Cc c y Fc Py). auto.
Qed.

Lemma spec_ext k l l' : wf l -> same_skel l l' -> (forall p, cbt k l' p = cbt k l p) ->
  forall q, spec k l' q = spec k l q.
Proof. intros W SK C q. apply spec_local; auto. Qed.

Lemma tips_ok_ext k l l' tps : wf l -> same_skel l l' -> (forall p, cbt k l' p = cbt k l p) ->
  tips_ok k l tps -> tips_ok k l' tps.
Proof. intros W SK C T q. rewrite (spec_ext k l l' W SK C). apply T. Qed.

Lemma try_add_tip_eq k l tps id x : find_blk id l = Some x ->
  try_add_tip k l tps id =
  if spec k l id then set_add id (match bparent x with Some p => set_remove p tps | None => tps end) else tps.
Proof. intros F. unfold try_add_tip, spec. rewrite F. reflexivity. Qed.

Lemma try_add_tip_nochild k l tps id x : wf l -> find_blk id l = Some x ->
  (forall c y, find_blk c l = Some y -> bparent y = Some id -> can_be_tip k (bst y) = false) ->
  try_add_tip k l tps id =
  if can_be_tip k (bst x) then set_add id (match bparent x with Some p => set_remove p tps | None => tps end) else tps.
Proof.
  intros W F CH. unfold try_add_tip. rewrite F. unfold is_valid_tip.
  rewrite (proj2 (nochild_spec k l id W) CH), andb_true_r. reflexivity.
Qed.

(* tryAddTip(id) makes the set exact if it was exact everywhere except at id, where a valid tip may be missing, and -
   when id is a valid tip - at the parent of id, which is no valid tip then and is removed *)
Lemma tip_added k l id x tps : wf l -> find_blk id l = Some x ->
  (forall q, q <> id -> (spec k l id = true -> bparent x <> Some q) -> memN q tps = spec k l q) ->
  (spec k l id = false -> memN id tps = false) ->
  tips_ok k l (if spec k l id then set_add id (match bparent x with Some p => set_remove p tps | None => tps end) else tps).
Proof.
  intros W Fx Hq Hid q. destruct (spec k l id) eqn:S.
  - rewrite memN_set_add. destruct (N.eqb_spec q id) as [->|Nq]; [simpl; congruence|]. simpl.
    destruct (bparent x) as [p|] eqn:Px; [|apply Hq; auto; discriminate].
    rewrite memN_set_remove. destruct (N.eqb_spec p q) as [->|Np]; [|rewrite andb_true_r; apply Hq; auto; congruence].
    (* the parent of a usable block is no valid tip *)
    rewrite andb_false_r. symmetry. apply not_true_is_false. intros Sq.
    apply (spec_true k l q W) in Sq. destruct Sq as [_ Sq]. apply (spec_true k l id W) in S. destruct S as [S _].
    unfold cbt in S. rewrite Fx, (Sq id x Fx Px) in S. discriminate.
  - destruct (N.eq_dec q id) as [->|Nq]; [rewrite S; auto|apply Hq; auto; discriminate].
Qed.

Lemma try_add_tip_ok k l tps id : wf l -> tips_ok k l tps -> tips_ok k l (try_add_tip k l tps id).
Proof.
  intros W T. destruct (find_blk id l) as [x|] eqn:Fx; [|unfold try_add_tip; rewrite Fx; exact T].
  rewrite (try_add_tip_eq k l tps id x Fx). apply tip_added; auto. intros S. rewrite T. exact S.
Qed.

(* D = the blocks that change; afterwards none of them can be a tip; every block of D hangs below D or below pp;
   the tips are the old ones outside D, plus tryAddTip(pp) *)
Lemma tips_worsen k l l' tps tps2 (D : N -> bool) pp :
  wf l -> same_skel l l' -> tips_ok k l tps ->
  (forall q, D q = false -> find_blk q l' = find_blk q l) ->
  (forall q, D q = true -> cbt k l' q = false) ->
  (forall q x p, find_blk q l = Some x -> D q = true -> bparent x = Some p -> D p = true \/ p = pp) ->
  D pp = false ->
  (forall q, memN q tps2 = memN q tps && negb (D q)) ->
  tips_ok k l' (try_add_tip k l' tps2 pp).
Proof.
  intros W SK T OUT IN BD DP T2. pose proof (same_skel_wf _ _ SK W) as W'.
  assert (Cout : forall p, D p = false -> cbt k l' p = cbt k l p) by (intros p Hp; unfold cbt; rewrite OUT; auto).
  (* away from pp: inside D nothing is a tip; outside D the children are outside D as well *)
  assert (H : forall q, q <> pp -> memN q tps2 = spec k l' q).
  { intros q Nq. rewrite T2, T. destruct (D q) eqn:Dq.
    - rewrite andb_false_r, spec_false; auto.
    - rewrite andb_true_r. symmetry. apply spec_local; auto. intros c y Fc P. apply Cout.
      destruct (D c) eqn:Dc; auto. destruct (BD c y q Fc Dc P) as [E|E]; congruence. }
  (* pp: a tip before stays a valid tip *)
  assert (Hpp : spec k l' pp = false -> memN pp tps2 = false).
  { intros S. rewrite T2, DP, andb_true_r, T. apply not_true_is_false. intros S0.
    rewrite (spec_mono k l l' pp) in S; auto; [discriminate|rewrite Cout; auto|].
    intros c y Fc P Cf. destruct (D c) eqn:Dc; [apply IN; auto|rewrite Cout; auto]. }
  destruct (find_blk pp l') as [xp|] eqn:Fp.
  - rewrite (try_add_tip_eq k l' tps2 pp xp Fp). apply tip_added; auto.
  - unfold try_add_tip. rewrite Fp. intros q. destruct (N.eq_dec q pp) as [->|Nq]; auto.
    assert (S : spec k l' pp = false) by (apply spec_false; unfold cbt; rewrite Fp; reflexivity).
    rewrite S. auto.
Qed.
