(** Tree/TreeLevels — the validity level of a block never exceeds the level of its parent; hence a connected
    block has only connected ancestors (and an applicable block only applicable ancestors). *)
From Coq Require Import ZArith NArith List Bool Lia.
From VB Require Import Tree.TreeDefs Tree.TreeInv Tree.TreePass Tree.TreeProofs Tree.TreeExact Tree.TreeSteps
  Tree.TreeTips Tree.TreeTipsOps Tree.TreeTipsUp Tree.TreeRestoreTips Tree.TreeDeleted.
Import ListNotations.

Definition lm_ok (l : list blk) : Prop :=
  forall c x q y, find_blk c l = Some x -> bparent x = Some q -> find_blk q l = Some y ->
    (level (bst x) <= level (bst y))%N.

Lemma lvd_upd_same id f l : (forall s, level (f s) = level s /\ deleted (f s) = deleted s) -> lvd_eq l (upd id f l).
Proof. intros K. apply lvd_of_pw, pw_upd_all; [apply same_lvd_refl|exact K]. Qed.

Lemma lm_skel_wf l l' : same_skel l l' -> wf l -> wf l'.
Proof. apply same_skel_wf. Qed.

Definition lmR (l l' : list blk) : Prop := same_skel l l' /\ (wf l -> lm_ok l -> lm_ok l').

Lemma lmR_refl l : lmR l l.
Proof. split; [apply same_skel_refl|auto]. Qed.
Lemma lmR_trans a b c : lmR a b -> lmR b c -> lmR a c.
Proof. intros [S1 H1] [S2 H2]. split; [eapply same_skel_trans; eauto|]. intros W M. apply H2; auto. eapply same_skel_wf; eauto. Qed.

Definition same_level (s s' : status) : Prop := level s' = level s.

Lemma same_level_trans a b c : same_level a b -> same_level b c -> same_level a c.
Proof. unfold same_level. congruence. Qed.

Lemma lmR_same_level l l' : pw same_level l l' -> lmR l l'.
Proof.
  intros Q. split; [eapply pw_skel; eauto|]. intros _ M c x' q y' Fc P Fq.
  destruct (pw_find_inv _ _ _ Q c x' Fc) as (x & Fc0 & Px & ->). destruct (pw_find_inv _ _ _ Q q y' Fq) as (y & Fq0 & _ & ->).
  apply (M c x q y Fc0); congruence.
Qed.

Lemma lmR_upd id f l : (forall s, level (f s) = level s) -> lmR l (upd id f l).
Proof. intros K. apply lmR_same_level, pw_upd_all; [reflexivity|exact K]. Qed.

(* one block gets a level between the levels of its children and the level of its parent *)
Lemma lm_upd l id x c : wf l -> lm_ok l -> find_blk id l = Some x ->
  (forall q y, bparent x = Some q -> find_blk q l = Some y -> (level c <= level (bst y))%N) ->
  (forall ch z, find_blk ch l = Some z -> bparent z = Some id -> (level (bst z) <= level c)%N) ->
  lm_ok (upd id (fun _ => c) l).
Proof.
  intros W M Fx UP DN ch z' q y' Fc P Fq.
  destruct (find_upd_inv _ _ _ _ _ Fc) as (z & Fc0 & Pz & Hc). destruct (find_upd_inv _ _ _ _ _ Fq) as (y & Fq0 & _ & Hq).
  rewrite P in Pz. symmetry in Pz.
  destruct Hc as [[-> ->]|[Nc ->]], Hq as [[-> ->]|[Nq ->]]; simpl.
  - exfalso. exact (wf_parent_ne l W id z id Fc0 Pz eq_refl).
  - rewrite Fx in Fc0. inversion Fc0; subst z. eauto.
  - eauto.
  - eapply M; eauto.
Qed.

Lemma lmR_raise l id x u c b g : wf l -> find_blk id l = Some x -> raise_validity l x u = Done (c, b) ->
  level (g c) = level c -> lmR l (upd id (fun _ => g c) l).
Proof.
  intros W Fx RV G. split; [apply upd_skel|]. intros _ M. apply (lm_upd l id x (g c) W M Fx); rewrite G.
  - intros q y Px Fq. destruct (raise_validity_Done _ _ _ _ _ RV) as [[-> _]|(-> & _ & _ & UP)]; [eapply M; eauto|].
    destruct (UP q Px) as (ps & S & Le). unfold st_of in S. rewrite Fq in S. inversion S; subst ps. exact Le.
  - intros ch z Fc Pz. pose proof (M ch z id x Fc Pz Fx).
    destruct (raise_validity_Done _ _ _ _ _ RV) as [[-> _]|(-> & _ & Lt & _)]; simpl; lia.
Qed.

Lemma lmR_apply l id x u c b : wf l -> find_blk id l = Some x -> is_valid L_CONNECTED (bst x) = true ->
  raise_validity l x u = Done (c, b) -> lmR l (upd id (fun _ => set_active true c) l).
Proof. intros W F _ RV. apply (lmR_raise l id x u c b (set_active true)); auto. Qed.
Lemma level_reason id r b l : pw same_level l (upd id (set_reason r b) l).
Proof. apply pw_upd_all; [reflexivity|]. destruct r; reflexivity. Qed.
Lemma level_fchild v stop t l : pw same_level l (fst (gpass (set_fchild v) stop t l)).
Proof. apply pw_gpass; reflexivity. Qed.
Definition lmR_reason id r b l := lmR_same_level _ _ (level_reason id r b l).
Definition lmR_fchild v stop t l := lmR_same_level _ _ (level_fchild v stop t l).

(* hence (Section Closure) setState, invalidateSubtree and revalidateSubtree relate the stores by lmR *)
Definition lmR_skel l l' (H : lmR l l') : same_skel l l' := proj1 H.
Definition lmR_unapply id l := lmR_upd id (set_active false) l (fun _ => eq_refl).
Definition off_chain_lm := off_chain_R lmR lmR_refl lmR_trans lmR_skel lmR_unapply lmR_apply.
Definition alt_set_lm := alt_set_R lmR lmR_refl lmR_trans lmR_skel lmR_unapply lmR_apply.
Definition invalidate_lm := invalidate_R lmR lmR_refl lmR_trans lmR_skel lmR_unapply lmR_apply lmR_reason lmR_fchild.
Definition revalidate_lm := revalidate_R lmR lmR_refl lmR_trans lmR_reason lmR_fchild.

Lemma remove_subtree_lm s id ord s' : wf (blocks s) -> S3_ok (blocks s) -> lm_ok (blocks s) ->
  remove_subtree s id ord = Done s' -> lm_ok (blocks s').
Proof.
  intros W S3 M E. destruct (remove_subtree_Done _ _ _ _ E) as (x & pp & s1 & _ & _ & _ & E1 & U).
  destruct (maybe_update_tips _ _ _ U) as (-> & _). simpl.
  destruct (off_chain_lm _ _ _ _ W E1) as [[SK M1] _]. specialize (M1 W M).
  destruct (off_chain_dq _ _ _ _ W E1) as [Q _]. destruct (dq_S3 _ _ Q S3) as [Z1 _].
  pose proof (same_skel_wf _ _ SK W) as W1.
  pose proof (remove_pass_found id _ W1) as A. pose proof (remove_pass_mem id _ W1) as RM.
  destruct (remove_pass id (blocks s1)) as [l2 vs]. simpl in *.
  (* a removed block is at level 0; the child of a removed block is removed now or was removed before *)
  intros c x' q y' Fc P Fq. destruct (A c x' Fc) as (x0 & Fc0 & Px & ->). destruct (A q y' Fq) as (y0 & Fq0 & _ & ->).
  rewrite P in Px. specialize (RM c). rewrite Fc0, <- Px in RM. destruct (memN c vs); simpl; [apply N.le_0_l|].
  destruct (memN q vs); simpl; [|eapply M1; eauto].
  destruct (deleted (bst x0)) eqn:D; [|rewrite orb_true_r in RM; discriminate].
  destruct (Z1 c x0 Fc0 D) as (-> & _). apply N.le_0_l.
Qed.

Lemma find_app_tail pre l p z : wf (pre ++ l) -> find_blk p l = Some z -> find_blk p (pre ++ l) = Some z.
Proof.
  induction pre as [|a pre IH]; simpl; auto. intros (W & Na & _) F. rewrite (IH W F) in *.
  destruct (N.eqb_spec (bid a) p) as [E|E]; auto. rewrite E in Na. rewrite (IH W F) in Na. discriminate.
Qed.

Lemma alt_body_lm s id s' res : wf (blocks s) -> lm_ok (blocks s) -> alt_body s id = Done (s', res) -> lm_ok (blocks s').
Proof.
  intros W M E. destruct (alt_body_Done _ _ _ _ E) as (x & Fx & Dx & H). set (l1 := upd id (set_haspl true) (blocks s)) in *.
  destruct (lmR_upd id (set_haspl true) (blocks s) (fun _ => eq_refl)) as [SK1 M1]. specialize (M1 W M). fold l1 in SK1, M1.
  pose proof (same_skel_wf _ _ SK1 W) as W1.
  destruct H as [->|(l2 & tps & c & CP & ->)]; auto.
  refine (proj1 (connect_pass_steps (fun l _ => lm_ok l) l1 id _ l1 [] _ _ _ _ eq_refl M1 CP)).
  (* connectBlock raises to VALID_CONNECTED, which the parent has and no child has *)
  intros pre y r r' tp y' tp' E0 SK Mm CB.
  destruct (connect_block_Done _ _ _ _ _ _ CB) as (-> & _ & _ & (p & ps & Py & S & V) & CH & _).
  assert (Wm : wf (pre ++ y :: r')).
  { eapply same_skel_wf; [|exact W1]. rewrite E0. apply same_skel_mid; auto. }
  rewrite <- (upd_mid pre y r' (fun _ => set_level L_CONNECTED (bst y)) Wm).
  apply (lm_upd _ (bid y) y _ Wm Mm (find_mid pre y r' Wm)); simpl.
  - intros q yq Pq Fq. assert (q = p) by congruence. subst q. unfold st_of in S.
    destruct (find_blk p r') as [yp|] eqn:Fp; [|discriminate]. inversion S; subst ps.
    pose proof (wf_app_tail pre _ Wm) as Wt.
    rewrite (find_app_tail pre (y :: r') p yp Wm) in Fq; [inversion Fq; subst; exact V|].
    simpl. destruct (N.eqb_spec (bid y) p) as [Ep|Ep]; auto. exfalso. exact (wf_own_parent y r' p Wt Py (eq_sym Ep)).
  - intros ch z Fc Pz. pose proof (child_in_front pre y r' ch z Wm Fc Pz) as Fp.
    apply (N.le_trans _ 1); [|discriminate]. apply (CH ch z); auto. rewrite E0, find_app, Fp. reflexivity.
Qed.

Lemma lm_cons l x0 par p : wf (x0 :: l) -> lm_ok l -> bparent x0 = Some par -> find_blk par l = Some p ->
  (level (bst x0) <= level (bst p))%N -> lm_ok (x0 :: l).
Proof.
  intros W M P0 Fp Le c z q y Fc P Fq. simpl in Fc, Fq.
  destruct (N.eqb_spec (bid x0) q) as [Eq|Eq].
  - exfalso. destruct (N.eqb_spec (bid x0) c) as [Ec|Ec].
    + inversion Fc; subst z. exact (wf_own_parent x0 l q W P (eq_sym Eq)).
    + exact (wf_parent_not_head x0 l W c z q Fc P (eq_sym Eq)).
  - destruct (N.eqb_spec (bid x0) c) as [Ec|Ec]; [|eapply M; eauto].
    inversion Fc; subst z. assert (q = par) by congruence. subst q. rewrite Fp in Fq. inversion Fq; subst y. exact Le.
Qed.

Lemma insert_header_lm s id par w s' : wf (blocks s) -> lm_ok (blocks s) -> insert_header s id par w = Done s' -> lm_ok (blocks s').
Proof.
  intros W M E.
  destruct (insert_header_Done _ _ _ _ _ E) as [(x & _ & _ & ->)|[(x & c & b & Fx & Dx & RV & ->)|(p & c & b & Fx & Fp & RV & ->)]];
    simpl; auto.
  - (* a removed block: the level is raised after the deleted flag is dropped *)
    set (l1 := upd id (set_deleted false) (blocks s)) in *.
    destruct (lmR_upd id (set_deleted false) (blocks s) (fun _ => eq_refl)) as [SK1 M1]. specialize (M1 W M).
    pose proof (same_skel_wf _ _ SK1 W) as W1.
    pose proof (proj2 (lmR_raise l1 id _ L_TREE c b (fun st => st) W1 (find_upd_same _ _ _ _ Fx) RV eq_refl) W1 M1) as M2.
    unfold l1 in M2. rewrite upd_upd in M2. exact M2.
  - set (x0 := mkBlk id _ _ _ _) in *.
    assert (N : (id =? par)%N = false) by (apply N.eqb_neq; congruence).
    apply (lm_cons (blocks s) (with_st x0 c) par p); auto.
    + simpl. rewrite Fp. repeat split; auto. discriminate.
    + destruct (raise_validity_Done _ _ _ _ _ RV) as [[-> _]|(-> & _ & _ & UP)]; [apply N.le_0_l|].
      destruct (UP par eq_refl) as (ps & S & Le). unfold st_of in S. simpl in S. rewrite N, Fp in S. inversion S; subst ps. exact Le.
Qed.

Lemma alt_hdr_lm s id parent s' res : wf (blocks s) -> lm_ok (blocks s) -> alt_hdr s id parent = Done (s', res) -> lm_ok (blocks s').
Proof.
  intros W M E. destruct (alt_hdr_Done _ _ _ _ _ E) as [->|(par & p & s1 & _ & _ & _ & E1 & H)]; auto.
  pose proof (insert_header_lm _ _ _ _ _ W M E1) as M1. destruct H as [->| ->]; exact M1.
Qed.

Lemma pow_hdr_lm s id parent w s' res : wf (blocks s) -> lm_ok (blocks s) -> pow_hdr s id parent w = Done (s', res) -> lm_ok (blocks s').
Proof.
  intros W M E.
  destruct (pow_hdr_Done _ _ _ _ _ _ E) as [->|(par & p & s1 & x1 & c & b & _ & _ & _ & E1 & F1 & RV & H)]; auto.
  pose proof (insert_header_lm _ _ _ _ _ W M E1) as M1. pose proof (insert_header_wf _ _ _ _ _ W E1) as W1.
  pose proof (lmR_raise _ id x1 _ c b (fun st => st) W1 F1 RV eq_refl) as [SK2 M2]. specialize (M2 W1 M1).
  destruct H as [[_ ->]|[_ ->]].
  - simpl. apply (lmR_upd id (set_fchild true)); auto. eapply same_skel_wf; eauto.
  - rewrite (proj1 (pow_determine_best_blocks _ id)). exact M2.
Qed.

Lemma alt_rmpl_lm s id s' : wf (blocks s) -> lm_ok (blocks s) -> alt_rmpl s id = Done s' -> lm_ok (blocks s').
Proof.
  intros W M E. destruct (alt_rmpl_Done _ _ _ E) as (x & p & x2 & Fx & _ & _ & CH & Fx2 & l3 & H & ->). simpl.
  set (s1 := with_blocks s (upd id (set_haspl false) (blocks s))) in *.
  (* levels do not change up to here *)
  assert (Q : pw same_level (blocks s) (blocks (revalidate_core s1 id RPop))).
  { apply (pw_trans _ same_level_trans _ (blocks s1)); [apply pw_upd_all; reflexivity|].
    apply (revalidate_core_R _ (pw_refl _ (fun _ => eq_refl)) (pw_trans _ same_level_trans) level_reason level_fchild). }
  set (s2 := revalidate_core s1 id RPop) in *.
  destruct (lmR_same_level _ _ Q) as [SK M2]. specialize (M2 W M). pose proof (same_skel_wf _ _ SK W) as W2.
  destruct H as [[_ ->]|[LT ->]]; auto.
  apply (lm_upd _ id x2 _ W2 M2 Fx2); simpl.
  - intros q y Pq Fq. pose proof (M2 id x2 q y Fx2 Pq Fq). unfold L_TREE in *. lia.
  - (* the children were unconnected when the call started *)
    intros ch z Fc Pz. destruct (pw_find_inv _ _ _ Q ch z Fc) as (z0 & Fc0 & P0 & ->).
    apply (CH ch z0 Fc0 (eq_trans P0 Pz)).
Qed.

Theorem step_out_lm s o s' res : Inv_flags s -> S3_ok (blocks s) -> lm_ok (blocks s) ->
  step_out s o = Done (s', res) -> lm_ok (blocks s').
Proof.
  intros I S3 M E. pose proof I as [W _ _ _]. apply step_out_Done in E. destruct o.
  - destruct (tkind s); [eapply alt_hdr_lm|eapply pow_hdr_lm]; eauto.
  - eapply alt_body_lm; eauto. apply E.
  - eapply alt_set_lm; eauto. apply E.
  - eapply invalidate_lm; eauto.
  - eapply revalidate_lm; eauto.
  - eapply remove_subtree_lm; eauto.
  - eapply alt_rmpl_lm; eauto. apply E.
Qed.

Lemma lm_root x : bparent x = None -> lm_ok [x].
Proof. intros R c z q y Fc P Fq. simpl in Fc. destruct (bid x =? c)%N; inversion Fc; subst; congruence. Qed.
Lemma lm_init_alt h : lm_ok (blocks (alt_init h)).
Proof. apply lm_root. reflexivity. Qed.
Lemma lm_init_pow h w : lm_ok (blocks (pow_init h w)).
Proof. apply lm_root. reflexivity. Qed.

Theorem step_lm s o : Inv_flags s -> S3_ok (blocks s) -> lm_ok (blocks s) -> lm_ok (blocks (step s o)).
Proof.
  intros I S3 M. unfold step. destruct (step_out s o) as [[s1 r]| |] eqn:E; auto. eapply step_out_lm; eauto.
Qed.

(* connected => every ancestor connected (more generally: the level of a block bounds the level of all ancestors below it) *)
Theorem connected_ancestors l : wf l -> lm_ok l -> forall c x, find_blk c l = Some x ->
  forall a z, In a (path l c) -> find_blk a l = Some z -> (level (bst x) <= level (bst z))%N.
Proof.
  intros W M. apply (parent_ind l (fun c x => forall a z, In a (path l c) -> find_blk a l = Some z ->
                                     (level (bst x) <= level (bst z))%N) W).
  - intros c x Fc Q a z Ha Fa. rewrite (path_root l c x Fc Q) in Ha. destruct Ha as [<-|[]].
    rewrite Fc in Fa. injection Fa as <-. apply N.le_refl.
  - intros c x q y Fc Q Fq IH a z Ha Fa. rewrite (path_step l W c x q Fc Q) in Ha. destruct Ha as [<-|Ha].
    + rewrite Fc in Fa. injection Fa as <-. apply N.le_refl.
    + exact (N.le_trans _ _ _ (M c x q y Fc Q Fq) (IH a z Ha Fa)).
Qed.
