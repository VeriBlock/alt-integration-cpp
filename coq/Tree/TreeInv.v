(** Tree/TreeInv — well-formedness and the flag invariants of the block store, the relations between two stores
    that differ in statuses only, and basic list lemmas.
    Blocks are stored newest first: everything a block refers to (its parent) lives in the tail. *)
From Coq Require Import ZArith NArith List Bool.
From VB Require Import Tree.TreeDefs.
Import ListNotations.

Definition skel (x : blk) := (bid x, bparent x, bheight x, bwork x).
Definition vis (cont : list N) (y : blk) : bool :=
  match bparent y with Some q => memN q cont | None => false end.

(* ids unique; the parent of every block is found behind it; exactly the last block is the root *)
Fixpoint wf (l : list blk) : Prop :=
  match l with
  | [] => True
  | x :: r => wf r /\ find_blk (bid x) r = None /\
              match bparent x with None => r = [] | Some p => find_blk p r <> None end
  end.

(* every child of a failed block carries FAILED_CHILD (the converse is not an invariant of the code: removeSubtree
   drops FAILED_POP of the removed blocks and keeps FAILED_CHILD of their descendants) *)
Fixpoint fl_ok (l : list blk) : Prop :=
  match l with
  | [] => True
  | x :: r => fl_ok r /\
              match bparent x with
              | None => True
              | Some p => match find_blk p r with
                          | Some y => failed (bst y) = true -> fchild (bst x) = true
                          | None => False end
              end
  end.

Fixpoint ht_ok (l : list blk) : Prop :=
  match l with
  | [] => True
  | x :: r => ht_ok r /\
              match bparent x with
              | None => True
              | Some p => match find_blk p r with Some y => bheight x = (bheight y + 1)%Z | None => False end
              end
  end.

Lemma memN_In a l : memN a l = true <-> In a l.
Proof.
  unfold memN. rewrite existsb_exists. split.
  - intros [x [H E]]. apply N.eqb_eq in E. subst. exact H.
  - intros H. exists a. split; [exact H | apply N.eqb_refl].
Qed.

Lemma memN_cons a b l : memN a (b :: l) = (a =? b)%N || memN a l.
Proof. reflexivity. Qed.

Lemma memN_false_In a l : memN a l = false <-> ~ In a l.
Proof. rewrite <- memN_In. destruct (memN a l); intuition congruence. Qed.

Lemma find_blk_bid p l y : find_blk p l = Some y -> bid y = p.
Proof.
  induction l as [|x r IH]; simpl; [discriminate|].
  destruct (N.eqb_spec (bid x) p); intros H; [inversion H; subst; auto | auto].
Qed.

Lemma find_blk_In p l y : find_blk p l = Some y -> In y l.
Proof.
  induction l as [|x r IH]; simpl; [discriminate|].
  destruct (N.eqb_spec (bid x) p); intros H; [inversion H; subst; auto | auto].
Qed.

Lemma find_blk_none_In p l : find_blk p l = None -> forall y, In y l -> bid y <> p.
Proof.
  induction l as [|x r IH]; simpl; intros H y Hy; [contradiction|].
  destruct (N.eqb_spec (bid x) p); [discriminate|].
  destruct Hy as [<-|Hy]; auto.
Qed.

Lemma wf_tail x r : wf (x :: r) -> wf r.
Proof. simpl; tauto. Qed.

Lemma find_blk_tail x r p y : wf (x :: r) -> find_blk p r = Some y -> find_blk p (x :: r) = Some y.
Proof. intros (_ & Hx & _) F. simpl. destruct (N.eqb_spec (bid x) p) as [<-|]; [congruence|exact F]. Qed.

Lemma wf_In_find l : wf l -> forall y, In y l -> find_blk (bid y) l = Some y.
Proof.
  induction l as [|x r IH]; simpl; intros W y Hy; [contradiction|].
  destruct W as (Wr & Hx & _). destruct Hy as [->|Hy]; [rewrite N.eqb_refl; reflexivity|].
  destruct (N.eqb_spec (bid x) (bid y)) as [E|E]; auto.
  exfalso. apply (find_blk_none_In _ _ Hx y Hy). auto.
Qed.

Lemma wf_parent_found l : wf l -> forall p y q, find_blk p l = Some y -> bparent y = Some q -> find_blk q l <> None.
Proof.
  induction l as [|x r IH]; simpl; intros W p y q H Hq; [discriminate|].
  destruct W as (Wr & Hx & Hp).
  destruct (N.eqb_spec (bid x) p).
  - inversion H; subst y. rewrite Hq in Hp.
    destruct (N.eqb_spec (bid x) q); [discriminate|exact Hp].
  - specialize (IH Wr p y q H Hq).
    destruct (N.eqb_spec (bid x) q); [discriminate|exact IH].
Qed.

Lemma wf_parent_not_head x r : wf (x :: r) -> forall p y q, find_blk p r = Some y -> bparent y = Some q -> q <> bid x.
Proof.
  intros W p y q H Hq E. destruct W as (Wr & Hx & _).
  pose proof (wf_parent_found r Wr p y q H Hq) as F. subst q. rewrite Hx in F. auto.
Qed.

Lemma wf_own_parent x r p : wf (x :: r) -> bparent x = Some p -> p <> bid x.
Proof.
  intros (Wr & Hx & Hp) E Q. rewrite E in Hp. subst p. auto.
Qed.

Lemma wf_parent_tail x r p y q : wf (x :: r) -> find_blk p (x :: r) = Some y -> bparent y = Some q -> bid x <> q.
Proof.
  intros W F Q E. simpl in F. destruct (bid x =? p)%N.
  - injection F as <-. exact (wf_own_parent x r q W Q (eq_sym E)).
  - exact (wf_parent_not_head x r W p y q F Q (eq_sym E)).
Qed.

Lemma wf_parent_ne l : wf l -> forall id x q, find_blk id l = Some x -> bparent x = Some q -> q <> id.
Proof.
  induction l as [|z r IH]; intros W id x q F Q; [discriminate|].
  pose proof (wf_parent_tail z r id x q W F Q) as N. simpl in F.
  destruct (N.eqb_spec (bid z) id) as [E|E]; [congruence|]. exact (IH (wf_tail _ _ W) id x q F Q).
Qed.

Lemma children_In l q c : In c (children l q) <-> In c l /\ bparent c = Some q.
Proof.
  unfold children. rewrite filter_In. unfold is_child_of. split; intros [H1 H2]; split; auto.
  - destruct (bparent c) as [p|]; [|discriminate]. apply N.eqb_eq in H2. congruence.
  - rewrite H2. apply N.eqb_refl.
Qed.

(* induction up the parent pointers: a property holds of every block if it holds of the root and passes from a
   block to its children *)
Lemma parent_ind l (P : N -> blk -> Prop) : wf l ->
  (forall p y, find_blk p l = Some y -> bparent y = None -> P p y) ->
  (forall p y q yq, find_blk p l = Some y -> bparent y = Some q -> find_blk q l = Some yq -> P q yq -> P p y) ->
  forall p y, find_blk p l = Some y -> P p y.
Proof.
  induction l as [|x r IH]; intros W H0 HS p y F; [discriminate|].
  assert (IHr : forall q z, find_blk q r = Some z -> P q z).
  { apply IH; [exact (wf_tail _ _ W) | |].
    - intros q z Fq. exact (H0 q z (find_blk_tail x r q z W Fq)).
    - intros q z q' z' Fq Qz Fq'.
      exact (HS q z q' z' (find_blk_tail x r q z W Fq) Qz (find_blk_tail x r q' z' W Fq')). }
  destruct (bparent y) as [q|] eqn:Q; [|exact (H0 p y F Q)].
  pose proof (wf_parent_found _ W p y q F Q) as Fq. pose proof (wf_parent_tail x r p y q W F Q) as N.
  simpl in Fq. destruct (N.eqb_spec (bid x) q); [contradiction|].
  destruct (find_blk q r) as [yq|] eqn:Fr; [|contradiction].
  exact (HS p y q yq F Q (find_blk_tail x r q yq W Fr) (IHr q yq Fr)).
Qed.

Lemma fl_ok_find l : wf l -> fl_ok l -> forall p x q y, find_blk p l = Some x -> bparent x = Some q ->
  find_blk q l = Some y -> failed (bst y) = true -> fchild (bst x) = true.
Proof.
  induction l as [|z r IH]; intros W F p x q y Fx Px Fy; [discriminate|].
  pose proof (wf_parent_tail z r p x q W Fx Px) as N. simpl in Fx, Fy.
  destruct (N.eqb_spec (bid z) q); [contradiction|]. destruct F as (Fr & Fz).
  destruct (N.eqb_spec (bid z) p) as [E|E].
  - injection Fx as <-. rewrite Px, Fy in Fz. exact Fz.
  - exact (IH (wf_tail _ _ W) Fr p x q y Fx Px Fy).
Qed.

Lemma fl_ok_intro l : wf l ->
  (forall p x q y, find_blk p l = Some x -> bparent x = Some q -> find_blk q l = Some y ->
     failed (bst y) = true -> fchild (bst x) = true) -> fl_ok l.
Proof.
  induction l as [|x r IH]; intros W H; simpl; auto. split.
  - apply IH; [exact (wf_tail _ _ W)|]. intros p x0 q y Fx Q Fy. apply (H p x0 q y); auto using find_blk_tail.
  - destruct (bparent x) as [q|] eqn:Q; auto. destruct (find_blk q r) as [y|] eqn:Fy.
    + apply (H (bid x) x q y); auto using find_blk_tail. simpl. rewrite N.eqb_refl. reflexivity.
    + destruct W as (_ & _ & Hp). rewrite Q in Hp. auto.
Qed.

Definition same_skel (l l' : list blk) : Prop := map skel l = map skel l'.

Lemma same_skel_ind (P : list blk -> list blk -> Prop) : P [] [] ->
  (forall x x' r r', skel x = skel x' -> bid x = bid x' -> bparent x = bparent x' -> same_skel r r' -> P r r' ->
     P (x :: r) (x' :: r')) ->
  forall l l', same_skel l l' -> P l l'.
Proof.
  intros P0 PS. induction l as [|x r IH]; intros [|x' r'] S; try discriminate; auto.
  injection S as Ei Ep Eh Ew Er. apply PS; auto. unfold skel. congruence.
Qed.

Lemma same_skel_find l : forall l', same_skel l l' -> forall p,
  match find_blk p l, find_blk p l' with
  | Some y, Some y' => skel y = skel y'
  | None, None => True
  | _, _ => False
  end.
Proof.
  intros l' S. induction S as [|x x' r r' Hx Ei _ _ IH] using same_skel_ind; simpl; auto.
  intros p. rewrite <- Ei. destruct (bid x =? p)%N; [exact Hx | apply IH].
Qed.

Lemma skel_find l l' p y : same_skel l l' -> find_blk p l = Some y ->
  exists y', find_blk p l' = Some y' /\ bparent y' = bparent y.
Proof.
  intros S F. pose proof (same_skel_find _ _ S p) as H. rewrite F in H.
  destruct (find_blk p l') as [y'|]; [|contradiction]. exists y'. split; auto. unfold skel in H. congruence.
Qed.
Lemma skel_find_none l l' p : same_skel l l' -> find_blk p l = None -> find_blk p l' = None.
Proof.
  intros S F. pose proof (same_skel_find _ _ S p) as H. rewrite F in H. destruct (find_blk p l'); [contradiction|reflexivity].
Qed.

Lemma same_skel_wf l : forall l', same_skel l l' -> wf l -> wf l'.
Proof.
  intros l' S. induction S as [|x x' r r' _ Ei Ep S IH] using same_skel_ind; simpl; auto.
  rewrite <- Ei, <- Ep. intros (Wr & Hn & Hp). split; [auto|]. split.
  - pose proof (same_skel_find r r' S (bid x)) as F. rewrite Hn in F.
    destruct (find_blk (bid x) r'); [contradiction|reflexivity].
  - destruct (bparent x) as [p|].
    + pose proof (same_skel_find r r' S p) as F.
      destruct (find_blk p r), (find_blk p r'); try contradiction; congruence.
    + subst r. destruct r'; [reflexivity|discriminate].
Qed.

Lemma same_skel_ht l : forall l', same_skel l l' -> ht_ok l -> ht_ok l'.
Proof.
  intros l' S. induction S as [|x x' r r' Hx _ Ep S IH] using same_skel_ind; simpl; auto.
  rewrite <- Ep. intros (Hr & Hp). split; [auto|]. destruct (bparent x) as [p|]; auto.
  pose proof (same_skel_find r r' S p) as F.
  destruct (find_blk p r) as [y|], (find_blk p r') as [y'|]; try contradiction.
  unfold skel in *. congruence.
Qed.

Lemma same_skel_refl l : same_skel l l.
Proof. reflexivity. Qed.
Lemma same_skel_trans a b c : same_skel a b -> same_skel b c -> same_skel a c.
Proof. unfold same_skel; congruence. Qed.
Lemma same_skel_sym a b : same_skel a b -> same_skel b a.
Proof. unfold same_skel; congruence. Qed.

Lemma upd_skel id f l : same_skel l (upd id f l).
Proof.
  unfold same_skel, upd. rewrite map_map. apply map_ext. intros x.
  destruct (bid x =? id)%N; reflexivity.
Qed.

Lemma find_upd id f l p :
  find_blk p (upd id f l) =
  option_map (fun x => if (bid x =? id)%N then with_st x (f (bst x)) else x) (find_blk p l).
Proof.
  induction l as [|x r IH]; simpl; auto.
  destruct (bid x =? id)%N eqn:E; simpl; destruct (bid x =? p)%N; simpl; rewrite ?E; auto.
Qed.

Lemma find_upd_same id f l x : find_blk id l = Some x -> find_blk id (upd id f l) = Some (with_st x (f (bst x))).
Proof. intros F. rewrite find_upd, F. simpl. rewrite (find_blk_bid _ _ _ F), N.eqb_refl. reflexivity. Qed.

Lemma find_upd_other id f l p : p <> id -> find_blk p (upd id f l) = find_blk p l.
Proof.
  intros N. rewrite find_upd. destruct (find_blk p l) as [y|] eqn:F; [|reflexivity].
  simpl. rewrite (find_blk_bid _ _ _ F). destruct (N.eqb_spec p id); [contradiction|reflexivity].
Qed.

Lemma find_upd_inv id f l q y' : find_blk q (upd id f l) = Some y' ->
  exists y, find_blk q l = Some y /\ bparent y' = bparent y /\ (q = id /\ bst y' = f (bst y) \/ q <> id /\ y' = y).
Proof.
  rewrite find_upd. destruct (find_blk q l) as [y|] eqn:F; [|discriminate]. simpl. intros E. inversion E.
  exists y. rewrite (find_blk_bid _ _ _ F). destruct (N.eqb_spec q id); simpl; auto.
Qed.

Lemma upd_upd id f g l : upd id g (upd id f l) = upd id (fun s => g (f s)) l.
Proof.
  unfold upd. rewrite map_map. apply map_ext. intros x.
  destruct (N.eqb_spec (bid x) id) as [E|E]; simpl.
  - rewrite (proj2 (N.eqb_eq _ _) E). reflexivity.
  - rewrite (proj2 (N.eqb_neq _ _) E). reflexivity.
Qed.

Lemma upd_Forall2 (R : blk -> blk -> Prop) id f l : (forall y, R y y) ->
  (forall y, In y l -> bid y = id -> R y (with_st y (f (bst y)))) -> Forall2 R l (upd id f l).
Proof.
  intros Rr. induction l as [|x r IH]; simpl; intros H; constructor.
  - destruct (N.eqb_spec (bid x) id); auto.
  - apply IH. intros y Hy. apply H. right; exact Hy.
Qed.

Lemma upd_Forall2_at (R : blk -> blk -> Prop) l id x f : wf l -> find_blk id l = Some x -> (forall y, R y y) ->
  R x (with_st x (f (bst x))) -> Forall2 R l (upd id f l).
Proof.
  intros W F Rr Rx. apply upd_Forall2; auto. intros y Hy E.
  pose proof (wf_In_find l W y Hy) as F2. replace y with x by congruence. exact Rx.
Qed.

Lemma Forall2_trans {A} (R : A -> A -> Prop) : (forall x y z, R x y -> R y z -> R x z) ->
  forall a b c, Forall2 R a b -> Forall2 R b c -> Forall2 R a c.
Proof.
  intros T a b c H. revert c. induction H; intros c H2; inversion H2; subst; constructor; eauto.
Qed.

Lemma Forall2_find (R : blk -> blk -> Prop) l l' : (forall x y, R x y -> skel x = skel y) -> Forall2 R l l' ->
  forall p y, find_blk p l = Some y -> exists y', find_blk p l' = Some y' /\ R y y'.
Proof.
  intros K. induction 1 as [|x x' r r' Hx _ IH]; simpl; intros p y F; [discriminate|].
  replace (bid x') with (bid x) by (apply K in Hx; injection Hx; auto).
  destruct (bid x =? p)%N; [injection F as <-; eauto | auto].
Qed.

(* a live block went through acceptBlockHeader: it is at least BLOCK_VALID_TREE;
   a removed block does not carry BLOCK_FAILED_POP (deleteTemporarily drops it) *)
Definition lvP (s : status) : Prop :=
  (deleted s = false -> (1 <= level s)%N) /\ (deleted s = true -> fpop s = false).
Definition lv_ok (l : list blk) : Prop := Forall (fun x => lvP (bst x)) l.

Lemma lv_ok_find l p x : lv_ok l -> find_blk p l = Some x -> lvP (bst x).
Proof. intros L F. exact (proj1 (Forall_forall _ _) L x (find_blk_In _ _ _ F)). Qed.

Lemma Forall2_lv (R : blk -> blk -> Prop) l l' : (forall x y, R x y -> lvP (bst x) -> lvP (bst y)) ->
  Forall2 R l l' -> lv_ok l -> lv_ok l'.
Proof. intros K H. unfold lv_ok. induction H; intros L; inversion L; subst; constructor; eauto. Qed.

Lemma upd_lv l id x f : wf l -> find_blk id l = Some x -> lvP (f (bst x)) -> lv_ok l -> lv_ok (upd id f l).
Proof.
  intros W F Lf. apply (Forall2_lv (fun x y => lvP (bst x) -> lvP (bst y))); [auto|].
  apply (upd_Forall2_at _ l id x f W F); auto.
Qed.

Lemma valid_not_failed l s : is_valid l s = true -> failed s = false.
Proof. unfold is_valid. destruct (failed s); [discriminate|reflexivity]. Qed.

Lemma live_valid_tree s : lvP s -> deleted s = false -> is_valid L_TREE s = negb (failed s).
Proof.
  intros [L _] D. unfold is_valid, valid_upto, L_TREE. rewrite (proj2 (N.leb_le _ _) (L D)). apply andb_true_r.
Qed.

(* weak relation: same skeleton, same FAILED_CHILD, failed-ness may only shrink, level property carried over *)
Definition fl_le (l l' : list blk) : Prop :=
  Forall2 (fun x y => skel x = skel y /\ (failed (bst y) = true -> failed (bst x) = true)
                      /\ fchild (bst x) = fchild (bst y) /\ (lvP (bst x) -> lvP (bst y))) l l'.

Lemma fl_le_skel l l' : fl_le l l' -> same_skel l l'.
Proof.
  induction 1; [reflexivity|]. unfold same_skel in *. simpl. destruct H as (H & _). congruence.
Qed.

Lemma fl_le_find l l' : fl_le l l' -> forall p y, find_blk p l = Some y ->
  exists y', find_blk p l' = Some y' /\ (failed (bst y') = true -> failed (bst y) = true) /\ skel y = skel y'.
Proof.
  intros H p y F. destruct (Forall2_find _ l l' (fun x y H => proj1 H) H p y F) as (y' & F' & S & Fd & _). eauto.
Qed.

Lemma fl_le_ok l l' : fl_le l l' -> fl_ok l -> fl_ok l'.
Proof.
  induction 1 as [|x x' r r' Hx Hr IH]; simpl; auto.
  intros (Fr & Fx). split; auto.
  destruct Hx as (Hs & Hf & Hc & Hl).
  assert (P : bparent x = bparent x') by (unfold skel in Hs; congruence). rewrite <- P.
  destruct (bparent x) as [p|]; [|auto].
  destruct (find_blk p r) as [y|] eqn:E; [|contradiction].
  destruct (fl_le_find _ _ Hr p y E) as (y' & E' & Hf' & _). rewrite E'. intros Fy. rewrite <- Hc. auto.
Qed.

Lemma fl_le_refl l : fl_le l l.
Proof. induction l; constructor; auto. Qed.

Lemma fl_le_lv l l' : fl_le l l' -> lv_ok l -> lv_ok l'.
Proof. apply Forall2_lv. intros x y (_ & _ & _ & H). exact H. Qed.

(* strong relation: the three failure flags agree pointwise (and the level property is carried over) *)
Definition fl_eq (l l' : list blk) : Prop :=
  Forall2 (fun x y => skel x = skel y /\ fblock (bst x) = fblock (bst y) /\ fpop (bst x) = fpop (bst y)
                      /\ fchild (bst x) = fchild (bst y) /\ (lvP (bst x) -> lvP (bst y))
                      /\ deleted (bst x) = deleted (bst y)) l l'.

Lemma fl_eq_le l l' : fl_eq l l' -> fl_le l l'.
Proof.
  induction 1 as [|x y r r' H Hr IH]; constructor; auto.
  destruct H as (Hs & Hb & Hp & Hc & Hl & Hd). split; [auto|]. split; [|split; auto]. unfold failed. rewrite Hb, Hp, Hc. auto.
Qed.
Lemma fl_eq_skel l l' : fl_eq l l' -> same_skel l l'.
Proof. intros H. apply fl_le_skel, fl_eq_le, H. Qed.
Lemma fl_eq_wf l l' : fl_eq l l' -> wf l -> wf l'.
Proof. intros H. apply same_skel_wf, fl_eq_skel, H. Qed.
Lemma fl_eq_refl l : fl_eq l l.
Proof. induction l; constructor; auto. tauto. Qed.
Lemma fl_eq_trans a b c : fl_eq a b -> fl_eq b c -> fl_eq a c.
Proof.
  apply Forall2_trans. intros x y z (S1&B1&P1&C1&L1&D1) (S2&B2&P2&C2&L2&D2).
  repeat (split; [congruence|]). split; [auto|congruence].
Qed.
Lemma fl_eq_sym_flags l l' : fl_eq l l' -> forall p y, find_blk p l = Some y ->
  exists y', find_blk p l' = Some y' /\ fblock (bst y') = fblock (bst y) /\ fpop (bst y') = fpop (bst y)
             /\ fchild (bst y') = fchild (bst y) /\ skel y = skel y' /\ deleted (bst y') = deleted (bst y).
Proof.
  intros H p y F. destruct (Forall2_find _ l l' (fun x y H => proj1 H) H p y F) as (y' & F' & S & B & P & C & _ & D).
  exists y'. repeat split; auto.
Qed.

Definition keeps_fl (f : status -> status) : Prop :=
  forall s, fblock (f s) = fblock s /\ fpop (f s) = fpop s /\ fchild (f s) = fchild s /\ (lvP s -> lvP (f s))
            /\ deleted (f s) = deleted s.

Lemma upd_fl_eq id f l : keeps_fl f -> fl_eq l (upd id f l).
Proof.
  intros K. apply upd_Forall2; [tauto|]. intros y _ _. destruct (K (bst y)) as (?&?&?&?&?). simpl. auto 7.
Qed.

(* c has the failure flags of the status it replaces (keeps_fl, for this one status) *)
Lemma upd_const_fl_eq l id x c : wf l -> find_blk id l = Some x ->
  fblock c = fblock (bst x) /\ fpop c = fpop (bst x) /\ fchild c = fchild (bst x) /\ (lvP (bst x) -> lvP c)
  /\ deleted c = deleted (bst x) ->
  fl_eq l (upd id (fun _ => c) l).
Proof. intros W F (B & P & C & LV & DD). apply (upd_Forall2_at _ l id x _ W F); [tauto|]. simpl. auto 7. Qed.

Lemma keeps_set_level v : (1 <= v)%N -> keeps_fl (set_level v).
Proof. intros V s. repeat (split; [reflexivity|]). split; [|reflexivity]. intros [_ H]. split; auto. Qed.
Lemma keeps_set_active v : keeps_fl (set_active v).
Proof. intros s. repeat (split; [reflexivity|]). split; auto. Qed.
Lemma keeps_set_haspl v : keeps_fl (set_haspl v).
Proof. intros s. repeat (split; [reflexivity|]). split; auto. Qed.
