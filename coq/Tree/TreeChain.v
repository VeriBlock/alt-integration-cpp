(** Tree/TreeChain — best_chain_never_invalid: in every state reachable by the operations of both trees
    (and in the intermediate state inside invalidateSubtree, after setState(prev) and before the marking)
    no block on the best chain root..tip is failed. *)
From Coq Require Import ZArith NArith List Bool.
From VB Require Import Tree.TreeDefs Tree.TreeInv Tree.TreeProofs Tree.TreeExact Tree.TreeMono Tree.TreeSteps.
Import ListNotations.

(* a failed block on the chain would be the tip or have put FAILED_CHILD on the tip below it *)
Theorem chain_valid s : Inv_flags s -> tip_ok s ->
  forall a z, In a (path (blocks s) (tip s)) -> find_blk a (blocks s) = Some z -> failed (bst z) = false.
Proof.
  intros [W _ F _] (y & Fy & N) a z Ha Fa. destruct (failed (bst z)) eqn:Fd; [exfalso|reflexivity].
  destruct (N.eq_dec (tip s) a) as [E|E]; [congruence|].
  pose proof (desc_failed_fchild _ a z W F Fa Fd (tip s) y Fy (proj2 (memN_In _ _) Ha) E) as C.
  unfold failed in N. rewrite C, orb_true_r in N. discriminate.
Qed.

Lemma alt_set_state_tip s to s1 ok : alt_set_state s to = Done (s1, ok) ->
  if ok then tip s1 = to /\ (exists ts, st_of (blocks s1) to = Some ts /\ is_valid L_APPLIED ts = true)
  else tip s1 = tip s.
Proof.
  unfold alt_set_state.
  destruct (find_blk (tip s) (blocks s)); [|discriminate]. destruct (find_blk to (blocks s)); [|discriminate].
  intros H. repeat bind_inv H.
  match goal with R : sm_set_state _ _ _ = Done ?a |- _ => destruct a as [[l1 ap1] ok1] end.
  destruct (st_of l1 to) as [ts|] eqn:S; [|discriminate].
  destruct ok1.
  - bind_inv H. inversion H; subst; simpl. split; auto. exists ts. split; auto.
    unfold assert in E2. destruct (is_valid L_APPLIED ts); [reflexivity|discriminate].
  - repeat bind_inv H. inversion H; subst; simpl. reflexivity.
Qed.

Lemma set_state_to_tip s to s1 : set_state_to s to = Done s1 -> tip s1 = to.
Proof.
  unfold set_state_to. destruct (tkind s).
  - intros H. bind_inv H. destruct a as [s2 ok]. bind_inv H. inversion H; subst. simpl in E0.
    pose proof (alt_set_state_tip _ _ _ _ E) as T. destruct ok; [apply T|discriminate].
  - intros H; inversion H; subst; reflexivity.
Qed.

Theorem alt_set_tip_ok s id s' res : Inv_flags s -> tip_ok s -> alt_set s id = Done (s', res) -> tip_ok s'.
Proof.
  intros I T E. destruct (alt_set_Done _ _ _ _ E) as [ok E1].
  pose proof (alt_set_state_tip _ _ _ _ E1) as K. destruct ok.
  - (* the new tip was asserted to be valid *)
    destruct K as (Tp & ts & S & V). unfold tip_ok. rewrite Tp. unfold st_of in S.
    destruct (find_blk id (blocks s')) as [y|]; [|discriminate]. injection S as <-.
    exists y. split; [reflexivity | exact (valid_not_failed _ _ V)].
  - exact (tip_ok_same s s' T (fl_eq_mono _ _ (proj1 (alt_set_state_fl _ _ _ _ (i_wf s I) E1))) K).
Qed.

Theorem revalidate_tip_ok s id r ord s' : Inv_flags s -> tip_ok s -> revalidate s id r ord = Done s' -> tip_ok s'.
Proof.
  intros I T E.
  pose proof (tip_ok_same s _ T (revalidate_core_mono s id r (i_wf s I)) (revalidate_core_tip s id r)) as K.
  destruct (revalidate_Done _ _ _ _ _ E) as [-> | ->]; [exact K | exact (update_tips_tip_ok _ _ K)].
Qed.

(* the block the best chain is moved to (or stays at) lies outside the subtree and is not failed *)
Lemma move_tip_target s id x pp s1 : Inv_flags s -> tip_ok s ->
  find_blk id (blocks s) = Some x -> bparent x = Some pp -> is_valid L_TREE (bst x) = true ->
  (if on_chain s id then set_state_to s pp else Done s) = Done s1 ->
  sub (blocks s) id (tip s1) = false /\
  exists y, find_blk (tip s1) (blocks s) = Some y /\ failed (bst y) = false.
Proof.
  intros I T Fx Px V E. pose proof I as [W _ _ _].
  destruct (on_chain s id) eqn:OC.
  - rewrite (set_state_to_tip _ _ _ E). split; [eapply sub_parent_false; eauto|].
    destruct (find_blk pp (blocks s)) as [y|] eqn:Fp; [|exfalso; exact (wf_parent_found _ W id x pp Fx Px Fp)].
    exists y. split; auto. exact (valid_parent_not_failed s I id x pp y Fx Px Fp V).
  - inversion E; subst s1. split; [exact OC|]. exact T.
Qed.

(* the intermediate state inside invalidateSubtree: after setState(prev), before any flag is set *)
Theorem invalidate_intermediate_tip_ok s id x pp s1 : Inv_flags s -> tip_ok s ->
  find_blk id (blocks s) = Some x -> bparent x = Some pp -> is_valid L_TREE (bst x) = true ->
  (if on_chain s id then set_state_to s pp else Done s) = Done s1 ->
  Inv_flags s1 /\ tip_ok s1.
Proof.
  intros I T Fx Px V E.
  destruct (move_tip_target s id x pp s1 I T Fx Px V E) as (_ & y & Fy & N).
  destruct (move_tip_fl _ _ _ _ (i_wf s I) E) as [FE _]. split; [exact (inv_of_fl_eq_tree s s1 I FE)|].
  apply (tip_ok_same (mkTree (tkind s) (blocks s) (tips s) (tip s1) (applied s))); [exists y; auto | | reflexivity].
  exact (fl_eq_mono _ _ FE).
Qed.

Theorem invalidate_tip_ok s id r ord s' : Inv_flags s -> tip_ok s -> invalidate s id r ord = Done s' -> tip_ok s'.
Proof.
  intros I T E. pose proof (invalidate_exact _ _ _ _ _ I E) as X. destruct (invalidate_Done _ _ _ _ _ E)
    as (x & pp & Fx & Dx & Px & [(_ & ->) | (_ & [(V & ->) | (V & s1 & ES & ->)])]); auto.
  - apply (tip_ok_same s _ T); [|reflexivity].
    exact (fl_le_mono _ _ (invalid_set_reason_fl_le s id r x I Fx Dx V)).
  - (* the tip ends up outside the subtree, where no flag changes *)
    destruct (move_tip_target s id x pp s1 I T Fx Px V ES) as (S & y & Fy & N).
    apply update_tips_tip_ok. destruct (X _ _ Fy) as (y' & Fy' & _ & Out & _).
    rewrite (proj1 (update_tips_blocks _ ord)) in Fy'. exists y'. split; [exact Fy'|].
    pose proof (Out S) as E2. unfold ffl in E2. injection E2 as Eb Ep Ec.
    unfold failed in *. rewrite Eb, Ep, Ec. exact N.
Qed.

Theorem remove_subtree_tip_ok s id ord s' : Inv_flags s -> tip_ok s -> remove_subtree s id ord = Done s' -> tip_ok s'.
Proof.
  intros I T E. destruct (remove_subtree_Done _ _ _ _ E) as (x & p & s1 & Fx & Dx & Px & ES & D). cbv zeta in D.
  assert (T1 : tip_ok s1).
  { destruct (on_chain s id) eqn:OC; [|injection ES as <-; exact T].
    refine (proj2 (invalidate_intermediate_tip_ok s id x p s1 I T Fx Px _ _)); [|rewrite OC; exact ES].
    (* a block of the best chain is not failed; being live, it is valid *)
    rewrite (live_valid_tree _ (lv_ok_find _ _ _ (i_lv s I) Fx) Dx).
    rewrite (chain_valid s I T id x); [reflexivity | apply memN_In; exact OC | exact Fx]. }
  destruct D as [-> | ->]; [|apply update_tips_tip_ok];
    (apply (tip_ok_same s1 _ T1); [exact (fl_le_mono _ _ (remove_pass_fl_le id (blocks s1))) | reflexivity]).
Qed.

Theorem step_out_tip_ok s o s' res : Inv_flags s -> tip_ok s -> step_out s o = Done (s', res) -> tip_ok s'.
Proof.
  intros I T E. apply step_out_Done in E. destruct o.
  - destruct (tkind s).
    + destruct (alt_hdr_inv _ _ _ _ _ I E) as (_ & Tp & M). exact (tip_ok_same s s' T M Tp).
    + exact (proj2 (pow_hdr_inv _ _ _ _ _ _ I E) T).
  - destruct (alt_body_fl _ _ _ _ (proj2 E)) as (FE & Tp). exact (tip_ok_same s s' T (fl_eq_mono _ _ FE) Tp).
  - exact (alt_set_tip_ok s id s' res I T (proj2 E)).
  - exact (invalidate_tip_ok s id r ord s' I T E).
  - exact (revalidate_tip_ok s id r ord s' I T E).
  - exact (remove_subtree_tip_ok s id ord s' I T E).
  - destruct (alt_rmpl_inv _ _ _ I (proj2 E)) as (_ & Tp & M). exact (tip_ok_same s s' T M Tp).
Qed.

Lemma init_tip_ok_alt h : tip_ok (alt_init h).
Proof. exists (mkBlk 0%N None h 0 st_root). split; reflexivity. Qed.
Lemma init_tip_ok_pow h w : tip_ok (pow_init h w).
Proof. exists (mkBlk 0%N None h w st_root). split; reflexivity. Qed.

Theorem step_good s o : Inv_flags s /\ tip_ok s -> Inv_flags (step s o) /\ tip_ok (step s o).
Proof.
  intros [I T]. split; [apply step_inv, I|].
  unfold step. destruct (step_out s o) as [[s1 r]| |] eqn:E; auto. eapply step_out_tip_ok; eauto.
Qed.

Theorem run_good ops : forall s, Inv_flags s /\ tip_ok s -> Inv_flags (run s ops) /\ tip_ok (run s ops).
Proof.
  unfold run. induction ops as [|o r IH]; simpl; intros s G; auto. apply IH, step_good, G.
Qed.

(* after every prefix of every history of operations, on both trees *)
Theorem best_chain_never_invalid ops s : Inv_flags s -> tip_ok s ->
  forall a z, In a (path (blocks (run s ops)) (tip (run s ops))) -> find_blk a (blocks (run s ops)) = Some z ->
    failed (bst z) = false.
Proof.
  intros I T. destruct (run_good ops s (conj I T)) as [I' T']. apply chain_valid; auto.
Qed.

Lemma alt_init_good h : Inv_flags (alt_init h) /\ tip_ok (alt_init h).
Proof. split; [apply alt_init_inv|apply init_tip_ok_alt]. Qed.
Lemma pow_init_good h w : Inv_flags (pow_init h w) /\ tip_ok (pow_init h w).
Proof. split; [apply pow_init_inv|apply init_tip_ok_pow]. Qed.
