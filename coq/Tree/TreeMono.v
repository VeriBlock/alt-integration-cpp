(** Tree/TreeMono — "no block becomes failed" as a pointwise relation between block stores, and the
    best-chain tip being a block that is not failed. *)
From Coq Require Import ZArith NArith List Bool.
From VB Require Import Tree.TreeDefs Tree.TreeInv.
Import ListNotations.

Definition mono (l l' : list blk) : Prop :=
  forall p y, find_blk p l = Some y ->
    exists y', find_blk p l' = Some y' /\ (failed (bst y') = true -> failed (bst y) = true).

Lemma mono_refl l : mono l l.
Proof. intros p y F. exists y. auto. Qed.
Lemma mono_trans a b c : mono a b -> mono b c -> mono a c.
Proof.
  intros H1 H2 p y F. destruct (H1 p y F) as (y1 & F1 & K1). destruct (H2 p y1 F1) as (y2 & F2 & K2).
  exists y2. auto.
Qed.
Lemma fl_le_mono l l' : fl_le l l' -> mono l l'.
Proof. intros E p y F. destruct (fl_le_find _ _ E p y F) as (y' & F' & K & _). exists y'. auto. Qed.
Lemma fl_eq_mono l l' : fl_eq l l' -> mono l l'.
Proof. intros E. apply fl_le_mono, fl_eq_le, E. Qed.
Lemma mono_cons l x : find_blk (bid x) l = None -> mono l (x :: l).
Proof.
  intros N p y F. exists y. split; auto. simpl.
  destruct (N.eqb_spec (bid x) p) as [E|E]; auto. subst p. congruence.
Qed.

Definition tip_ok (s : tree) : Prop :=
  exists y, find_blk (tip s) (blocks s) = Some y /\ failed (bst y) = false.

Lemma tip_ok_same s s' : tip_ok s -> mono (blocks s) (blocks s') -> tip s' = tip s -> tip_ok s'.
Proof.
  intros (y & F & N) M E. destruct (M _ _ F) as (y' & F' & K). exists y'. rewrite E. split; auto.
  destruct (failed (bst y')); auto. rewrite K in N; auto.
Qed.

Lemma pow_determine_best_tip_ok s c : tip_ok s -> tip_ok (pow_determine_best s c).
Proof.
  intros T. unfold pow_determine_best. destruct (tip s =? c)%N; auto.
  destruct (find_blk c (blocks s)) as [b|] eqn:Fc; auto. destruct (find_blk (tip s) (blocks s)); auto.
  destruct (is_valid L_TREE (bst b)) eqn:V; auto. destruct (bwork b0 <? bwork b)%Z; auto.
  exists b. split; [exact Fc | exact (valid_not_failed _ _ V)].
Qed.

Lemma update_tips_tip_ok s ord : tip_ok s -> tip_ok (update_tips s ord).
Proof.
  unfold update_tips. destruct (tkind s); auto.
  revert s. induction ord as [|t r IH]; simpl; intros s T; auto.
  destruct (memN t (tips s)); auto. apply IH, pow_determine_best_tip_ok, T.
Qed.
