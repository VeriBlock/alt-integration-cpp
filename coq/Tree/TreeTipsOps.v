(** Tree/TreeTipsOps — relations that compare block stores status by status ([pw]); what connectBlock
    returns; the tips conjunct is preserved by setState, invalidateSubtree and removeSubtree. *)
From Coq Require Import ZArith NArith List Bool Lia.
From VB Require Import Tree.TreeDefs Tree.TreeInv Tree.TreePass Tree.TreeProofs Tree.TreeExact Tree.TreeSteps
  Tree.TreeTips.
Import ListNotations.

Definition pw (P : status -> status -> Prop) : list blk -> list blk -> Prop :=
  Forall2 (fun x y => skel x = skel y /\ P (bst x) (bst y)).

Section Pointwise.
  Variable P : status -> status -> Prop.

  Lemma pw_skel l l' : pw P l l' -> same_skel l l'.
  Proof. induction 1 as [|x y r r' [S _] _ IH]; [reflexivity|]. unfold same_skel in *. simpl. congruence. Qed.

  Lemma pw_find l l' : pw P l l' -> forall p y, find_blk p l = Some y ->
    exists y', find_blk p l' = Some y' /\ bparent y' = bparent y /\ P (bst y) (bst y').
  Proof.
    induction 1 as [|x x' r r' [S Hx] _ IH]; intros p y F; simpl in *; [discriminate|].
    unfold skel in S. replace (bid x') with (bid x) by congruence.
    destruct (bid x =? p)%N; [|auto]. inversion F; subst y. exists x'. repeat split; auto. congruence.
  Qed.

  Lemma pw_find_inv l l' : pw P l l' -> forall p y', find_blk p l' = Some y' ->
    exists y, find_blk p l = Some y /\ bparent y = bparent y' /\ P (bst y) (bst y').
  Proof.
    intros H p y' F'. destruct (skel_find _ _ p y' (same_skel_sym _ _ (pw_skel _ _ H)) F') as (y & F & Py).
    destruct (pw_find _ _ H p y F) as (y2 & F2 & _ & Hy). rewrite F' in F2. inversion F2; subst y2. eauto.
  Qed.

  Hypothesis P_refl : forall s, P s s.

  Lemma pw_refl l : pw P l l.
  Proof. induction l; constructor; auto. Qed.

  Lemma pw_upd_In id f l : (forall y, In y l -> bid y = id -> P (bst y) (f (bst y))) -> pw P l (upd id f l).
  Proof.
    unfold upd. induction l as [|x r IH]; intros H; simpl; constructor.
    - destruct (N.eqb_spec (bid x) id); simpl; split; auto. apply H; simpl; auto.
    - apply IH. intros y Hy. apply H. simpl; auto.
  Qed.

  Lemma pw_upd_all id f l : (forall s, P s (f s)) -> pw P l (upd id f l).
  Proof. intros H. apply pw_upd_In. auto. Qed.

  Lemma pw_upd id f l : wf l -> (forall x, find_blk id l = Some x -> P (bst x) (f (bst x))) -> pw P l (upd id f l).
  Proof. intros W H. apply pw_upd_In. intros y Hy E. apply H. rewrite <- E. apply wf_In_find; auto. Qed.

  Lemma pw_gpass f stop t l : (forall s, P s (f s)) -> pw P l (fst (gpass f stop t l)).
  Proof.
    intros H. induction l as [|x r IH]; simpl; [constructor|].
    destruct (gpass f stop t r) as [o c]. destruct (vis c x); constructor; simpl; auto.
  Qed.

  Hypothesis P_trans : forall a b c, P a b -> P b c -> P a c.

  Lemma pw_trans a b c : pw P a b -> pw P b c -> pw P a c.
  Proof.
    intros H; revert c. induction H as [|x y l l' [S1 H1] _ IH]; intros c H2; inversion H2 as [|y' z l2 l3 [S2 H3] Hl]; subst.
    - constructor.
    - constructor; [split; [congruence|eauto]|exact (IH _ Hl)].
  Qed.
End Pointwise.

(* connectBlock: tryAddTip reads the children from the list l0 the traversal started with *)
Lemma connect_block_Done l0 older tps x x' tps' : connect_block l0 older tps x = Done (x', tps') ->
  let c := set_level L_CONNECTED (bst x) in
  x' = with_st x c /\ haspl (bst x) = true /\ (level (bst x) <= 1)%N /\
  (exists p ps, bparent x = Some p /\ st_of older p = Some ps /\ (2 <= level ps)%N) /\
  (forall ch z, find_blk ch l0 = Some z -> bparent z = Some (bid x) -> (level (bst z) <= 1)%N) /\
  tps' = if is_valid_tip ALT l0 (bid x) c
         then set_add (bid x) (match bparent x with Some p => set_remove p tps | None => tps end) else tps.
Proof.
  unfold connect_block, assert. intros E.
  destruct (haspl (bst x)); [|discriminate]. destruct (valid_upto L_CONNECTED (bst x)) eqn:NC; [discriminate|].
  destruct (active (bst x)); [discriminate|]. simpl in E.
  destruct (bparent x) as [p|]; [|discriminate]. destruct (st_of older p) as [ps|] eqn:S; [|discriminate].
  destruct (valid_upto L_CONNECTED ps) eqn:V; [|discriminate]. simpl in E.
  destruct (forallb _ (children l0 (bid x))) eqn:CH; [|discriminate]. simpl in E.
  bind_inv E. destruct a as [c b]. simpl in E. destruct b; [|discriminate]. simpl in E.
  destruct (raise_validity_Done _ _ _ _ _ E0) as [(_ & B & _)|(-> & _)]; [discriminate|].
  apply N.leb_gt in NC. apply N.leb_le in V. unfold L_CONNECTED in NC, V.
  inversion E; subst. split; [reflexivity|]. split; [reflexivity|]. split; [lia|].
  split; [exists p, ps; auto|]. split; [exact (unconnected_children _ _ CH)|reflexivity].
Qed.

Lemma insert_header_wf s id par w s1 : wf (blocks s) -> insert_header s id par w = Done s1 -> wf (blocks s1).
Proof.
  intros W E.
  destruct (insert_header_Done _ _ _ _ _ E) as [(x & _ & _ & ->)|[(x & c & b & _ & _ & _ & ->)|(p & c & b & Fx & Fp & _ & ->)]];
    simpl; auto.
  - eapply same_skel_wf; [apply upd_skel|auto].
  - rewrite Fp. repeat split; auto. discriminate.
Qed.

(* a live block is at VALID_TREE at least: if it is not valid, it is failed *)
Lemma live_invalid_failed l p x : lv_ok l -> find_blk p l = Some x -> deleted (bst x) = false ->
  is_valid L_TREE (bst x) = false -> failed (bst x) = true.
Proof.
  intros L F D V. rewrite (live_valid_tree _ (lv_ok_find _ _ _ L F) D) in V. apply negb_false_iff, V.
Qed.

Definition cb_eq (k : kind) (l l' : list blk) : Prop := same_skel l l' /\ forall p, cbt k l' p = cbt k l p.

Lemma cb_eq_refl k l : cb_eq k l l.
Proof. split; [apply same_skel_refl|auto]. Qed.
Lemma cb_eq_trans k a b c : cb_eq k a b -> cb_eq k b c -> cb_eq k a c.
Proof. intros [S1 C1] [S2 C2]. split; [eapply same_skel_trans; eauto|]. intros p. rewrite C2, C1. reflexivity. Qed.

Lemma cbt_upd k id f l : (forall y, find_blk id l = Some y -> can_be_tip k (f (bst y)) = can_be_tip k (bst y)) ->
  cb_eq k l (upd id f l).
Proof.
  intros H. split; [apply upd_skel|]. intros p. unfold cbt. rewrite find_upd.
  destruct (find_blk p l) as [y|] eqn:F; simpl; auto.
  destruct (N.eqb_spec (bid y) id) as [E|E]; simpl; auto.
  apply H. rewrite <- E, (find_blk_bid _ _ _ F). exact F.
Qed.

Lemma cbt_upd_at k id x f l : find_blk id l = Some x -> can_be_tip k (f (bst x)) = can_be_tip k (bst x) ->
  cb_eq k l (upd id f l).
Proof. intros F H. apply cbt_upd. intros y Fy. rewrite F in Fy. inversion Fy; subst y. exact H. Qed.

Lemma tips_ok_cb k l l' tps : wf l -> cb_eq k l l' -> tips_ok k l tps -> tips_ok k l' tps.
Proof. intros W [S C]. apply tips_ok_ext; auto. Qed.

(* the state machine does not change canBeATip: ACTIVE is not read, and applyBlock raises connected blocks only *)
Lemma cb_unapply k id l : cb_eq k l (upd id (set_active false) l).
Proof. apply cbt_upd. reflexivity. Qed.
Lemma cb_apply k l id x u c b : wf l -> find_blk id l = Some x -> is_valid L_CONNECTED (bst x) = true ->
  raise_validity l x u = Done (c, b) -> cb_eq k l (upd id (fun _ => set_active true c) l).
Proof.
  intros _ F V RV. apply (cbt_upd_at _ _ x _ _ F).
  destruct (raise_validity_Done _ _ _ _ _ RV) as [[-> _]|(-> & _ & Lt & _)]; [reflexivity|].
  apply andb_true_iff in V. destruct V as [_ V]. apply N.leb_le in V.
  change (can_be_tip k (set_level u (bst x)) = can_be_tip k (bst x)). apply can_be_tip_raise; [|lia].
  destruct k; unfold tip_level, L_CONNECTED, L_TREE in *; lia.
Qed.

Definition cb_eq_skel k l l' (H : cb_eq k l l') : same_skel l l' := proj1 H.
Definition off_chain_cb k := off_chain_R (cb_eq k) (cb_eq_refl k) (cb_eq_trans k) (cb_eq_skel k) (cb_unapply k) (cb_apply k).
Definition alt_set_cb k := alt_set_R (cb_eq k) (cb_eq_refl k) (cb_eq_trans k) (cb_eq_skel k) (cb_unapply k) (cb_apply k).

Theorem alt_set_tips_ok s id s' res : wf (blocks s) -> tips_ok (tkind s) (blocks s) (tips s) ->
  alt_set s id = Done (s', res) -> tips_ok (tkind s') (blocks s') (tips s') /\ tkind s' = tkind s.
Proof.
  intros W T E. destruct (alt_set_cb (tkind s) _ _ _ _ W E) as (C & -> & ->). split; auto. eapply tips_ok_cb; eauto.
Qed.

Lemma vis_cons_head x r ct y : wf (x :: r) -> y = x \/ (exists q, find_blk q r = Some y) -> vis (bid x :: ct) y = vis ct y.
Proof.
  intros W H. unfold vis. destruct (bparent y) as [p|] eqn:P; auto. rewrite memN_cons.
  destruct (N.eqb_spec p (bid x)) as [E|E]; auto. exfalso. destruct H as [->|[q F]].
  - exact (wf_own_parent x r p W P E).
  - exact (wf_parent_not_head x r W q y p F P E).
Qed.

Lemma mark_pass_vis t : forall l, wf l -> forall q,
  memN q (snd (mark_pass t l)) =
  match find_blk q l with Some y => vis (snd (gpass (set_fchild true) failed t l)) y | None => false end.
Proof.
  induction l as [|x r IH]; intros W q; [reflexivity|]. specialize (IH (proj1 W)).
  pose proof (mark_pass_gpass t r) as [_ G]. simpl.
  destruct (mark_pass t r) as [[o ct] v]. destruct (gpass (set_fchild true) failed t r) as [o' ct']. simpl in G, IH. subst ct'.
  fold (vis ct x).
  assert (V : forall y, y = x \/ (exists q, find_blk q r = Some y) ->
            vis (snd (if vis ct x then (with_st x (set_fchild true (bst x)) :: o', if failed (bst x) then ct else bid x :: ct)
                      else (x :: o', ct))) y = vis ct y).
  { intros y Hy. destruct (vis ct x); simpl; auto. destruct (failed (bst x)); auto. eapply vis_cons_head; eauto. }
  destruct (N.eqb_spec (bid x) q) as [<-|Nq].
  - rewrite V; auto. destruct (vis ct x) eqn:Vx; simpl; [rewrite N.eqb_refl; reflexivity|].
    rewrite IH, (proj1 (proj2 W)). reflexivity.
  - assert (E : memN q (snd (if vis ct x then (with_st x (set_fchild true (bst x)) :: o, if failed (bst x) then ct else bid x :: ct, bid x :: v)
                           else (x :: o, ct, v))) = memN q v).
    { destruct (vis ct x); simpl; auto. rewrite (proj2 (N.eqb_neq q (bid x))); auto. }
    rewrite E, IH. destruct (find_blk q r) as [y|] eqn:F; auto. rewrite V; eauto.
Qed.

Theorem invalidate_tips_ok s id r ord s' : Inv_flags s -> tips_ok (tkind s) (blocks s) (tips s) ->
  invalidate s id r ord = Done s' -> tips_ok (tkind s') (blocks s') (tips s') /\ tkind s' = tkind s.
Proof.
  intros I T E. pose proof I as [W _ _ L].
  destruct (invalidate_Done _ _ _ _ _ E) as (x & pp & Fx & Dx & Px & [[_ ->]|[_ [[V ->]|(_ & s1 & E1 & ->)]]]); auto.
  - (* the block is failed before and after: canBeATip is the same everywhere, and the block is no tip *)
    simpl. split; auto. pose proof (live_invalid_failed _ _ _ L Fx Dx V) as Fd.
    assert (T1 : tips_ok (tkind s) (upd id (set_reason r true) (blocks s)) (tips s)).
    { eapply tips_ok_cb; eauto. apply (cbt_upd_at _ _ x _ _ Fx).
      rewrite !can_be_tip_failed; auto using set_reason_true_failed. }
    intros q. rewrite memN_set_remove, T1. destruct (N.eqb_spec id q) as [<-|Nq]; [|apply andb_true_r].
    rewrite andb_false_r, spec_false; auto. unfold cbt. rewrite (find_upd_same _ _ _ _ Fx).
    apply can_be_tip_failed, set_reason_true_failed.
  - destruct (off_chain_cb (tkind s) _ _ _ _ W E1) as (CB & Tp & _).
    rewrite (proj1 (update_tips_blocks _ ord)), (proj2 (update_tips_blocks _ ord)), update_tips_tips. simpl. split; auto.
    pose proof (tips_ok_cb _ _ _ _ W CB T) as T1. rewrite <- Tp in T1. destruct CB as [SK _].
    pose proof (same_skel_wf _ _ SK W) as W1.
    destruct (skel_find _ _ id x SK Fx) as (x1 & Fx1 & Px1). rewrite Px in Px1.
    set (l := blocks s1) in *. set (l1 := upd id (set_reason r true) l) in *.
    assert (Wl1 : wf l1) by (eapply same_skel_wf; [apply upd_skel|auto]).
    pose proof (mark_pass_vis id l1 Wl1) as VS. set (vs := snd (mark_pass id l1)) in *.
    set (g := gpass (set_fchild true) failed id l1) in *.
    assert (G : forall q y, find_blk q l1 = Some y ->
              find_blk q (fst g) = Some (if memN q vs then with_st y (set_fchild true (bst y)) else y)).
    { intros q y Fq. rewrite VS, Fq. exact (proj1 (gpass_find _ _ _ _ Wl1 q y Fq)). }
    assert (SKg : same_skel l1 (fst g)) by apply gpass_skel.
    assert (SK2 : same_skel l (fst g)) by (eapply same_skel_trans; [apply upd_skel|exact SKg]).
    apply (tips_worsen (tkind s) l (fst g) (tips s1) _ (fun q => (q =? id)%N || memN q vs) pp); auto.
    + intros q Dq. apply orb_false_iff in Dq. destruct Dq as [Nq Vq].
      destruct (find_blk q l) as [y|] eqn:Fq; [|apply (skel_find_none _ _ q SK2 Fq)].
      rewrite (G q y), Vq; auto. unfold l1. rewrite find_upd_other; auto. apply N.eqb_neq, Nq.
    + intros q Dq. unfold cbt. destruct (find_blk q l1) as [y1|] eqn:Fq1;
        [|rewrite (skel_find_none _ _ q SKg Fq1); reflexivity].
      rewrite (G q y1 Fq1). destruct (memN q vs); [apply can_be_tip_failed, fchild_failed; reflexivity|].
      rewrite orb_false_r in Dq. apply N.eqb_eq in Dq. subst q. unfold l1 in Fq1. rewrite (find_upd_same _ _ _ _ Fx1) in Fq1.
      inversion Fq1. apply can_be_tip_failed, set_reason_true_failed.
    + intros q y p Fq Dq Pq. apply orb_true_iff in Dq. destruct Dq as [Eq|Vq].
      * apply N.eqb_eq in Eq. subst q. right. congruence.
      * left. destruct (skel_find _ _ q y (upd_skel id (set_reason r true) l) Fq) as (y1 & Fq1 & P1). rewrite Pq in P1.
        fold l1 in Fq1. rewrite VS, Fq1 in Vq. unfold vis in Vq. rewrite P1 in Vq.
        destruct (find_blk p l1) as [yp|] eqn:Fp; [|exfalso; exact (wf_parent_found l1 Wl1 q y1 p Fq1 P1 Fp)].
        destruct (gpass_find (set_fchild true) failed id l1 Wl1 p yp Fp) as [_ M]. fold g in M. rewrite Vq in M.
        destruct (p =? id)%N; auto. symmetry in M. apply andb_true_iff in M. rewrite VS, Fp, (proj1 M). reflexivity.
    + apply orb_false_iff. split; [apply N.eqb_neq; exact (wf_parent_ne l W1 id x1 pp Fx1 Px1)|].
      destruct (memN pp vs) eqn:Vp; auto. exfalso.
      rewrite VS in Vp. destruct (find_blk pp l1) as [yp|] eqn:Fp1; [|discriminate].
      destruct (gpass_vis_sub _ _ _ _ Wl1 pp yp Fp1 Vp) as [S _].
      rewrite (sub_parent_false l1 id Wl1 _ pp (find_upd_same _ _ _ _ Fx1) Px1) in S. discriminate.
    + intros q. rewrite memN_filter, memN_set_remove, (N.eqb_sym id q).
      destruct (memN q (tips s1)), (q =? id)%N, (memN q vs); reflexivity.
Qed.

Lemma remove_pass_mem t : forall l, wf l -> forall q,
  memN q (snd (remove_pass t l)) =
  match find_blk q l with
  | Some y => (q =? t)%N ||
              (match bparent y with Some p => memN p (snd (remove_pass t l)) | None => false end && negb (deleted (bst y)))
  | None => false
  end.
Proof.
  induction l as [|x r IH]; intros W q; [reflexivity|]. specialize (IH (proj1 W)). simpl.
  destruct (remove_pass t r) as [o v]. simpl in IH.
  set (visit := (bid x =? t)%N || (match bparent x with Some p => memN p v | None => false end && negb (deleted (bst x)))).
  assert (V : forall y, y = x \/ (exists q, find_blk q r = Some y) ->
            match bparent y with Some p => memN p (snd (if visit then (with_st x (st_delete (bst x)) :: o, bid x :: v) else (x :: o, v)))
                            | None => false end = match bparent y with Some p => memN p v | None => false end).
  { intros y Hy. pose proof (vis_cons_head x r v y W Hy) as H. unfold vis in H. destruct visit; auto. }
  destruct (N.eqb_spec (bid x) q) as [<-|Nq].
  - rewrite V; auto. fold visit. destruct visit eqn:Vx; simpl; [rewrite N.eqb_refl; reflexivity|].
    rewrite IH, (proj1 (proj2 W)). reflexivity.
  - assert (E : memN q (snd (if visit then (with_st x (st_delete (bst x)) :: o, bid x :: v) else (x :: o, v))) = memN q v).
    { destruct visit; simpl; auto. rewrite (proj2 (N.eqb_neq q (bid x))); auto. }
    rewrite E, IH. destruct (find_blk q r) as [y|] eqn:F; auto. rewrite V; eauto.
Qed.

Lemma remove_pass_find t : forall l, wf l -> forall q,
  find_blk q (fst (remove_pass t l)) =
  option_map (fun y => if memN q (snd (remove_pass t l)) then with_st y (st_delete (bst y)) else y) (find_blk q l).
Proof.
  induction l as [|x r IH]; intros W q; [reflexivity|]. specialize (IH (proj1 W) q).
  pose proof (remove_pass_mem t r (proj1 W) (bid x)) as M. rewrite (proj1 (proj2 W)) in M. simpl.
  destruct (remove_pass t r) as [o v]. simpl in IH, M.
  destruct ((bid x =? t)%N || _); simpl; destruct (N.eqb_spec (bid x) q) as [<-|Nq]; auto.
  - rewrite N.eqb_refl. reflexivity.
  - rewrite (proj2 (N.eqb_neq q (bid x))); auto.
  - rewrite M. reflexivity.
Qed.

Lemma remove_pass_found t l : wf l -> forall q y', find_blk q (fst (remove_pass t l)) = Some y' ->
  exists y, find_blk q l = Some y /\ bparent y' = bparent y /\
            bst y' = if memN q (snd (remove_pass t l)) then st_delete (bst y) else bst y.
Proof.
  intros W q y'. rewrite remove_pass_find; auto. destruct (find_blk q l) as [y|]; [|discriminate].
  simpl. intros E; inversion E. exists y. destruct (memN q _); auto.
Qed.

Lemma remove_pass_sub t : forall l, wf l -> forall q, memN q (snd (remove_pass t l)) = true -> sub l t q = true.
Proof.
  induction l as [|x r IH]; intros W q; [discriminate|].
  pose proof (remove_pass_mem t (x :: r) W q) as M. specialize (IH (proj1 W)). simpl in M |- *.
  destruct (remove_pass t r) as [o v]. simpl in IH.
  destruct (N.eq_dec (bid x) q) as [<-|Nq].
  - intros H. rewrite H, N.eqb_refl in M. symmetry in M. apply orb_true_iff in M. destruct M as [M|M].
    + apply N.eqb_eq in M. rewrite <- M. eapply sub_self. simpl. rewrite N.eqb_refl. reflexivity.
    + destruct (bparent x) as [p|] eqn:Px; [|discriminate]. apply andb_true_iff in M.
      rewrite (sub_step (x :: r) t W (bid x) x p); [|simpl; rewrite N.eqb_refl; reflexivity|exact Px].
      apply orb_true_iff. right. unfold sub. rewrite path_skip; [|intros E; exact (wf_own_parent x r p W Px (eq_sym E))].
      apply IH. destruct ((bid x =? t)%N || _); simpl in M; [|apply M].
      rewrite (proj2 (N.eqb_neq p (bid x))) in M; [apply M|]. exact (wf_own_parent x r p W Px).
  - intros H. unfold sub. rewrite path_skip; auto. apply IH.
    destruct ((bid x =? t)%N || _); simpl in H; auto. rewrite (proj2 (N.eqb_neq q (bid x))) in H; auto.
Qed.

Theorem remove_subtree_tips_ok s id ord s' : Inv_flags s -> tips_ok (tkind s) (blocks s) (tips s) ->
  remove_subtree s id ord = Done s' -> tips_ok (tkind s') (blocks s') (tips s') /\ tkind s' = tkind s.
Proof.
  intros I T E. pose proof I as [W _ _ _].
  destruct (remove_subtree_Done _ _ _ _ E) as (x & pp & s1 & Fx & Dx & Px & E1 & U).
  destruct (maybe_update_tips _ _ _ U) as (-> & -> & ->). simpl. split; auto.
  destruct (off_chain_cb (tkind s) _ _ _ _ W E1) as (CB & Tp & _).
  pose proof (tips_ok_cb _ _ _ _ W CB T) as T1. rewrite <- Tp in T1. destruct CB as [SK _].
  pose proof (same_skel_wf _ _ SK W) as W1.
  destruct (skel_find _ _ id x SK Fx) as (x1 & Fx1 & Px1). rewrite Px in Px1.
  set (l := blocks s1) in *.
  pose proof (remove_pass_mem id l W1) as RM. pose proof (remove_pass_find id l W1) as RF.
  pose proof (remove_pass_sub id l W1) as RS. pose proof (remove_pass_fl_le id l) as RL.
  destruct (remove_pass id l) as [l2 vs]. simpl in *.
  apply (tips_worsen (tkind s) l l2 (tips s1) _ (fun q => memN q vs) pp); auto.
  - apply fl_le_skel, RL.
  - intros q Dq. rewrite RF, Dq. destruct (find_blk q l); reflexivity.
  - intros q Dq. unfold cbt. rewrite RF, Dq. destruct (find_blk q l); reflexivity.
  - intros q y p Fq Dq Pq. rewrite RM, Fq, Pq in Dq. apply orb_true_iff in Dq. destruct Dq as [Eq|Dq].
    + apply N.eqb_eq in Eq. subst q. right. congruence.
    + left. apply andb_true_iff in Dq. apply Dq.
  - destruct (memN pp vs) eqn:Vp; auto. specialize (RS pp Vp). rewrite (sub_parent_false l id W1 x1 pp Fx1 Px1) in RS.
    discriminate.
  - intros q. apply memN_filter.
Qed.
