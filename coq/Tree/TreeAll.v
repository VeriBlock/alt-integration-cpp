(** Tree/TreeAll — everything proved about the model as ONE invariant preserved by every operation of both trees. *)
From Coq Require Import ZArith NArith List Bool Lia.
From VB Require Import Tree.TreeDefs Tree.TreeMono Tree.TreeChain Tree.TreeTipsAll Tree.TreeLevels.
Import ListNotations.

(* flags + S3 + tips + "level of a block <= level of its parent" + non-failed best-chain tip *)
Definition Inv_all (s : tree) : Prop := Inv_tree s /\ lm_ok (blocks s) /\ tip_ok s.

Theorem Inv_all_init_alt h : Inv_all (alt_init h).
Proof. split; [apply Inv_tree_init_alt|]. split; [apply lm_init_alt|apply init_tip_ok_alt]. Qed.
Theorem Inv_all_init_pow h w : Inv_all (pow_init h w).
Proof. split; [apply Inv_tree_init_pow|]. split; [apply lm_init_pow|apply init_tip_ok_pow]. Qed.

Theorem Inv_all_step s o : Inv_all s -> Inv_all (step s o).
Proof.
  intros (IT & M & T). pose proof IT as (I & S3 & _).
  split; [apply Inv_tree_step, IT|]. split; [apply step_lm; auto|].
  apply (step_good s o (conj I T)).
Qed.

Theorem Inv_all_run ops : forall s, Inv_all s -> Inv_all (run s ops).
Proof. unfold run. induction ops as [|o r IH]; simpl; intros s I; auto. apply IH, Inv_all_step, I. Qed.

Theorem connected_ancestors_connected s : Inv_all s -> forall c x, find_blk c (blocks s) = Some x ->
  valid_upto L_CONNECTED (bst x) = true ->
  forall a z, In a (path (blocks s) c) -> find_blk a (blocks s) = Some z -> valid_upto L_CONNECTED (bst z) = true.
Proof.
  intros ((I & _ & _) & M & _) c x Fc V a z Ha Fa. pose proof I as [W _ _ _].
  pose proof (connected_ancestors (blocks s) W M c x Fc a z Ha Fa) as L.
  unfold valid_upto in *. apply N.leb_le in V. apply N.leb_le. lia.
Qed.
