(** Tree/TreeSteps — what acceptBlockHeader of either tree, acceptBlock and removePayloads return; the flag
    invariant for these operations and the step theorem for EVERY operation of both tree kinds. *)
From Coq Require Import ZArith NArith List Bool Lia.
From VB Require Import Tree.TreeDefs Tree.TreeInv Tree.TreeProofs Tree.TreeMono.
Import ListNotations.

(* insertBlockHeader; tryAddTip runs before the raise to VALID_TREE *)
Lemma insert_header_Done s id par w s1 : insert_header s id par w = Done s1 ->
  (exists x, find_blk id (blocks s) = Some x /\ deleted (bst x) = false /\ s1 = s) \/
  (exists x c b, find_blk id (blocks s) = Some x /\ deleted (bst x) = true /\
     let l1 := upd id (set_deleted false) (blocks s) in
     raise_validity l1 (with_st x (set_deleted false (bst x))) L_TREE = Done (c, b) /\
     s1 = mkTree (tkind s) (upd id (fun _ => c) (blocks s)) (try_add_tip (tkind s) l1 (tips s) id) (tip s) (applied s)) \/
  (exists p c b, find_blk id (blocks s) = None /\ find_blk par (blocks s) = Some p /\
     let x0 := mkBlk id (Some par) (bheight p + 1) (match tkind s with POW => bwork p + w | ALT => 0 end)
                     (set_deleted false (st_new (failed (bst p)))) in
     raise_validity (x0 :: blocks s) x0 L_TREE = Done (c, b) /\
     s1 = mkTree (tkind s) (with_st x0 c :: blocks s) (try_add_tip (tkind s) (x0 :: blocks s) (tips s) id) (tip s) (applied s)).
Proof.
  unfold insert_header. destruct (find_blk id (blocks s)) as [x|] eqn:Fx.
  - destruct (deleted (bst x)) eqn:Dx; [|intros [= <-]; eauto].
    rewrite (find_upd_same _ _ _ _ Fx). intros E. bind_inv E. destruct a as [c b]. injection E as <-. rewrite upd_upd.
    right; left. exists x, c, b. auto.
  - destruct (find_blk par (blocks s)) as [p|]; [|discriminate].
    intros E. bind_inv E. destruct a as [c b]. injection E as <-. right; right. exists p, c, b. auto.
Qed.

Lemma alt_hdr_Done s id parent s' res : alt_hdr s id parent = Done (s', res) ->
  s' = s \/
  exists par p s1, (forall x, find_blk id (blocks s) = Some x -> bparent x = Some par) /\
    find_blk par (blocks s) = Some p /\ deleted (bst p) = false /\
    insert_header s id par 0 = Done s1 /\
    (s' = s1 \/ s' = with_tips s1 (try_add_tip (tkind s1) (blocks s1) (tips s1) id)).
Proof.
  unfold alt_hdr. match goal with |- _ -> ?g => set (G := g) end.
  assert (K : forall par p, (forall x, find_blk id (blocks s) = Some x -> bparent x = Some par) ->
            find_blk par (blocks s) = Some p ->
            (if deleted (bst p) then Done (s, RFailPrev) else
             do s1 <- insert_header s id par 0;
             match st_of (blocks s1) id with
             | None => Abort
             | Some st => if is_valid L_TREE st
                          then Done (with_tips s1 (try_add_tip (tkind s1) (blocks s1) (tips s1) id), ROk)
                          else Done (s1, RFailChain)
             end) = Done (s', res) -> G).
  { unfold G. intros par p HX Fp. destruct (deleted (bst p)) eqn:Dp; [intros [= <- _]; auto|].
    intros E. bind_inv E. destruct (st_of (blocks a) id) as [st|]; [|discriminate].
    right. exists par, p, a. repeat split; auto. destruct (is_valid L_TREE st); injection E as <- _; auto. }
  destruct (find_blk id (blocks s)) as [x|] eqn:Fx.
  - destruct (deleted (bst x)); [|discriminate]. destruct (bparent x) as [p0|] eqn:Px; [|discriminate].
    destruct (find_blk p0 (blocks s)) as [p|] eqn:Fp; [|discriminate].
    apply K; auto. intros x0 [= <-]; exact Px.
  - destruct (find_blk parent (blocks s)) as [p|] eqn:Fp; [|unfold G; intros [= <- _]; auto].
    apply K; auto. discriminate.
Qed.

Lemma pow_hdr_Done s id parent w s' res : pow_hdr s id parent w = Done (s', res) ->
  s' = s \/
  exists par p s1 x1 c b, (forall x, find_blk id (blocks s) = Some x -> bparent x = Some par) /\
    find_blk par (blocks s) = Some p /\ deleted (bst p) = false /\
    insert_header s id par w = Done s1 /\ find_blk id (blocks s1) = Some x1 /\
    raise_validity (blocks s1) x1 L_CONNECTED = Done (c, b) /\
    let l2 := upd id (fun _ => c) (blocks s1) in
    (is_valid L_TREE (bst p) = false /\ s' = with_blocks s1 (upd id (set_fchild true) l2) \/
     is_valid L_TREE (bst p) = true /\
     s' = pow_determine_best (mkTree (tkind s) l2 (try_add_tip (tkind s) l2 (tips s1) id) (tip s1) (applied s1)) id).
Proof.
  unfold pow_hdr. match goal with |- _ -> ?g => set (G := g) end.
  assert (K : forall par p, (forall x, find_blk id (blocks s) = Some x -> bparent x = Some par) ->
            find_blk par (blocks s) = Some p ->
            (if deleted (bst p) then Done (s, RFailPrev) else
             do s1 <- insert_header s id par w;
             match find_blk id (blocks s1) with
             | None => Abort
             | Some x1 =>
               do rv <- raise_validity (blocks s1) x1 L_CONNECTED;
               let l2 := upd id (fun _ => fst rv) (blocks s1) in
               if negb (is_valid L_TREE (bst p)) then
                 Done (with_blocks s1 (upd id (set_fchild true) l2), RFailChain)
               else
                 let s2 := mkTree (tkind s) l2 (try_add_tip (tkind s) l2 (tips s1) id) (tip s1) (applied s1) in
                 Done (pow_determine_best s2 id, ROk)
             end) = Done (s', res) -> G).
  { unfold G. intros par p HX Fp. destruct (deleted (bst p)) eqn:Dp; [intros [= <- _]; auto|].
    intros E. bind_inv E. destruct (find_blk id (blocks a)) as [x1|] eqn:F1; [|discriminate].
    bind_inv E. destruct a0 as [c b]. simpl in E.
    right. exists par, p, a, x1, c, b. repeat split; auto.
    destruct (is_valid L_TREE (bst p)); injection E as <- _; auto. }
  destruct (find_blk id (blocks s)) as [x|] eqn:Fx.
  - destruct (bparent x) as [p0|] eqn:Px; [|discriminate].
    destruct (find_blk p0 (blocks s)) as [p|] eqn:Fp; [|unfold G; intros [= <- _]; auto].
    apply K; auto. intros x0 [= <-]; exact Px.
  - destruct (find_blk parent (blocks s)) as [p|] eqn:Fp; [|unfold G; intros [= <- _]; auto].
    apply K; auto. discriminate.
Qed.

Lemma raise_tree_lvP l x c b : raise_validity l x L_TREE = Done (c, b) ->
  fpop (bst x) = false -> deleted (bst x) = false -> lvP c.
Proof.
  intros H P D. destruct (raise_validity_fl _ _ _ _ _ H) as (_ & _ & _ & _ & DD).
  split; [intros _ | rewrite DD, D; discriminate].
  destruct (raise_validity_Done _ _ _ _ _ H) as [(-> & _ & [?|?]) | (-> & _)];
    [congruence | assumption | apply N.le_refl].
Qed.

Lemma insert_header_inv s id parent w s' : Inv_flags s ->
  insert_header s id parent w = Done s' -> Inv_flags s' /\ tkind s' = tkind s /\ tip s' = tip s /\ mono (blocks s) (blocks s').
Proof.
  intros I E. pose proof I as [W H F L]. destruct (insert_header_Done _ _ _ _ _ E)
    as [(x & _ & _ & ->)|[(x & c & b & Fx & Dx & RV & ->)|(p & c & b & Fx & Fp & RV & ->)]]; simpl in *.
  - auto using mono_refl.
  - (* a removed block comes back with its FAILED_BLOCK / FAILED_CHILD *)
    destruct (raise_validity_fl _ _ _ _ _ RV) as (B & P & C & _ & _). simpl in B, P, C.
    assert (FL : fl_le (blocks s) (upd id (fun _ => c) (blocks s))).
    { apply (upd_Forall2_at _ _ id x _ W Fx); [tauto|]. simpl. split; [reflexivity|].
      split; [unfold failed; congruence|]. split; [auto|]. intros Lx.
      exact (raise_tree_lvP _ _ _ _ RV (proj2 Lx Dx) eq_refl). }
    split; [apply (inv_of_fl_le_tree s _ I); exact FL|]. auto using fl_le_mono.
  - (* a new block in front of the store: it inherits FAILED_CHILD from a failed parent *)
    destruct (raise_validity_fl _ _ _ _ _ RV) as (_ & _ & C & _ & _).
    split; [|auto using mono_cons]. constructor; simpl; rewrite ?Fp.
    + split; [exact W|]. split; [exact Fx|discriminate].
    + auto.
    + split; [exact F|]. rewrite C. auto.
    + constructor; auto. exact (raise_tree_lvP _ _ _ _ RV eq_refl eq_refl).
Qed.

Lemma insert_header_parent s id par w s1 p :
  (forall x, find_blk id (blocks s) = Some x -> bparent x = Some par) ->
  find_blk par (blocks s) = Some p -> par <> id ->
  insert_header s id par w = Done s1 ->
  (forall x1, find_blk id (blocks s1) = Some x1 -> bparent x1 = Some par) /\ find_blk par (blocks s1) = Some p.
Proof.
  intros HX Fp N E. destruct (insert_header_Done _ _ _ _ _ E)
    as [(x & _ & _ & ->)|[(x & c & b & Fx & _ & _ & ->)|(p' & c & b & Fx & _ & _ & ->)]]; simpl.
  - split; [exact HX | exact Fp].
  - rewrite (find_upd_same _ _ _ _ Fx), (find_upd_other _ _ _ _ N). split; [intros x1 [= <-]; exact (HX x Fx) | exact Fp].
  - rewrite N.eqb_refl. destruct (N.eqb_spec id par); [congruence|]. split; [intros x1 [= <-]; reflexivity | exact Fp].
Qed.

Theorem alt_hdr_inv s id parent s' res : Inv_flags s -> alt_hdr s id parent = Done (s', res) ->
  Inv_flags s' /\ tip s' = tip s /\ mono (blocks s) (blocks s').
Proof.
  intros I E. destruct (alt_hdr_Done _ _ _ _ _ E) as [->|(par & p & s1 & _ & Fp & _ & E1 & H)]; [auto using mono_refl|].
  destruct (insert_header_inv s id par 0 s1 I E1) as (I1 & _ & T1 & M1).
  (* what follows insertBlockHeader changes the tip set only *)
  destruct H as [->| ->]; simpl; split; auto. apply (inv_same_blocks s1); [reflexivity|exact I1].
Qed.

Lemma connect_pass_fl_eq l0 t : forall l tps l' tps' c, connect_pass l0 t l tps = Done (l', tps', c) -> fl_eq l l'.
Proof.
  induction l as [|x r IH]; simpl; intros tps l' tps' c E.
  - inversion E; subst. constructor.
  - bind_inv E. destruct a as [[o tp1] ct].
    specialize (IH _ _ _ _ E0).
    destruct ((bid x =? t)%N || (match bparent x with Some p => memN p ct | None => false end && haspl (bst x))).
    + bind_inv E. destruct a as [x' tp2]. inversion E; subst; clear E. simpl.
      constructor; auto.
      unfold connect_block in E1. repeat bind_inv E1.
      match goal with R : raise_validity _ _ _ = Done ?a |- _ => destruct a as [s1 b1];
        destruct (raise_validity_fl _ _ _ _ _ R) as (B & P & C & LV & DD) end.
      inversion E1; subst. simpl. auto 7.
    + inversion E; subst. constructor; auto. tauto.
Qed.

Lemma alt_body_Done s id s' res : alt_body s id = Done (s', res) ->
  exists x, find_blk id (blocks s) = Some x /\ deleted (bst x) = false /\
  let l1 := upd id (set_haspl true) (blocks s) in
  (s' = with_blocks s l1 \/
   exists l2 tps c, connect_pass l1 id l1 (tips s) = Done (l2, tps, c) /\ s' = mkTree (tkind s) l2 tps (tip s) (applied s)).
Proof.
  unfold alt_body. destruct (find_blk id (blocks s)) as [x|]; [|discriminate].
  destruct (deleted (bst x)) eqn:Dx; [discriminate|]. destruct (bparent x) as [p|]; [|discriminate].
  destruct (haspl (bst x)); [discriminate|]. destruct (negb (valid_upto L_TREE (bst x))); [discriminate|].
  intros E. bind_inv E. exists x. repeat split; auto.
  destruct (st_of (upd id (set_haspl true) (blocks s)) p) as [ps|]; [|discriminate].
  destruct (negb (valid_upto L_CONNECTED ps)); [injection E as <- _; auto|].
  bind_inv E. destruct a0 as [[l2 tps] c]. injection E as <- _. right. eauto.
Qed.

Theorem alt_body_fl s id s' res : alt_body s id = Done (s', res) -> fl_eq (blocks s) (blocks s') /\ tip s' = tip s.
Proof.
  intros E. pose proof (upd_fl_eq id (set_haspl true) (blocks s) (keeps_set_haspl true)) as U.
  destruct (alt_body_Done _ _ _ _ E) as (x & _ & _ & [->|(l2 & tps & c & EC & ->)]); simpl; split; auto.
  exact (fl_eq_trans _ _ _ U (connect_pass_fl_eq _ _ _ _ _ _ _ EC)).
Qed.

Lemma unconnected_children l q :
  forallb (fun c => negb (valid_upto L_CONNECTED (bst c))) (children l q) = true ->
  forall c y, find_blk c l = Some y -> bparent y = Some q -> (level (bst y) <= 1)%N.
Proof.
  intros H c y F P. rewrite forallb_forall in H. specialize (H y (proj2 (children_In l q y) (conj (find_blk_In _ _ _ F) P))).
  apply negb_true_iff, N.leb_gt in H. unfold L_CONNECTED in H. lia.
Qed.

Lemma alt_rmpl_Done s id s' : alt_rmpl s id = Done s' ->
  exists x p x2, find_blk id (blocks s) = Some x /\ deleted (bst x) = false /\ bparent x = Some p /\
    (forall ch z, find_blk ch (blocks s) = Some z -> bparent z = Some id -> (level (bst z) <= 1)%N) /\
    let s2 := revalidate_core (with_blocks s (upd id (set_haspl false) (blocks s))) id RPop in
    find_blk id (blocks s2) = Some x2 /\
    exists l3, (valid_upto L_CONNECTED (bst x2) = false /\ l3 = blocks s2 \/
                (L_TREE < level (bst x2))%N /\ l3 = upd id (fun _ => set_level L_TREE (bst x2)) (blocks s2)) /\
    s' = mkTree (tkind s) l3 (try_add_tip (tkind s) l3 (set_remove id (tips s2)) p) (tip s2) (applied s2).
Proof.
  unfold alt_rmpl. destruct (find_blk id (blocks s)) as [x|]; [|discriminate].
  destruct (deleted (bst x)) eqn:Dx; [discriminate|]. destruct (bparent x) as [p|] eqn:Px; [|discriminate].
  destruct (forallb _ (children (blocks s) id)) eqn:CH; [|rewrite orb_true_r; discriminate].
  destruct (negb (haspl (bst x)) || active (bst x)); [discriminate|]. simpl.
  set (s2 := revalidate_core _ id RPop). unfold st_of.
  destruct (find_blk id (blocks s2)) as [x2|]; [|discriminate]. simpl.
  intros E. bind_inv E. exists x, p, x2. repeat split; eauto using unconnected_children.
  exists a. split; [|inversion E; reflexivity].
  destruct (valid_upto L_CONNECTED (bst x2)); [|inversion E0; auto].
  right. unfold lower_validity in E0. destruct (fpop (bst x2)); [discriminate|].
  destruct (N.ltb_spec L_TREE (level (bst x2))); [|discriminate]. inversion E0; auto.
Qed.

Theorem alt_rmpl_inv s id s' : Inv_flags s -> alt_rmpl s id = Done s' ->
  Inv_flags s' /\ tip s' = tip s /\ mono (blocks s) (blocks s').
Proof.
  intros I E. destruct (alt_rmpl_Done _ _ _ E) as (x & p & x2 & Fx & _ & _ & _ & Fx2 & l3 & H & ->). simpl.
  set (s1 := with_blocks s (upd id (set_haspl false) (blocks s))) in *.
  assert (FE : fl_eq (blocks s) (blocks s1)) by apply upd_fl_eq, keeps_set_haspl.
  pose proof (inv_of_fl_eq_tree s s1 I FE) as I1.
  pose proof (revalidate_core_inv s1 id RPop I1) as I2.
  pose proof (revalidate_core_mono s1 id RPop (i_wf s1 I1)) as M2.
  pose proof (revalidate_core_tip s1 id RPop) as T2.
  set (s2 := revalidate_core s1 id RPop) in *.
  assert (FE3 : fl_eq (blocks s2) l3).
  { destruct H as [[_ ->]|[_ ->]]; [apply fl_eq_refl|].
    exact (upd_const_fl_eq _ _ x2 _ (i_wf s2 I2) Fx2 (keeps_set_level L_TREE (N.le_refl 1) (bst x2))). }
  split; [apply (inv_of_fl_eq_tree s2 _ I2); exact FE3|]. split; [exact T2|].
  exact (mono_trans _ _ _ (fl_eq_mono _ _ FE) (mono_trans _ _ _ M2 (fl_eq_mono _ _ FE3))).
Qed.

Lemma set_fchild_true_same s : fchild s = true -> set_fchild true s = s.
Proof. destruct s. simpl. intros ->. reflexivity. Qed.

Theorem pow_hdr_inv s id parent w s' res : Inv_flags s -> pow_hdr s id parent w = Done (s', res) ->
  Inv_flags s' /\ (tip_ok s -> tip_ok s').
Proof.
  intros I E. pose proof I as [W _ _ L]. destruct (pow_hdr_Done _ _ _ _ _ _ E)
    as [->|(par & p & s1 & x1 & c & b & HX & Fp & Dp & E1 & Fx1 & RV & H)]; [auto|].
  assert (N : par <> id) by (intros ->; exact (wf_parent_ne _ W id p id Fp (HX p Fp) eq_refl)).
  destruct (insert_header_inv s id par w s1 I E1) as (I1 & _ & T1 & M1).
  destruct (insert_header_parent s id par w s1 p HX Fp N E1) as (PX & Fp1).
  pose proof I1 as [W1 _ F1 _]. pose proof (raise_validity_fl _ _ _ _ _ RV) as RF.
  (* both exits store c under id, which has the failure flags of x1 *)
  cbv zeta in H. set (l2 := upd id (fun _ => c) (blocks s1)) in *.
  assert (K : forall s2, blocks s2 = l2 -> tip s2 = tip s1 -> Inv_flags s2 /\ (tip_ok s -> tip_ok s2)).
  { intros s2 B2 T2. pose proof (upd_const_fl_eq _ _ x1 c W1 Fx1 RF) as FE. fold l2 in FE. rewrite <- B2 in FE.
    split; [exact (inv_of_fl_eq_tree s1 s2 I1 FE)|]. intros T.
    apply (tip_ok_same s); [exact T | exact (mono_trans _ _ _ M1 (fl_eq_mono _ _ FE)) | congruence]. }
  rewrite (live_valid_tree _ (lv_ok_find _ _ _ L Fp) Dp) in H. destruct H as [(Fd & ->) | (_ & ->)].
  - (* a failed parent: x1, hence c, carries FAILED_CHILD already, setting it changes nothing *)
    apply negb_false_iff in Fd.
    pose proof (fl_ok_find _ W1 F1 id x1 par p Fx1 (PX x1 Fx1) Fp1 Fd) as Cx.
    destruct RF as (_ & _ & Cc & _). rewrite Cx in Cc.
    apply K; [|reflexivity]. unfold l2. simpl. rewrite upd_upd, (set_fchild_true_same c Cc). reflexivity.
  - destruct (K (mkTree (tkind s) l2 (try_add_tip (tkind s) l2 (tips s1) id) (tip s1) (applied s1))) as [I2 T2];
      [reflexivity..|].
    split; [exact (inv_same_blocks _ _ (proj1 (pow_determine_best_blocks _ _)) I2)|].
    intros T. apply pow_determine_best_tip_ok, T2, T.
Qed.

Theorem step_out_inv s o s' res : Inv_flags s -> step_out s o = Done (s', res) -> Inv_flags s'.
Proof.
  intros I E. destruct o; try (refine (flag_op_inv _ _ _ _ I _ E); exact Logic.I); apply step_out_Done in E.
  - destruct (tkind s); [eapply alt_hdr_inv | eapply pow_hdr_inv]; eauto.
  - exact (inv_of_fl_eq_tree s s' I (proj1 (alt_body_fl _ _ _ _ (proj2 E)))).
  - exact (proj1 (alt_rmpl_inv _ _ _ I (proj2 E))).
Qed.

Theorem step_inv s o : Inv_flags s -> Inv_flags (step s o).
Proof.
  intros I. unfold step. destruct (step_out s o) as [[s1 r]| |] eqn:E; auto. eapply step_out_inv; eauto.
Qed.

Theorem run_inv ops : forall s, Inv_flags s -> Inv_flags (run s ops).
Proof.
  unfold run. induction ops as [|o r IH]; simpl; intros s I; auto. apply IH, step_inv, I.
Qed.
