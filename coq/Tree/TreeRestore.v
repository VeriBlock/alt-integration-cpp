(** Tree/TreeRestore — revalidate_exact and inv_reval_id for the failure flags:
    revalidateSubtree (invalidateSubtree s b r) b r gives every block of the tree its failure flags back,
    provided b did not carry r and no FAILED_CHILD inside subtree(b) was stale. *)
From Coq Require Import ZArith NArith List Bool.
From VB Require Import Tree.TreeDefs Tree.TreeInv Tree.TreePass Tree.TreeProofs Tree.TreeExact.
Import ListNotations.

(* inside subtree(t): FAILED_CHILD only below a failed parent (no stale flag) *)
Definition back_in (l : list blk) (t : N) : Prop :=
  forall p x q y, find_blk p l = Some x -> bparent x = Some q -> find_blk q l = Some y ->
    sub l t q = true -> fchild (bst x) = true -> failed (bst y) = true.

(* every proper descendant of t carries FAILED_CHILD *)
Definition all_marked (l : list blk) (t : N) : Prop :=
  forall p x, find_blk p l = Some x -> sub l t p = true -> p <> t -> fchild (bst x) = true.

Theorem revalidate_core_exact s id r x : Inv_flags s -> find_blk id (blocks s) = Some x -> has_reason r (bst x) = true ->
  forall p y, find_blk p (blocks s) = Some y ->
  exists y2, find_blk p (blocks (revalidate_core s id r)) = Some y2 /\ skel y2 = skel y /\
    (p <> id -> fblock (bst y2) = fblock (bst y) /\ fpop (bst y2) = fpop (bst y)) /\
    (p = id -> has_reason r (bst y2) = false /\ fchild (bst y2) = fchild (bst y) /\
               forall r', r' <> r -> has_reason r' (bst y2) = has_reason r' (bst y)) /\
    (sub (blocks s) id p = false -> fchild (bst y2) = fchild (bst y)).
Proof.
  intros I Fx HR. change (reason_step (blocks s) id r false (blocks (revalidate_core s id r))).
  rewrite revalidate_core_blocks, Fx, HR. cbv zeta.
  pose proof (upd_reason_step _ _ id x r false (fl_eq_refl _) Fx) as U.
  destruct (has_other_failure r (bst x)); [exact U|].
  pose proof (upd_skel id (set_reason r false) (blocks s)) as SK.
  exact (pass_reason_step _ _ _ _ _ _ _ (same_skel_wf _ _ SK (i_wf s I)) SK U).
Qed.

Theorem revalidate_core_back_in s id r x : Inv_flags s -> find_blk id (blocks s) = Some x ->
  has_reason r (bst x) = true -> all_marked (blocks s) id ->
  back_in (blocks (revalidate_core s id r)) id.
Proof.
  intros I Fx HR AM. rewrite revalidate_core_blocks, Fx, HR.
  set (l1 := upd id (set_reason r false) (blocks s)). cbv zeta.
  assert (Wl1 : wf l1) by exact (same_skel_wf _ _ (upd_skel _ _ _) (i_wf s I)).
  (* every block of the subtree other than id still carries FAILED_CHILD in l1, hence is failed *)
  assert (IN : forall q y1, find_blk q l1 = Some y1 -> sub l1 id q = true -> q <> id -> failed (bst y1) = true).
  { intros q y1 Fq S N. unfold l1 in Fq, S. rewrite (find_upd_other _ _ _ _ N) in Fq.
    rewrite <- (same_skel_sub _ _ id q (upd_skel id (set_reason r false) (blocks s))) in S.
    unfold failed. rewrite (AM q y1 Fq S N). apply orb_true_r. }
  destruct (has_other_failure r (bst x)) eqn:HO.
  - (* id stays failed: nothing below changes *)
    intros p x1 q y1 Fp Q Fq S C. destruct (N.eq_dec q id) as [->|Nq]; [|exact (IN q y1 Fq S Nq)].
    unfold l1 in Fq. rewrite (find_upd_same _ _ _ _ Fx) in Fq. injection Fq as <-.
    simpl. rewrite failed_unset_reason. exact HO.
  - set (g := gpass (set_fchild false) reval_stop id l1).
    intros p x3 q y3 Fp3 Q3 Fq3 S3 C3.
    destruct (gpass_find_inv (set_fchild false) reval_stop id l1 Wl1 p x3 Fp3) as (x1 & Fp1 & ->).
    destruct (gpass_find_inv (set_fchild false) reval_stop id l1 Wl1 q y3 Fq3) as (y1 & Fq1 & ->). fold g in Q3, C3 |- *.
    assert (Q1 : bparent x1 = Some q) by (destruct (vis _ x1); exact Q3).
    (* FAILED_CHILD survived on x1: it was not visited, so its parent q is not id and did not pass the visit on *)
    pose proof (proj2 (gpass_find (set_fchild false) reval_stop id l1 Wl1 q y1 Fq1)) as MQ. fold g in MQ.
    destruct (vis (snd g) x1) eqn:V1; [discriminate|]. unfold vis in V1. rewrite Q1, MQ in V1.
    destruct (N.eqb_spec q id) as [|Nq]; [discriminate|]. destruct (vis (snd g) y1); simpl in V1 |- *.
    + apply negb_false_iff in V1. exact V1.
    + apply (IN q y1 Fq1); auto. rewrite (same_skel_sub l1 (fst g) id q (gpass_skel _ _ _ _)). exact S3.
Qed.

(* inside subtree(t), with no stale flag, FAILED_CHILD says exactly that the parent is failed *)
Lemma fchild_parent_failed l t : wf l -> fl_ok l -> back_in l t -> forall p x q y,
  find_blk p l = Some x -> bparent x = Some q -> find_blk q l = Some y -> sub l t q = true ->
  fchild (bst x) = failed (bst y).
Proof.
  intros W F B p x q y Fp Q Fq S.
  pose proof (fl_ok_find l W F p x q y Fp Q Fq). pose proof (B p x q y Fp Q Fq S).
  destruct (fchild (bst x)), (failed (bst y)); intuition congruence.
Qed.

Lemma ffl_unique t l l2 : wf l -> same_skel l l2 -> fl_ok l -> fl_ok l2 -> back_in l t -> back_in l2 t ->
  (forall p y y2, find_blk p l = Some y -> find_blk p l2 = Some y2 ->
     fblock (bst y) = fblock (bst y2) /\ fpop (bst y) = fpop (bst y2)) ->
  (forall p y y2, find_blk p l = Some y -> find_blk p l2 = Some y2 -> sub l t p = false \/ p = t ->
     fchild (bst y) = fchild (bst y2)) ->
  forall p y y2, find_blk p l = Some y -> find_blk p l2 = Some y2 -> fchild (bst y) = fchild (bst y2).
Proof.
  intros W SK F F2 B B2 OWN OUT p y y2 Fp. revert y2. revert p y Fp. pose proof (same_skel_wf _ _ SK W) as W2.
  apply (parent_ind l (fun p y => forall y2, find_blk p l2 = Some y2 -> fchild (bst y) = fchild (bst y2)) W).
  - intros p y Fp Q y2 Fp2. apply (OUT p y y2 Fp Fp2). rewrite (sub_root l t p y Fp Q).
    destruct (N.eqb_spec t p); auto.
  - intros p y q yq Fp Q Fq IH y2 Fp2.
    destruct (sub l t p) eqn:S; [|apply (OUT p y y2 Fp Fp2); auto].
    destruct (N.eq_dec p t) as [->|N]; [apply (OUT t y y2 Fp Fp2); auto|].
    pose proof (same_skel_find _ _ SK p) as SP. rewrite Fp, Fp2 in SP.
    assert (Q2 : bparent y2 = Some q) by (unfold skel in SP; congruence).
    destruct (find_blk q l2) as [yq2|] eqn:Fq2; [|exfalso; exact (wf_parent_found l2 W2 p y2 q Fp2 Q2 Fq2)].
    assert (Sq : sub l t q = true).
    { rewrite (sub_step l t W p y q Fp Q) in S. destruct (N.eqb_spec t p); [exfalso; auto|exact S]. }
    (* either flag says whether the parent is failed, and the parents agree on all three flags *)
    rewrite (fchild_parent_failed l t W F B p y q yq Fp Q Fq Sq).
    rewrite (fchild_parent_failed l2 t W2 F2 B2 p y2 q yq2 Fp2 Q2 Fq2)
      by (rewrite <- (same_skel_sub l l2 t q SK); exact Sq).
    destruct (OWN q yq yq2 Fq Fq2) as [Bq Pq]. unfold failed. rewrite Bq, Pq, (IH yq2 eq_refl). reflexivity.
Qed.

Lemma revalidate_blocks s id r ord s2 x : find_blk id (blocks s) = Some x -> has_reason r (bst x) = true ->
  revalidate s id r ord = Done s2 -> blocks s2 = blocks (revalidate_core s id r).
Proof.
  intros _ _ E. destruct (revalidate_Done _ _ _ _ _ E) as [-> | ->]; [reflexivity | apply update_tips_blocks].
Qed.

Theorem inv_reval_id_flags s id r o1 o2 s1 s2 x :
  Inv_flags s -> find_blk id (blocks s) = Some x -> has_reason r (bst x) = false ->
  back_in (blocks s) id ->
  invalidate s id r o1 = Done s1 -> revalidate s1 id r o2 = Done s2 ->
  forall p y, find_blk p (blocks s) = Some y ->
    exists y2, find_blk p (blocks s2) = Some y2 /\ skel y2 = skel y /\ ffl (bst y2) = ffl (bst y).
Proof.
  intros I Fx HR BK E1 E2.
  pose proof (invalidate_inv _ _ _ _ _ I E1) as I1. pose proof (revalidate_inv _ _ _ _ _ I1 E2) as I2.
  pose proof I as [W _ F _]. pose proof I1 as [W1 _ F1 _]. pose proof I2 as [_ _ F2 _].
  pose proof (invalidate_flags _ _ _ _ _ I E1) as X1.
  destruct (X1 id x Fx) as (x1 & Fx1 & _ & _ & Tx1 & _). destruct (Tx1 eq_refl) as (HR1 & _).
  pose proof (revalidate_blocks _ _ _ _ _ _ Fx1 HR1 E2) as B2.
  pose proof (revalidate_core_exact s1 id r x1 I1 Fx1 HR1) as X2. rewrite <- B2 in X2.
  assert (SK1 : same_skel (blocks s) (blocks s1)) by exact (invalidate_skel _ _ _ _ _ W E1).
  assert (SK : same_skel (blocks s) (blocks s2)).
  { eapply same_skel_trans; [exact SK1|]. rewrite B2. apply revalidate_core_skel. }
  (* id is failed in s1, so its proper descendants are all marked there: nothing inside the subtree is stale in s2 *)
  pose proof (revalidate_core_back_in s1 id r x1 I1 Fx1 HR1
                (desc_failed_fchild _ id x1 W1 F1 Fx1 (has_reason_failed _ _ HR1))) as BK2.
  rewrite <- B2 in BK2.
  (* through both steps: own flags everywhere, FAILED_CHILD outside the subtree and at id *)
  assert (PW : forall p y y2, find_blk p (blocks s) = Some y -> find_blk p (blocks s2) = Some y2 ->
            (fblock (bst y) = fblock (bst y2) /\ fpop (bst y) = fpop (bst y2)) /\
            (sub (blocks s) id p = false \/ p = id -> fchild (bst y) = fchild (bst y2))).
  { intros p y y2 Fp Fp2.
    destruct (X1 p y Fp) as (y1 & Fp1 & _ & O1 & T1 & C1).
    destruct (X2 p y1 Fp1) as (y2' & Fp2' & _ & O2 & T2 & C2). rewrite Fp2 in Fp2'. injection Fp2' as <-.
    destruct (N.eq_dec p id) as [->|N].
    - rewrite Fx in Fp. injection Fp as <-.
      destruct (T1 eq_refl) as (_ & Ca & Oa). destruct (T2 eq_refl) as (Rb & Cb & Ob).
      split; [|intros _; congruence].
      apply (own_flags_by_reason r); [congruence|]. intros r' N. rewrite (Ob r' N). symmetry. auto.
    - destruct (O1 N), (O2 N). split; [split; congruence|]. intros [S|]; [|contradiction].
      rewrite <- (C1 S). symmetry. apply C2. rewrite <- (same_skel_sub _ _ id p SK1). exact S. }
  intros p y Fp. pose proof (same_skel_find _ _ SK p) as SP. rewrite Fp in SP.
  destruct (find_blk p (blocks s2)) as [y2|] eqn:Fp2; [|contradiction].
  exists y2. split; [reflexivity|]. split; [congruence|].
  destruct (PW p y y2 Fp Fp2) as ((B & P) & _).
  assert (C : fchild (bst y) = fchild (bst y2)).
  { apply (ffl_unique id (blocks s) (blocks s2) W SK F F2 BK BK2) with (p := p); auto.
    - intros q z z2 Fq Fq2. apply (PW q z z2 Fq Fq2).
    - intros q z z2 Fq Fq2. apply (PW q z z2 Fq Fq2). }
  unfold ffl. congruence.
Qed.
