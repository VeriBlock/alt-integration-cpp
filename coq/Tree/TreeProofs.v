(** Tree/TreeProofs — setState / invalidateSubtree / revalidateSubtree / removeSubtree as compositions of elementary
    steps on the block store ([_Done] lemmas, Section Closure), and what they do to the failure flags: the C07 flag
    invariant is preserved by each of them. *)
From Coq Require Import ZArith NArith List Bool Lia.
From VB Require Import Tree.TreeDefs Tree.TreeInv Tree.TreePass Tree.TreeMono.
Import ListNotations.

Record Inv_flags (s : tree) : Prop := {
  i_wf : wf (blocks s);          (* a proper tree: unique ids, parents exist, one root *)
  i_ht : ht_ok (blocks s);       (* heights follow parents *)
  i_fl : fl_ok (blocks s);       (* every child of a failed block carries FAILED_CHILD *)
  i_lv : lv_ok (blocks s)        (* a live block is at least BLOCK_VALID_TREE *)
}.

Lemma inv_same_blocks s s' : blocks s' = blocks s -> Inv_flags s -> Inv_flags s'.
Proof. intros E [W H F L]. constructor; rewrite E; auto. Qed.

Lemma inv_same_skel s s' : Inv_flags s -> same_skel (blocks s) (blocks s') -> fl_ok (blocks s') -> lv_ok (blocks s') ->
  Inv_flags s'.
Proof. intros [W H _ _] S F L. constructor; eauto using same_skel_wf, same_skel_ht. Qed.

Lemma inv_of_fl_le_tree s s' : Inv_flags s -> fl_le (blocks s) (blocks s') -> Inv_flags s'.
Proof.
  intros I E. pose proof I as [_ _ F L]. apply (inv_same_skel s); eauto using fl_le_skel, fl_le_ok, fl_le_lv.
Qed.

Lemma inv_of_fl_eq_tree s s' : Inv_flags s -> fl_eq (blocks s) (blocks s') -> Inv_flags s'.
Proof. intros I E. exact (inv_of_fl_le_tree s s' I (fl_eq_le _ _ E)). Qed.

Lemma raise_validity_Done l x u c b : raise_validity l x u = Done (c, b) ->
  c = bst x /\ b = false /\ (fpop (bst x) = true \/ (u <= level (bst x))%N) \/
  c = set_level u (bst x) /\ b = true /\ (level (bst x) < u)%N /\
  forall q, bparent x = Some q -> exists ps, st_of l q = Some ps /\ (u <= level ps)%N.
Proof.
  unfold raise_validity. destruct (fpop (bst x)); [intros [= <- <-]; auto|].
  destruct (N.ltb_spec (level (bst x)) u) as [L|L]; [|intros [= <- <-]; auto].
  destruct (bparent x) as [p|].
  - destruct (st_of l p) as [ps|] eqn:S; [|discriminate]. destruct (N.leb_spec u (level ps)) as [Le|Le]; [|discriminate].
    intros [= <- <-]. right. repeat split; auto. intros q [= <-]. eauto.
  - intros [= <- <-]. right. repeat split; auto. discriminate.
Qed.

Lemma raise_validity_fl l x u s b : raise_validity l x u = Done (s, b) ->
  fblock s = fblock (bst x) /\ fpop s = fpop (bst x) /\ fchild s = fchild (bst x) /\ (lvP (bst x) -> lvP s)
  /\ deleted s = deleted (bst x).
Proof.
  intros H. destruct (raise_validity_Done _ _ _ _ _ H) as [(-> & _) | (-> & _ & Lt & _)]; [tauto|].
  repeat (split; [reflexivity|]). split; [|reflexivity]. intros [L1 L2]. split; simpl; [lia|exact L2].
Qed.

(* H : bind o f = Done _  becomes  E : o = Done a  and  H : f a = Done _ *)
Ltac bind_inv H :=
  match type of H with
  | bind ?o _ = Done _ => let E := fresh "E" in destruct o eqn:E; simpl in H; [|discriminate|discriminate]
  end.

Lemma unapply_block_Done l ap id l' ap' : unapply_block (l, ap) id = Done (l', ap') -> l' = upd id (set_active false) l.
Proof.
  unfold unapply_block. destruct (find_blk id l) as [x|]; [|discriminate]. destruct (bparent x); [|discriminate].
  intros H. repeat bind_inv H. injection H as <- _. reflexivity.
Qed.

Lemma apply_block_Done l ap id l' ap' ok : apply_block (l, ap) id = Done (l', ap', ok) ->
  l' = l \/ exists x u c b, find_blk id l = Some x /\ is_valid L_CONNECTED (bst x) = true /\
              raise_validity l x u = Done (c, b) /\ l' = upd id (fun _ => set_active true c) l.
Proof.
  unfold apply_block. destruct (find_blk id l) as [x|]; [|discriminate].
  destruct (bparent x) as [p|]; [|discriminate]. destruct (st_of l p) as [ps|]; [|discriminate].
  intros H. repeat bind_inv H. destruct (negb (is_valid L_TREE (bst x))); [injection H as <- _ _; auto|].
  destruct (is_valid L_CONNECTED (bst x)) eqn:V; [|discriminate]. simpl in H.
  bind_inv H. match goal with R : raise_validity _ _ _ = Done ?a |- _ => destruct a as [c b] end.
  injection H as <- _ _. right. exists x. eauto 8.
Qed.

Lemma pow_determine_best_blocks s c : blocks (pow_determine_best s c) = blocks s /\ tkind (pow_determine_best s c) = tkind s.
Proof.
  unfold pow_determine_best. destruct (tip s =? c)%N; auto.
  destruct (find_blk c (blocks s)); auto. destruct (find_blk (tip s) (blocks s)); auto.
  destruct (negb (is_valid L_TREE (bst b))); auto. destruct (bwork b0 <? bwork b)%Z; auto.
Qed.

Lemma update_tips_blocks s ord : blocks (update_tips s ord) = blocks s /\ tkind (update_tips s ord) = tkind s.
Proof.
  unfold update_tips. destruct (tkind s) eqn:K; auto.
  revert s K. induction ord as [|t r IH]; simpl; intros s K; auto.
  destruct (memN t (tips s)).
  - destruct (pow_determine_best_blocks s t) as [B T].
    destruct (IH (pow_determine_best s t)) as [B2 T2]; [congruence|]. split; congruence.
  - apply IH; auto.
Qed.

Lemma update_tips_tips s ord : tips (update_tips s ord) = tips s.
Proof.
  unfold update_tips. destruct (tkind s); auto.
  revert s. induction ord as [|t r IH]; simpl; intros s; auto.
  destruct (memN t (tips s)); auto. rewrite IH. unfold pow_determine_best.
  destruct (tip s =? t)%N; auto. destruct (find_blk t (blocks s)); auto. destruct (find_blk (tip s) (blocks s)); auto.
  destruct (negb (is_valid L_TREE (bst b))); auto. destruct (bwork b0 <? bwork b)%Z; auto.
Qed.

Lemma maybe_update_tips s ord s' : s' = s \/ s' = update_tips s ord ->
  blocks s' = blocks s /\ tkind s' = tkind s /\ tips s' = tips s.
Proof. intros [->| ->]; auto using update_tips_tips. destruct (update_tips_blocks s ord). auto using update_tips_tips. Qed.

Lemma alt_set_Done s id s' res : alt_set s id = Done (s', res) -> exists ok, alt_set_state s id = Done (s', ok).
Proof.
  unfold alt_set. destruct (find_blk id (blocks s)) as [x|]; [|discriminate].
  destruct (deleted (bst x)); [discriminate|]. destruct (negb (valid_upto L_CONNECTED (bst x))); [discriminate|].
  intros H. bind_inv H. destruct a as [s1 ok]. injection H as <- _. eauto.
Qed.

(* the three exits: the reason is there already; the block is invalid already and only gets the flag;
   the block is valid, the tip moves off it, it gets the flag, its subtree is marked, tips, updateTips *)
Lemma invalidate_Done s id r ord s' : invalidate s id r ord = Done s' ->
  exists x pp, find_blk id (blocks s) = Some x /\ deleted (bst x) = false /\ bparent x = Some pp /\
    (has_reason r (bst x) = true /\ s' = s \/
     has_reason r (bst x) = false /\
     (is_valid L_TREE (bst x) = false /\
        s' = mkTree (tkind s) (upd id (set_reason r true) (blocks s)) (set_remove id (tips s)) (tip s) (applied s) \/
      is_valid L_TREE (bst x) = true /\
        exists s1, (if on_chain s id then set_state_to s pp else Done s) = Done s1 /\
          let l1 := upd id (set_reason r true) (blocks s1) in
          let l2 := fst (gpass (set_fchild true) failed id l1) in
          s' = update_tips (mkTree (tkind s) l2 (try_add_tip (tkind s) l2
                 (filter (fun t => negb (memN t (snd (mark_pass id l1)))) (set_remove id (tips s1))) pp)
                 (tip s1) (applied s1)) ord)).
Proof.
  unfold invalidate. destruct (find_blk id (blocks s)) as [x|]; [|discriminate].
  destruct (deleted (bst x)) eqn:D; [discriminate|]. destruct (bparent x) as [pp|] eqn:P; [|discriminate].
  intros E. exists x, pp. split; [reflexivity|]. split; [exact D|]. split; [exact P|].
  destruct (has_reason r (bst x)); [injection E as <-; auto|]. right. split; [reflexivity|].
  bind_inv E. destruct (is_valid L_TREE (bst x)); simpl in E; [right|left]; (split; [reflexivity|]).
  - destruct (if on_chain s id then set_state_to s pp else Done s) as [s1| |]; try discriminate. simpl in E.
    exists s1. split; [reflexivity|]. cbv zeta.
    pose proof (mark_pass_gpass id (upd id (set_reason r true) (blocks s1))) as [G _].
    destruct (mark_pass id _) as [[l2 c] vs]. simpl in G |- *. subst l2. injection E as <-. reflexivity.
  - injection E as <-. reflexivity.
Qed.

Lemma revalidate_core_blocks s id r :
  blocks (revalidate_core s id r) =
  match find_blk id (blocks s) with
  | Some x =>
    if has_reason r (bst x) then
      let l1 := upd id (set_reason r false) (blocks s) in
      if has_other_failure r (bst x) then l1 else fst (gpass (set_fchild false) reval_stop id l1)
    else blocks s
  | None => blocks s
  end.
Proof.
  unfold revalidate_core. destruct (find_blk id (blocks s)) as [x|]; auto.
  destruct (has_reason r (bst x)); simpl; auto. destruct (has_other_failure r (bst x)); simpl; auto.
  set (l1 := upd id (set_reason r false) (blocks s)). set (tps := try_add_tip (tkind s) l1 (tips s) id).
  pose proof (reval_pass_gpass (tkind s) l1 id l1 tps) as [G _].
  destruct (reval_pass (tkind s) l1 id l1 tps) as [[l2 tp] c]. exact G.
Qed.

(* revalidateSubtree = its core, followed by updateTips unless another failure remains (or nothing was done) *)
Lemma revalidate_Done s id r ord s' : revalidate s id r ord = Done s' ->
  s' = revalidate_core s id r \/ s' = update_tips (revalidate_core s id r) ord.
Proof.
  unfold revalidate, revalidate_core. destruct (find_blk id (blocks s)) as [x|]; [|discriminate].
  destruct (deleted (bst x)); [discriminate|]. destruct (bparent x); [|discriminate].
  destruct (negb (has_reason r (bst x))); [|destruct (has_other_failure r (bst x))]; intros [= <-]; auto.
Qed.

(* setState(prev) if the block is on the best chain, deleteTemporarily on the subtree, tips, updateTips *)
Lemma remove_subtree_Done s id ord s' : remove_subtree s id ord = Done s' ->
  exists x p s1, find_blk id (blocks s) = Some x /\ deleted (bst x) = false /\ bparent x = Some p /\
    (if on_chain s id then set_state_to s p else Done s) = Done s1 /\
    let l2 := fst (remove_pass id (blocks s1)) in
    let s2 := mkTree (tkind s) l2 (try_add_tip (tkind s) l2
                (filter (fun t => negb (memN t (snd (remove_pass id (blocks s1))))) (tips s1)) p) (tip s1) (applied s1) in
    s' = s2 \/ s' = update_tips s2 ord.
Proof.
  unfold remove_subtree. destruct (find_blk id (blocks s)) as [x|]; [|discriminate].
  destruct (deleted (bst x)) eqn:D; [discriminate|]. destruct (bparent x) as [p|] eqn:P; [|discriminate].
  intros E. bind_inv E. exists x, p, a. cbv zeta. destruct (remove_pass id (blocks a)) as [l2 vs].
  injection E as <-. destruct (on_chain s id); auto 10.
Qed.

(* R relates block stores of the same skeleton, is reflexive and transitive.  If R contains the two elementary steps of
   the ALT state machine, it contains setState and every operation built from it; if it contains a change of the reason
   flags of one block and the FAILED_CHILD traversals, it contains revalidateSubtree and invalidateSubtree. *)
Section Closure.
  Variable R : list blk -> list blk -> Prop.
  Hypothesis R_refl : forall l, R l l.
  Hypothesis R_trans : forall a b c, R a b -> R b c -> R a c.
  Hypothesis R_skel : forall l l', R l l' -> same_skel l l'.

  Hypothesis R_unapply : forall id l, R l (upd id (set_active false) l).
  Hypothesis R_apply : forall l id x u c b, wf l -> find_blk id l = Some x -> is_valid L_CONNECTED (bst x) = true ->
    raise_validity l x u = Done (c, b) -> R l (upd id (fun _ => set_active true c) l).

  Lemma unapply_list_R ids : forall l ap l' ap', unapply_list (l, ap) ids = Done (l', ap') -> R l l'.
  Proof.
    induction ids as [|i r IH]; simpl; intros l ap l' ap' H; [inversion H; auto|].
    bind_inv H. destruct a as [l1 ap1]. rewrite (unapply_block_Done _ _ _ _ _ E) in H. eauto.
  Qed.

  Lemma apply_list_R ids : forall l ap dn l' ap' ok, wf l -> apply_list (l, ap) dn ids = Done (l', ap', ok) -> R l l'.
  Proof.
    induction ids as [|i r IH]; simpl; intros l ap dn l' ap' ok W H; [inversion H; auto|].
    bind_inv H. destruct a as [[l1 ap1] ok1].
    assert (R1 : R l l1) by (destruct (apply_block_Done _ _ _ _ _ _ E) as [->|(x & u & c & b & F & V & RV & ->)]; eauto).
    destruct ok1.
    - eapply R_trans; [exact R1|]. eapply IH; eauto. eapply same_skel_wf; eauto.
    - bind_inv H. destruct a as [l2 ap2]. inversion H; subst. eapply unapply_list_R; eauto.
  Qed.

  Lemma sm_set_state_R l ap from to l' ap' ok : wf l -> sm_set_state (l, ap) from to = Done (l', ap', ok) -> R l l'.
  Proof.
    assert (A : forall l ap from to l' ap' ok, wf l -> sm_apply (l, ap) from to = Done (l', ap', ok) -> R l l').
    { clear l ap from to l' ap' ok. intros l ap from to l' ap' ok W. unfold sm_apply.
      destruct (from =? to)%N; [intros H; inversion H; auto|].
      simpl. destruct (st_of l to) as [ts|]; [|discriminate].
      destruct (negb (is_valid L_TREE ts)); [intros H; inversion H; auto|apply apply_list_R; auto]. }
    intros W. unfold sm_set_state. destruct (from =? to)%N; [intros H; inversion H; auto|].
    simpl. destruct (fork_of l from to); [|discriminate]. intros H.
    bind_inv H. destruct a as [l1 ap1]. pose proof (unapply_list_R _ _ _ _ _ E) as R1.
    pose proof (same_skel_wf _ _ (R_skel _ _ R1) W) as W1.
    bind_inv H. destruct a as [[l2 ap2] ok2]. pose proof (A _ _ _ _ _ _ _ W1 E0) as R2.
    destruct ok2; [inversion H; subst; eauto|].
    bind_inv H. destruct a as [[l3 ap3] ok3]. bind_inv H. inversion H; subst.
    eapply R_trans; [exact R1|]. eapply R_trans; [exact R2|]. eapply A; eauto. eapply same_skel_wf; eauto.
  Qed.

  Lemma alt_set_state_R s to s1 ok : wf (blocks s) -> alt_set_state s to = Done (s1, ok) ->
    R (blocks s) (blocks s1) /\ tips s1 = tips s /\ tkind s1 = tkind s.
  Proof.
    intros W. unfold alt_set_state.
    destruct (find_blk (tip s) (blocks s)); [|discriminate]. destruct (find_blk to (blocks s)); [|discriminate].
    intros H. repeat bind_inv H.
    match goal with E : sm_set_state _ _ _ = Done ?a |- _ => destruct a as [[l1 ap1] ok1];
      pose proof (sm_set_state_R _ _ _ _ _ _ _ W E) as F end.
    destruct (st_of l1 to); [|discriminate]. destruct ok1; repeat bind_inv H; inversion H; subst; simpl; auto.
  Qed.

  Lemma alt_set_R s id s' res : wf (blocks s) -> alt_set s id = Done (s', res) ->
    R (blocks s) (blocks s') /\ tips s' = tips s /\ tkind s' = tkind s.
  Proof. intros W E. destruct (alt_set_Done _ _ _ _ E) as [ok E1]. eapply alt_set_state_R; eauto. Qed.

  Lemma off_chain_R (on : bool) s to s1 : wf (blocks s) -> (if on then set_state_to s to else Done s) = Done s1 ->
    R (blocks s) (blocks s1) /\ tips s1 = tips s /\ tkind s1 = tkind s.
  Proof.
    intros W. destruct on; [|intros H; inversion H; auto]. unfold set_state_to. destruct (tkind s) eqn:K.
    - intros H. bind_inv H. destruct a as [s2 ok]. bind_inv H. inversion H; subst. rewrite <- K.
      eapply alt_set_state_R; eauto.
    - intros H; inversion H; auto.
  Qed.

  Hypothesis R_reason : forall id r b l, R l (upd id (set_reason r b) l).
  Hypothesis R_fchild : forall v stop t l, R l (fst (gpass (set_fchild v) stop t l)).

  Lemma revalidate_core_R s id r : R (blocks s) (blocks (revalidate_core s id r)).
  Proof.
    rewrite revalidate_core_blocks. destruct (find_blk id (blocks s)) as [x|]; auto.
    destruct (has_reason r (bst x)); auto. destruct (has_other_failure r (bst x)); simpl; eauto.
  Qed.

  Lemma revalidate_R s id r ord s' : revalidate s id r ord = Done s' -> R (blocks s) (blocks s').
  Proof.
    intros E. destruct (maybe_update_tips _ _ _ (revalidate_Done _ _ _ _ _ E)) as (-> & _). apply revalidate_core_R.
  Qed.

  Lemma invalidate_flags_R s id r ord s' : invalidate s id r ord = Done s' ->
    exists (on : bool) pp s1, (if on then set_state_to s pp else Done s) = Done s1 /\ R (blocks s1) (blocks s').
  Proof.
    intros E. destruct (invalidate_Done _ _ _ _ _ E) as (x & pp & _ & _ & _ & [[_ ->]|[_ [[_ ->]|(_ & s1 & E1 & ->)]]]).
    - exists false, pp, s. auto.
    - exists false, pp, s. simpl. auto.
    - exists (on_chain s id), pp, s1. split; auto. rewrite (proj1 (update_tips_blocks _ ord)). simpl. eauto.
  Qed.

  Lemma invalidate_R s id r ord s' : wf (blocks s) -> invalidate s id r ord = Done s' -> R (blocks s) (blocks s').
  Proof.
    intros W E. destruct (invalidate_flags_R _ _ _ _ _ E) as (on & pp & s1 & E1 & R2).
    destruct (off_chain_R _ _ _ _ W E1) as [R1 _]. eauto.
  Qed.
End Closure.

Lemma fl_unapply id l : fl_eq l (upd id (set_active false) l).
Proof. apply upd_fl_eq, keeps_set_active. Qed.
Lemma fl_apply l id x u c b : wf l -> find_blk id l = Some x -> is_valid L_CONNECTED (bst x) = true ->
  raise_validity l x u = Done (c, b) -> fl_eq l (upd id (fun _ => set_active true c) l).
Proof. intros W F _ RV. exact (upd_const_fl_eq l id x (set_active true c) W F (raise_validity_fl _ _ _ _ _ RV)). Qed.
Definition alt_set_state_fl := alt_set_state_R fl_eq fl_eq_refl fl_eq_trans fl_eq_skel fl_unapply fl_apply.
Definition move_tip_fl := off_chain_R fl_eq fl_eq_refl fl_eq_trans fl_eq_skel fl_unapply fl_apply.

Definition invalidate_skel := invalidate_R same_skel same_skel_refl same_skel_trans (fun _ _ H => H)
  (fun id l => upd_skel id _ l) (fun l id _ _ c _ _ _ _ _ => upd_skel id _ l) (fun id r b l => upd_skel id _ l)
  (fun v stop t l => gpass_skel _ stop t l).
Definition revalidate_core_skel := revalidate_core_R same_skel same_skel_refl same_skel_trans
  (fun id r b l => upd_skel id _ l) (fun v stop t l => gpass_skel _ stop t l).

Lemma set_reason_fchild r b s : fchild (set_reason r b s) = fchild s.
Proof. destruct r; reflexivity. Qed.
Lemma set_reason_true_failed r s : failed (set_reason r true s) = true.
Proof. destruct r; unfold failed; simpl; [reflexivity | rewrite orb_true_r; reflexivity]. Qed.
Lemma has_reason_set r b s : has_reason r (set_reason r b s) = b.
Proof. destruct r; reflexivity. Qed.
Lemma has_reason_set_other r r' b s : r' <> r -> has_reason r' (set_reason r b s) = has_reason r' s.
Proof. destruct r, r'; simpl; auto; congruence. Qed.
Lemma own_flags_by_reason r s s' : has_reason r s = has_reason r s' ->
  (forall r', r' <> r -> has_reason r' s = has_reason r' s') -> fblock s = fblock s' /\ fpop s = fpop s'.
Proof.
  intros H O. destruct r; [specialize (O RPop) | specialize (O RBlock)]; simpl in *; split; auto; apply O; discriminate.
Qed.
Lemma has_reason_failed r s : has_reason r s = true -> failed s = true.
Proof. unfold failed. destruct r; simpl; intros ->; [reflexivity | rewrite orb_true_r; reflexivity]. Qed.
Lemma failed_unset_reason r s : failed (set_reason r false s) = has_other_failure r s.
Proof.
  destruct r; unfold failed, has_other_failure; simpl.
  - reflexivity.
  - destruct (fblock s), (fchild s); reflexivity.
Qed.
Lemma failed_unset_le r s : failed (set_reason r false s) = true -> failed s = true.
Proof. unfold failed. destruct r; simpl; destruct (fblock s), (fpop s), (fchild s); auto. Qed.

Lemma lvP_set_reason r b s : lvP s -> deleted s = false -> lvP (set_reason r b s).
Proof. unfold lvP. destruct r; simpl; intros [H1 H2] D; split; auto; rewrite D; discriminate. Qed.
Lemma lvP_unset_reason r s : lvP s -> lvP (set_reason r false s).
Proof. unfold lvP. destruct r; simpl; intros [H1 H2]; split; auto. Qed.
Lemma lvP_set_fchild b s : lvP s -> lvP (set_fchild b s).
Proof. intros [H1 H2]; split; auto. Qed.

Lemma unset_reason_fl_le id r l : fl_le l (upd id (set_reason r false) l).
Proof.
  apply upd_Forall2; [tauto|]. intros y _ _. simpl. split; [reflexivity|].
  split; [apply failed_unset_le|]. split; [symmetry; apply set_reason_fchild | apply lvP_unset_reason].
Qed.

(* a live block that is not valid is failed: setting another reason on it changes no block's failed-ness *)
Lemma invalid_set_reason_fl_le s id r x : Inv_flags s -> find_blk id (blocks s) = Some x -> deleted (bst x) = false ->
  is_valid L_TREE (bst x) = false -> fl_le (blocks s) (upd id (set_reason r true) (blocks s)).
Proof.
  intros I Fx Dx V. pose proof (lv_ok_find _ _ _ (i_lv s I) Fx) as Lx.
  apply (upd_Forall2_at _ _ id x _ (i_wf s I) Fx); [tauto|]. simpl. split; [reflexivity|]. split.
  - intros _. rewrite (live_valid_tree _ Lx Dx) in V. destruct (failed (bst x)); [reflexivity|discriminate].
  - split; [symmetry; apply set_reason_fchild|]. intros _. apply lvP_set_reason; auto.
Qed.

(* after the own flags of t changed, the children of t are the only place where the store may be inconsistent *)
Lemma upd_pre_ok v t g l x : wf l -> fl_ok l -> find_blk t l = Some x -> (forall s, fchild (g s) = fchild s) ->
  failed (g (bst x)) = v -> pre_ok v t (upd t g l).
Proof.
  intros W F Fx G V p x' q y' Fp' Q Fq'. rewrite find_upd in Fp', Fq'.
  destruct (find_blk p l) as [x0|] eqn:Fp; [|discriminate]. destruct (find_blk q l) as [y0|] eqn:Fq; [|discriminate].
  injection Fp' as <-. injection Fq' as <-.
  assert (Q0 : bparent x0 = Some q) by (destruct (bid x0 =? t)%N; exact Q).
  rewrite (find_blk_bid _ _ _ Fq). destruct (N.eqb_spec q t) as [->|N].
  - rewrite Fx in Fq. injection Fq as <-. exact V.
  - intros Fd. replace (fchild _) with (fchild (bst x0)) by (destruct (bid x0 =? t)%N; simpl; auto).
    exact (fl_ok_find l W F p x0 q y0 Fp Q0 Fq Fd).
Qed.

Theorem invalidate_inv s id r ord s' : Inv_flags s -> invalidate s id r ord = Done s' -> Inv_flags s'.
Proof.
  intros I E. pose proof I as [W _ F L]. destruct (invalidate_Done _ _ _ _ _ E)
    as (x & pp & Fx & Dx & _ & [(_ & ->) | (_ & [(V & ->) | (_ & s1 & ES & ->)])]); auto.
  - apply (inv_of_fl_le_tree s _ I). exact (invalid_set_reason_fl_le s id r x I Fx Dx V).
  - destruct (move_tip_fl _ _ _ _ W ES) as [FE _].
    pose proof (inv_of_fl_eq_tree s s1 I FE) as I1. pose proof I1 as [W1 _ F1 L1].
    destruct (fl_eq_sym_flags _ _ FE id x Fx) as (x1 & Fx1 & _ & _ & _ & _ & Dx1).
    eapply inv_same_blocks; [apply update_tips_blocks|]. apply (inv_same_skel s1 _ I1); simpl.
    + eapply same_skel_trans; [apply upd_skel|apply gpass_skel].
    + apply mark_fl_ok; [exact (same_skel_wf _ _ (upd_skel _ _ _) W1)|].
      apply (upd_pre_ok _ _ _ _ x1); auto using set_reason_fchild, set_reason_true_failed.
    + apply gpass_lv; [exact (lvP_set_fchild true)|]. apply (upd_lv _ _ x1); auto.
      apply lvP_set_reason; [exact (lv_ok_find _ _ _ L1 Fx1) | congruence].
Qed.

Lemma revalidate_core_tip s id r : tip (revalidate_core s id r) = tip s.
Proof.
  unfold revalidate_core. destruct (find_blk id (blocks s)); auto.
  destruct (negb (has_reason r (bst b))); auto.
  destruct (has_other_failure r (bst b)); auto.
  destruct (reval_pass _ _ _ _ _) as [[? ?] ?]. reflexivity.
Qed.

Lemma revalidate_core_inv s id r : Inv_flags s -> Inv_flags (revalidate_core s id r).
Proof.
  intros I. pose proof I as [W _ F _].
  apply (inv_same_blocks (with_blocks s (blocks (revalidate_core s id r)))); [reflexivity|].
  rewrite revalidate_core_blocks. destruct (find_blk id (blocks s)) as [x|] eqn:Fx; [|destruct s; exact I].
  destruct (has_reason r (bst x)) eqn:HR; [|destruct s; exact I].
  pose proof (inv_of_fl_le_tree s (with_blocks s _) I (unset_reason_fl_le id r (blocks s))) as I1.
  destruct (has_other_failure r (bst x)) eqn:HO; [exact I1|]. pose proof I1 as [W1 _ _ L1].
  apply (inv_same_skel _ _ I1); simpl.
  - apply gpass_skel.
  - apply reval_fl_ok; [exact W1|]. apply (upd_pre_ok _ _ _ _ x); auto using set_reason_fchild.
    rewrite failed_unset_reason. exact HO.
  - apply gpass_lv; [exact (lvP_set_fchild false) | exact L1].
Qed.

Lemma gpass_unmark_mono stop t l : wf l -> mono l (fst (gpass (set_fchild false) stop t l)).
Proof.
  intros W p y F. destruct (gpass_find (set_fchild false) stop t l W p y F) as [G _].
  eexists; split; [exact G|]. destruct (vis _ y); auto.
  unfold failed. simpl. rewrite orb_false_r. intros ->. reflexivity.
Qed.

Lemma revalidate_core_mono s id r : wf (blocks s) -> mono (blocks s) (blocks (revalidate_core s id r)).
Proof.
  intros W. rewrite revalidate_core_blocks. destruct (find_blk id (blocks s)) as [x|]; [|apply mono_refl].
  destruct (has_reason r (bst x)); [|apply mono_refl].
  pose proof (unset_reason_fl_le id r (blocks s)) as M1.
  destruct (has_other_failure r (bst x)); simpl; [exact (fl_le_mono _ _ M1)|].
  eapply mono_trans; [exact (fl_le_mono _ _ M1)|].
  apply gpass_unmark_mono. exact (same_skel_wf _ _ (fl_le_skel _ _ M1) W).
Qed.

Theorem revalidate_inv s id r ord s' : Inv_flags s -> revalidate s id r ord = Done s' -> Inv_flags s'.
Proof.
  intros I E. pose proof (revalidate_core_inv s id r I) as I1.
  destruct (revalidate_Done _ _ _ _ _ E) as [-> | ->]; [exact I1|].
  exact (inv_same_blocks _ _ (proj1 (update_tips_blocks _ _)) I1).
Qed.

Theorem alt_set_inv s id s' res : Inv_flags s -> alt_set s id = Done (s', res) -> Inv_flags s'.
Proof.
  intros I E. destruct (alt_set_Done _ _ _ _ E) as [ok E1].
  exact (inv_of_fl_eq_tree s s' I (proj1 (alt_set_state_fl _ _ _ _ (i_wf s I) E1))).
Qed.

(* removeSubtree: deleteTemporarily keeps FAILED_BLOCK / FAILED_CHILD and drops FAILED_POP *)
Lemma remove_pass_fl_le t l : fl_le l (fst (remove_pass t l)).
Proof.
  induction l as [|x r IH]; simpl; [constructor|].
  destruct (remove_pass t r) as [o v]. simpl in IH.
  destruct ((bid x =? t)%N || (match bparent x with Some p => memN p v | None => false end && negb (deleted (bst x))));
    simpl; constructor; auto.
  split; [reflexivity|]. split; [|split; [reflexivity|]].
  - unfold failed; simpl. destruct (fblock (bst x)), (fpop (bst x)), (fchild (bst x)); auto.
  - intros _. split; simpl; [discriminate|reflexivity].
Qed.

Theorem remove_subtree_inv s id ord s' : Inv_flags s -> remove_subtree s id ord = Done s' -> Inv_flags s'.
Proof.
  intros I E. destruct (remove_subtree_Done _ _ _ _ E) as (x & p & s1 & _ & _ & _ & ES & D).
  destruct (move_tip_fl _ _ _ _ (i_wf s I) ES) as [FE _].
  apply (inv_same_blocks (with_blocks s1 (fst (remove_pass id (blocks s1))))).
  - destruct D as [-> | ->]; [reflexivity | exact (proj1 (update_tips_blocks _ _))].
  - apply (inv_of_fl_le_tree s1); [exact (inv_of_fl_eq_tree s s1 I FE) | apply remove_pass_fl_le].
Qed.

Lemma lvP_root : lvP st_root.
Proof. split; simpl; [intros _; unfold L_APPLIED; lia | discriminate]. Qed.
Lemma alt_init_inv h : Inv_flags (alt_init h).
Proof. constructor; simpl; auto. repeat constructor; apply lvP_root. Qed.
Lemma pow_init_inv h w : Inv_flags (pow_init h w).
Proof. constructor; simpl; auto. repeat constructor; apply lvP_root. Qed.

Theorem failed_parent_failed_child s : Inv_flags s -> forall p x q y,
  find_blk p (blocks s) = Some x -> bparent x = Some q -> find_blk q (blocks s) = Some y ->
  failed (bst y) = true -> fchild (bst x) = true.
Proof. intros [W _ F _]. exact (fl_ok_find _ W F). Qed.

Theorem valid_parent_not_failed s : Inv_flags s -> forall p x q y,
  find_blk p (blocks s) = Some x -> bparent x = Some q -> find_blk q (blocks s) = Some y ->
  is_valid L_TREE (bst x) = true -> failed (bst y) = false.
Proof.
  intros I p x q y Fx Px Fy V. destruct (failed (bst y)) eqn:Fd; auto.
  pose proof (failed_parent_failed_child s I p x q y Fx Px Fy Fd) as C.
  apply valid_not_failed in V. unfold failed in V. rewrite C, orb_true_r in V. discriminate.
Qed.

(* the operations of this file, lifted over arbitrary interleavings *)
Definition flag_op (o : op) : Prop :=
  match o with OInv _ _ _ | OReval _ _ _ | ORm _ _ | OSet _ => True | _ => False end.

Lemma step_out_Done s o s' res : step_out s o = Done (s', res) ->
  match o with
  | OHdr id p w => match tkind s with ALT => alt_hdr s id p | POW => pow_hdr s id p w end = Done (s', res)
  | OBody id => tkind s = ALT /\ alt_body s id = Done (s', res)
  | OSet id => tkind s = ALT /\ alt_set s id = Done (s', res)
  | OInv id r ord => invalidate s id r ord = Done s'
  | OReval id r ord => revalidate s id r ord = Done s'
  | ORm id ord => remove_subtree s id ord = Done s'
  | ORmpl id => tkind s = ALT /\ alt_rmpl s id = Done s'
  end.
Proof.
  unfold step_out. destruct o, (tkind s); try discriminate; auto; intros E; bind_inv E; injection E as <- _; auto.
Qed.

Lemma flag_op_inv s o s' res : Inv_flags s -> flag_op o -> step_out s o = Done (s', res) -> Inv_flags s'.
Proof.
  intros I FO E. apply step_out_Done in E. destruct o; try contradiction.
  - exact (alt_set_inv s id s' res I (proj2 E)).
  - exact (invalidate_inv s id r ord s' I E).
  - exact (revalidate_inv s id r ord s' I E).
  - exact (remove_subtree_inv s id ord s' I E).
Qed.

Theorem step_inv_partial s o : Inv_flags s -> flag_op o -> Inv_flags (step s o).
Proof.
  intros I FO. unfold step. destruct (step_out s o) as [[s1 r]| |] eqn:E; eauto using flag_op_inv.
Qed.

Theorem run_inv_partial ops : Forall flag_op ops -> forall s, Inv_flags s -> Inv_flags (run s ops).
Proof.
  unfold run. induction 1 as [|o r Ho Hr IH]; simpl; intros s I; auto.
  apply IH. apply step_inv_partial; auto.
Qed.

(* non-vacuity: a concrete history (PoW tree: 0 <- 1 <- 2, 0 <- 3) with nested invalidations *)
Example run_example :
  let s0 := step (step (step (pow_init 0 1) (OHdr 1 0 1)) (OHdr 2 1 1)) (OHdr 3 0 1) in
  let s1 := run s0 [OInv 1 RBlock [3%N; 2%N]; OInv 2 RPop []; OReval 1 RBlock [2%N; 3%N]] in
  map (fun b => (bid b, encode (bst b))) (blocks s1) = [(3, 2); (2, 66); (1, 2); (0, 532)]%N /\ tip s1 = 3%N.
Proof. vm_compute. split; reflexivity. Qed.
