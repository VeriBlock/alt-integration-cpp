(** Tree/TreePass — the traversal passes of invalidateSubtree / revalidateSubtree as one generic pass,
    its pointwise characterisation, and what it does to the flag invariant. *)
From Coq Require Import ZArith NArith List Bool.
From VB Require Import Tree.TreeDefs Tree.TreeInv.
Import ListNotations.

(* visit x iff its parent is in cont; apply f; continue below x unless stop (old status) *)
Fixpoint gpass (f : status -> status) (stop : status -> bool) (t : N) (l : list blk) : list blk * list N :=
  match l with
  | [] => ([], [t])
  | x :: older =>
    let '(older', cont) := gpass f stop t older in
    if vis cont x
    then (with_st x (f (bst x)) :: older', if stop (bst x) then cont else bid x :: cont)
    else (x :: older', cont)
  end.

Lemma mark_pass_gpass t l :
  fst (fst (mark_pass t l)) = fst (gpass (set_fchild true) failed t l) /\
  snd (fst (mark_pass t l)) = snd (gpass (set_fchild true) failed t l).
Proof.
  induction l as [|x r IH]; simpl; auto.
  destruct (mark_pass t r) as [[o c] v]. destruct (gpass (set_fchild true) failed t r) as [o' c'].
  simpl in IH. destruct IH as [-> ->]. unfold vis.
  destruct (match bparent x with Some p => memN p c' | None => false end); simpl; auto.
Qed.

Definition reval_stop (s : status) : bool := failed (set_fchild false s).

Lemma reval_pass_gpass k l0 t l tps :
  fst (fst (reval_pass k l0 t l tps)) = fst (gpass (set_fchild false) reval_stop t l) /\
  snd (reval_pass k l0 t l tps) = snd (gpass (set_fchild false) reval_stop t l).
Proof.
  induction l as [|x r IH]; simpl; auto.
  destruct (reval_pass k l0 t r tps) as [[o tp] c]. destruct (gpass (set_fchild false) reval_stop t r) as [o' c'].
  simpl in IH. destruct IH as [-> ->]. unfold vis.
  destruct (match bparent x with Some p => memN p c' | None => false end); simpl; auto.
Qed.

Lemma gpass_skel f stop t l : same_skel l (fst (gpass f stop t l)).
Proof.
  unfold same_skel. induction l as [|x r IH]; simpl; auto.
  destruct (gpass f stop t r) as [o c]. simpl in IH.
  destruct (vis c x); simpl; rewrite <- IH; reflexivity.
Qed.

Lemma gpass_lv f stop t l : (forall s, lvP s -> lvP (f s)) -> lv_ok l -> lv_ok (fst (gpass f stop t l)).
Proof.
  intros K. unfold lv_ok. induction 1 as [|x r Hx Hr IH]; simpl; [constructor|].
  destruct (gpass f stop t r) as [o c]. simpl in IH.
  destruct (vis c x); simpl; constructor; auto. simpl. auto.
Qed.

Lemma gpass_cont_fresh f stop t l c : find_blk c l = None -> memN c (snd (gpass f stop t l)) = (c =? t)%N.
Proof.
  induction l as [|x r IH]; simpl; [intros _; apply orb_false_r|].
  destruct (N.eqb_spec (bid x) c) as [E|E]; [discriminate|]. intros F. specialize (IH F).
  destruct (gpass f stop t r) as [o ct]. simpl in IH.
  destruct (vis ct x); simpl; auto. destruct (stop (bst x)); auto.
  rewrite memN_cons. destruct (N.eqb_spec c (bid x)); [congruence|exact IH].
Qed.

Lemma gpass_find f stop t : forall l, wf l -> forall p y, find_blk p l = Some y ->
  find_blk p (fst (gpass f stop t l)) =
    Some (if vis (snd (gpass f stop t l)) y then with_st y (f (bst y)) else y)
  /\ memN p (snd (gpass f stop t l)) = (p =? t)%N || (vis (snd (gpass f stop t l)) y && negb (stop (bst y))).
Proof.
  induction l as [|x r IH]; intros W p y F; [discriminate|].
  (* the head is no parent of y: whether y is visited was decided before the head was reached *)
  assert (V : forall ct, vis (bid x :: ct) y = vis ct y).
  { intros ct. unfold vis. destruct (bparent y) as [q|] eqn:Q; auto. rewrite memN_cons.
    destruct (N.eqb_spec q (bid x)) as [E|]; auto. exfalso. exact (wf_parent_tail x r p y q W F Q (eq_sym E)). }
  pose proof (gpass_cont_fresh f stop t r (bid x) (proj1 (proj2 W))) as HX.
  specialize (IH (wf_tail _ _ W) p). simpl in F |- *.
  destruct (gpass f stop t r) as [o ct]. simpl in IH, HX.
  destruct (N.eqb_spec (bid x) p) as [E|E].
  - injection F as <-. subst p.
    destruct (vis ct x) eqn:Vx; [destruct (stop (bst x))|]; simpl;
      rewrite N.eqb_refl, ?V, Vx, ?HX, ?orb_true_r, ?orb_false_r; auto.
  - destruct (IH y F) as [IH1 IH2].
    assert (E1 : (bid x =? p)%N = false) by (apply N.eqb_neq; exact E).
    assert (E2 : (p =? bid x)%N = false) by (rewrite N.eqb_sym; exact E1).
    destruct (vis ct x); [destruct (stop (bst x))|]; simpl; rewrite E1, ?V, ?E2; auto.
Qed.

Lemma gpass_find_inv f stop t l : wf l -> forall p y', find_blk p (fst (gpass f stop t l)) = Some y' ->
  exists y, find_blk p l = Some y /\ y' = if vis (snd (gpass f stop t l)) y then with_st y (f (bst y)) else y.
Proof.
  intros W p y' F'. pose proof (same_skel_find _ _ (gpass_skel f stop t l) p) as S. rewrite F' in S.
  destruct (find_blk p l) as [y|] eqn:F; [|contradiction].
  exists y. split; auto. destruct (gpass_find f stop t l W p y F) as [H _]. congruence.
Qed.

Section FlagPass.
  Variable v : bool.                      (* FAILED_CHILD value written: true = invalidate, false = revalidate *)
  Variable f : status -> status.
  Variable stop : status -> bool.
  Hypothesis A1 : forall s, fchild (f s) = v.
  Hypothesis A2 : forall s, stop s = false -> failed (f s) = v.
  Hypothesis A3 : forall s, stop s = true -> failed (f s) = failed s.

  (* the store is consistent everywhere except at the children of t, whose parent (t) has failed-ness v *)
  Definition pre_ok (t : N) (l : list blk) : Prop :=
    forall p x q y, find_blk p l = Some x -> bparent x = Some q -> find_blk q l = Some y ->
      if (q =? t)%N then failed (bst y) = v else failed (bst y) = true -> fchild (bst x) = true.

  (* a child is visited iff its parent is t or was visited and did not stop the pass; in each case the flag
     written on the child is the failed-ness its parent ends up with *)
  Lemma gpass_fl_ok t l : wf l -> pre_ok t l -> fl_ok (fst (gpass f stop t l)).
  Proof.
    intros W H. apply fl_ok_intro; [exact (same_skel_wf _ _ (gpass_skel f stop t l) W)|].
    intros p x' q y' Fx' Q Fy'.
    destruct (gpass_find_inv f stop t l W p x' Fx') as (x & Fx & ->).
    destruct (gpass_find_inv f stop t l W q y' Fy') as (y & Fy & ->).
    assert (Qx : bparent x = Some q) by (destruct (vis _ x); exact Q).
    destruct (gpass_find f stop t l W q y Fy) as [_ M]. specialize (H p x q y Fx Qx Fy).
    replace (vis (snd (gpass f stop t l)) x) with (memN q (snd (gpass f stop t l))) by (unfold vis; rewrite Qx; reflexivity).
    rewrite M. destruct (q =? t)%N; simpl.
    - rewrite A1. destruct (vis _ y); simpl; [|congruence].
      destruct (stop (bst y)) eqn:St; [rewrite A3 | rewrite A2]; auto; congruence.
    - destruct (vis _ y); simpl; auto.
      destruct (stop (bst y)) eqn:St; simpl; [rewrite A3 | rewrite A1, A2]; auto.
  Qed.
End FlagPass.

Lemma mark_fl_ok t l : wf l -> pre_ok true t l -> fl_ok (fst (gpass (set_fchild true) failed t l)).
Proof.
  apply gpass_fl_ok; intros s; auto.
  - intros H. unfold failed in *. simpl. rewrite orb_true_r. reflexivity.
  - intros H. unfold failed in *. simpl. rewrite orb_true_r. auto.
Qed.

Lemma reval_fl_ok t l : wf l -> pre_ok false t l -> fl_ok (fst (gpass (set_fchild false) reval_stop t l)).
Proof.
  apply gpass_fl_ok; intros s; auto.
  unfold reval_stop. intros H. rewrite H. unfold failed in *. simpl in *. rewrite orb_false_r in H.
  rewrite H. reflexivity.
Qed.
