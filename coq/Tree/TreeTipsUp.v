(** Tree/TreeTipsUp — the tips conjunct when ONE block becomes usable and tryAddTip runs on it ([tips_improve]); the
    traversals that do this block after block (doReValidate, connectBlock) as updates in the middle of the store
    ([visit_tips], [connect_pass_steps]); revalidateSubtree. *)
From Coq Require Import ZArith NArith List Bool.
From VB Require Import Tree.TreeDefs Tree.TreeInv Tree.TreeProofs Tree.TreeTips Tree.TreeTipsOps.
Import ListNotations.

Lemma tips_improve k l id x st' tps : wf l -> find_blk id l = Some x ->
  (can_be_tip k (bst x) = true -> can_be_tip k st' = true) ->
  (forall c y, find_blk c l = Some y -> bparent y = Some id -> can_be_tip k (bst y) = false) ->
  tips_ok k l tps ->
  tips_ok k (upd id (fun _ => st') l)
    (if can_be_tip k st' then set_add id (match bparent x with Some p => set_remove p tps | None => tps end) else tps).
Proof.
  intros W Fx IMP CH T. set (l' := upd id (fun _ => st') l).
  assert (SK : same_skel l l') by apply upd_skel. pose proof (same_skel_wf _ _ SK W) as W'.
  pose proof (find_upd_same id (fun _ => st') l x Fx) as Fx'. fold l' in Fx'.
  assert (C' : forall p, p <> id -> cbt k l' p = cbt k l p) by (intros p Np; unfold cbt, l'; rewrite find_upd_other; auto).
  assert (Cx : can_be_tip k st' = false -> can_be_tip k (bst x) = false).
  { intros B. destruct (can_be_tip k (bst x)); auto. rewrite IMP in B; auto. }
  assert (Sid : spec k l' id = can_be_tip k st').
  { unfold spec. rewrite Fx'. unfold is_valid_tip. simpl. rewrite (proj2 (nochild_spec k l' id W')); [apply andb_true_r|].
    intros c y' Fc' P'. destruct (skel_find _ _ c y' (same_skel_sym _ _ SK) Fc') as (y & Fc & Py). rewrite P' in Py.
    pose proof (C' c (fun E => wf_parent_ne l W c y id Fc Py (eq_sym E))) as E. unfold cbt in E. rewrite Fc, Fc' in E.
    rewrite E. eauto. }
  rewrite <- Sid. apply (tip_added k l' id (with_st x st') tps W' Fx').
  - intros q Nq NP. rewrite T. symmetry. apply spec_local; auto.
    intros c y Fc P. destruct (N.eq_dec c id) as [->|Nc]; auto.
    (* q is the parent of the block: the block is no valid tip then, and was not usable before *)
    rewrite Fx in Fc. inversion Fc; subst y. unfold cbt. rewrite Fx', Fx. simpl.
    destruct (can_be_tip k st') eqn:B; [exfalso; apply NP; auto|]. symmetry. auto.
  - intros S. rewrite T. apply spec_false. unfold cbt. rewrite Fx. rewrite Sid in S. auto.
Qed.

Lemma find_app c pre l : find_blk c (pre ++ l) = match find_blk c pre with Some y => Some y | None => find_blk c l end.
Proof.
  induction pre as [|z r IH]; simpl; auto. destruct (bid z =? c)%N; auto.
Qed.

Lemma wf_app_tail pre l : wf (pre ++ l) -> wf l.
Proof. induction pre as [|z r IH]; simpl; auto. intros (W & _ & _). auto. Qed.

Lemma wf_mid pre x r : wf (pre ++ x :: r) -> find_blk (bid x) pre = None.
Proof.
  induction pre as [|z p IH]; simpl; auto. intros (W & Hz & _).
  destruct (N.eqb_spec (bid z) (bid x)) as [E|E]; auto.
  exfalso. rewrite find_app in Hz. rewrite E in Hz. destruct (find_blk (bid x) p); [discriminate|].
  simpl in Hz. rewrite N.eqb_refl in Hz. discriminate.
Qed.

Lemma find_mid pre x r : wf (pre ++ x :: r) -> find_blk (bid x) (pre ++ x :: r) = Some x.
Proof. intros W. rewrite find_app, (wf_mid pre x r W). simpl. rewrite N.eqb_refl. reflexivity. Qed.

Lemma upd_mid pre x r f : wf (pre ++ x :: r) ->
  upd (bid x) f (pre ++ x :: r) = pre ++ with_st x (f (bst x)) :: r.
Proof.
  intros W. unfold upd. rewrite map_app. simpl. rewrite N.eqb_refl. f_equal.
  - pose proof (wf_mid pre x r W) as N. clear W. induction pre as [|z p IH]; simpl; auto.
    simpl in N. destruct (N.eqb_spec (bid z) (bid x)); [discriminate|]. f_equal. auto.
  - f_equal. pose proof (wf_app_tail pre _ W) as (_ & N & _). clear W.
    induction r as [|z p IH]; simpl; auto.
    simpl in N. destruct (N.eqb_spec (bid z) (bid x)); [discriminate|]. f_equal. auto.
Qed.

Lemma same_skel_mid pre x x' r r' : skel x' = skel x -> same_skel r r' -> same_skel (pre ++ x :: r) (pre ++ x' :: r').
Proof. unfold same_skel. intros K S. rewrite !map_app. simpl. congruence. Qed.

Lemma child_in_front pre x r c y : wf (pre ++ x :: r) -> find_blk c (pre ++ x :: r) = Some y ->
  bparent y = Some (bid x) -> find_blk c pre = Some y.
Proof.
  intros W F P. rewrite find_app in F. destruct (find_blk c pre); [exact F|]. exfalso.
  pose proof (wf_app_tail pre _ W) as Wt. simpl in F. destruct (N.eqb_spec (bid x) c) as [E|E].
  - inversion F; subst y. exact (wf_own_parent x r (bid x) Wt P eq_refl).
  - exact (wf_parent_found r (proj1 Wt) c y (bid x) F P (proj1 (proj2 Wt))).
Qed.

(* one step of a traversal: the block x in the middle of the store gets the status st'; tryAddTip reads its children
   from the store the traversal started with (the tail r not yet traversed): they are in front of x, untouched so far *)
Lemma visit_tips k pre x r r' st' tps : wf (pre ++ x :: r) -> same_skel r r' ->
  (forall c y, find_blk c (pre ++ x :: r) = Some y -> bparent y = Some (bid x) -> can_be_tip k (bst y) = false) ->
  (can_be_tip k (bst x) = true -> can_be_tip k st' = true) ->
  tips_ok k (pre ++ x :: r') tps ->
  tips_ok k (pre ++ with_st x st' :: r')
    (if is_valid_tip k (pre ++ x :: r) (bid x) st'
     then set_add (bid x) (match bparent x with Some p => set_remove p tps | None => tps end) else tps).
Proof.
  intros W0 SK CH0 IMP T.
  pose proof (same_skel_wf _ _ (same_skel_mid pre x x r r' eq_refl SK) W0) as Wm.
  unfold is_valid_tip. rewrite (proj2 (nochild_spec k _ (bid x) W0) CH0), andb_true_r.
  rewrite <- (upd_mid pre x r' (fun _ => st') Wm). apply tips_improve; auto using find_mid.
  intros c y Fc P. pose proof (child_in_front pre x r' c y Wm Fc P) as Fp.
  apply (CH0 c y); auto. rewrite find_app, Fp. reflexivity.
Qed.

(* acceptBlock's traversal as a sequence of connectBlock steps on the whole store: an invariant Q of (store, tips) that
   every such step keeps holds at the end *)
Lemma connect_pass_steps (Q : list blk -> list N -> Prop) l0 t :
  (forall pre x r r' tps x' tps', l0 = pre ++ x :: r -> same_skel r r' -> Q (pre ++ x :: r') tps ->
     connect_block l0 r' tps x = Done (x', tps') -> Q (pre ++ x' :: r') tps') ->
  forall l pre tps l' tps' c, l0 = pre ++ l -> Q l0 tps -> connect_pass l0 t l tps = Done (l', tps', c) ->
  Q (pre ++ l') tps' /\ same_skel l l'.
Proof.
  intros STEP. induction l as [|x r IH]; intros pre tps l' tps' c E Q0 CP; simpl in CP.
  - inversion CP; subst. split; [exact Q0|reflexivity].
  - bind_inv CP. destruct a as [[r' tps1] ct].
    destruct (IH (pre ++ [x]) tps r' tps1 ct) as (IQ & IS); auto; [rewrite <- app_assoc; exact E|].
    rewrite <- app_assoc in IQ. simpl in IQ.
    destruct (_ || _).
    + bind_inv CP. destruct a as [x' tp2]. inversion CP; subst l' tps' c. split; [eapply STEP; eauto|].
      destruct (connect_block_Done _ _ _ _ _ _ E1) as (-> & _). apply (same_skel_mid [] x _ r r'); auto.
    + inversion CP; subst l' tps' c. split; [exact IQ|]. apply (same_skel_mid [] x x r r'); auto.
Qed.

Section RevalPass.
  Variable k : kind.
  Variable t : N.
  Variable l0 : list blk.
  Hypothesis W0 : wf l0.
  (* the children of the target and of every failed block carry FAILED_CHILD *)
  Hypothesis HF : forall c y p, find_blk c l0 = Some y -> bparent y = Some p ->
    (p = t \/ exists yp, find_blk p l0 = Some yp /\ failed (bst yp) = true) -> fchild (bst y) = true.

  Lemma reval_pass_tips tps : tips_ok k l0 tps -> forall l pre, l0 = pre ++ l ->
    tips_ok k (pre ++ fst (fst (reval_pass k l0 t l tps))) (snd (fst (reval_pass k l0 t l tps))) /\
    same_skel l (fst (fst (reval_pass k l0 t l tps))) /\
    (forall q, memN q (snd (reval_pass k l0 t l tps)) = true ->
       q = t \/ exists y, find_blk q l0 = Some y /\ failed (bst y) = true).
  Proof.
    intros T. induction l as [|x r IH]; intros pre E.
    - simpl. rewrite app_nil_r in *. subst pre. split; auto. split; [reflexivity|].
      intros q H. rewrite orb_false_r in H. apply N.eqb_eq in H. auto.
    - destruct (IH (pre ++ [x])) as (IT & IS & IC); [rewrite <- app_assoc; exact E|]. clear IH.
      simpl. destruct (reval_pass k l0 t r tps) as [[r' tps1] ct]. simpl in IT, IS, IC.
      rewrite <- app_assoc in IT. simpl in IT.
      assert (Fx0 : find_blk (bid x) l0 = Some x) by (rewrite E; apply find_mid; rewrite <- E; exact W0).
      destruct (bparent x) as [p|] eqn:Px;
        [destruct (memN p ct) eqn:V|]; simpl; try (split; [exact IT|]; split; [apply (same_skel_mid [] x x r r'); auto|exact IC]).
      (* visited: x carries FAILED_CHILD, hence so do its children *)
      pose proof (fchild_failed _ (HF (bid x) x p Fx0 Px (IC p V))) as Cx.
      split; [|split].
      + pose proof (visit_tips k pre x r r' (set_fchild false (bst x)) tps1) as VT. rewrite Px, <- E in VT.
        apply VT; auto using can_be_tip_unfail. intros c y Fc P. apply can_be_tip_fchild, (HF c y (bid x) Fc P).
        right. exists x. auto.
      + apply (same_skel_mid [] x _ r r'); auto.
      + intros q Hq. destruct (failed (set_fchild false (bst x))); [apply IC, Hq|].
        simpl in Hq. apply orb_true_iff in Hq. destruct Hq as [Hq|Hq]; [|apply IC, Hq].
        apply N.eqb_eq in Hq. subst q. right. exists x. auto.
  Qed.
End RevalPass.

Lemma upd_const_eq l id x f : wf l -> find_blk id l = Some x -> upd id f l = upd id (fun _ => f (bst x)) l.
Proof.
  intros W F. unfold upd. apply map_ext_in. intros y Hy.
  destruct (N.eqb_spec (bid y) id) as [E|E]; auto.
  pose proof (wf_In_find l W y Hy) as F2. rewrite E, F in F2. inversion F2; subst. reflexivity.
Qed.

Theorem revalidate_core_tips_ok s id r : Inv_flags s -> tips_ok (tkind s) (blocks s) (tips s) ->
  tips_ok (tkind s) (blocks (revalidate_core s id r)) (tips (revalidate_core s id r)) /\
  tkind (revalidate_core s id r) = tkind s.
Proof.
  intros I T. pose proof I as [W H F L]. unfold revalidate_core.
  destruct (find_blk id (blocks s)) as [x|] eqn:Fx; auto.
  destruct (has_reason r (bst x)) eqn:HR; simpl; auto.
  set (k := tkind s) in *. set (l := blocks s) in *.
  set (l1 := upd id (set_reason r false) l).
  assert (Fdx : failed (bst x) = true).
  { unfold failed. destruct r; simpl in HR; rewrite HR; auto. destruct (fblock (bst x)); reflexivity. }
  assert (Wl1 : wf l1) by (eapply same_skel_wf; [apply upd_skel|auto]).
  (* the block was failed, and l1 is l up to the reason flag of the block: the children of the block and of every
     failed block carry FAILED_CHILD *)
  assert (PW : pw (fun st st' => fchild st' = fchild st) l l1) by (apply pw_upd_all; auto using set_reason_fchild).
  assert (HF : forall c y p, find_blk c l1 = Some y -> bparent y = Some p ->
            (p = id \/ exists yp, find_blk p l1 = Some yp /\ failed (bst yp) = true) -> fchild (bst y) = true).
  { intros c y p Fc P Hp. destruct (pw_find_inv _ _ _ PW c y Fc) as (y0 & Fc0 & P0 & ->). rewrite P in P0.
    destruct (N.eq_dec p id) as [->|Np]; [exact (fl_ok_find l W F c y0 id x Fc0 P0 Fx Fdx)|].
    destruct Hp as [->|(yp & Fp & Fd)]; [contradiction|]. unfold l1 in Fp. rewrite find_upd_other in Fp; auto.
    exact (fl_ok_find l W F c y0 p yp Fc0 P0 Fp Fd). }
  (* doReValidate(b, reason): unsetFlag + tryAddTip *)
  assert (T1 : tips_ok k l1 (try_add_tip k l1 (tips s) id)).
  { rewrite (try_add_tip_nochild k l1 (tips s) id _ Wl1 (find_upd_same _ _ _ _ Fx));
      [|intros c y Fc P; apply can_be_tip_fchild; eauto].
    unfold l1. rewrite (upd_const_eq l id x _ W Fx).
    apply (tips_improve k l id x (set_reason r false (bst x)) (tips s) W Fx); auto using can_be_tip_unreason.
    intros c y Fc P. apply can_be_tip_fchild. exact (fl_ok_find l W F c y id x Fc P Fx Fdx). }
  destruct (has_other_failure r (bst x)); simpl; auto.
  pose proof (reval_pass_tips k id l1 Wl1 HF _ T1 l1 [] eq_refl) as RP.
  destruct (reval_pass k l1 id l1 (try_add_tip k l1 (tips s) id)) as [[l2 tp] c]. simpl in RP |- *. destruct RP as (RT & _). auto.
Qed.

Lemma update_tips_kind s ord : tkind (update_tips s ord) = tkind s.
Proof. apply update_tips_blocks. Qed.

Theorem revalidate_tips_ok s id r ord s' : Inv_flags s -> tips_ok (tkind s) (blocks s) (tips s) ->
  revalidate s id r ord = Done s' -> tips_ok (tkind s') (blocks s') (tips s') /\ tkind s' = tkind s.
Proof.
  intros I T E. destruct (revalidate_core_tips_ok s id r I T) as [K1 K2].
  destruct (maybe_update_tips _ _ _ (revalidate_Done _ _ _ _ _ E)) as (-> & -> & ->). rewrite K2. auto.
Qed.
