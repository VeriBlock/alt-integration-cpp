(** Basic facts about the compact-target codec of CompactDefs.v: the bit length
    [bits], and the canonical compact values; CompactSpec.v has the theorems. *)
From Coq Require Import ZArith Lia.
From VB Require Import Base.Bits Arith.CompactDefs.
Local Open Scope Z_scope.
Ltac Zify.zify_post_hook ::= Z.div_mod_to_equations.

(** the canonical positive compact values of size 3..33: what [toBits] produces for a
    target [2^15 <= v < 2^256]: mantissa with its top byte or the one below non-zero,
    sign bit clear, no overflow *)
Definition canonical_pos (c : Z) : Prop :=
  let s := c / 2 ^ 24 in
  let m := c mod 2 ^ 24 in
  0 <= c < 2 ^ 32 /\ 3 <= s <= 33 /\ 2 ^ 15 <= m < 2 ^ 23 /\ (2 ^ 16 <= m -> s <= 32).

Lemma bits_nonneg v : 0 <= bits v.
Proof. unfold bits. destruct (v <=? 0); [lia|]. pose proof (Z.log2_nonneg v). lia. Qed.

Lemma bits_pos v : 0 < v -> bits v = Z.log2 v + 1.
Proof. intros Hv. unfold bits. destruct (Z.leb_spec v 0); [lia|reflexivity]. Qed.

Lemma bits_zero v : 0 <= v -> (bits v = 0 <-> v = 0).
Proof.
  intros Hv. destruct (Z.eq_dec v 0) as [->|Hne]; [split; reflexivity|].
  rewrite bits_pos by lia. pose proof (Z.log2_nonneg v). lia.
Qed.

Lemma bits_bounds v : 0 < v -> 1 <= bits v /\ 2 ^ (bits v - 1) <= v < 2 ^ bits v.
Proof.
  intros Hv. rewrite bits_pos by exact Hv. pose proof (Z.log2_nonneg v).
  replace (Z.log2 v + 1 - 1) with (Z.log2 v) by lia. split; [lia|apply Z.log2_spec; exact Hv].
Qed.

Lemma bits_lt v : 0 <= v -> v < 2 ^ bits v.
Proof. intros Hv. destruct (Z.eq_dec v 0) as [->|Hne]; [reflexivity|apply bits_bounds; lia]. Qed.

Lemma bits_le v n : 0 <= n -> 0 <= v < 2 ^ n -> bits v <= n.
Proof.
  intros Hn Hv. destruct (Z.eq_dec v 0) as [->|Hne]; [exact Hn|].
  destruct (bits_bounds v ltac:(lia)) as (_ & Hlo & _).
  destruct (Z_le_gt_dec (bits v) n) as [|Hgt]; [assumption|].
  assert (2 ^ n <= 2 ^ (bits v - 1)) by (apply Z.pow_le_mono_r; lia). lia.
Qed.

Lemma bits_digit R n x : 0 <= n -> 0 <= R < 2 ^ n -> 0 < x -> bits (R + 2 ^ n * x) = bits x + n.
Proof.
  intros Hn HR Hx. pose proof (pow2_pos n Hn) as HP.
  rewrite bits_pos, (bits_pos x) by nia.
  destruct (Z.log2_spec x Hx) as [Hlo Hhi]. pose proof (Z.log2_nonneg x) as Hl.
  set (l := Z.log2 x) in *.
  replace (l + 1 + n) with (l + n + 1) by lia. f_equal.
  apply Z.log2_unique; [lia|]. replace (Z.succ (l + n)) with (Z.succ l + n) by lia.
  rewrite !Z.pow_add_r by lia. nia.
Qed.

Lemma decompose c : 0 <= c < 2 ^ 32 ->
  Z.shiftr c 24 = c / 2 ^ 24 /\
  (c mod 2 ^ 24 < 2 ^ 23 -> Z.land c 8388607 = c mod 2 ^ 24 /\ Z.land c 8388608 = 0).
Proof.
  intros Hc. split; [apply Z.shiftr_div_pow2; lia|].
  intros Hm. split.
  - change 8388607 with (2 ^ 23 - 1). rewrite land_ones_mod by lia. lia.
  - change 8388608 with (2 ^ 23). rewrite land_pow2 by lia.
    assert (Z.testbit c 23 = false) as ->; [|reflexivity].
    rewrite <- (Z.mod_pow2_bits_low c 24 23) by lia. apply testbit_low. lia.
Qed.
