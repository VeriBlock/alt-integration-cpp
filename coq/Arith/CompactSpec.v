(** Specification of the compact-target codec of CompactDefs.v
    (ArithUint256::fromBits / toBits, src/pop/arith_uint256.cpp:18-40,178-199):
    [fromBits] on EVERY uint32 by size byte, sign bit and 23-bit mantissa, the overflow flag
    meaning m * 256^(s-3) >= 2^256; [toBits] in the same terms; decode (encode v) = v truncated
    to its leading bytes; encode (decode c) = c on the canonical compact values. *)
From Coq Require Import ZArith Lia Bool.
From VB Require Import Base.Bits Arith.CompactDefs Arith.CompactProofs.
Local Open Scope Z_scope.
Ltac Zify.zify_post_hook ::= Z.div_mod_to_equations.

(** size byte [s], sign bit [sg], 23-bit mantissa [m] *)
Definition compact (s sg m : Z) : Z := s * 2 ^ 24 + sg * 2 ^ 23 + m.

Lemma compact_fields s sg m :
  0 <= s < 256 -> 0 <= sg <= 1 -> 0 <= m < 2 ^ 23 ->
  let c := compact s sg m in
  0 <= c < 2 ^ 32 /\
  Z.shiftr c 24 = s /\ Z.land c 8388607 = m /\
  Z.land c 8388608 = (if sg =? 1 then 8388608 else 0) /\ Z.testbit c 23 = (sg =? 1).
Proof.
  intros Hs Hsg Hm c. subst c. unfold compact.
  change (2 ^ 23) with 8388608 in *. change (2 ^ 24) with 16777216. change (2 ^ 32) with 4294967296.
  set (c := s * 16777216 + sg * 8388608 + m).
  assert (Hc : 0 <= c < 4294967296) by (subst c; lia).
  assert (Hbit : Z.testbit c 23 = (sg =? 1)).
  { pose proof (Z.testbit_spec' c 23 ltac:(lia)) as Hb. change (2 ^ 23) with 8388608 in Hb.
    destruct (Z.testbit c 23); cbn [Z.b2z] in Hb; destruct (Z.eqb_spec sg 1); subst c; lia. }
  split; [exact Hc|]. split; [|split; [|split]].
  - rewrite Z.shiftr_div_pow2 by lia. change (2 ^ 24) with 16777216. subst c. lia.
  - change 8388607 with (2 ^ 23 - 1). rewrite land_ones_mod by lia.
    change (2 ^ 23) with 8388608. subst c. lia.
  - change 8388608 with (2 ^ 23) at 1. rewrite land_pow2, Hbit by lia. reflexivity.
  - exact Hbit.
Qed.

Lemma uint32_compact c : 0 <= c < 2 ^ 32 ->
  exists s sg m, 0 <= s < 256 /\ 0 <= sg <= 1 /\ 0 <= m < 2 ^ 23 /\
                 c = s * 2 ^ 24 + sg * 2 ^ 23 + m.
Proof.
  intros Hc. exists (c / 2 ^ 24), ((c / 2 ^ 23) mod 2), (c mod 2 ^ 23).
  change (2 ^ 23) with 8388608. change (2 ^ 24) with 16777216.
  change (2 ^ 32) with 4294967296 in Hc. lia.
Qed.

Lemma leb_mul_pow2 a b k : 0 <= k -> (a * 2 ^ k <=? b * 2 ^ k) = (a <=? b).
Proof.
  intros Hk. pose proof (pow2_pos k Hk).
  destruct (Z.leb_spec a b), (Z.leb_spec (a * 2 ^ k) (b * 2 ^ k)); try reflexivity; nia.
Qed.

(** the three-way test of the C++ code is "m * 256^(s-3) does not fit in 256 bits" *)
Lemma overflow_test_math s m :
  3 < s < 256 -> 0 < m < 2 ^ 23 ->
  ((34 <? s) || (255 <? m) && (33 <? s) || (65535 <? m) && (32 <? s))
  = (2 ^ 256 <=? m * 2 ^ (8 * (s - 3))).
Proof.
  intros Hs Hm. change (2 ^ 23) with 8388608 in Hm.
  destruct (Z_le_gt_dec 35 s) as [H35|H35].
  { replace (34 <? s) with true by (symmetry; apply Z.ltb_lt; lia). symmetry. apply Z.leb_le.
    apply Z.le_trans with (1 * 2 ^ (8 * (s - 3))).
    - rewrite Z.mul_1_l. apply Z.pow_le_mono_r; lia.
    - apply Z.mul_le_mono_nonneg_r; [apply Z.pow_nonneg|]; lia. }
  replace (2 ^ 256) with (2 ^ (8 * (35 - s)) * 2 ^ (8 * (s - 3)))
    by (rewrite <- Z.pow_add_r by lia; f_equal; lia).
  rewrite leb_mul_pow2 by lia.
  assert (Hc : s <= 32 \/ s = 33 \/ s = 34) by lia. destruct Hc as [H32|[->| ->]].
  - assert (2 ^ 24 <= 2 ^ (8 * (35 - s))) by (apply Z.pow_le_mono_r; lia).
    change (2 ^ 24) with 16777216 in *. lia.
  - change (2 ^ (8 * (35 - 33))) with 65536. lia.
  - change (2 ^ (8 * (35 - 34))) with 256. lia.
Qed.

(** the (shifted) mantissa word [nWord] of the C++ code *)
Definition word (s m : Z) : Z := if s <=? 3 then m / 2 ^ (8 * (3 - s)) else m.

Lemma word_ge3 s m : 3 <= s -> word s m = m.
Proof.
  intros Hs. unfold word. destruct (Z.leb_spec s 3); [|reflexivity].
  replace s with 3 by lia. apply Z.div_1_r.
Qed.

Theorem fromBits_spec s sg m :
  0 <= s < 256 -> 0 <= sg <= 1 -> 0 <= m < 2 ^ 23 ->
  let w := word s m in
  fromBits (s * 2 ^ 24 + sg * 2 ^ 23 + m) =
    ((if s <=? 3 then w else (m * 2 ^ (8 * (s - 3))) mod 2 ^ 256),
     negb (w =? 0) && (sg =? 1),
     negb (w =? 0) && (if s <=? 3 then false else 2 ^ 256 <=? m * 2 ^ (8 * (s - 3)))).
Proof.
  intros Hs Hsg Hm w.
  destruct (compact_fields s sg m Hs Hsg Hm) as (_ & Hsh & Hl1 & Hl2 & _).
  unfold compact in *. unfold fromBits. rewrite Hsh, Hl1, Hl2.
  replace (negb ((if sg =? 1 then 8388608 else 0) =? 0)) with (sg =? 1) by (destruct (sg =? 1); reflexivity).
  subst w. unfold word.
  destruct (Z.leb_spec s 3) as [Hle|Hgt].
  - (* small sizes: the mantissa is shifted right, nothing can overflow *)
    rewrite Z.shiftr_div_pow2 by lia.
    destruct (Z.ltb_spec 34 s); [lia|]. destruct (Z.ltb_spec 33 s); [lia|].
    destruct (Z.ltb_spec 32 s); [lia|]. rewrite !andb_false_r. reflexivity.
  - rewrite Z.shiftl_mul_pow2 by lia. unfold u256, two256.
    destruct (Z.eqb_spec m 0) as [->|Hm0]; [reflexivity|].
    cbn [negb andb]. rewrite overflow_test_math by lia. reflexivity.
Qed.

(** the overflow component written as "mantissa word non-zero and m * 256^(s-3) >= 2^256"
    (for s <= 3 the product is at most m, so the comparison is false) *)
Corollary fromBits_spec' s sg m :
  0 <= s < 256 -> 0 <= sg <= 1 -> 0 <= m < 2 ^ 23 ->
  let w := word s m in
  fromBits (s * 2 ^ 24 + sg * 2 ^ 23 + m) =
    ((if s <=? 3 then w else (m * 2 ^ (8 * (s - 3))) mod 2 ^ 256),
     negb (w =? 0) && (sg =? 1),
     negb (w =? 0) && (2 ^ 256 <=? m * 2 ^ (8 * (s - 3)))).
Proof.
  intros Hs Hsg Hm w. subst w. rewrite fromBits_spec by assumption. cbv zeta.
  destruct (Z.leb_spec s 3) as [Hle|Hgt]; [|reflexivity].
  replace (2 ^ 256 <=? m * 2 ^ (8 * (s - 3))) with false; [reflexivity|].
  symmetry. apply Z.leb_gt.
  assert (2 ^ 23 <= 2 ^ 256) by (apply Z.pow_le_mono_r; lia).
  destruct (Z.eq_dec s 3) as [->|Hne]; [change (2 ^ (8 * (3 - 3))) with 1; lia|].
  rewrite (Z.pow_neg_r 2 (8 * (s - 3))) by lia. lia.
Qed.

Corollary fromBits_flags s sg m :
  0 <= s < 256 -> 0 <= sg <= 1 -> 0 <= m < 2 ^ 23 ->
  let '(_, neg, ovf) := fromBits (s * 2 ^ 24 + sg * 2 ^ 23 + m) in
  (neg = true <-> word s m <> 0 /\ sg = 1) /\
  (ovf = true <-> 3 < s /\ m <> 0 /\ 2 ^ 256 <= m * 2 ^ (8 * (s - 3))).
Proof.
  intros Hs Hsg Hm. rewrite fromBits_spec by assumption. cbv zeta.
  split.
  - rewrite andb_true_iff, negb_true_iff, Z.eqb_neq, Z.eqb_eq. reflexivity.
  - unfold word. destruct (Z.leb_spec s 3) as [Hle|Hgt].
    + rewrite andb_false_r. split; [discriminate|lia].
    + rewrite andb_true_iff, negb_true_iff, Z.eqb_neq, Z.leb_le. split; [intros []|intros (_ & ? & ?)]; auto.
Qed.

Definition nbytes (v : Z) : Z := (bits v + 7) / 8.
(** is the top bit of the top byte set (then the mantissa would look negative
    and toBits moves to the next size) *)
Definition topset (v : Z) : bool := Z.testbit v (8 * nbytes v - 1).
(** size byte produced by toBits *)
Definition csize (v : Z) : Z := if topset v then nbytes v + 1 else nbytes v.
(** mantissa produced by toBits: [v] shifted so that byte [csize v - 3] becomes byte 0 *)
Definition cmant (v : Z) : Z := Z.shiftl v (8 * (3 - csize v)).
(** [v] with everything below its leading bytes cleared: what survives encoding *)
Definition trunc (v : Z) : Z :=
  let k := csize v in if k <=? 3 then v else (v / 2 ^ (8 * (k - 3))) * 2 ^ (8 * (k - 3)).

(** [trunc] written out in terms of the C++ quantities only *)
Lemma trunc_unfold v :
  let n := (bits v + 7) / 8 in
  let k := if Z.testbit v (8 * n - 1) then n + 1 else n in
  trunc v = if k <=? 3 then v else (v / 2 ^ (8 * (k - 3))) * 2 ^ (8 * (k - 3)).
Proof. reflexivity. Qed.

(** [two256] instead of the numeral in what follows: a certificate of [lia] that
    mentions 2^256 is slow to re-check *)
Lemma nbytes_bounds v : 0 <= v < two256 ->
  0 <= nbytes v <= 32 /\ bits v <= 8 * nbytes v <= bits v + 7 /\ v < 2 ^ (8 * nbytes v).
Proof.
  intros Hv. pose proof (bits_le v 256 ltac:(lia) Hv). pose proof (bits_nonneg v).
  assert (Hn : bits v <= 8 * nbytes v <= bits v + 7) by (unfold nbytes; lia).
  split; [lia|]. split; [exact Hn|].
  apply Z.lt_le_trans with (2 ^ bits v); [apply bits_lt; lia|apply Z.pow_le_mono_r; lia].
Qed.

Lemma csize_bounds v : 0 < v < two256 ->
  1 <= csize v <= 33 /\ 2 ^ (8 * csize v - 9) <= v < 2 ^ (8 * csize v - 1).
Proof.
  intros Hv. destruct (nbytes_bounds v ltac:(lia)) as (Hn & Hnb & Hhi).
  destruct (bits_bounds v ltac:(lia)) as (Hb & Hlo & _).
  unfold csize, topset. set (n := nbytes v) in *.
  rewrite testbit_leb by (replace (8 * n - 1 + 1) with (8 * n) by ring; lia).
  destruct (Z.leb_spec (2 ^ (8 * n - 1)) v) as [Ht|Ht].
  - replace (8 * (n + 1) - 9) with (8 * n - 1) by ring.
    assert (2 ^ (8 * n) <= 2 ^ (8 * (n + 1) - 1)) by (apply Z.pow_le_mono_r; lia). lia.
  - assert (2 ^ (8 * n - 9) <= 2 ^ (bits v - 1)) by (apply Z.pow_le_mono_r; lia). lia.
Qed.

Lemma csize_unique v k : 0 < v < two256 -> 2 ^ (8 * k - 9) <= v < 2 ^ (8 * k - 1) -> csize v = k.
Proof.
  intros Hv Hk. destruct (csize_bounds v Hv) as (_ & Hc).
  destruct (Z.lt_trichotomy (csize v) k) as [H|[H|H]]; [exfalso|exact H|exfalso].
  - assert (2 ^ (8 * csize v - 1) <= 2 ^ (8 * k - 9)) by (apply Z.pow_le_mono_r; lia). lia.
  - assert (2 ^ (8 * k - 1) <= 2 ^ (8 * csize v - 9)) by (apply Z.pow_le_mono_r; lia). lia.
Qed.

Lemma csize_range v : 0 <= v < two256 -> 0 <= csize v <= 33.
Proof. intros Hv. destruct (nbytes_bounds v Hv) as [Hn _]. unfold csize. destruct (topset v); lia. Qed.

Lemma cmant_range v : 0 <= v < two256 -> 0 <= cmant v < 2 ^ 23.
Proof.
  intros Hv. unfold cmant. destruct (Z.eq_dec v 0) as [->|Hne]; [rewrite Z.shiftl_0_l; lia|].
  destruct (csize_bounds v ltac:(lia)) as (Hk & _ & Hlt).
  replace 23 with (8 * csize v - 1 + 8 * (3 - csize v)) by ring. apply shiftl_bound; lia.
Qed.

(** the mantissa before the sign-bit correction: the uint64/uint32 conversions lose nothing *)
Lemma mantissa_shift v n : 0 <= n <= 32 -> 0 <= v < 2 ^ (8 * n) ->
  (if n <=? 3 then u32 (Z.shiftl (u32 (u64 v)) (8 * (3 - n))) else u32 (u64 (Z.shiftr v (8 * (n - 3)))))
  = Z.shiftl v (8 * (3 - n)).
Proof.
  intros Hn Hv. pose proof (shiftl_bound v (8 * n) (8 * (3 - n)) Hv ltac:(lia) ltac:(lia)) as Hb.
  replace (8 * n + 8 * (3 - n)) with 24 in Hb by ring. change (2 ^ 24) with 16777216 in Hb.
  unfold u32, u64, two32. change (2 ^ 64) with 18446744073709551616. change (2 ^ 32) with 4294967296.
  destruct (Z.leb_spec n 3) as [Hle|Hgt].
  - assert (2 ^ (8 * n) <= 2 ^ 24) by (apply Z.pow_le_mono_r; lia). change (2 ^ 24) with 16777216 in *.
    rewrite !(Z.mod_small v) by lia. apply Z.mod_small. lia.
  - rewrite <- Z.shiftl_opp_r. replace (- (8 * (n - 3))) with (8 * (3 - n)) by ring.
    rewrite !Z.mod_small by lia. reflexivity.
Qed.

(** final assembly steps of toBits: or-ing in the size byte and the sign bit *)
Lemma assemble m k (neg : bool) :
  0 <= m < 2 ^ 23 -> 0 <= k < 256 ->
  let c1 := Z.lor m (Z.shiftl k 24) in
  Z.lor c1 (if neg && negb (Z.land c1 8388607 =? 0) then 8388608 else 0)
  = compact k (if neg && negb (m =? 0) then 1 else 0) m.
Proof.
  intros Hm Hk c1. subst c1.
  rewrite lor_shiftl_add by (change (2 ^ 23) with 8388608 in Hm; change (2 ^ 24) with 16777216; lia).
  destruct (compact_fields k 0 m Hk ltac:(lia) Hm) as (_ & _ & Hl1 & Hl2 & _).
  unfold compact in *. rewrite Z.mul_0_l, Z.add_0_r in Hl1, Hl2.
  rewrite (Z.add_comm m). rewrite Hl1.
  destruct (neg && negb (m =? 0)).
  - rewrite lor_add_disjoint by exact Hl2. change (2 ^ 23) with 8388608. lia.
  - rewrite Z.lor_0_r. lia.
Qed.

Theorem toBits_struct v neg : 0 <= v < two256 ->
  toBits v neg = compact (csize v) (if neg && negb (cmant v =? 0) then 1 else 0) (cmant v).
Proof.
  intros Hv. pose proof (csize_range v Hv) as Hk. pose proof (cmant_range v Hv) as Hm.
  destruct (nbytes_bounds v Hv) as (Hn & _ & Hhi).
  rewrite <- (assemble (cmant v) (csize v) neg Hm ltac:(lia)). cbv zeta.
  unfold toBits. fold (nbytes v). rewrite mantissa_shift by lia.
  (* bit 23 of the mantissa is bit [8 * nbytes v - 1] of [v] *)
  change 8388608 with (2 ^ 23) at 1. rewrite land_pow2, Z.shiftl_spec by lia.
  replace (23 - 8 * (3 - nbytes v)) with (8 * nbytes v - 1) by ring. fold (topset v).
  unfold cmant, csize. destruct (topset v).
  - change (2 ^ 23 =? 0) with false. cbv beta iota delta [negb].
    rewrite shiftr_shiftl_sub by lia.
    replace (8 * (3 - nbytes v) - 8) with (8 * (3 - (nbytes v + 1))) by ring. reflexivity.
  - reflexivity.
Qed.

Lemma sign_of_range (neg : bool) m : 0 <= (if neg && negb (m =? 0) then 1 else 0) <= 1.
Proof. destruct (neg && negb (m =? 0)); lia. Qed.

Lemma toBits_fields v neg : 0 <= v < two256 ->
  let c := toBits v neg in
  0 <= c < 2 ^ 32 /\ Z.shiftr c 24 = csize v /\ Z.land c 8388607 = cmant v /\
  Z.land c 8388608 = (if neg && negb (cmant v =? 0) then 8388608 else 0) /\
  Z.testbit c 23 = neg && negb (cmant v =? 0).
Proof.
  intros Hv c. subst c. rewrite toBits_struct by exact Hv.
  pose proof (csize_range v Hv) as Hk. pose proof (cmant_range v Hv) as Hm.
  destruct (compact_fields (csize v) _ (cmant v) ltac:(lia) (sign_of_range neg (cmant v)) Hm)
    as (Hc & Hsh & Hl1 & Hl2 & Hb).
  split; [exact Hc|]. split; [exact Hsh|]. split; [exact Hl1|].
  rewrite Hl2, Hb. destruct (neg && negb (cmant v =? 0)); split; reflexivity.
Qed.

Theorem toBits_range v neg : 0 <= v < 2 ^ 256 -> 0 <= toBits v neg < 2 ^ 32.
Proof. intros Hv. apply (toBits_fields v neg Hv). Qed.

Theorem toBits_sign v neg : 0 <= v < 2 ^ 256 ->
  let c := toBits v neg in
  0 <= c < 2 ^ 32 /\
  (Z.land c 8388608 <> 0 <-> neg = true /\ Z.land c 8388607 <> 0) /\
  (Z.testbit c 23 = true <-> neg = true /\ Z.land c 8388607 <> 0) /\
  Z.land (toBits v false) 8388608 = 0 /\
  Z.testbit (toBits v false) 23 = false /\
  Z.land (toBits v true) 8388607 = Z.land (toBits v false) 8388607 /\
  toBits v true = toBits v false + (if Z.land (toBits v false) 8388607 =? 0 then 0 else 2 ^ 23).
Proof.
  intros Hv c. subst c.
  destruct (toBits_fields v neg Hv) as (Hc & _ & Hl1 & Hl2 & Hb).
  destruct (toBits_fields v false Hv) as (_ & _ & Hf1 & Hf2 & Hfb).
  destruct (toBits_fields v true Hv) as (_ & _ & Ht1 & _ & _).
  cbv zeta in *. cbn [andb] in Hf2, Hfb.
  split; [exact Hc|]. rewrite Hl1, Hl2, Hb, Hf1, Ht1.
  split; [|split; [|split; [exact Hf2|split; [exact Hfb|split; [reflexivity|]]]]].
  - destruct neg; cbn [andb]; [|split; [lia|intros [? _]; discriminate]].
    destruct (Z.eqb_spec (cmant v) 0); cbn [negb]; split; try lia; intros [_ ?]; lia.
  - rewrite andb_true_iff, negb_true_iff, Z.eqb_neq. reflexivity.
  - rewrite !toBits_struct by exact Hv. unfold compact. cbn [andb].
    destruct (cmant v =? 0); cbn [negb]; lia.
Qed.

Lemma trunc_cmant v : 0 <= v < two256 ->
  (if csize v <=? 3 then word (csize v) (cmant v) else cmant v * 2 ^ (8 * (csize v - 3))) = trunc v.
Proof.
  intros Hv. pose proof (csize_range v Hv) as Hk. unfold trunc, word, cmant.
  destruct (Z.leb_spec (csize v) 3) as [Hle|Hgt].
  - rewrite Z.shiftl_mul_pow2 by lia. apply Z.div_mul. apply Z.pow_nonzero; lia.
  - rewrite Z.shiftl_div_pow2 by lia. do 3 f_equal; ring.
Qed.

Lemma round_down v P : 0 <= v -> 0 < P -> 0 <= v / P * P <= v /\ v < v / P * P + P.
Proof.
  intros Hv HP. pose proof (Z.div_mod v P ltac:(lia)). pose proof (Z.mod_pos_bound v P HP).
  pose proof (Z.div_pos v P Hv HP). nia.
Qed.

Lemma trunc_le v : 0 <= v -> 0 <= trunc v <= v.
Proof.
  intros Hv. unfold trunc. destruct (Z.leb_spec (csize v) 3) as [Hle|Hgt]; [lia|].
  pose proof (round_down v _ Hv (pow2_pos (8 * (csize v - 3)) ltac:(lia))). lia.
Qed.

(** the truncation error is below one unit of the last kept byte *)
Theorem trunc_bounds v : 0 <= v ->
  if csize v <=? 3 then trunc v = v
  else trunc v <= v < trunc v + 2 ^ (8 * (csize v - 3)).
Proof.
  intros Hv. unfold trunc. destruct (Z.leb_spec (csize v) 3) as [Hle|Hgt]; [reflexivity|].
  pose proof (round_down v _ Hv (pow2_pos (8 * (csize v - 3)) ltac:(lia))). lia.
Qed.

Lemma eqb0_mul_pos x P : 0 < P -> (x * P =? 0) = (x =? 0).
Proof.
  intros HP. destruct (Z.eqb_spec x 0) as [->|Hx]; [reflexivity|].
  apply Z.eqb_neq, Z.neq_mul_0. lia.
Qed.

Lemma word_cmant_zero v : 0 <= v < two256 ->
  (word (csize v) (cmant v) =? 0) = (trunc v =? 0) /\ (cmant v =? 0) = (trunc v =? 0).
Proof.
  intros Hv. pose proof (csize_range v Hv) as Hk.
  rewrite <- (trunc_cmant v Hv). unfold word.
  destruct (Z.leb_spec (csize v) 3) as [Hle|Hgt].
  - split; [reflexivity|]. unfold cmant.
    rewrite Z.shiftl_mul_pow2, Z.div_mul by (try apply Z.pow_nonzero; lia).
    apply eqb0_mul_pos, pow2_pos. lia.
  - split; symmetry; apply eqb0_mul_pos, pow2_pos; lia.
Qed.

Theorem fromBits_toBits_gen v neg : 0 <= v < 2 ^ 256 ->
  fromBits (toBits v neg) = (trunc v, neg && negb (trunc v =? 0), false).
Proof.
  intros Hv. pose proof (csize_range v Hv) as Hk. pose proof (cmant_range v Hv) as Hm.
  rewrite toBits_struct by exact Hv. unfold compact.
  rewrite fromBits_spec by (try apply sign_of_range; lia). cbv zeta. change (2 ^ 256) with two256 in *.
  destruct (word_cmant_zero v Hv) as [Hw Hc]. rewrite Hw, Hc.
  pose proof (trunc_cmant v Hv) as Ht. pose proof (trunc_le v ltac:(lia)) as Hle.
  f_equal; [f_equal|].
  - destruct (Z.leb_spec (csize v) 3); [exact Ht|]. rewrite Ht. apply Z.mod_small. lia.
  - destruct neg; destruct (trunc v =? 0); reflexivity.
  - destruct (Z.leb_spec (csize v) 3); [apply andb_false_r|]. rewrite Ht.
    destruct (Z.leb_spec two256 (trunc v)); [lia|apply andb_false_r].
Qed.

Corollary fromBits_toBits_neg v : 0 <= v < 2 ^ 256 -> trunc v <> 0 ->
  fromBits (toBits v true) = (trunc v, true, false).
Proof.
  intros Hv Hne. rewrite fromBits_toBits_gen by exact Hv.
  destruct (Z.eqb_spec (trunc v) 0); [contradiction|reflexivity].
Qed.

(** values of at most 3 significant bytes (top bit clear) survive exactly *)
Corollary fromBits_toBits_exact v : 0 <= v < 2 ^ 23 ->
  fromBits (toBits v false) = (v, false, false).
Proof.
  intros Hv. assert (Hv' : 0 <= v < two256).
  { assert (2 ^ 23 <= two256) by (apply Z.pow_le_mono_r; lia). lia. }
  rewrite fromBits_toBits_gen by exact Hv'. do 2 f_equal.
  unfold trunc. destruct (Z.leb_spec (csize v) 3) as [Hle|Hgt]; [reflexivity|exfalso].
  destruct (Z.eq_dec v 0) as [->|Hne]; [revert Hgt; change (csize 0) with 0; lia|].
  destruct (csize_bounds v ltac:(lia)) as (_ & Hlo & _).
  assert (2 ^ 23 <= 2 ^ (8 * csize v - 9)) by (apply Z.pow_le_mono_r; lia). lia.
Qed.

Lemma toBits_fromBits c :
  canonical_pos c ->
  let '(t, neg, ovf) := fromBits c in
  neg = false /\ ovf = false /\ 0 < t < 2 ^ 256 /\ toBits t false = c.
Proof.
  unfold canonical_pos. cbv zeta. intros (Hc & Hs & Hm & Hms).
  set (s := c / 2 ^ 24) in *. set (m := c mod 2 ^ 24) in *.
  assert (Hcsm : c = s * 2 ^ 24 + 0 * 2 ^ 23 + m) by (subst s m; change (2 ^ 24) with 16777216; lia).
  clearbody s m. subst c. clear Hc.
  (* the target is m * 2^k; it lies in [2^(8s-9), 2^(8s-1)) and below 2^256 *)
  set (k := 8 * (s - 3)). assert (Hk : 0 <= k) by (subst k; lia).
  pose proof (mul_pow2_bounds m 15 23 k ltac:(lia) ltac:(lia) Hk Hm) as Ht.
  replace (15 + k) with (8 * s - 9) in Ht by (subst k; ring).
  replace (23 + k) with (8 * s - 1) in Ht by (subst k; ring).
  assert (Hfit : m * 2 ^ k < two256).
  { unfold two256. destruct (Z_lt_le_dec m (2 ^ 16)) as [Hsm|Hbg].
    - apply Z.lt_le_trans with (2 ^ (16 + k)); [|apply Z.pow_le_mono_r; subst k; lia].
      apply (mul_pow2_bounds m 15 16 k); lia.
    - apply Z.lt_le_trans with (2 ^ (8 * s - 1)); [apply Ht|apply Z.pow_le_mono_r; lia]. }
  assert (Hpos : 0 < m * 2 ^ k) by (pose proof (pow2_pos (8 * s - 9) ltac:(lia)); lia).
  rewrite fromBits_spec' by lia. cbv zeta. rewrite word_ge3 by lia. fold k.
  replace (if s <=? 3 then m else (m * 2 ^ k) mod 2 ^ 256) with (m * 2 ^ k).
  2:{ destruct (Z.leb_spec s 3); [|symmetry; apply Z.mod_small; split; [lia|exact Hfit]].
      replace k with 0 by (subst k; lia). apply Z.mul_1_r. }
  destruct (Z.eqb_spec m 0) as [?|_]; [lia|]. cbn [negb andb].
  split; [reflexivity|]. split; [apply Z.leb_gt; exact Hfit|]. split; [split; [exact Hpos|exact Hfit]|].
  (* so its size is s again, and shifting back returns m *)
  rewrite toBits_struct by lia. unfold cmant.
  rewrite (csize_unique _ s) by lia. cbn [andb].
  replace (8 * (3 - s)) with (- k) by (subst k; ring).
  rewrite Z.shiftl_opp_r, Z.shiftr_div_pow2, Z.div_mul by lia. reflexivity.
Qed.

(** * Concrete instances (hypotheses are satisfiable, statements evaluate as expected) *)

(* 0x1d00ffff: the Bitcoin genesis target, s = 0x1d, sg = 0, m = 0x00ffff *)
Example ex_genesis : fromBits 486604799 = (65535 * 2 ^ 208, false, false) /\
                     486604799 = compact 29 0 65535 /\
                     toBits (65535 * 2 ^ 208) false = 486604799.
Proof. vm_compute. repeat split. Qed.

(* 0x04923456: sign bit set, s = 4, m = 0x123456 -> -0x12345600 *)
Example ex_negative : fromBits 76690518 = (305419776, true, false) /\
                      76690518 = compact 4 1 1193046 /\
                      toBits 305419776 true = 76690518.
Proof. vm_compute. repeat split. Qed.

(* 0xff123456: overflow, s = 255, m = 0x123456 *)
Example ex_overflow : snd (fromBits 4279383126) = true /\ 4279383126 = compact 255 0 1193046 /\
                      (2 ^ 256 <=? 1193046 * 2 ^ (8 * (255 - 3))) = true.
Proof. vm_compute. repeat split. Qed.

(* 0x01803456: s = 1, sg = 1, m = 0x003456; the word is m >> 16 = 0, so the value is 0
   and neither flag is set although the sign bit is *)
Example ex_small : fromBits 25179222 = (0, false, false) /\ word 1 13398 = 0.
Proof. vm_compute. repeat split. Qed.

(* truncation: 0x12345678 keeps 3 bytes; 0x80 needs size 2 *)
Example ex_trunc : trunc 305419896 = 305419776 /\ toBits 305419896 false = 68301910 /\
                   toBits 128 false = 33587200 /\ trunc 128 = 128 /\
                   fromBits (toBits 305419896 true) = (305419776, true, false).
Proof. vm_compute. repeat split. Qed.

(* largest value: 2^256 - 1 encodes with size 33 and decodes to 0xffff << 240 *)
Example ex_max : toBits (2 ^ 256 - 1) false = compact 33 0 65535 /\
                 trunc (2 ^ 256 - 1) = 65535 * 2 ^ 240.
Proof. vm_compute. repeat split. Qed.
