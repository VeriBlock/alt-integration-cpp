(** Value-level correctness of U256Defs.v, part 3: operator/= (shift-subtract
    long division; division by zero throws), the byte-level compact codec, and every
    operation at width 32 ([wf], modulus 2^256). *)
From Coq Require Import ZArith Lia List.
From VB Require Import Base.Bits Arith.CompactDefs Arith.CompactProofs Arith.U256Defs Arith.U256Basics Arith.U256Shift.
Import ListNotations.
Local Open Scope Z_scope.
Ltac Zify.zify_post_hook ::= Z.div_mod_to_equations.

Lemma byte_cons_lor x R : byte_ok x -> x + 256 * R = Z.lor x (Z.shiftl R 8).
Proof. unfold byte_ok. intros Hx. rewrite lor_shiftl_add by (change (2 ^ 8) with 256; lia). change (2 ^ 8) with 256. ring. Qed.

Lemma lor_digits x y R B : byte_ok x -> byte_ok y ->
  Z.lor (x + 256 * R) (y + 256 * B) = Z.lor x y + 256 * Z.lor R B.
Proof.
  intros Hx Hy. assert (Hxy : byte_ok (Z.lor x y)) by (rewrite <- w8_lor by assumption; apply w8_ok).
  rewrite !byte_cons_lor, Z.shiftl_lor, !Z.lor_assoc by assumption. f_equal.
  rewrite <- !Z.lor_assoc. f_equal. apply Z.lor_comm.
Qed.

Lemma or_nth_spec : forall q i m, bytes_ok q -> (i < length q)%nat -> byte_ok m ->
  repr (length q) (or_nth i m q) (Z.lor (uval q) (m * P256 i)).
Proof.
  assert (H0 : byte_ok 0) by (unfold byte_ok; lia).
  induction q as [|x r IH]; intros i m Hq Hi Hm; [cbn [length] in Hi; lia|].
  apply bytes_ok_cons in Hq. destruct Hq as [Hx Hr]. cbn [length] in Hi.
  destruct i as [|j]; cbn [or_nth uval length].
  - replace (m * P256 0) with (m + 256 * 0) by (rewrite P256_0; ring).
    rewrite lor_digits, Z.lor_0_r, w8_lor by assumption.
    apply repr_byte; [rewrite <- w8_lor by assumption; apply w8_ok|repeat split; exact Hr].
  - replace (m * P256 (S j)) with (0 + 256 * (m * P256 j)) by (rewrite P256_S; ring).
    rewrite lor_digits, Z.lor_0_r by assumption.
    apply repr_byte; [exact Hx|apply IH; [exact Hr|lia|exact Hm]].
Qed.

Lemma setbit_spec q s : bytes_ok q -> 0 <= s < 8 * Z.of_nat (length q) -> (2 ^ (s + 1) | uval q) ->
  repr (length q) (or_nth (Z.to_nat (s / 8)) (Z.shiftl 1 (Z.land s 7)) q) (uval q + 2 ^ s).
Proof.
  intros Hq Hs [c Hc].
  replace (Z.land s 7) with (s mod 8) by (symmetry; apply (land_ones_mod s 3); lia).
  rewrite Z.shiftl_mul_pow2, Z.mul_1_l by lia.
  assert (Hm : byte_ok (2 ^ (s mod 8))).
  { split; [apply Z.pow_nonneg; lia|]. change 256 with (2 ^ 8). apply Z.pow_lt_mono_r; lia. }
  pose proof (or_nth_spec q (Z.to_nat (s / 8)) _ Hq ltac:(lia) Hm) as H.
  rewrite P256_Zpow, <- Z.pow_add_r in H by lia. replace (s mod 8 + 8 * (s / 8)) with s in H by lia.
  rewrite Hc, lor_low_high, <- Hc in H; [exact H|lia|].
  pose proof (pow2_pos s ltac:(lia)). rewrite Z.pow_add_r by lia. lia.
Qed.

Lemma cmp_ge a b : bytes_ok a -> bytes_ok b -> length a = length b ->
  (0 <=? cmp a b) = (uval b <=? uval a).
Proof.
  intros Ha Hb Hl. rewrite cmp_spec by assumption. unfold Z.leb at 2.
  rewrite (Z.compare_antisym (uval a) (uval b)). destruct (uval a ?= uval b); reflexivity.
Qed.

Lemma div_step D P n qv : 0 < D -> D * P <= n < D * (2 * P) -> (2 * P | qv) ->
  n - D * P < D * P /\ (P | qv + P) /\ qv + P + (n - D * P) / D = qv + n / D.
Proof.
  intros HD Hn [c Hc]. split; [lia|]. split; [exists (2 * c + 1); lia|].
  replace (n - D * P) with (n + - P * D) by ring. rewrite Z.div_add by lia. ring.
Qed.

(** the division loop with [f] iterations to go ([shift = f - 1]): the divisor register
    holds [D * 2^shift], the remainder is below [D * 2^f], the quotient has no bit below [2^f] *)
Lemma div_loop_spec D : 0 < D -> forall f num dv q,
  bytes_ok num -> bytes_ok dv -> bytes_ok q -> length dv = length num -> length q = length num ->
  Z.of_nat f <= 8 * Z.of_nat (length num) ->
  (f <> O -> uval dv = D * 2 ^ (Z.of_nat f - 1)) ->
  uval num < D * 2 ^ Z.of_nat f ->
  (2 ^ Z.of_nat f | uval q) ->
  repr (length num) (div_loop f (Z.of_nat f - 1) num dv q) (uval q + uval num / D).
Proof.
  intros HD. induction f as [|f IH]; intros num dv q Hn Hd Hq Hld Hlq Hf Hdv Hlt Hc;
    pose proof (uval_bound num Hn) as Hbn.
  { cbn [div_loop]. rewrite Z.div_small, Z.add_0_r by (change (2 ^ Z.of_nat 0) with 1 in Hlt; lia).
    repeat split; assumption. }
  specialize (Hdv ltac:(discriminate)).
  replace (Z.of_nat (S f) - 1) with (Z.of_nat f) in * by lia.
  rewrite Nat2Z.inj_succ, Z.pow_succ_r in Hlt, Hc by lia.
  cbn [div_loop]. destruct (Z.ltb_spec (Z.of_nat f) 0) as [?|_]; [lia|].
  rewrite cmp_ge by congruence.
  destruct (shr_spec dv 1 Hd ltac:(lia)) as (Hsv & Hsb & Hsl). change (2 ^ 1) with 2 in Hsv.
  assert (Hdv' : f <> O -> uval (shr dv 1) = D * 2 ^ (Z.of_nat f - 1)).
  { intros Hf0. rewrite Hsv, Hdv. replace (Z.of_nat f) with (Z.succ (Z.of_nat f - 1)) at 1 by lia.
    rewrite Z.pow_succ_r, (Z.mul_comm 2), Z.mul_assoc by lia. apply Z.div_mul. lia. }
  clear Hsv. destruct (Z.leb_spec (uval dv) (uval num)) as [Hge|Hlt'].
  - (* the divisor fits: subtract it and set quotient bit [shift] *)
    destruct (usub_spec num dv Hn Hd ltac:(congruence)) as (Huv & Hub & Hul).
    destruct (setbit_spec q (Z.of_nat f) Hq ltac:(lia)) as (Hqv & Hqb & Hql).
    { rewrite Z.add_1_r, Z.pow_succ_r by lia. exact Hc. }
    rewrite Z.mod_small in Huv by lia. rewrite Hdv in Hge, Huv.
    destruct (div_step D _ _ _ HD (conj Hge Hlt) Hc) as (Hr & Hc' & <-).
    rewrite <- Huv in *. rewrite <- Hqv in *. rewrite <- Hul.
    apply (IH _ _ _ Hub Hsb Hqb); [congruence|congruence|lia|exact Hdv'|exact Hr|exact Hc'].
  - destruct Hc as [c Hc].
    apply (IH _ _ _ Hn Hsb Hq); [congruence|exact Hlq|lia|exact Hdv'|lia|exists (2 * c); lia].
Qed.

Lemma div_start A B nb db : 0 <= A < 2 ^ nb -> 2 ^ (db - 1) <= B < 2 ^ db -> 1 <= db <= nb ->
  B * 2 ^ (nb - db) < 2 ^ nb /\ A < B * 2 ^ (nb - db + 1).
Proof.
  intros HA HB Hd.
  pose proof (mul_pow2_bounds B (db - 1) db (nb - db) ltac:(lia) ltac:(lia) ltac:(lia) HB) as H1.
  pose proof (mul_pow2_bounds B (db - 1) db (nb - db + 1) ltac:(lia) ltac:(lia) ltac:(lia) HB) as H2.
  replace (db + (nb - db)) with nb in H1 by ring.
  replace (db - 1 + (nb - db + 1)) with nb in H2 by ring. lia.
Qed.

Theorem udiv_spec a b : bytes_ok a -> bytes_ok b -> length a = length b ->
  match udiv a b with
  | Throw => uval b = 0
  | Done q => 0 < uval b /\ repr (length a) q (uval a / uval b)
  end.
Proof.
  intros Ha Hb Hl. unfold udiv. rewrite (ubits_spec a Ha), (ubits_spec b Hb).
  pose proof (uval_bound a Ha) as Hba. pose proof (uval_bound b Hb) as Hbb.
  destruct (Z.eqb_spec (bits (uval b)) 0) as [E|E]; cbv iota.
  { apply (bits_zero (uval b)); [lia|exact E]. }
  assert (HD : 0 < uval b) by (rewrite bits_zero in E; lia).
  destruct (bits_bounds _ HD) as (Hdb & HB).
  rewrite P256_pow2 in Hba. pose proof (bits_le (uval a) (8 * Z.of_nat (length a)) ltac:(lia) Hba) as Hna.
  assert (HA : 0 <= uval a < 2 ^ bits (uval a)) by (split; [|apply bits_lt]; lia).
  set (nb := bits (uval a)) in *. set (db := bits (uval b)) in *.
  destruct (Z.ltb_spec nb db) as [Hlt|Hge]; (split; [exact HD|]).
  - (* fewer bits than the divisor: the quotient is 0 *)
    rewrite Z.div_small; [apply zeros_ok|].
    assert (2 ^ nb <= 2 ^ (db - 1)) by (apply Z.pow_le_mono_r; lia). lia.
  - destruct (div_start _ _ nb db HA HB ltac:(lia)) as [Hfit Hrem].
    assert (Hw : 2 ^ nb <= P256 (length b)) by (rewrite <- Hl, P256_pow2; apply Z.pow_le_mono_r; lia).
    set (s := nb - db) in *. assert (Hs : 0 <= s) by (subst s; lia).
    destruct (shl_spec b s Hb Hs) as (Hsv & Hsb & Hsl).
    rewrite Z.mod_small in Hsv by (split; [apply Z.mul_nonneg_nonneg; [lia|apply Z.pow_nonneg; lia]|lia]).
    destruct (zeros_ok (length a)) as (Z1 & Z2 & Z3).
    rewrite <- (Z.add_0_l (uval a / uval b)), <- Z1.
    assert (Hf : Z.of_nat (S (Z.to_nat s)) = s + 1) by lia.
    replace s with (Z.of_nat (S (Z.to_nat s)) - 1) at 2 by lia.
    apply (div_loop_spec (uval b) HD); try assumption; try congruence; rewrite ?Hf.
    + subst s. lia.
    + intros _. rewrite Hsv. do 2 f_equal. ring.
    + rewrite Z1. apply Z.divide_0_r.
Qed.

(** byte-level compact codec = value-level compact codec of CompactDefs.v *)
Theorem fromBits_bytes c : 0 <= c < 2 ^ 32 ->
  let '(t, neg, ovf) := fromBits_b c in
  let '(t', neg', ovf') := fromBits c in
  uval t = t' /\ neg = neg' /\ ovf = ovf' /\ wf t.
Proof.
  intros Hc. unfold fromBits_b, fromBits.
  set (nSize := Z.shiftr c 24). set (nWord0 := Z.land c 8388607).
  assert (Hw0 : 0 <= nWord0 < 2 ^ 23).
  { subst nWord0. change 8388607 with (2 ^ 23 - 1). rewrite land_ones_mod by lia. apply Z.mod_pos_bound. lia. }
  assert (HnS : 0 <= nSize) by (apply Z.shiftr_nonneg; lia).
  set (nWord := if nSize <=? 3 then Z.shiftr nWord0 (8 * (3 - nSize)) else nWord0).
  assert (Hw : 0 <= nWord < 2 ^ 64).
  { subst nWord. destruct (Z.leb_spec nSize 3); [apply shiftr_bound|]; lia. }
  destruct (of_u64_spec nWord Hw) as (Hov & Hob & Hol).
  destruct (Z.leb_spec nSize 3) as [Hle|Hgt]; [repeat split; assumption|].
  destruct (shl_spec (of_u64 nWord) (8 * (nSize - 3)) Hob ltac:(lia)) as (Hsv & Hsb & Hsl).
  rewrite Hov, Hol, <- Z.shiftl_mul_pow2 in Hsv by lia. rewrite Hol in Hsl. repeat split; assumption.
Qed.

Theorem toBits_b_spec a neg : bytes_ok a -> (8 <= length a)%nat -> toBits_b a neg = toBits (uval a) neg.
Proof.
  intros Ha Hl. unfold toBits_b, toBits.
  rewrite (ubits_spec a Ha), (getLow64_spec a Ha Hl).
  set (nSize := (bits (uval a) + 7) / 8).
  destruct (Z.leb_spec nSize 3) as [Hle|Hgt]; [reflexivity|].
  destruct (shr_spec a (8 * (nSize - 3)) Ha ltac:(lia)) as (Hsv & Hsb & Hsl).
  rewrite (getLow64_spec _ Hsb), Hsv, <- Z.shiftr_div_pow2 by lia. reflexivity.
Qed.

Lemma wf_bound a : wf a -> 0 <= uval a < 2 ^ 256.
Proof. intros [Hb Hl]. change (2 ^ 256) with (P256 WIDTH). rewrite <- Hl. apply uval_bound. exact Hb. Qed.

Lemma at_width n l (f : Z -> Z) :
  n = WIDTH -> repr n l (f (P256 n)) -> uval l = f (2 ^ 256) /\ wf l.
Proof. intros ->. exact id. Qed.

Theorem add_exact a b : wf a -> wf b -> uval (uadd a b) = (uval a + uval b) mod 2 ^ 256 /\ wf (uadd a b).
Proof. intros [Ha La] [Hb Lb]. apply (at_width _ _ (Z.modulo _) La), uadd_spec; congruence. Qed.

Theorem sub_exact a b : wf a -> wf b -> uval (usub a b) = (uval a - uval b) mod 2 ^ 256 /\ wf (usub a b).
Proof. intros [Ha La] [Hb Lb]. apply (at_width _ _ (Z.modulo _) La), usub_spec; congruence. Qed.

Theorem neg_exact a : wf a -> uval (neg a) = (- uval a) mod 2 ^ 256 /\ wf (neg a).
Proof. intros [Ha La]. apply (at_width _ _ (Z.modulo _) La), neg_spec, Ha. Qed.

Theorem not_exact a : wf a -> uval (bnot a) = 2 ^ 256 - 1 - uval a /\ wf (bnot a).
Proof. intros [Ha La]. apply (at_width _ _ (fun M => M - 1 - uval a) La), bnot_spec, Ha. Qed.

Theorem inc_exact a : wf a -> uval (inc a) = (uval a + 1) mod 2 ^ 256 /\ wf (inc a).
Proof. intros [Ha La]. apply (at_width _ _ (Z.modulo _) La), inc_spec, Ha. Qed.

Theorem dec_exact a : wf a -> uval (dec a) = (uval a - 1) mod 2 ^ 256 /\ wf (dec a).
Proof. intros [Ha La]. apply (at_width _ _ (Z.modulo _) La), dec_spec, Ha. Qed.

Theorem mul32_exact a w : wf a -> 0 <= w < 2 ^ 32 ->
  uval (mul32 a w) = (uval a * w) mod 2 ^ 256 /\ wf (mul32 a w).
Proof. intros [Ha La] Hw. apply (at_width _ _ (Z.modulo _) La), mul32_spec; assumption. Qed.

Theorem mul_exact a b : wf a -> wf b -> uval (umul a b) = (uval a * uval b) mod 2 ^ 256 /\ wf (umul a b).
Proof. intros [Ha La] [Hb Lb]. apply (at_width _ _ (Z.modulo _) La), umul_spec; congruence. Qed.

(** every shift amount an [unsigned int] can hold, in particular >= 256 *)
Theorem shl_exact a sh : wf a -> 0 <= sh -> uval (shl a sh) = (uval a * 2 ^ sh) mod 2 ^ 256 /\ wf (shl a sh).
Proof. intros [Ha La] Hs. apply (at_width _ _ (Z.modulo _) La), shl_spec; assumption. Qed.

Theorem shr_exact a sh : wf a -> 0 <= sh -> uval (shr a sh) = uval a / 2 ^ sh /\ wf (shr a sh).
Proof. intros [Ha La] Hs. apply (at_width _ _ (fun _ => uval a / 2 ^ sh) La), shr_spec; assumption. Qed.

Theorem cmp_exact a b : wf a -> wf b ->
  cmp a b = match uval a ?= uval b with Lt => -1 | Eq => 0 | Gt => 1 end.
Proof. intros [Ha La] [Hb Lb]. apply (cmp_spec a b Ha Hb). congruence. Qed.

Theorem bits_exact a : wf a -> ubits a = (if uval a =? 0 then 0 else Z.log2 (uval a) + 1).
Proof.
  intros [Ha La]. rewrite (ubits_spec a Ha). unfold bits. pose proof (uval_bound a Ha).
  destruct (Z.eqb_spec (uval a) 0), (Z.leb_spec (uval a) 0); try lia; reflexivity.
Qed.

Theorem getLow64_exact a : wf a -> getLow64 a = uval a mod 2 ^ 64.
Proof. intros [Ha La]. apply getLow64_spec; [exact Ha|rewrite La; unfold WIDTH; lia]. Qed.

Theorem of_u64_exact b : 0 <= b < 2 ^ 64 -> uval (of_u64 b) = b /\ wf (of_u64 b).
Proof. exact (of_u64_spec b). Qed.

(** division: quotient is exact, division by zero is the explicit [Throw] outcome *)
Theorem div_exact a b : wf a -> wf b ->
  match udiv a b with
  | Throw => uval b = 0
  | Done q => 0 < uval b /\ uval q = uval a / uval b /\ wf q
  end.
Proof.
  intros [Ha La] [Hb Lb]. pose proof (udiv_spec a b Ha Hb ltac:(congruence)) as H.
  rewrite La in H. exact H.
Qed.

Theorem div_throws_iff a b : wf a -> wf b -> (udiv a b = Throw <-> uval b = 0).
Proof.
  intros Wa Wb. pose proof (div_exact a b Wa Wb) as H. split.
  - intros E. rewrite E in H. exact H.
  - intros E. destruct (udiv a b); [destruct H; lia|reflexivity].
Qed.

Theorem toBits_bytes a neg : wf a -> toBits_b a neg = toBits (uval a) neg.
Proof. intros [Ha La]. apply toBits_b_spec; [exact Ha|rewrite La; unfold WIDTH; lia]. Qed.

(** the hypotheses are satisfiable by non-trivial values *)
Example wf_example : wf (of_u64 1234567890123) /\ uval (of_u64 1234567890123) = 1234567890123.
Proof. destruct (of_u64_exact 1234567890123 ltac:(split; [discriminate|reflexivity])) as [H1 H2]. split; assumption. Qed.

(** the literal loops ([shl], [shr], [ubits]: what the theorems above are about)
    coincide with the gather formulations [shl_g], [shr_g], [ubits_g] *)
Theorem shifts_coded_eq_gather a sh : wf a -> 0 <= sh ->
  shl a sh = shl_g a sh /\ shr a sh = shr_g a sh /\ ubits a = ubits_g a.
Proof.
  intros [Ha La] Hs. split; [apply shl_coded_eq_gather; assumption|].
  split; [apply shr_coded_eq_gather; assumption|apply ubits_coded_eq_gather; assumption].
Qed.
