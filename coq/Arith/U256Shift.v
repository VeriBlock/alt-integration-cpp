(** Value-level correctness of U256Defs.v, part 2: <<=, >>= (every shift amount),
    bits(), getLow64, the uint64 constructor. The loops as coded ([shl], [shr]: scatter per
    source byte with |= into the zeroed array) build the same list as the gather
    formulations [shl_g], [shr_g]. *)
From Coq Require Import ZArith Lia List.
From VB Require Import Base.Bits Arith.CompactDefs Arith.CompactProofs Arith.U256Defs Arith.U256Basics.
Import ListNotations.
Local Open Scope Z_scope.
Ltac Zify.zify_post_hook ::= Z.div_mod_to_equations.

Lemma firstn_skipn_ok n l : bytes_ok l -> bytes_ok (firstn n l) /\ bytes_ok (skipn n l).
Proof. intros H. apply bytes_ok_app. rewrite firstn_skipn. exact H. Qed.

Lemma uval_split n l : bytes_ok l -> (n <= length l)%nat ->
  uval (firstn n l) = uval l mod P256 n /\ uval (skipn n l) = uval l / P256 n.
Proof.
  intros Hl Hn. pose proof (uval_app (firstn n l) (skipn n l)) as H.
  pose proof (uval_bound _ (proj1 (firstn_skipn_ok n l Hl))) as Hb.
  rewrite firstn_skipn in H. rewrite firstn_length_le in H, Hb by exact Hn.
  split; [apply Z.mod_unique_pos with (uval (skipn n l))
                   |apply Z.div_unique_pos with (uval (firstn n l))]; lia.
Qed.

(** [256 = 2^t * 2^s]: the byte [x] splits into [x / 2^t] and [x mod 2^t] *)
Lemma w8_shiftl x t s : 0 <= t -> 0 <= s -> t + s = 8 -> w8 (Z.shiftl x s) = (x mod 2 ^ t) * 2 ^ s.
Proof.
  intros Ht Hs Hts. unfold w8. rewrite Z.shiftl_mul_pow2 by exact Hs.
  change 256 with (2 ^ 8). rewrite <- Hts, Z.pow_add_r by assumption.
  apply Z.mul_mod_distr_r; apply Z.pow_nonzero; lia.
Qed.

Lemma byte_split x t s : 0 <= t -> 0 <= s -> t + s = 8 -> 0 <= x < 256 ->
  2 ^ t * 2 ^ s = 256 /\ 0 <= x mod 2 ^ t < 2 ^ t /\ 0 <= x / 2 ^ t < 2 ^ s
  /\ x = 2 ^ t * (x / 2 ^ t) + x mod 2 ^ t.
Proof.
  intros Ht Hs Hts Hx. pose proof (pow2_pos t Ht) as HT.
  assert (H256 : 2 ^ t * 2 ^ s = 256) by (rewrite <- Z.pow_add_r, Hts by assumption; reflexivity).
  split; [exact H256|]. split; [apply Z.mod_pos_bound; exact HT|].
  split; [|apply Z.div_mod; lia].
  split; [apply Z.div_pos; lia|apply Z.div_lt_upper_bound; lia].
Qed.

Lemma digit_bound A B a b : 0 <= a < A -> 0 <= b < B -> 0 <= a * B + b < A * B.
Proof. nia. Qed.

Lemma shl_byte_step s x c : 0 <= s < 8 -> 0 <= x < 256 -> 0 <= c < 2 ^ s ->
  let n := c + x * 2 ^ s in
  Z.lor (w8 (Z.shiftl x s)) c = n mod 256
  /\ (if s =? 0 then 0 else Z.shiftr x (8 - s)) = n / 256 /\ 0 <= n / 256 < 2 ^ s.
Proof.
  intros Hs Hx Hc n.
  assert (Hs' : 0 <= s) by lia. assert (Ht : 0 <= 8 - s) by lia. assert (Hts : 8 - s + s = 8) by ring.
  destruct (byte_split x (8 - s) s Ht Hs' Hts Hx) as (H256 & Hlo & Hhi & Hdm).
  assert (Hq : (if s =? 0 then 0 else Z.shiftr x (8 - s)) = x / 2 ^ (8 - s)).
  { destruct (Z.eqb_spec s 0) as [->|Hs0]; [symmetry; apply Z.div_small; exact Hx|].
    apply Z.shiftr_div_pow2. exact Ht. }
  rewrite Hq, (w8_shiftl x (8 - s)), lor_low_high by assumption.
  (* n = 256 * q + (r * 2^s + c) with x = 2^(8-s) * q + r *)
  pose proof (digit_bound _ _ _ _ Hlo Hc) as Hr. rewrite H256 in Hr.
  assert (Hn : n = 256 * (x / 2 ^ (8 - s)) + (x mod 2 ^ (8 - s) * 2 ^ s + c))
    by (subst n; rewrite Hdm at 1; rewrite <- H256; ring).
  rewrite <- (Z.div_unique_pos n 256 _ _ Hr Hn), <- (Z.mod_unique_pos n 256 _ _ Hr Hn).
  split; [reflexivity|]. split; [reflexivity|exact Hhi].
Qed.

Lemma shr_byte_step s x v : 0 <= s < 8 -> 0 <= x < 256 -> 0 <= v ->
  let o := Z.lor (Z.shiftr x s) (if s =? 0 then 0 else w8 (Z.shiftl (v mod 256) (8 - s))) in
  0 <= o < 256 /\ o + 256 * (v / 2 ^ s) = (x + 256 * v) / 2 ^ s.
Proof.
  intros Hs Hx Hv o.
  assert (Hs' : 0 <= s) by lia. assert (Ht : 0 <= 8 - s) by lia. assert (Hts : s + (8 - s) = 8) by ring.
  pose proof (pow2_pos s Hs') as HS. assert (HS0 : 2 ^ s <> 0) by lia.
  destruct (byte_split x s (8 - s) Hs' Ht Hts Hx) as (H256 & _ & Hhi & _).
  (* the low bits of the next byte are those of [v]: 2^s divides 256 *)
  assert (Hlow : (if s =? 0 then 0 else w8 (Z.shiftl (v mod 256) (8 - s))) = v mod 2 ^ s * 2 ^ (8 - s)).
  { destruct (Z.eqb_spec s 0) as [->|Hs0]; [rewrite Z.mod_1_r; reflexivity|].
    rewrite (w8_shiftl _ s) by assumption. f_equal.
    rewrite <- H256, Z.rem_mul_r, Z.mul_comm, Z.mod_add by (try apply pow2_pos; assumption).
    apply Z.mod_mod. exact HS0. }
  assert (Ho : o = v mod 2 ^ s * 2 ^ (8 - s) + x / 2 ^ s).
  { subst o. rewrite Hlow, Z.shiftr_div_pow2, Z.lor_comm by exact Hs'. apply lor_low_high; [exact Ht|exact Hhi]. }
  pose proof (digit_bound _ _ _ _ (Z.mod_pos_bound v _ HS) Hhi) as Hb. rewrite H256 in Hb.
  rewrite Ho. split; [exact Hb|].
  replace (x + 256 * v) with (x + 2 ^ (8 - s) * v * 2 ^ s) by (rewrite <- H256; ring).
  rewrite Z.div_add by exact HS0. rewrite (Z.div_mod v (2 ^ s)) at 3 by exact HS0. rewrite <- H256. ring.
Qed.

Lemma shl_bits_spec : forall a s c, bytes_ok a -> 0 <= s < 8 -> 0 <= c < 2 ^ s ->
  repr (length a) (shl_bits s c a) ((c + uval a * 2 ^ s) mod P256 (length a)).
Proof.
  induction a as [|x a IH]; intros s c Ha Hs Hc; [apply repr_nil|].
  apply bytes_ok_cons in Ha. destruct Ha as [Hx Ha].
  destruct (shl_byte_step s x c Hs Hx Hc) as (Hlo & Hhi & Hcarry).
  cbn [shl_bits uval length]. rewrite Hlo, Hhi.
  eapply repr_cons; [apply IH; [exact Ha|exact Hs|exact Hcarry]|generalize (2 ^ s); intros; ring].
Qed.

Lemma shl_bytes_spec a k : bytes_ok a -> 0 <= k ->
  repr (length a) (shl_bytes k a) ((uval a * 2 ^ (8 * k)) mod P256 (length a)).
Proof.
  intros Ha Hk. unfold shl_bytes.
  destruct (Z.leb_spec (Z.of_nat (length a)) k) as [Hge|Hlt].
  - replace ((uval a * 2 ^ (8 * k)) mod P256 (length a)) with 0; [apply zeros_ok|].
    symmetry. rewrite P256_pow2.
    replace (8 * k) with ((8 * k - 8 * Z.of_nat (length a)) + 8 * Z.of_nat (length a)) at 1 by lia.
    rewrite Z.pow_add_r, Z.mul_assoc by lia. apply Z.mod_mul. apply Z.pow_nonzero; lia.
  - destruct (zeros_ok (Z.to_nat k)) as (K1 & K2 & K3).
    assert (Hok : bytes_ok (zeros (Z.to_nat k) ++ a)) by (apply bytes_ok_app; split; assumption).
    repeat split.
    + rewrite (proj1 (uval_split (length a) _ Hok ltac:(rewrite app_length; lia))).
      rewrite uval_app, K3, K1, P256_Zpow by lia. f_equal. lia.
    + apply firstn_skipn_ok. exact Hok.
    + rewrite firstn_length, app_length. lia.
Qed.

Lemma shift_split sh : 0 <= sh ->
  0 <= sh / 8 /\ 0 <= sh mod 8 < 8 /\ 2 ^ sh = 2 ^ (8 * (sh / 8)) * 2 ^ (sh mod 8).
Proof.
  intros H. split; [lia|]. split; [lia|].
  rewrite <- Z.pow_add_r by lia. f_equal. lia.
Qed.

Theorem shl_g_spec a sh : bytes_ok a -> 0 <= sh ->
  repr (length a) (shl_g a sh) ((uval a * 2 ^ sh) mod P256 (length a)).
Proof.
  intros Ha Hsh. unfold shl_g. destruct (shift_split sh Hsh) as (Hk & Hs & ->).
  (* hidden from [lia], which would expand the division and the remainder *)
  set (k := sh / 8) in *. set (s := sh mod 8) in *. clearbody k s.
  destruct (shl_bytes_spec a k Ha Hk) as (Hv & Hb & Hl).
  pose proof (shl_bits_spec _ s 0 Hb Hs ltac:(pose proof (pow2_pos s); lia)) as H.
  rewrite Hl, Hv, Z.add_0_l, Z.mul_mod_idemp_l, <- Z.mul_assoc in H by apply P256_nz.
  exact H.
Qed.

Lemma hd_mod r : bytes_ok r -> hd 0 r = uval r mod 256.
Proof.
  destruct r as [|y r]; intros H; [reflexivity|].
  apply bytes_ok_cons in H. destruct H as [Hy _].
  cbn [hd uval]. lia.
Qed.

Lemma shr_bits_spec : forall a s, bytes_ok a -> 0 <= s < 8 ->
  repr (length a) (shr_bits s a) (uval a / 2 ^ s).
Proof.
  induction a as [|x a IH]; intros s Ha Hs.
  { rewrite Z.div_0_l by (apply Z.pow_nonzero; lia). repeat split. constructor. }
  apply bytes_ok_cons in Ha. destruct Ha as [Hx Ha].
  pose proof (uval_bound a Ha) as Hbd.
  destruct (shr_byte_step s x (uval a) Hs Hx ltac:(lia)) as [Ho1 Ho2].
  cbn [shr_bits uval length]. rewrite (hd_mod a Ha), <- Ho2.
  apply repr_byte; [exact Ho1|apply IH; assumption].
Qed.

Lemma shr_bytes_spec a k : bytes_ok a -> 0 <= k ->
  repr (length a) (shr_bytes k a) (uval a / 2 ^ (8 * k)).
Proof.
  intros Ha Hk. unfold shr_bytes. pose proof (uval_bound a Ha) as Hbd.
  destruct (Z.leb_spec (Z.of_nat (length a)) k) as [Hge|Hlt].
  - rewrite Z.div_small; [apply zeros_ok|]. rewrite P256_pow2 in Hbd.
    assert (2 ^ (8 * Z.of_nat (length a)) <= 2 ^ (8 * k)) by (apply Z.pow_le_mono_r; lia). lia.
  - destruct (zeros_ok (Z.to_nat k)) as (K1 & K2 & K3). repeat split.
    + rewrite uval_app, K1, (proj2 (uval_split (Z.to_nat k) _ Ha ltac:(lia))), P256_Zpow by lia. lia.
    + apply bytes_ok_app. split; [apply firstn_skipn_ok; exact Ha|exact K2].
    + rewrite app_length, skipn_length, K3. lia.
Qed.

Theorem shr_g_spec a sh : bytes_ok a -> 0 <= sh ->
  repr (length a) (shr_g a sh) (uval a / 2 ^ sh).
Proof.
  intros Ha Hsh. unfold shr_g. destruct (shift_split sh Hsh) as (Hk & Hs & ->).
  set (k := sh / 8) in *. set (s := sh mod 8) in *. clearbody k s.
  destruct (shr_bytes_spec a k Ha Hk) as (Hv & Hb & Hl).
  pose proof (shr_bits_spec _ s Hb Hs) as H.
  rewrite Hl, Hv, Z.div_div in H by (try apply Z.pow_nonzero; try apply pow2_pos; lia).
  exact H.
Qed.

Lemma w8_ok z : byte_ok (w8 z).
Proof. apply Z.mod_pos_bound. lia. Qed.

Lemma w8_byte x : byte_ok x -> w8 x = x.
Proof. apply Z.mod_small. Qed.

Lemma w8_lor a b : byte_ok a -> byte_ok b -> w8 (Z.lor a b) = Z.lor a b.
Proof.
  intros Ha Hb. unfold w8. rewrite <- land255, Z.land_lor_distr_l, !land255.
  fold (w8 a) (w8 b). rewrite !w8_byte by assumption. reflexivity.
Qed.

Lemma shiftr_byte x t : byte_ok x -> 0 <= t -> byte_ok (Z.shiftr x t).
Proof. apply shiftr_bound. Qed.

Lemma or_nth_app pre j m q : or_nth (length pre + j) m (pre ++ q) = pre ++ or_nth j m q.
Proof. induction pre as [|y pre IH]; [reflexivity|]. cbn [length Nat.add app or_nth]. rewrite IH. reflexivity. Qed.

Lemma app_snoc {A} (pre : list A) x q : pre ++ x :: q = (pre ++ [x]) ++ q.
Proof. rewrite <- app_assoc. reflexivity. Qed.

Lemma shl_loop_done : forall src i k s n data, n <= i + k -> shl_loop i k s n src data = data.
Proof.
  induction src as [|x r IH]; intros i k s n data Hn; [reflexivity|]. cbn [shl_loop].
  destruct (Z.ltb_spec (i + k + 1) n); [lia|]. destruct (Z.ltb_spec (i + k) n); [lia|].
  apply IH. lia.
Qed.

(** operator<<= as coded, at source byte [i]: the destination bytes below [i + k] are final
    ([pre]), byte [i + k] holds the high part [c] of the previous source byte, the rest is zero *)
Lemma shl_loop_gather k s : 0 <= s < 8 -> forall src pre c m i n,
  bytes_ok src -> byte_ok c -> i + k = Z.of_nat (length pre) -> n = i + k + 1 + Z.of_nat m ->
  (S m <= length src)%nat ->
  shl_loop i k s n src (pre ++ c :: zeros m) = pre ++ shl_bits s c (firstn (S m) src).
Proof.
  intros Hs. induction src as [|x r IH]; intros pre c m i n Hsrc Hc Hi Hn Hm; [cbn [length] in Hm; lia|].
  apply bytes_ok_cons in Hsrc. destruct Hsrc as [Hx Hr].
  pose proof (w8_ok (Z.shiftl x s)) as Hlo. pose proof (shiftr_byte x (8 - s) Hx ltac:(lia)) as Hhi.
  cbn [shl_loop firstn shl_bits].
  destruct (Z.ltb_spec (i + k) n) as [_|?]; [|lia].
  replace (Z.to_nat (i + k)) with (length pre + 0)%nat by lia.
  replace (Z.to_nat (i + k + 1)) with (length pre + 1)%nat by lia.
  destruct m as [|m].
  - (* the last byte of the array: the high part of [x] falls off *)
    destruct (Z.ltb_spec (i + k + 1) n); [lia|]. cbn [andb].
    rewrite or_nth_app. cbn [or_nth firstn shl_bits zeros repeat].
    rewrite shl_loop_done by lia.
    rewrite w8_lor, Z.lor_comm by assumption. reflexivity.
  - destruct (Z.ltb_spec (i + k + 1) n); [|lia]. cbn [andb zeros repeat]. fold (zeros m). cbn [length] in Hm.
    rewrite (app_snoc pre (Z.lor _ c)), <- (IH _ _ m (i + 1) n);
      [|exact Hr|destruct (s =? 0); [unfold byte_ok; lia|exact Hhi]|rewrite app_length; cbn [length]; lia|lia|lia].
    f_equal. rewrite <- app_assoc. cbn [app].
    destruct (Z.eqb_spec s 0) as [E|E]; cbn [negb].
    + rewrite or_nth_app. cbn [or_nth]. rewrite w8_lor, Z.lor_comm by assumption. reflexivity.
    + rewrite !or_nth_app. cbn [or_nth].
      rewrite Z.lor_0_l, (w8_byte _ Hhi), w8_lor, Z.lor_comm by assumption. reflexivity.
Qed.

Lemma shl_bits_zeros s j l : shl_bits s 0 (zeros j ++ l) = zeros j ++ shl_bits s 0 l.
Proof.
  induction j as [|j IH]; [reflexivity|]. cbn [zeros repeat app shl_bits]. fold (zeros j).
  rewrite Z.shiftl_0_l, Z.shiftr_0_l. destruct (s =? 0); rewrite IH; reflexivity.
Qed.

Theorem shl_coded_eq_gather a sh : bytes_ok a -> 0 <= sh -> shl a sh = shl_g a sh.
Proof.
  intros Ha Hsh. unfold shl, shl_g, shl_bytes. destruct (shift_split sh Hsh) as (Hk & Hs & _).
  set (k := sh / 8) in *. set (s := sh mod 8) in *. clearbody k s.
  destruct (Z.leb_spec (Z.of_nat (length a)) k) as [Hge|Hlt].
  - rewrite shl_loop_done by lia. rewrite <- (app_nil_r (zeros (length a))) at 2.
    rewrite shl_bits_zeros. symmetry. apply app_nil_r.
  - destruct (zeros_ok (Z.to_nat k)) as (_ & _ & K).
    assert (Hlen : length a = (length (zeros (Z.to_nat k)) + S (length a - Z.to_nat k - 1))%nat) by lia.
    set (m := (length a - Z.to_nat k - 1)%nat) in *.
    rewrite Hlen at 3. rewrite firstn_app_2, shl_bits_zeros.
    replace (zeros (length a)) with (zeros (Z.to_nat k) ++ 0 :: zeros m).
    + apply (shl_loop_gather k s Hs); [exact Ha|unfold byte_ok; lia|lia|lia|lia].
    + rewrite Hlen, K. unfold zeros. rewrite repeat_app. reflexivity.
Qed.

Theorem shl_spec a sh : bytes_ok a -> 0 <= sh ->
  repr (length a) (shl a sh) ((uval a * 2 ^ sh) mod P256 (length a)).
Proof. intros Ha Hsh. rewrite shl_coded_eq_gather by assumption. apply shl_g_spec; assumption. Qed.

(** operator>>= as coded: the first [k] source bytes are dropped; then, at source byte [i], the
    destination bytes below [i - k - 1] are final ([pre]), byte [i - k - 1] holds [y >> s] of
    the previous source byte [y], the rest is zero *)
Lemma shr_loop_skip k s data : forall j src i, i + Z.of_nat j <= k ->
  shr_loop i k s src data = shr_loop (i + Z.of_nat j) k s (skipn j src) data.
Proof.
  induction j as [|j IH]; intros src i Hi; [rewrite Z.add_0_r; reflexivity|].
  destruct src as [|x r]; [reflexivity|]. cbn [shr_loop skipn].
  destruct (Z.leb_spec 0 (i - k - 1)); [lia|]. destruct (Z.leb_spec 0 (i - k)); [lia|].
  rewrite IH by lia. f_equal. lia.
Qed.

Lemma shr_loop_gather k s : 0 <= s < 8 -> forall r pre y m i,
  bytes_ok r -> byte_ok y -> i - k - 1 = Z.of_nat (length pre) -> (length r <= m)%nat ->
  shr_loop i k s r (pre ++ Z.shiftr y s :: zeros m) = pre ++ shr_bits s (y :: r) ++ zeros (m - length r).
Proof.
  intros Hs. induction r as [|x r IH]; intros pre y m i Hr Hy Hi Hm.
  { cbn [shr_loop shr_bits hd length app]. rewrite Nat.sub_0_r, Z.shiftl_0_l.
    destruct (s =? 0); rewrite Z.lor_0_r; reflexivity. }
  apply bytes_ok_cons in Hr. destruct Hr as [Hx Hr].
  destruct m as [|m]; [cbn [length] in Hm; lia|]. cbn [length] in Hm.
  pose proof (shiftr_byte y s Hy ltac:(lia)) as Hhi. pose proof (shiftr_byte x s Hx ltac:(lia)) as Hhx.
  change (shr_bits s (y :: x :: r)) with
    (Z.lor (Z.shiftr y s) (if s =? 0 then 0 else w8 (Z.shiftl x (8 - s))) :: shr_bits s (x :: r)).
  cbn [shr_loop length Nat.sub app].
  destruct (Z.leb_spec 0 (i - k - 1)); [|lia]. destruct (Z.leb_spec 0 (i - k)); [|lia].
  replace (Z.to_nat (i - k - 1)) with (length pre + 0)%nat by lia.
  replace (Z.to_nat (i - k)) with (length pre + 1)%nat by lia.
  cbn [andb zeros repeat]. fold (zeros m).
  rewrite (app_snoc pre (Z.lor _ _)), <- (IH _ x m (i + 1));
    [|exact Hr|exact Hx|rewrite app_length; cbn [length]; lia|lia].
  f_equal. rewrite <- app_assoc. cbn [app].
  destruct (Z.eqb_spec s 0) as [E|E]; cbn [negb].
  - rewrite or_nth_app. cbn [or_nth]. rewrite Z.lor_0_l, Z.lor_0_r, (w8_byte _ Hhx). reflexivity.
  - rewrite !or_nth_app. cbn [or_nth].
    rewrite Z.lor_0_l, (w8_byte _ Hhx), (w8_lor _ _ Hhi (w8_ok _)). reflexivity.
Qed.

Lemma shr_bits_zeros s : forall l j, shr_bits s (l ++ zeros j) = shr_bits s l ++ zeros j.
Proof.
  assert (Hhd : forall l j, hd 0 (l ++ zeros j) = hd 0 l) by (intros [|x l] [|j]; reflexivity).
  induction l as [|x l IH]; intros j; cbn [app shr_bits].
  - induction j as [|j IHj]; [reflexivity|]. cbn [zeros repeat shr_bits]. fold (zeros j).
    rewrite IHj, (Hhd [] j : hd 0 (zeros j) = _), Z.shiftr_0_l, Z.shiftl_0_l. destruct (s =? 0); reflexivity.
  - rewrite IH, Hhd. reflexivity.
Qed.

Theorem shr_coded_eq_gather a sh : bytes_ok a -> 0 <= sh -> shr a sh = shr_g a sh.
Proof.
  intros Ha Hsh. unfold shr, shr_g, shr_bytes. destruct (shift_split sh Hsh) as (Hk & Hs & _).
  set (k := sh / 8) in *. set (s := sh mod 8) in *. clearbody k s.
  destruct (Z.leb_spec (Z.of_nat (length a)) k) as [Hge|Hlt].
  - rewrite (shr_loop_skip k s _ (length a)), skipn_all by lia.
    symmetry. apply (shr_bits_zeros s []).
  - rewrite (shr_loop_skip k s _ (Z.to_nat k)), shr_bits_zeros by lia.
    pose proof (skipn_length (Z.to_nat k) a) as Hl.
    destruct (firstn_skipn_ok (Z.to_nat k) a Ha) as [_ Hyr].
    destruct (skipn (Z.to_nat k) a) as [|y r]; [cbn [length] in Hl; lia|].
    apply bytes_ok_cons in Hyr. destruct Hyr as [Hy Hr]. cbn [length] in Hl.
    destruct (length a) as [|m]; [lia|].
    cbn [shr_loop zeros repeat or_nth]. fold (zeros m).
    destruct (Z.leb_spec 0 (0 + Z.of_nat (Z.to_nat k) - k - 1)); [lia|].
    destruct (Z.leb_spec 0 (0 + Z.of_nat (Z.to_nat k) - k)); [|lia].
    replace (Z.to_nat (0 + Z.of_nat (Z.to_nat k) - k)) with 0%nat by lia. cbn [andb or_nth].
    rewrite Z.lor_0_l, w8_byte by (apply shiftr_byte; [exact Hy|lia]).
    rewrite (shr_loop_gather k s Hs r [] y m); [|exact Hr|exact Hy|cbn [length]; lia|lia].
    cbn [app]. do 2 f_equal. lia.
Qed.

Theorem shr_spec a sh : bytes_ok a -> 0 <= sh -> repr (length a) (shr a sh) (uval a / 2 ^ sh).
Proof. intros Ha Hsh. rewrite shr_coded_eq_gather by assumption. apply shr_g_spec; assumption. Qed.

Lemma bits_byte_spec : forall nb x, 0 < x < 2 ^ (Z.of_nat nb + 1) -> bits_byte nb x = bits x.
Proof.
  induction nb as [|m IH]; intros x Hx.
  { assert (x = 1) by (change (2 ^ (Z.of_nat 0 + 1)) with 2 in Hx; lia). subst x. reflexivity. }
  cbn [bits_byte]. set (n := Z.of_nat (S m)) in *. assert (Hn : n = Z.of_nat m + 1) by lia.
  rewrite Z.shiftl_mul_pow2, Z.mul_1_l, land_pow2, testbit_leb by lia.
  pose proof (pow2_pos n ltac:(lia)) as HP.
  destruct (Z.leb_spec (2 ^ n) x) as [Hge|Hlt].
  - destruct (Z.eqb_spec (2 ^ n) 0); [lia|]. cbn [negb].
    rewrite bits_pos by lia. f_equal. symmetry. apply Z.log2_unique; [lia|].
    replace (Z.succ n) with (n + 1) by lia. lia.
  - cbn [Z.eqb negb]. apply IH. rewrite <- Hn. lia.
Qed.

Lemma bits_scan_spec : forall l, bytes_ok l -> bits_scan l = bits (uval (rev l)).
Proof.
  induction l as [|x r IH]; intros Hl; [reflexivity|].
  apply bytes_ok_cons in Hl. destruct Hl as [Hx Hr].
  pose proof (uval_bound (rev r) (Forall_rev Hr)) as Hbd. rewrite rev_length, P256_pow2 in Hbd.
  cbn [bits_scan rev]. rewrite uval_app, rev_length, P256_pow2. cbn [uval]. rewrite Z.mul_0_r, Z.add_0_r.
  destruct (Z.eqb_spec x 0) as [->|E]; cbn [negb].
  - rewrite Z.mul_0_r, Z.add_0_r. apply IH. exact Hr.
  - rewrite bits_digit by (try exact Hbd; lia). rewrite (bits_byte_spec 7) by (change (2 ^ (Z.of_nat 7 + 1)) with 256; lia). lia.
Qed.

Theorem ubits_spec a : bytes_ok a -> ubits a = bits (uval a).
Proof. intros Ha. unfold ubits. rewrite bits_scan_spec, rev_involutive by (apply Forall_rev; exact Ha). reflexivity. Qed.

Lemma bits_from_spec : forall a pos, bytes_ok a -> 0 <= pos ->
  bits_from pos a = if uval a =? 0 then 0 else 8 * pos + bits (uval a).
Proof.
  induction a as [|x a IH]; intros pos Ha Hpos; [reflexivity|].
  apply bytes_ok_cons in Ha. destruct Ha as [Hx Ha].
  pose proof (uval_bound a Ha) as Hbd.
  cbn [bits_from uval]. rewrite (IH (pos + 1) Ha) by lia.
  destruct (Z.eqb_spec (uval a) 0) as [->|E]; cbn [Z.eqb negb].
  - rewrite Z.mul_0_r, Z.add_0_r.
    destruct (Z.eqb_spec x 0) as [Ex|Ex]; cbn [negb]; [reflexivity|].
    rewrite (bits_byte_spec 7) by (change (2 ^ (Z.of_nat 7 + 1)) with 256; lia). reflexivity.
  - pose proof (bits_bounds (uval a) ltac:(lia)) as [Hb _].
    change 256 with (2 ^ 8). rewrite (bits_digit x 8 (uval a)) by (change (2 ^ 8) with 256; lia).
    destruct (Z.eqb_spec (8 * (pos + 1) + bits (uval a)) 0) as [E2|E2],
             (Z.eqb_spec (x + 2 ^ 8 * uval a) 0) as [E3|E3]; cbn [negb]; lia.
Qed.

Theorem ubits_coded_eq_gather a : bytes_ok a -> ubits a = ubits_g a.
Proof.
  intros Ha. unfold ubits_g. rewrite ubits_spec, bits_from_spec by (try exact Ha; lia).
  destruct (Z.eqb_spec (uval a) 0) as [->|]; [reflexivity|lia].
Qed.

Theorem getLow64_spec a : bytes_ok a -> (8 <= length a)%nat -> getLow64 a = uval a mod 2 ^ 64.
Proof.
  intros Ha Hl. unfold getLow64, w64.
  destruct (uval_split 4 a Ha ltac:(lia)) as [H1 H2].
  destruct (uval_split 4 (skipn 4 a)) as [H3 _];
    [apply firstn_skipn_ok; exact Ha|rewrite skipn_length; lia|].
  rewrite H1, H3, H2. change (P256 4) with (2 ^ 32). change (2 ^ 64) with (2 ^ 32 * 2 ^ 32).
  rewrite (Z.rem_mul_r (uval a)) by (clear; lia).
  pose proof (Z.mod_pos_bound (uval a) (2 ^ 32) ltac:(clear; lia)) as Hlo.
  pose proof (Z.mod_pos_bound (uval a / 2 ^ 32) (2 ^ 32) ltac:(clear; lia)) as Hhi.
  set (L := uval a mod 2 ^ 32) in *. set (X := (uval a / 2 ^ 32) mod 2 ^ 32) in *.
  clearbody L X. clear - Hlo Hhi.
  rewrite Z.shiftl_mul_pow2, Z.mod_small, <- (Z.shiftl_mul_pow2 X 32), lor_shiftl_add by lia. ring.
Qed.

Fixpoint le_bytes (n : nat) (b : Z) : list Z :=
  match n with O => [] | S k => w8 b :: le_bytes k (Z.shiftr b 8) end.

Lemma le_bytes_spec : forall n b, repr n (le_bytes n b) (b mod P256 n).
Proof.
  induction n as [|n IH]; intros b; [apply repr_nil|]. cbn [le_bytes].
  eapply repr_cons; [apply IH|]. rewrite shiftr8. ring.
Qed.

Theorem of_u64_spec b : 0 <= b < 2 ^ 64 -> repr WIDTH (of_u64 b) b.
Proof.
  intros Hb. destruct (zeros_ok (WIDTH - 8)) as (Z1 & Z2 & _).
  destruct (le_bytes_spec 8 b) as (L1 & L2 & _). change (P256 8) with (2 ^ 64) in L1.
  replace (of_u64 b) with (le_bytes 8 b ++ zeros (WIDTH - 8))
    by (unfold of_u64; cbn [le_bytes]; rewrite !Z.shiftr_shiftr by lia; reflexivity).
  split; [|split; [|reflexivity]].
  - rewrite uval_app, Z1, L1, Z.mul_0_r, Z.add_0_r. apply Z.mod_small. exact Hb.
  - apply bytes_ok_app. split; assumption.
Qed.
