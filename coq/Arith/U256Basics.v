(** Value-level correctness of the byte-array operations of U256Defs.v, part 1:
    carry chains (+=, ++, --, ~, unary -, -=, *= uint32, *= U256) and compareTo.
    Everything is proved for byte lists of ANY length [n] modulo [256^n] by
    induction over the list; U256Proofs.v instantiates n = 32. *)
From Coq Require Import ZArith Lia List.
From VB Require Import Base.Bits Arith.U256Defs.
Import ListNotations.
Local Open Scope Z_scope.
Ltac Zify.zify_post_hook ::= Z.div_mod_to_equations.

Definition P256 (n : nat) : Z := 256 ^ Z.of_nat n.

Lemma P256_0 : P256 0 = 1.
Proof. reflexivity. Qed.

Lemma P256_S n : P256 (S n) = 256 * P256 n.
Proof. unfold P256. rewrite Nat2Z.inj_succ, Z.pow_succ_r by lia. reflexivity. Qed.

Lemma P256_pos n : 0 < P256 n.
Proof. unfold P256. apply Z.pow_pos_nonneg; lia. Qed.

Lemma P256_nz n : P256 n <> 0.
Proof. pose proof (P256_pos n). lia. Qed.

Lemma P256_add n m : P256 (n + m) = P256 n * P256 m.
Proof. unfold P256. rewrite Nat2Z.inj_add, Z.pow_add_r by lia. reflexivity. Qed.

Lemma P256_pow2 n : P256 n = 2 ^ (8 * Z.of_nat n).
Proof. unfold P256. change 256 with (2 ^ 8). rewrite <- Z.pow_mul_r by lia. reflexivity. Qed.

Lemma P256_Zpow k : 0 <= k -> P256 (Z.to_nat k) = 2 ^ (8 * k).
Proof. intros Hk. rewrite P256_pow2, Z2Nat.id by exact Hk. reflexivity. Qed.

Lemma bytes_ok_cons x r : bytes_ok (x :: r) <-> 0 <= x < 256 /\ bytes_ok r.
Proof. apply Forall_cons_iff. Qed.

Lemma bytes_ok_app a b : bytes_ok (a ++ b) <-> bytes_ok a /\ bytes_ok b.
Proof. apply Forall_app. Qed.

Lemma uval_bound a : bytes_ok a -> 0 <= uval a < P256 (length a).
Proof.
  induction a as [|x r IH]; intros H.
  - cbn [uval length]. rewrite P256_0. lia.
  - apply bytes_ok_cons in H. destruct H as [Hx Hr]. specialize (IH Hr).
    cbn [uval length]. rewrite P256_S. lia.
Qed.

Lemma uval_app a b : uval (a ++ b) = uval a + P256 (length a) * uval b.
Proof.
  induction a as [|x r IH]; cbn [app uval length].
  - rewrite P256_0. lia.
  - rewrite IH, P256_S. lia.
Qed.

Definition repr (n : nat) (l : list Z) (v : Z) : Prop :=
  uval l = v /\ bytes_ok l /\ length l = n.

Lemma repr_self a : bytes_ok a -> repr (length a) a (uval a mod P256 (length a)).
Proof. intros Ha. rewrite Z.mod_small by (apply uval_bound; exact Ha). repeat split. exact Ha. Qed.

Lemma repr_byte x r n v : 0 <= x < 256 -> repr n r v -> repr (S n) (x :: r) (x + 256 * v).
Proof.
  intros Hx (<- & Hb & <-). repeat split. apply bytes_ok_cons. split; assumption.
Qed.

Lemma zeros_ok n : repr n (zeros n) 0.
Proof.
  induction n as [|n IH]; [repeat split; constructor|].
  apply (repr_byte 0 _ _ 0); [lia|exact IH].
Qed.

Lemma cons_mod x v M : 0 <= x < 256 -> 0 < M -> x + 256 * (v mod M) = (x + 256 * v) mod (256 * M).
Proof.
  intros Hx HM. rewrite Z.rem_mul_r by lia.
  replace ((x + 256 * v) mod 256) with x by lia.
  replace ((x + 256 * v) / 256) with v by lia. reflexivity.
Qed.

Lemma repr_nil v : repr 0 [] (v mod P256 0).
Proof. rewrite P256_0, Z.mod_1_r. repeat split. constructor. Qed.

(** every loop stores the low byte of an accumulator [n] and carries [n / 256] on *)
Lemma repr_cons n v w r len :
  repr len r (v mod P256 len) -> w = n + 256 * (v - n / 256) ->
  repr (S len) (n mod 256 :: r) (w mod P256 (S len)).
Proof.
  intros H ->. pose proof (Z.mod_pos_bound n 256 ltac:(lia)) as Hn.
  replace (_ mod P256 (S len)) with (n mod 256 + 256 * (v mod P256 len)); [apply repr_byte; assumption|].
  rewrite P256_S, (cons_mod _ _ _ Hn (P256_pos len)). f_equal. pose proof (Z.div_mod n 256). lia.
Qed.

Lemma land255 n : Z.land n 255 = n mod 256.
Proof. change 255 with (2 ^ 8 - 1). apply land_ones_mod. lia. Qed.

Lemma shiftr8 n : Z.shiftr n 8 = n / 256.
Proof. apply Z.shiftr_div_pow2. lia. Qed.

Lemma w64_small z : 0 <= z < 2 ^ 64 -> w64 z = z.
Proof. apply Z.mod_small. Qed.

Lemma add_c_spec : forall a b c,
  bytes_ok a -> bytes_ok b -> length a = length b -> 0 <= c <= 1 ->
  repr (length a) (add_c c a b) ((c + uval a + uval b) mod P256 (length a)).
Proof.
  induction a as [|x a IH]; intros b c Ha Hb Hl Hc; [apply repr_nil|].
  destruct b as [|y b]; [discriminate Hl|]. injection Hl as Hl.
  apply bytes_ok_cons in Ha, Hb. destruct Ha as [Hx Ha], Hb as [Hy Hb].
  cbn [add_c uval length]. rewrite w64_small, land255, shiftr8 by lia.
  eapply repr_cons; [apply (IH b); [exact Ha|exact Hb|exact Hl|lia]|ring].
Qed.

Lemma uadd_spec a b :
  bytes_ok a -> bytes_ok b -> length a = length b ->
  repr (length a) (uadd a b) ((uval a + uval b) mod P256 (length a)).
Proof. intros Ha Hb Hl. apply (add_c_spec a b 0 Ha Hb Hl). lia. Qed.

Lemma inc_spec : forall a, bytes_ok a ->
  repr (length a) (inc a) ((uval a + 1) mod P256 (length a)).
Proof.
  induction a as [|x a IH]; intros Ha; [apply repr_nil|].
  apply bytes_ok_cons in Ha. destruct Ha as [Hx Ha].
  cbn [inc uval length]. unfold w8.
  destruct (Z.eqb_spec ((x + 1) mod 256) 0) as [E|E].
  - eapply repr_cons; [apply (IH Ha)|lia].
  - eapply repr_cons; [apply (repr_self a Ha)|lia].
Qed.

Lemma dec_spec : forall a, bytes_ok a ->
  repr (length a) (dec a) ((uval a - 1) mod P256 (length a)).
Proof.
  induction a as [|x a IH]; intros Ha; [apply repr_nil|].
  apply bytes_ok_cons in Ha. destruct Ha as [Hx Ha].
  cbn [dec uval length]. unfold w8.
  destruct (Z.eqb_spec ((x - 1) mod 256) 255) as [E|E].
  - eapply repr_cons; [apply (IH Ha)|lia].
  - eapply repr_cons; [apply (repr_self a Ha)|lia].
Qed.

Lemma bnot_spec : forall a, bytes_ok a ->
  repr (length a) (bnot a) (P256 (length a) - 1 - uval a).
Proof.
  induction a as [|x a IH]; intros Ha; [repeat split; constructor|].
  apply bytes_ok_cons in Ha. destruct Ha as [Hx Ha].
  unfold bnot. cbn [map uval length]. fold (bnot a).
  replace (w8 (Z.lnot x)) with (255 - x) by (unfold w8, Z.lnot; lia).
  replace (P256 _ - 1 - _) with (255 - x + 256 * (P256 (length a) - 1 - uval a)) by (rewrite P256_S; ring).
  apply repr_byte; [lia|exact (IH Ha)].
Qed.

Lemma neg_spec a : bytes_ok a ->
  repr (length a) (neg a) ((- uval a) mod P256 (length a)).
Proof.
  intros Ha. unfold neg. destruct (bnot_spec a Ha) as (Hv & Hb & Hl).
  pose proof (inc_spec (bnot a) Hb) as H. rewrite Hl, Hv in H.
  replace (P256 (length a) - 1 - uval a + 1) with (- uval a + 1 * P256 (length a)) in H by ring.
  rewrite Z.mod_add in H by apply P256_nz. exact H.
Qed.

Lemma usub_spec a b :
  bytes_ok a -> bytes_ok b -> length a = length b ->
  repr (length a) (usub a b) ((uval a - uval b) mod P256 (length a)).
Proof.
  intros Ha Hb Hl. unfold usub. destruct (neg_spec b Hb) as (Hv & Hbn & Hln).
  pose proof (uadd_spec a (neg b) Ha Hbn ltac:(congruence)) as H.
  rewrite Hv, <- Hl, Z.add_mod_idemp_r in H by apply P256_nz. exact H.
Qed.

Lemma mul32_c_spec : forall a c b32,
  bytes_ok a -> 0 <= c < 2 ^ 32 -> 0 <= b32 < 2 ^ 32 ->
  repr (length a) (mul32_c c b32 a) ((c + b32 * uval a) mod P256 (length a)).
Proof.
  induction a as [|x a IH]; intros c b32 Ha Hc Hb; [apply repr_nil|].
  apply bytes_ok_cons in Ha. destruct Ha as [Hx Ha].
  assert (Hbx : 0 <= b32 * x <= (2 ^ 32 - 1) * 255) by (apply mul_bound; lia).
  cbn [mul32_c uval length]. rewrite (w64_small (b32 * x)), w64_small, land255, shiftr8 by lia.
  eapply repr_cons; [apply IH; [exact Ha|lia|exact Hb]|ring].
Qed.

Lemma mul32_spec a b32 : bytes_ok a -> 0 <= b32 < 2 ^ 32 ->
  repr (length a) (mul32 a b32) ((uval a * b32) mod P256 (length a)).
Proof.
  intros Ha Hb. rewrite Z.mul_comm, <- (Z.add_0_l (b32 * uval a)).
  apply mul32_c_spec; [exact Ha|lia|exact Hb].
Qed.

Lemma mul_row_spec : forall acc b c d,
  bytes_ok acc -> bytes_ok b -> (length acc <= length b)%nat -> 0 <= c < 256 -> 0 <= d < 256 ->
  repr (length acc) (mul_row c d acc b) ((c + uval acc + d * uval b) mod P256 (length acc)).
Proof.
  induction acc as [|x acc IH]; intros b c d Ha Hb Hl Hc Hd; [apply repr_nil|].
  destruct b as [|y b]; [cbn [length] in Hl; lia|]. cbn [length] in Hl.
  apply bytes_ok_cons in Ha, Hb. destruct Ha as [Hx Ha], Hb as [Hy Hb].
  assert (Hdy : 0 <= d * y <= 255 * 255) by (apply mul_bound; lia).
  cbn [mul_row uval length]. rewrite (w64_small (d * y)), w64_small, land255, shiftr8 by lia.
  eapply repr_cons; [apply (IH b); [exact Ha|exact Hb|lia|lia|exact Hd]|ring].
Qed.

(** the row for byte [d] of [this] is added into the accumulator, its lowest byte
    is final, the rest is the accumulator of the remaining bytes *)
Lemma mul_loop_spec : forall this acc b,
  bytes_ok this -> bytes_ok acc -> bytes_ok b -> length this = length acc -> (length acc <= length b)%nat ->
  repr (length acc) (mul_loop this acc b) ((uval acc + uval this * uval b) mod P256 (length acc)).
Proof.
  induction this as [|d this IH]; intros acc b Ht Ha Hb Hl Hlb.
  { destruct acc; [apply repr_nil|discriminate Hl]. }
  destruct acc as [|x acc]; [discriminate Hl|]. injection Hl as Hl.
  destruct b as [|y b]; [cbn [length] in Hlb; lia|]. cbn [length] in Hlb.
  apply bytes_ok_cons in Ht, Ha. destruct Ht as [Hd Ht], Ha as [Hx Ha].
  pose proof Hb as Hyb. apply bytes_ok_cons in Hyb. destruct Hyb as [Hy Hb'].
  assert (Hdy : 0 <= d * y <= 255 * 255) by (apply mul_bound; lia).
  cbn [mul_loop mul_row uval length]. rewrite (w64_small (d * y)), w64_small, land255, shiftr8 by lia.
  set (n := 0 + x + d * y).
  destruct (mul_row_spec acc b (n / 256) d Ha Hb' ltac:(lia) ltac:(lia) Hd) as (Hv & Hrow & Hlen).
  pose proof (IH _ (y :: b) Ht Hrow Hb ltac:(congruence) ltac:(cbn [length]; lia)) as H.
  rewrite Hlen, Hv, Z.add_mod_idemp_l in H by apply P256_nz.
  eapply repr_cons; [exact H|]. cbn [uval]. subst n. ring.
Qed.

Lemma umul_spec a b : bytes_ok a -> bytes_ok b -> length a = length b ->
  repr (length a) (umul a b) ((uval a * uval b) mod P256 (length a)).
Proof.
  intros Ha Hb Hl. unfold umul. destruct (zeros_ok (length a)) as (Z1 & Z2 & Z3).
  pose proof (mul_loop_spec a (zeros (length a)) b Ha Z2 Hb ltac:(congruence) ltac:(lia)) as H.
  rewrite Z3, Z1 in H. exact H.
Qed.

Definition sgn_of (c : comparison) : Z := match c with Lt => -1 | Eq => 0 | Gt => 1 end.

Lemma compare_digits x y p q : 0 <= x < 256 -> 0 <= y < 256 ->
  (x + 256 * p ?= y + 256 * q) = match p ?= q with Eq => x ?= y | c => c end.
Proof.
  intros Hx Hy. destruct (Z.compare_spec p q) as [->|H|H].
  - rewrite !(Z.add_comm _ (256 * q)). apply Z.add_compare_mono_l.
  - apply Z.compare_lt_iff. lia.
  - apply Z.compare_gt_iff. lia.
Qed.

Lemma cmp_spec : forall a b, bytes_ok a -> bytes_ok b -> length a = length b ->
  cmp a b = sgn_of (uval a ?= uval b).
Proof.
  induction a as [|x a IH]; intros b Ha Hb Hl.
  { destruct b; [reflexivity|discriminate Hl]. }
  destruct b as [|y b]; [discriminate Hl|]. injection Hl as Hl.
  apply bytes_ok_cons in Ha, Hb. destruct Ha as [Hx Ha], Hb as [Hy Hb].
  cbn [cmp uval]. rewrite (IH b Ha Hb Hl), (compare_digits x y) by assumption.
  destruct (uval a ?= uval b); try reflexivity. cbn [sgn_of Z.eqb].
  unfold Z.ltb. rewrite (Z.compare_antisym x y). destruct (x ?= y); reflexivity.
Qed.
