(** C07 — property theorems only.  [Inv_tree] is the part of the invariant proved for the model, for EVERY operation of
    both trees (hdr / body / set / inv / reval / rm / rmpl; ALT with empty payloads and the PoW tree), without _partial:
      Inv_flags : proper tree, heights follow parents, failed parent => FAILED_CHILD, live blocks >= VALID_TREE;
      S3_ok     : a removed block is at VALID_UNKNOWN, carries no ACTIVE / HAS_PAYLOADS and has only removed children;
      Tips_ok   : tips = { b | canBeATip b and no child canBeATip };
    together with [tip_ok]: the best chain root..tip runs through non-failed blocks only.
      lm_ok     : the validity level of a block never exceeds the level of its parent (connected => ancestors connected);
    [Inv_all] = Inv_tree + lm_ok + tip_ok is ONE invariant preserved by every operation.
    "ACTIVE <=> on the best chain" and "appliedBlockCount = |chain|" (invariants C1, C2 of harness/invariants.hpp) are
    proved at the end of this file on the as-coded POP state machine Pop/SmDefs.v, which has the unapply/apply/rollback
    loops of PopStateMachine::setState and comparePopScore: for EVERY reachable state (any history of connectBlock /
    setState / comparePopScore with any scorer, failing and rolled-back walks included)
      C07_active_iff_on_chain, C07_off_chain_not_applied, C07_chain_iff_applied_block : a block is flagged applied iff
        it is on the chain root..tip - nothing off the chain stays applied;
      C07_applied_count_exact, C07_applied_set_is_chain : appliedBlockCount = |chain| = number of ACTIVE blocks;
      C07_chain_is_parent_path, C07_parent_path_unique : the chain is exactly the parent path root..tip;
      C07_active_nonvacuous : a reachable state with forks off the chain.
    Not proved (checked on the implementation after every step by the invariant checker): the same two facts across
    invalidateSubtree / revalidateSubtree / removeSubtree / removePayloads / finalization - operations the POP machine
    model does not have; for the Tree model above, which has them, the ACTIVE / applied-count facts are not stated. *)
From Coq Require Import ZArith NArith List Bool.
From VB Require Import Tree.TreeDefs Tree.TreeInv Tree.TreeProofs Tree.TreeExact Tree.TreeMono Tree.TreeChain
  Tree.TreeTipsAlt Tree.TreeDeleted Tree.TreeTipsAll Tree.TreeLevels Tree.TreeAll.
Import ListNotations.

Theorem C07_init_alt : forall h, Inv_flags (alt_init h) /\ tip_ok (alt_init h).
Proof. exact alt_init_good. Qed.
Print Assumptions C07_init_alt.

Theorem C07_init_pow : forall h w, Inv_flags (pow_init h w) /\ tip_ok (pow_init h w).
Proof. exact pow_init_good. Qed.
Print Assumptions C07_init_pow.

Theorem C07_step : forall s o, Inv_flags s /\ tip_ok s -> Inv_flags (step s o) /\ tip_ok (step s o).
Proof. exact step_good. Qed.
Print Assumptions C07_step.

Theorem C07_run : forall ops s, Inv_flags s /\ tip_ok s -> Inv_flags (run s ops) /\ tip_ok (run s ops).
Proof. exact run_good. Qed.
Print Assumptions C07_run.

(* Inv_tree = Inv_flags + S3 + tips conjunct: initial states, every step, every op list *)
Theorem C07_Inv_tree_init_alt : forall h, Inv_tree (alt_init h).
Proof. exact Inv_tree_init_alt. Qed.
Print Assumptions C07_Inv_tree_init_alt.

Theorem C07_Inv_tree_init_pow : forall h w, Inv_tree (pow_init h w).
Proof. exact Inv_tree_init_pow. Qed.
Print Assumptions C07_Inv_tree_init_pow.

Theorem C07_Inv_tree_step : forall s o, Inv_tree s -> Inv_tree (step s o).
Proof. exact Inv_tree_step. Qed.
Print Assumptions C07_Inv_tree_step.

Theorem C07_Inv_tree_run : forall ops s, Inv_tree s -> Inv_tree (run s ops).
Proof. exact Inv_tree_run. Qed.
Print Assumptions C07_Inv_tree_run.

(* everything at once: Inv_tree + level monotonicity + non-failed best-chain tip *)
Theorem C07_Inv_all_init_alt : forall h, Inv_all (alt_init h).
Proof. exact Inv_all_init_alt. Qed.
Print Assumptions C07_Inv_all_init_alt.

Theorem C07_Inv_all_init_pow : forall h w, Inv_all (pow_init h w).
Proof. exact Inv_all_init_pow. Qed.
Print Assumptions C07_Inv_all_init_pow.

Theorem C07_Inv_all_step : forall s o, Inv_all s -> Inv_all (step s o).
Proof. exact Inv_all_step. Qed.
Print Assumptions C07_Inv_all_step.

Theorem C07_Inv_all_run : forall ops s, Inv_all s -> Inv_all (run s ops).
Proof. exact Inv_all_run. Qed.
Print Assumptions C07_Inv_all_run.

(* a connected ALT block has only connected ancestors *)
Theorem C07_connected_ancestors :
  forall s, Inv_all s -> forall c x, find_blk c (blocks s) = Some x -> valid_upto L_CONNECTED (bst x) = true ->
  forall a z, In a (path (blocks s) c) -> find_blk a (blocks s) = Some z -> valid_upto L_CONNECTED (bst z) = true.
Proof. exact connected_ancestors_connected. Qed.
Print Assumptions C07_connected_ancestors.

(* a block is valid only if its parent is not failed; every child of a failed block is failed *)
Theorem C07_valid_parent_not_failed :
  forall s, Inv_flags s -> forall p x q y,
    find_blk p (blocks s) = Some x -> bparent x = Some q -> find_blk q (blocks s) = Some y ->
    is_valid L_TREE (bst x) = true -> failed (bst y) = false.
Proof. exact valid_parent_not_failed. Qed.
Print Assumptions C07_valid_parent_not_failed.

Theorem C07_failed_parent_failed_child :
  forall s, Inv_flags s -> forall p x q y,
    find_blk p (blocks s) = Some x -> bparent x = Some q -> find_blk q (blocks s) = Some y ->
    failed (bst y) = true -> fchild (bst x) = true.
Proof. exact failed_parent_failed_child. Qed.
Print Assumptions C07_failed_parent_failed_child.

(* every descendant of a failed block carries FAILED_CHILD *)
Theorem C07_descendants_of_failed :
  forall l t yt, wf l -> fl_ok l -> find_blk t l = Some yt -> failed (bst yt) = true ->
  forall p y, find_blk p l = Some y -> sub l t p = true -> p <> t -> fchild (bst y) = true.
Proof. exact desc_failed_fchild. Qed.
Print Assumptions C07_descendants_of_failed.

(* the best chain runs through non-failed blocks only *)
Theorem C07_best_chain_valid :
  forall s, Inv_flags s -> tip_ok s ->
  forall a z, In a (path (blocks s) (tip s)) -> find_blk a (blocks s) = Some z -> failed (bst z) = false.
Proof. exact chain_valid. Qed.
Print Assumptions C07_best_chain_valid.

(* ---- BLOCK_ACTIVE <=> on the active chain, appliedBlockCount, parent path ----
   As-coded POP state machine (Pop/SmDefs.v: applyBlock / unapplyBlock / unapplyWhile / unapply / apply with rollback /
   PopStateMachine::setState / comparator setState + overrideTip / comparePopScore; every assert an explicit Abort).
   [reachable base s]: s is produced from the bootstrapped tree by ANY history of connectBlock / setState /
   comparePopScore (any scorer, any keystone predicate), including failing walks that were rolled back.
   The Pop modules are required without Import (their names clash with the Tree model above). *)
From VB Require Pop.SmDefs Pop.SmProofs Pop.SmWf Pop.SmActive.

Theorem C07_active_iff_on_chain :
  forall base s, SmProofs.reachable base s ->
  forall b, In b (SmDefs.blocks _ _ s) ->
    (SmDefs.b_act _ b = true <-> In (SmDefs.b_id _ b) (SmWf.chain s)).
Proof. exact SmActive.active_iff_on_chain. Qed.
Print Assumptions C07_active_iff_on_chain.

(* nothing off the active chain stays applied *)
Theorem C07_off_chain_not_applied :
  forall base s, SmProofs.reachable base s ->
  forall b, In b (SmDefs.blocks _ _ s) -> ~ In (SmDefs.b_id _ b) (SmWf.chain s) -> SmDefs.b_act _ b = false.
Proof. exact SmActive.off_chain_not_applied. Qed.
Print Assumptions C07_off_chain_not_applied.

(* by ids: the chain consists of known blocks, exactly the applied ones *)
Theorem C07_chain_iff_applied_block :
  forall base s, SmProofs.reachable base s ->
  forall j, In j (SmWf.chain s) <->
            exists b, SmDefs.find SmDefs.ccmd (SmDefs.blocks _ _ s) j = Some b /\ SmDefs.b_act _ b = true.
Proof. exact SmActive.chain_iff_applied_block. Qed.
Print Assumptions C07_chain_iff_applied_block.

(* appliedBlockCount = |chain| = number of blocks flagged BLOCK_ACTIVE *)
Theorem C07_applied_count_exact :
  forall base s, SmProofs.reachable base s ->
    SmDefs.napp _ _ s = N.of_nat (length (SmWf.chain s)) /\
    SmDefs.napp _ _ s = N.of_nat (length (filter (SmDefs.b_act SmDefs.ccmd) (SmDefs.blocks _ _ s))).
Proof. exact SmActive.applied_count_exact. Qed.
Print Assumptions C07_applied_count_exact.

Theorem C07_applied_set_is_chain :
  forall base s, SmProofs.reachable base s ->
    Permutation.Permutation
      (map (SmDefs.b_id SmDefs.ccmd) (filter (SmDefs.b_act SmDefs.ccmd) (SmDefs.blocks _ _ s))) (SmWf.chain s).
Proof. exact SmActive.applied_set_is_chain. Qed.
Print Assumptions C07_applied_set_is_chain.

(* the chain (listed tip first; reversed: root..tip) is the parent path: starts at the root, ends at the tip, known
   blocks only, each element's parent is the element before it at height root + position, no block twice
   (SmActive.is_parent_path) - and it is the only list with these properties *)
Theorem C07_chain_is_parent_path :
  forall base s, SmProofs.reachable base s -> SmActive.is_parent_path s (rev (SmWf.chain s)).
Proof. exact SmActive.chain_is_parent_path. Qed.
Print Assumptions C07_chain_is_parent_path.

Theorem C07_parent_path_unique :
  forall base s, SmProofs.reachable base s -> forall p, SmActive.is_parent_path s p -> p = rev (SmWf.chain s).
Proof. exact SmActive.parent_path_unique. Qed.
Print Assumptions C07_parent_path_unique.

(* non-vacuity: a reachable state (after a rolled-back failing setState and comparisons with either verdict) with
   chain 0-3-15, block 6 on an abandoned fork not applied *)
Theorem C07_active_nonvacuous :
  exists s, SmProofs.reachable SmProofs.ex_base s /\ SmWf.chain s = [15; 3; 0]%N /\ SmDefs.napp _ _ s = 3%N /\
            length (SmDefs.blocks _ _ s) = 6%nat /\
            SmActive.is_parent_path s [0; 3; 15]%N /\
            (exists b, In b (SmDefs.blocks _ _ s) /\ SmDefs.b_id _ b = 6%N /\
                       ~ In (SmDefs.b_id _ b) (SmWf.chain s) /\ SmDefs.b_act _ b = false) /\
            (exists b, In b (SmDefs.blocks _ _ s) /\ SmDefs.b_id _ b = 15%N /\
                       In (SmDefs.b_id _ b) (SmWf.chain s) /\ SmDefs.b_act _ b = true).
Proof. exact SmActive.ex_fork_state. Qed.
Print Assumptions C07_active_nonvacuous.
