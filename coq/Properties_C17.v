(** C17: the caches in front of progPowHash, from the lemmas of Conc/*Proofs.v.
    The vProgPoW kernel [hash], the epoch entry builder [mk] (light cache + DAG), the epoch function [ep] and the
    header-cache key [hk] (sha256twice) are universally quantified pure functions; the value every request
    must produce is [f h = hash h (mk (ep h))].  [hk] is assumed injective (sha256d collision-freeness).
    Clock readings are inputs of the operations and arbitrary. *)
From Coq Require Import List NArith.
From VB Require Import Conc.CacheDefs Conc.CacheProofs.
From VB Require Import Conc.HeaderDefs Conc.HeaderProofs Conc.LruMapDefs Conc.LruMapProofs.
From Coq Require Import ZArith.
Import ListNotations.

(** every value returned by progPowHash equals f(header): for every number of threads, every interleaving of the
    lock-granular steps (header-cache lookup / epoch-cache getOrDefault + kernel / header-cache insert), with
    cache clears and precomputed-hash insertions at any point - the latter under the premise [sop_ok]
    (the inserted hash is f of that header) *)
Theorem C17_lookup_transparent :
  forall (Hdr Key Ep Ent V : Type) (hk : Hdr -> Key) (key_eqb : Key -> Key -> bool)
         (ep : Hdr -> Ep) (ep_eqb : Ep -> Ep -> bool) (mk : Ep -> Ent) (hash : Hdr -> Ent -> V),
    (forall a b : Key, key_eqb a b = true <-> a = b) ->
    (forall a b : Ep, ep_eqb a b = true <-> a = b) ->
    (forall h1 h2 : Hdr, hk h1 = hk h2 -> h1 = h2) ->
    forall (size : nat) (tw : N) (maxsize elast nthreads : nat) (ops : list (sop Hdr V)) (t : nat) (h : Hdr) (v : V),
      Forall (sop_ok Hdr Ep Ent V ep mk hash) ops ->
      let s := sys_run Hdr Key Ep Ent V hk key_eqb ep ep_eqb mk hash size tw maxsize elast ops
                       (sys_init Hdr Key Ep Ent V nthreads) in
      nth_error (thr Hdr Key Ep Ent V s) t = Some (TRet Hdr V h v) -> v = f Hdr Ep Ent V ep mk hash h.
Proof. exact lookup_transparent_lemma. Qed.
Print Assumptions C17_lookup_transparent.

(** capacity: never more than Size epoch entries / maxSize+elasticity header entries, no duplicate keys *)
Theorem C17_capacity :
  forall (Hdr Key Ep Ent V : Type) (hk : Hdr -> Key) (key_eqb : Key -> Key -> bool)
         (ep : Hdr -> Ep) (ep_eqb : Ep -> Ep -> bool) (mk : Ep -> Ent) (hash : Hdr -> Ent -> V),
    (forall a b : Key, key_eqb a b = true <-> a = b) ->
    (forall a b : Ep, ep_eqb a b = true <-> a = b) ->
    (forall h1 h2 : Hdr, hk h1 = hk h2 -> h1 = h2) ->
    forall (size : nat) (tw : N) (maxsize elast nthreads : nat) (ops : list (sop Hdr V)),
      Forall (sop_ok Hdr Ep Ent V ep mk hash) ops ->
      let s := sys_run Hdr Key Ep Ent V hk key_eqb ep ep_eqb mk hash size tw maxsize elast ops
                       (sys_init Hdr Key Ep Ent V nthreads) in
      length (ethc Hdr Key Ep Ent V s) <= size /\
      NoDup (map (ikey Ep Ent) (ethc Hdr Key Ep Ent V s)) /\
      (maxsize = 0 \/ length (hdrc Hdr Key Ep Ent V s) <= maxsize + elast) /\
      NoDup (map fst (hdrc Hdr Key Ep Ent V s)).
Proof. exact capacity_lemma. Qed.
Print Assumptions C17_capacity.

(** SmallLFRUCache alone: for every sequence of getOrDefault/clear with arbitrary clock readings, every answer
    is the factory's value for that key, whatever the eviction rule picked *)
Theorem C17_lfru_transparent :
  forall (Ep Ent : Type) (ep_eqb : Ep -> Ep -> bool) (mk : Ep -> Ent),
    (forall a b : Ep, ep_eqb a b = true <-> a = b) ->
    forall (size : nat) (tw : N) (ops : list (lfru_op Ep)) (l : list (item Ep Ent)),
      lfru_ok Ep Ent mk size l ->
      fst (lfru_run Ep Ent ep_eqb mk size tw ops l) = lfru_expected Ep Ent mk ops /\
      lfru_ok Ep Ent mk size (snd (lfru_run Ep Ent ep_eqb mk size tw ops l)).
Proof. exact lfru_transparent_lemma. Qed.
Print Assumptions C17_lfru_transparent.

(** lru11::Cache alone: a hit returns f of the requested header as long as only graph-of-f pairs were inserted *)
Theorem C17_lru_hit_sound :
  forall (Hdr Key Ep Ent V : Type) (hk : Hdr -> Key) (key_eqb : Key -> Key -> bool)
         (ep : Hdr -> Ep) (mk : Ep -> Ent) (hash : Hdr -> Ent -> V),
    (forall a b : Key, key_eqb a b = true <-> a = b) ->
    (forall h1 h2 : Hdr, hk h1 = hk h2 -> h1 = h2) ->
    forall (maxsize elast : nat) (h : Hdr) (l : list (Key * V)) (o : option V) (l' : lru Key V),
      lru_ok Hdr Key Ep Ent V hk ep mk hash maxsize elast l ->
      lru_try_get Key V key_eqb (hk h) l = (o, l') ->
      lru_ok Hdr Key Ep Ent V hk ep mk hash maxsize elast l' /\
      (forall v : V, o = Some v -> v = f Hdr Ep Ent V ep mk hash h).
Proof. exact lru_try_get_ok. Qed.
Print Assumptions C17_lru_hit_sound.

(** VbkBlock::hash_: for every sequence of setters / getHash / setPrecalculatedHash / deserialisation INTO the same
    object (with the all-zero default or a precalculated hash) / copy-move assignment - every supplied hash being
    the true hash of the content it is attached to, every assigned-from block being consistent ([bops_ok]) -
    every getHash answer is f of the current content *)
Theorem C17_memo_transparent :
  forall (Hdr Ep Ent V : Type) (ep : Hdr -> Ep) (mk : Ep -> Ent) (hash : Hdr -> Ent -> V)
         (is_zero : V -> bool) (zero : V),
    is_zero zero = true ->
    forall (ops : list (bop Hdr V)) (b : blk Hdr V),
      blk_ok Hdr Ep Ent V ep mk hash is_zero b ->
      bops_ok Hdr Ep Ent V ep mk hash is_zero zero ops b ->
      answers_ok Hdr Ep Ent V ep mk hash is_zero zero ops b.
Proof. exact memo_transparent_lemma. Qed.
Print Assumptions C17_memo_transparent.

(** after any setter the memo is empty (and whatever follows answers f of the new content) *)
Theorem C17_setter_invalidates_memo :
  forall (Hdr Key Ep Ent V : Type) (hk : Hdr -> Key) (ep : Hdr -> Ep) (mk : Ep -> Ent)
         (hash : Hdr -> Ent -> V) (is_zero : V -> bool) (zero : V),
    (forall h1 h2 : Hdr, hk h1 = hk h2 -> h1 = h2) ->
    is_zero zero = true ->
    forall (hf : Hdr -> V) (b : blk Hdr V) (h : Hdr),
      let b' := snd (blk_step Hdr V is_zero zero hf (BSet Hdr V h) b) in
      content Hdr V b' = h /\
      is_zero (memo Hdr V b') = true /\
      blk_ok Hdr Ep Ent V ep mk hash is_zero b' /\
      (forall ops : list (bop Hdr V),
         bops_ok Hdr Ep Ent V ep mk hash is_zero zero ops b' ->
         answers_ok Hdr Ep Ent V ep mk hash is_zero zero ops b').
Proof.
  intros Hdr Key Ep Ent V hk ep mk hash is_zero zero _.
  exact (setter_invalidates_memo_lemma Hdr Ep Ent V ep mk hash is_zero zero).
Qed.
Print Assumptions C17_setter_invalidates_memo.

(** deserialising into an existing object overwrites the memo with the supplied hash (all-zero default = empty),
    whatever the object memoised before; the result is consistent if the supplied hash is empty or f(header) *)
Theorem C17_deser_resets_memo :
  forall (Hdr Ep Ent V : Type) (ep : Hdr -> Ep) (mk : Ep -> Ent) (hash : Hdr -> Ent -> V)
         (is_zero : V -> bool) (zero : V) (hf : Hdr -> V) (b : blk Hdr V) (h : Hdr) (v : V),
    let b' := snd (blk_step Hdr V is_zero zero hf (BDeser Hdr V h v) b) in
    content Hdr V b' = h /\
    memo Hdr V b' = v /\
    (is_zero v = true \/ v = f Hdr Ep Ent V ep mk hash h -> blk_ok Hdr Ep Ent V ep mk hash is_zero b').
Proof. exact deser_resets_memo_lemma. Qed.
Print Assumptions C17_deser_resets_memo.

(** why the ethash mutex matters (documentation; the locked code is covered by C17_lookup_transparent, where
    getOrDefault = lookup + factory + insert is ONE atomic step): if those were separate unlocked steps of a
    last-epoch-only EthashCacheI, some schedule of three requests returns a value that is not f(header) *)
Theorem C17_unlocked_getOrDefault_refuted :
  exists h v, nth_error (uthreads nat nat nat nat CacheExample.unlocked_final) 2 = Some (UDone nat nat nat h v) /\
              v <> f nat nat nat nat CacheExample.epx CacheExample.mkx CacheExample.hashx h.
Proof. exact CacheExample.unlocked_getOrDefault_refuted_lemma. Qed.
Print Assumptions C17_unlocked_getOrDefault_refuted.

(** VbkBlock::toRaw yields 65 bytes for every header whose fields are in the ranges of their C++ types *)
Theorem C17_header_raw_length :
  forall h : vhdr, hdr_wf h = true -> length (hdr_raw h) = 65 /\ forallb is_byte (hdr_raw h) = true.
Proof. intros h W. apply bytes_n_spec, hdr_raw_bytes, W. Qed.
Print Assumptions C17_header_raw_length.

(** toRaw is injective in all nine fields (types' ranges; nonce below 2^40, the 5 bytes that are written) *)
Theorem C17_header_raw_injective :
  forall h1 h2 : vhdr,
    hdr_wf h1 = true -> hdr_wf h2 = true -> nonce40 h1 = true -> nonce40 h2 = true ->
    hdr_raw h1 = hdr_raw h2 -> h1 = h2.
Proof. exact hdr_raw_injective_lemma. Qed.
Print Assumptions C17_header_raw_injective.

Theorem C17_header_field_sensitive :
  forall h1 h2 : vhdr,
    hdr_wf h1 = true -> hdr_wf h2 = true -> nonce40 h1 = true -> nonce40 h2 = true ->
    h1 <> h2 -> hdr_raw h1 <> hdr_raw h2.
Proof. intros h1 h2 W1 W2 N1 N2 D E. apply D. now apply hdr_raw_injective_lemma. Qed.
Print Assumptions C17_header_field_sensitive.

(** ... and the header-cache key sha256twice(toRaw), for a collision-free sha256twice: together with
    C17_lookup_transparent (Hdr := byte strings) no two distinct headers share a cache entry *)
Theorem C17_header_key_injective :
  forall (Key : Type) (sha : list Z -> Key),
    (forall a b : list Z, sha a = sha b -> a = b) ->
    forall h1 h2 : vhdr,
      hdr_wf h1 = true -> hdr_wf h2 = true -> nonce40 h1 = true -> nonce40 h2 = true ->
      sha (hdr_raw h1) = sha (hdr_raw h2) -> h1 = h2.
Proof. intros Key sha S h1 h2 W1 W2 N1 N2 E. apply hdr_raw_injective_lemma; auto. Qed.
Print Assumptions C17_header_key_injective.

(** full-strength variant without the 40-bit premise is FALSE: uint64_t nonce, 5 bytes written *)
Theorem C17_header_raw_injective_all_nonces_refuted :
  exists h1 h2 : vhdr, hdr_wf h1 = true /\ hdr_wf h2 = true /\ h1 <> h2 /\ hdr_raw h1 = hdr_raw h2.
Proof. exact hdr_raw_injective_all_nonces_refuted_lemma. Qed.
Print Assumptions C17_header_raw_injective_all_nonces_refuted.

(** what progPowHashImpl reads back from the bytes is the field that was written: height (sign included),
    epoch = (uint32)(height / 8000) + 323 (the key of the epoch cache), nonce mod 2^40 *)
Theorem C17_raw_height_epoch_nonce :
  forall h : vhdr, hdr_wf h = true ->
    raw_height (hdr_raw h) = h_height h /\
    raw_epoch (hdr_raw h) = ((((Z.quot (h_height h) 8000) mod 4294967296) + 323) mod 4294967296)%Z /\
    raw_nonce (hdr_raw h) = (h_nonce h mod 1099511627776)%Z.
Proof. exact raw_reads_lemma. Qed.
Print Assumptions C17_raw_height_epoch_nonce.

(** every one of the 65 bytes reaches the kernel: (height, nonce, first 60 bytes) determine the byte string *)
Theorem C17_kernel_inputs_injective :
  forall r1 r2 : list Z,
    bytes_n 65 r1 = true -> bytes_n 65 r2 = true -> kernel_inputs r1 = kernel_inputs r2 -> r1 = r2.
Proof. exact kernel_inputs_injective_lemma. Qed.
Print Assumptions C17_kernel_inputs_injective.

(** ... hence every header field *)
Theorem C17_kernel_inputs_field_sensitive :
  forall h1 h2 : vhdr,
    hdr_wf h1 = true -> hdr_wf h2 = true -> nonce40 h1 = true -> nonce40 h2 = true ->
    kernel_inputs (hdr_raw h1) = kernel_inputs (hdr_raw h2) -> h1 = h2.
Proof.
  intros h1 h2 W1 W2 N1 N2 E. apply hdr_raw_injective_lemma; auto.
  apply kernel_inputs_injective_lemma; auto using hdr_raw_bytes.
Qed.
Print Assumptions C17_kernel_inputs_field_sensitive.

(** lru11::Cache as a lossy map: for every sequence of insert / tryGet / clear with ARBITRARY keys and values,
    from every state satisfying the invariant (the empty cache does: lmap_inv_nil), every tryGet answer is a miss
    or the value most recently inserted under exactly that key since the last clear; capacity and key uniqueness
    hold at the end *)
Theorem C17_lru_refines_map :
  forall (Key V : Type) (key_eqb : Key -> Key -> bool),
    (forall a b : Key, key_eqb a b = true <-> a = b) ->
    forall (v_eqb : V -> V -> bool), (forall v, v_eqb v v = true) ->
    forall (maxsize elast : nat) (ops : list (lop Key V)) (l : lru Key V) (m : ideal Key V),
      lmap_inv Key V key_eqb maxsize elast l m ->
      answers_admissible Key V key_eqb v_eqb ops (fst (lop_run Key V key_eqb maxsize elast ops l)) m = true /\
      lmap_inv Key V key_eqb maxsize elast (snd (lop_run Key V key_eqb maxsize elast ops l))
               (fold_left (fun m o => ideal_step Key V o m) ops m).
Proof. exact lru_refines_map_lemma. Qed.
Print Assumptions C17_lru_refines_map.

(** an entry stored under key k is only ever returned for k, and never a stale one *)
Theorem C17_lru_key_confinement :
  forall (Key V : Type) (key_eqb : Key -> Key -> bool),
    (forall a b : Key, key_eqb a b = true <-> a = b) ->
    forall (maxsize elast : nat) (ops : list (lop Key V)) (l : lru Key V) (m : ideal Key V) (k : Key) (v : V) (l' : lru Key V),
      lmap_inv Key V key_eqb maxsize elast l m ->
      lop_step Key V key_eqb maxsize elast (LGet Key V k) (snd (lop_run Key V key_eqb maxsize elast ops l)) = (Some (Some v), l') ->
      ideal_get Key V key_eqb k (fold_left (fun m o => ideal_step Key V o m) ops m) = Some v.
Proof. exact lru_key_confinement_lemma. Qed.
Print Assumptions C17_lru_key_confinement.
