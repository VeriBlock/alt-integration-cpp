(** C02 — setState / comparePopScore are atomic. Theorems about the closed, instantiated machine
    (Pop/SmDefs.v: as-coded model of CommandGroup / PopStateMachine / comparator / AltBlockTree::setState,
    comparePopScore; concrete reference-count protecting state; every assert of the code is an explicit Abort).
    Each theorem is [exact] of a lemma of Pop/Sm*.v.

    [quiet s] = tree well formed, tip applied, appliedBlockCount = length of root..tip. Every state reachable by ANY
    history of connectBlock / setState / comparePopScore (any scorer) is quiet, and in a quiet state EXACTLY the blocks
    root..tip are flagged applied (C02_reachable_quiet; counting argument over the as-coded counter).

    PROVED, for all trees / payload assignments / failing positions (n,k) / scorers / histories:
      * CommandGroup::execute and applyBlock are atomic (exact equality of P), unExecute / unapplyBlock exact inverses;
      * never an assert: C02_setState_never_aborts, C02_compare_never_aborts, C02_connect_never_aborts - from every
        reachable state, for every known target / candidate (valid, failing at any position - next to the active chain
        or alone -, already invalid, ahead, behind, on a fork, unknown) the call returns a verdict, never Abort;
      * C02_setState_atomic: true => target is tip, exactly root..target applied; false => tip, counter and the
        applied flag of EVERY block unchanged; C02_setState_failure_unchanged: and P unchanged as a multiset;
      * C02_compare_atomic: result >= 0 => tip, counter, applied flags of every block and P (multiset) unchanged;
        result < 0 => the candidate is the tip and exactly root..candidate is applied;
      * C02_setState_marks / C02_compare_marks: nothing but validity marks changes, and only on the target / candidate
        branch (levels raised only on ancestors-or-self of the target, FAILED_POP only there, FAILED_CHILD only on
        proper descendants of a block of the branch that got FAILED_POP; nothing cleared or lowered);
      * C02_compare_canonical / C01: P = bootstrap + effects of the applied blocks after every call.
    Outside the model: the real VBK/BTC trees below the command interface (abstracted to the reference-count
    machine), finalization, altchain invalidate/revalidate; exercised on the implementation by the direct oracle. *)
From Coq Require Import List ZArith NArith Bool Permutation.
From VB Require Import Pop.SmDefs Pop.SmProofs Pop.SmWf Pop.SmCmp Pop.SmAll Pop.SmMarks Pop.SmAbort Pop.SmCmpTotal Pop.SmRefs.
Import ListNotations.
Local Open Scope Z_scope.

Theorem C02_group_exec_atomic :
  forall g p p', group_execute pstate ccmd cexec cunexec g p = (p', false) -> p' = p.
Proof. exact c_group_exec_atomic. Qed.
Print Assumptions C02_group_exec_atomic.

Theorem C02_group_unexecute_inverse :
  forall g p p', group_execute pstate ccmd cexec cunexec g p = (p', true) -> group_unexecute pstate ccmd cunexec g p' = p.
Proof. exact c_group_unexec_exec. Qed.
Print Assumptions C02_group_unexecute_inverse.

Theorem C02_applyBlock_atomic :
  forall s i s', c_applyBlock s i = Ok (s', false) ->
    pst _ _ s' = pst _ _ s /\ napp _ _ s' = napp _ _ s /\ tip _ _ s' = tip _ _ s /\ root _ _ s' = root _ _ s /\
    map (strip ccmd) (blocks _ _ s') = map (strip ccmd) (blocks _ _ s).
Proof. exact c_applyBlock_atomic. Qed.
Print Assumptions C02_applyBlock_atomic.

Theorem C02_unapply_apply_exact :
  forall s i s1 s2, c_applyBlock s i = Ok (s1, true) -> c_unapplyBlock s1 i = Ok s2 ->
    pst _ _ s2 = pst _ _ s /\ napp _ _ s2 = napp _ _ s /\ tip _ _ s2 = tip _ _ s.
Proof. exact c_unapply_apply. Qed.
Print Assumptions C02_unapply_apply_exact.

Theorem C02_reachable_quiet :
  forall base s, reachable base s -> quiet s /\ forall j, is_act (cores s) j <-> In j (chain s).
Proof. exact reachable_quiet. Qed.
Print Assumptions C02_reachable_quiet.

Theorem C02_setState_outcome :
  forall base s to s' ok,
    canon base s -> c_setState s to = Ok (s', ok) ->
    Permutation (pst _ _ s') (active_items (blocks _ _ s') ++ base) /\
    (ok = true -> tip _ _ s' = to /\ napp _ _ s' = chain_count _ _ s' to /\
                  exists b, find ccmd (blocks _ _ s') to = Some b /\ valid_upto _ b L_FULL = true) /\
    (ok = false -> tip _ _ s' = tip _ _ s /\ napp _ _ s' = chain_count _ _ s' (tip _ _ s') /\
                   exists b, find ccmd (blocks _ _ s') to = Some b /\ is_failed _ b = true).
Proof. exact setState_outcome. Qed.
Print Assumptions C02_setState_outcome.

Theorem C02_setState_atomic :
  forall s to s' ok, quiet s -> c_setState s to = Ok (s', ok) ->
    quiet s' /\
    (forall j, is_act (cores s') j <-> In j (chain s')) /\
    (ok = true -> tip _ _ s' = to) /\
    (ok = false -> tip _ _ s' = tip _ _ s /\ napp _ _ s' = napp _ _ s /\
                   forall j, is_act (cores s') j <-> is_act (cores s) j).
Proof. exact setState_applied_exactly. Qed.
Print Assumptions C02_setState_atomic.

Theorem C02_setState_failure_unchanged :
  forall base s to s', quiet s -> canon base s -> c_setState s to = Ok (s', false) ->
    cores s' = cores s /\ Permutation (pst _ _ s') (pst _ _ s).
Proof. exact setState_failure_P_unchanged. Qed.
Print Assumptions C02_setState_failure_unchanged.

Theorem C02_compare_atomic :
  forall base sc cr s c s' r,
    quiet s -> canon base s -> c_compare sc cr s c = Ok (s', r) ->
    quiet s' /\ (forall j, is_act (cores s') j <-> In j (chain s')) /\
    (0 <= r -> tip _ _ s' = tip _ _ s /\ napp _ _ s' = napp _ _ s /\ cores s' = cores s /\
               Permutation (pst _ _ s') (pst _ _ s)) /\
    (r < 0 -> c = Some (tip _ _ s')).
Proof. exact compare_atomic. Qed.
Print Assumptions C02_compare_atomic.

Theorem C02_compare_canonical :
  forall base score crossed s c s' r,
    canon base s -> c_compare score crossed s c = Ok (s', r) -> canon base s'.
Proof. exact canon_compare. Qed.
Print Assumptions C02_compare_canonical.

Theorem C02_setState_marks :
  forall base s to s' ok, reachable base s -> c_setState s to = Ok (s', ok) -> md (branch s to) s s'.
Proof. exact setState_marks. Qed.
Print Assumptions C02_setState_marks.

Theorem C02_compare_marks :
  forall base sc cr s c s' r, reachable base s -> c_compare sc cr s (Some c) = Ok (s', r) -> md (branch s c) s s'.
Proof. exact compare_marks. Qed.
Print Assumptions C02_compare_marks.

Theorem C02_setState_never_aborts :
  forall base s to bto,
    reachable base s -> find ccmd (blocks _ _ s) to = Some bto -> exists s' ok, c_setState s to = Ok (s', ok).
Proof. exact setState_total. Qed.
Print Assumptions C02_setState_never_aborts.

Theorem C02_compare_never_aborts :
  forall base sc cr s cand,
    reachable base s -> (forall c, cand = Some c -> exists bc, find ccmd (blocks _ _ s) c = Some bc) ->
    exists s' r, c_compare sc cr s cand = Ok (s', r).
Proof. exact compare_total. Qed.
Print Assumptions C02_compare_never_aborts.

Theorem C02_connect_never_aborts :
  forall s i par pb dup gs,
    find ccmd (blocks _ _ s) par = Some pb -> find ccmd (blocks _ _ s) i = None -> exists s', c_connect s i par dup gs = Ok s'.
Proof. exact connect_total. Qed.
Print Assumptions C02_connect_never_aborts.

(** The reference list of one BTC block (heights of the VBK blocks whose applied VTBs reference it): any interleaving of
    AddBtcBlock executes and - not necessarily LIFO - un-executes leaves exactly the multiset of the still applied
    commands; "erase the last entry <= h" does not (Pop/SmRefs.v). *)
Theorem C02_btc_refs_are_applied_multiset : forall ops k, wf ops [] -> cnt k (run ops []) = bal k ops.
Proof. exact refs_are_applied_multiset. Qed.
Print Assumptions C02_btc_refs_are_applied_multiset.

Theorem C02_btc_refs_remove_last_le_refuted :
  let ops := [Add 9; Add 3; Rel 9] in
  wf ops [] /\ run ops [] = [3] /\ cnt 3 (run ops []) = bal 3 ops /\
  rem_last_le 9 [9; 3] = [9] /\ cnt 3 (rem_last_le 9 [9; 3]) <> bal 3 ops /\
  rem_last_le 3 [9; 3] = rem_eq 3 [9; 3].
Proof. exact remove_last_le_refuted. Qed.
Print Assumptions C02_btc_refs_remove_last_le_refuted.
