(** The abstract pool (PoolDefs): [PInv] along every history under the caller contract, the known set through each
    operation, and what one connect pass in height order achieves. *)
From Coq Require Import List NArith Bool Lia Permutation.
From VB Require Import Mempool.VsmDefs Mempool.VsmProofs Mempool.PoolDefs.
Import ListNotations.
Local Open Scope N_scope.

Lemma iterate_safe act nodes :
  (forall a, act a <> EraseThenUse) ->
  iterate act nodes = Done (filter (fun a => match act a with Keep => true | _ => false end) nodes).
Proof.
  intro H. induction nodes as [|a r IH]; cbn [iterate filter]; [reflexivity|].
  specialize (H a). destruct (act a); [rewrite IH; reflexivity | exact IH | contradiction].
Qed.

Lemma cleanup_tooold_safe atvs stored :
  cleanup_tooold atvs stored = Done (filter (fun x => negb (existsb (N.eqb x) atvs)) stored).
Proof.
  unfold cleanup_tooold. rewrite iterate_safe by discriminate.
  replace (filter (fun _ : N => true) atvs) with atvs; [reflexivity|].
  induction atvs as [|a r IH]; cbn [filter]; [reflexivity | rewrite <- IH; reflexivity].
Qed.
Lemma cleanup_stale_safe valid nodes : cleanup_stale valid nodes = Done (filter valid nodes).
Proof.
  unfold cleanup_stale. rewrite iterate_safe.
  - f_equal. apply filter_ext. intro a. destruct (valid a); reflexivity.
  - intro a. destruct (valid a); discriminate.
Qed.

Lemma mem_In x l : mem x l = true <-> In x l.
Proof.
  unfold mem. rewrite existsb_exists. split.
  - intros (y & Hy & E). apply N.eqb_eq in E. subst. exact Hy.
  - intro H. exists x. split; [exact H | apply N.eqb_refl].
Qed.
Lemma mem_false x l : mem x l = false <-> ~ In x l.
Proof. rewrite <- mem_In. destruct (mem x l); intuition congruence. Qed.
Lemma mem_cons x p l : mem x (p :: l) = (x =? p) || mem x l.
Proof. reflexivity. Qed.

Section Pass.
  Variable par : N -> N.
  Variable blk : N -> N.

  Lemma pass_perm base stale l : forall c c' k,
    pass par blk base stale l c = (c', k) -> Permutation (c' ++ k) (c ++ l) /\ incl c c'.
  Proof.
    induction l as [|p r IH]; intros c c' k; cbn [pass].
    - intro H. injection H as <- <-. split; [reflexivity|apply incl_refl].
    - destruct (negb (mem p stale) && present blk base c (par p)).
      + intro H. destruct (IH _ _ _ H) as [P Hi]. split; [rewrite P; apply Permutation_middle|].
        intros x Hx. apply Hi. right. exact Hx.
      + destruct (pass par blk base stale r c) as [c2 k2] eqn:E. intro H. injection H as <- <-.
        destruct (IH _ _ _ E) as [P Hi]. split; [|exact Hi]. rewrite <- !Permutation_middle, P. reflexivity.
  Qed.

  Variable ht : N -> N.
  Variable hb : N -> N.     (* height of a VBK block *)

  (** height-sortedness: context blocks come before their dependants, so what a payload kept in flight lacks cannot
      have been brought in later in the pass *)
  Lemma pass_complete base stale :
    (forall q, hb (blk q) = ht q) -> (forall q, hb (par q) < ht q) ->
    forall l c c' k,
      sorted ht l = true ->
      pass par blk base stale l c = (c', k) ->
      forall p, In p k -> mem p stale = false -> present blk base c' (par p) = false.
  Proof.
    intros Hblk Hpar. induction l as [|p0 r IH]; intros c c' k S; cbn [pass].
    - intro H. injection H as <- <-. intros p [].
    - cbn [sorted] in S. apply andb_true_iff in S. destruct S as [S1 S2].
      destruct (negb (mem p0 stale) && present blk base c (par p0)) eqn:Cnd.
      + intro H. apply (IH _ _ _ S2 H).
      + destruct (pass par blk base stale r c) as [c2 k2] eqn:E. intro H. injection H as <- <-.
        intros p [<-|Hp] Hst; [|apply (IH _ _ _ S2 E p Hp Hst)].
        rewrite Hst in Cnd. cbn [negb andb] in Cnd.
        unfold present in *. apply orb_false_iff in Cnd. destruct Cnd as [C1 C2].
        rewrite C1. cbn [orb]. apply mem_false. intro X.
        apply in_map_iff in X. destruct X as (q & Bq & Xq).
        destruct (pass_perm _ _ _ _ _ _ E) as [P _].
        assert (In q (c ++ r)) as Y by (apply (Permutation_in _ P), in_or_app; left; exact Xq).
        apply in_app_or in Y. destruct Y as [Y|Y].
        * apply mem_false in C2. apply C2. apply in_map_iff. exists q. split; assumption.
        * rewrite forallb_forall in S1. specialize (S1 _ Y).
          unfold lt in S1. apply negb_true_iff, N.ltb_ge in S1.
          pose proof (Hpar p0) as H1. pose proof (Hblk q) as H2. rewrite Bq in H2. lia.
  Qed.
End Pass.

Section Inv.
  Variable ht : N -> N.
  Variable par : N -> N.
  Variable blk : N -> N.
  Notation Inv := (Inv ht).
  Notation submit := (submit ht par blk).
  Notation connect_pass := (connect_pass ht par blk).

  (** in flight: key = value = id *)
  Definition kv_same (m : amap) : Prop := forall k v, In (k, v) m -> v = k.
  Lemma kv_same_incl m m' : incl m' m -> kv_same m -> kv_same m'.
  Proof. intros Hi H k v X. apply H, Hi, X. Qed.
  Lemma kv_same_set k m : kv_same m -> kv_same (m_set k k m).
  Proof.
    intros H a b X. apply (Permutation_in _ (m_set_perm k k m)) in X.
    destruct X as [X|X]; [injection X as <- <-; reflexivity | apply H, (m_remove_incl k), X].
  Qed.
  Lemma kv_same_map m : kv_same m -> map snd m = map fst m.
  Proof.
    unfold kv_same. induction m as [|[k' v'] r IH]; intro H; [reflexivity|].
    cbn [map fst snd]. rewrite (H k' v' (or_introl eq_refl)), IH; [reflexivity | intros; apply H; right; assumption].
  Qed.

  Definition PInv (s : pool) : Prop :=
    Inv (infl s) /\ NoDup (conn s) /\ kv_same (vmap (infl s)) /\
    (forall p, connected s p = true -> inflight s p = false).

  Lemma pinv_empty : PInv pempty.
  Proof.
    unfold PInv. cbn [conn infl pempty]. refine (conj (inv_empty ht) (conj (NoDup_nil _) (conj _ _))).
    - intros k v [].
    - intros p H. reflexivity.
  Qed.

  Lemma known_split s q : known s q = connected s q || inflight s q.
  Proof. reflexivity. Qed.

  Lemma vset_spec s : PInv s -> NoDup (vset (infl s)) /\ forall q, inflight s q = true <-> In q (vset (infl s)).
  Proof.
    intros ((P & _ & NDk) & _ & KV & _). rewrite <- (kv_same_map _ KV) in NDk. split.
    - eapply Permutation_NoDup; [symmetry; exact P|exact NDk].
    - intro q. unfold inflight. rewrite (kv_same_map _ KV) in P.
      transitivity (In q (map fst (vmap (infl s)))).
      + rewrite <- m_find_keys. destruct (m_find q (vmap (infl s))); split; congruence.
      + split; apply Permutation_in; [symmetry|]; exact P.
  Qed.

  Lemma put_inflight p s :
    PInv s -> connected s p = false ->
    exists f', insert ht p p (infl s) = Ok f' /\ PInv (mkp (conn s) f') /\
               forall q, known (mkp (conn s) f') q = (q =? p) || known s q.
  Proof.
    intros (I & ND & KV & DJ) Hc. destruct (insert_inv ht p p (infl s) I) as (f' & E & I' & Vm). exists f'.
    assert (forall q, inflight (mkp (conn s) f') q = (q =? p) || inflight s q) as Hf.
    { intro q. unfold inflight. cbn [infl]. rewrite Vm, m_find_set. destruct (q =? p); reflexivity. }
    split; [exact E|]. split.
    - refine (conj I' (conj ND (conj _ _))); cbn [infl conn].
      + rewrite Vm. apply kv_same_set, KV.
      + intros q Hq. rewrite Hf, (DJ q Hq), orb_false_r. apply N.eqb_neq. intros ->. unfold connected in *. cbn [conn] in Hq. congruence.
    - intro q. rewrite !known_split, Hf. change (connected (mkp (conn s) f') q) with (connected s q).
      destruct (q =? p), (connected s q); reflexivity.
  Qed.
  Lemma put_connected p s :
    PInv s -> connected s p = false ->
    exists f', erase ht p (infl s) = Ok f' /\ PInv (mkp (p :: conn s) f') /\
               forall q, known (mkp (p :: conn s) f') q = (q =? p) || known s q.
  Proof.
    intros (I & ND & KV & DJ) Hc. destruct (erase_inv ht p (infl s) I) as (f' & E & I' & Vm). exists f'.
    assert (forall q, inflight (mkp (p :: conn s) f') q = negb (q =? p) && inflight s q) as Hf.
    { intro q. unfold inflight. cbn [infl]. rewrite Vm, m_find_remove by apply I. destruct (q =? p); reflexivity. }
    split; [exact E|]. split.
    - refine (conj I' (conj _ (conj _ _))); cbn [infl conn].
      + constructor; [apply mem_false, Hc|exact ND].
      + rewrite Vm. apply (kv_same_incl _ _ (m_remove_incl p _)), KV.
      + intros q Hq. rewrite Hf. unfold connected in Hq. cbn [conn mem existsb] in Hq.
        destruct (q =? p); [reflexivity|]. apply DJ, Hq.
    - intro q. rewrite !known_split, Hf. change (connected (mkp (p :: conn s) f') q) with ((q =? p) || connected s q).
      destruct (q =? p), (connected s q); reflexivity.
  Qed.

  Lemma submit_spec base v p s :
    PInv s -> connected s p = false -> v <> Stateless ->
    exists s', submit base v p s = POk s' /\ PInv s' /\
      conn s' = (if fine v && present blk base (conn s) (par p) then p :: conn s else conn s) /\
      forall q, known s' q = (q =? p) || known s q.
  Proof.
    intros I Hc Hv. unfold PoolDefs.submit.
    destruct (put_inflight p s I Hc) as (f1 & -> & I1 & K1), (put_connected p s I Hc) as (f2 & -> & I2 & K2).
    unfold connected in Hc. rewrite Hc.
    destruct v; [contradiction Hv; reflexivity| |]; cbn [fine andb]; [|destruct (present blk base (conn s) (par p))].
    - exists (mkp (conn s) f1). auto.
    - exists (mkp (p :: conn s) f2). auto.
    - exists (mkp (conn s) f1). auto.
  Qed.

  Lemma vd_not_stateless stale p : vd stale p <> Stateless.
  Proof. unfold vd. destruct (mem p stale); discriminate. Qed.
  Lemma fine_vd stale p : fine (vd stale p) = negb (mem p stale).
  Proof. unfold vd. destruct (mem p stale); reflexivity. Qed.

  Lemma connect_pass_spec base stale : forall l s,
    PInv s -> NoDup l -> (forall q, In q l -> connected s q = false /\ known s q = true) ->
    exists s', connect_pass base stale l s = POk s' /\ PInv s' /\
      conn s' = fst (pass par blk base stale l (conn s)) /\ forall q, known s' q = known s q.
  Proof.
    induction l as [|p r IH]; intros s I ND Hl; cbn [PoolDefs.connect_pass pass].
    - exists s. auto.
    - inversion ND as [|? ? Hp NDr]; subst. destruct (Hl p (or_introl eq_refl)) as [Hc Hk].
      destruct (submit_spec base (vd stale p) p s I Hc (vd_not_stateless stale p)) as (s1 & -> & I1 & C1 & K1).
      rewrite fine_vd in C1.
      assert (forall q, known s1 q = known s q) as K1'.
      { intro q. rewrite K1. destruct (N.eqb_spec q p) as [->|]; [rewrite Hk|]; reflexivity. }
      destruct (IH s1 I1 NDr) as (s' & -> & I' & C' & K').
      { intros q Hq. destruct (Hl q (or_intror Hq)) as [Hcq Hkq]. rewrite K1'. split; [|exact Hkq].
        unfold connected in *. rewrite C1. destruct (negb (mem p stale) && _); [|exact Hcq].
        rewrite mem_cons, Hcq, orb_false_r. apply N.eqb_neq. intros ->. contradiction. }
      exists s'. split; [reflexivity|]. split; [exact I'|]. split; [|intro q; rewrite K'; apply K1'].
      rewrite C', C1. destruct (negb (mem p stale) && present blk base (conn s) (par p)); [reflexivity|].
      destruct (pass par blk base stale r (conn s)); reflexivity.
  Qed.

  Lemma tryConnect_spec base stale s :
    PInv s ->
    exists s', tryConnect ht par blk base stale s = POk s' /\ PInv s' /\
      conn s' = fst (pass par blk base stale (vset (infl s)) (conn s)) /\ forall q, known s' q = known s q.
  Proof.
    intro I. destruct (vset_spec s I) as [ND Hin]. apply connect_pass_spec; [exact I|exact ND|].
    intros q Hq. apply Hin in Hq. rewrite known_split, Hq, orb_true_r. split; [|reflexivity].
    destruct I as (_ & _ & _ & DJ). destruct (connected s q) eqn:C; [|reflexivity]. rewrite (DJ q C) in Hq. discriminate.
  Qed.

  Lemma erase_all_inv ks : forall f, Inv f ->
    exists f', erase_all ht ks f = Ok f' /\ Inv f' /\ incl (vmap f') (vmap f).
  Proof.
    induction ks as [|k r IH]; intros f I; cbn [PoolDefs.erase_all].
    - exists f. split; [reflexivity|]. split; [exact I | apply incl_refl].
    - destruct (erase_inv ht k f I) as (f1 & -> & I1 & Vm). destruct (IH f1 I1) as (f' & -> & I' & Hi).
      exists f'. split; [reflexivity|]. split; [exact I'|]. rewrite Vm in Hi. exact (incl_tran Hi (m_remove_incl k _)).
  Qed.

  Lemma shrink_pinv (g : N -> bool) s f' :
    PInv s -> Inv f' -> incl (vmap f') (vmap (infl s)) ->
    PInv (mkp (filter g (conn s)) f') /\ forall q, known s q = false -> known (mkp (filter g (conn s)) f') q = false.
  Proof.
    intros (_ & ND & KV & DJ) I' Hi.
    assert (forall q, inflight s q = false -> inflight (mkp (filter g (conn s)) f') q = false) as Hf.
    { intro q. unfold inflight. cbn [infl]. destruct (m_find q (vmap (infl s))) eqn:F; [discriminate|].
      rewrite (m_find_incl q _ _ Hi F). reflexivity. }
    assert (forall q, connected (mkp (filter g (conn s)) f') q = true -> connected s q = true) as Hc.
    { intro q. unfold connected. cbn [conn]. rewrite !mem_In, filter_In. tauto. }
    split.
    - refine (conj I' (conj (NoDup_filter _ ND) (conj (kv_same_incl _ _ Hi KV) _))). intros q Hq. apply Hf, DJ, Hc, Hq.
    - intros q. rewrite !known_split. intro H. apply orb_false_iff in H. destruct H as [C F]. rewrite (Hf q F), orb_false_r.
      destruct (connected (mkp (filter g (conn s)) f') q) eqn:C'; [|reflexivity]. rewrite (Hc q C') in C. discriminate.
  Qed.

  Lemma cleanUp_inv gc gf s :
    PInv s -> exists s', cleanUp ht gc gf s = POk s' /\ PInv s' /\ (forall q, known s q = false -> known s' q = false).
  Proof.
    intros I. unfold cleanUp.
    destruct (erase_all_inv (filter (fun k => mem k gf) (map fst (vmap (infl s)))) (infl s) (proj1 I)) as (f' & -> & I' & Hi).
    eexists. split; [reflexivity|]. apply shrink_pinv; assumption.
  Qed.

  Definition targets (o : pop) (p : N) : Prop := match o with Submit _ _ q => q = p | _ => False end.

  Lemma pstep_inv s o :
    PInv s -> (match o with Submit _ _ p => connected s p = false | _ => True end) ->
    exists s', pstep ht par blk s o = POk s' /\ PInv s' /\
      (forall p, ~ targets o p -> known s p = false -> known s' p = false).
  Proof.
    intros I C. destruct o as [base v p|base stale gone gf|ids base stale gone gf|gone gf|]; cbn [pstep].
    - assert (v = Stateless \/ v <> Stateless) as [->|Hv] by (destruct v; auto; right; discriminate).
      + exists s. auto.
      + destruct (submit_spec base v p s I C Hv) as (s' & E & I' & _ & K). exists s'. split; [exact E|]. split; [exact I'|].
        intros q Hq. cbn [targets] in Hq. rewrite K. intros ->. rewrite orb_false_r. apply N.eqb_neq. congruence.
    - unfold generate. destruct (tryConnect_spec base stale s I) as (s1 & -> & I1 & _ & K1).
      destruct (cleanUp_inv gone gf s1 I1) as (s' & -> & I' & Kf').
      exists s'. split; [reflexivity|]. split; [exact I'|]. intros p _ Hp. apply Kf'. rewrite K1. exact Hp.
    - unfold removeAll, dropIds.
      destruct (shrink_pinv (fun p => negb (mem p ids)) s (infl s) I (proj1 I) (incl_refl _)) as [I0 K0].
      destruct (cleanUp_inv gone gf _ I0) as (s1 & -> & I1 & Kf1).
      destruct (tryConnect_spec base stale s1 I1) as (s' & -> & I' & _ & K').
      exists s'. split; [reflexivity|]. split; [exact I'|]. intros p _ Hp. rewrite K'. apply Kf1, K0, Hp.
    - destruct (cleanUp_inv gone gf s I) as (s' & -> & I' & Kf). exists s'.
      split; [reflexivity|]. split; [exact I'|]. intros p _ Hp. apply Kf. exact Hp.
    - unfold clear. destruct I as (If & _). unfold VsmDefs.clear. rewrite (inv_checked ht _ If).
      exists (mkp [] empty). split; [reflexivity|]. split; [apply pinv_empty|]. intros; reflexivity.
  Qed.

  Lemma prun_inv ops : forall s, PInv s -> contract ht par blk s ops ->
    exists s', prun ht par blk s ops = POk s' /\ PInv s'.
  Proof.
    induction ops as [|o r IH]; intros s I C; cbn [prun].
    - exists s. split; [reflexivity | exact I].
    - cbn [contract] in C. destruct C as [C1 C2].
      destruct (pstep_inv s o I C1) as (s1 & E & I1 & _). rewrite E in *. apply IH; assumption.
  Qed.

  Variable hb : N -> N.
  Lemma inflight_eventually_connected base stale s s' :
    (forall q, hb (blk q) = ht q) -> (forall q, hb (par q) < ht q) ->
    PInv s -> tryConnect ht par blk base stale s = POk s' ->
    forall p, inflight s' p = true -> mem p stale = false ->
      present blk base (conn s') (par p) = false.
  Proof.
    intros Hblk Hpar I E p Fp St.
    destruct (tryConnect_spec base stale s I) as (s1 & E1 & I' & Cn & K). rewrite E in E1. injection E1 as <-.
    destruct (vset_spec s I) as [_ Hin]. pose proof I as ((_ & S & _) & _).
    destruct (pass par blk base stale (vset (infl s)) (conn s)) as [c' k] eqn:Ps. cbn [fst] in Cn.
    destruct (pass_perm par blk base stale _ _ _ _ Ps) as [P Mono].
    assert (~ In p c') as NC.
    { destruct I' as (_ & _ & _ & DJ'). intro X. rewrite <- Cn in X. apply mem_In in X. rewrite (DJ' p X) in Fp. discriminate. }
    (* p was known before, hence in flight: what was connected stays connected *)
    specialize (K p). rewrite !known_split, Fp, orb_true_r in K. symmetry in K. apply orb_true_iff in K.
    destruct K as [C|F]; [apply mem_In, Mono in C; contradiction|].
    assert (In p (c' ++ k)) as X by (apply (Permutation_in _ (Permutation_sym P)), in_or_app; right; apply Hin, F).
    apply in_app_or in X. destruct X as [X|X]; [contradiction|].
    rewrite Cn. exact (pass_complete par blk ht hb base stale Hblk Hpar _ _ _ _ S Ps p X St).
  Qed.
End Inv.

(** ** the sort key matters
    [inflight_eventually_connected] needs the in-flight view to be sorted by the height of the CARRIED block
    ([hb (blk q) = ht q], as coded: containing block / block of proof / the block itself). With any other key it is
    false. Witness: payload 1 carries block 12 (parent 11) and has key 5, payload 2 carries block 11 (parent 10)
    and has key 8 (e.g. the heights of the ENDORSED blocks); both are in flight, block 10 arrives: the pass
    re-tries 1 before 2, connects 2 only, and 1 stays in flight although its parent 11 is now present. *)
Definition wk_key (q : N) : N := if q =? 1 then 5 else if q =? 2 then 8 else 0.
Definition wk_blk (q : N) : N := if q =? 1 then 12 else if q =? 2 then 11 else 1.
Definition wk_par (q : N) : N := if q =? 1 then 11 else if q =? 2 then 10 else 0.
Definition wk_ops : list pop := [Submit [] Fine 2; Submit [] Fine 1].

(** the same history with the key of the code (height of the carried block): both connect *)
Example inflight_carried_key_witness :
  exists s s',
    prun wk_blk wk_par wk_blk pempty wk_ops = POk s /\
    tryConnect wk_blk wk_par wk_blk [10] [] s = POk s' /\
    inflight s' 1 = false /\ inflight s' 2 = false /\ connected s' 1 = true /\ connected s' 2 = true.
Proof. eexists. eexists. split; [vm_compute; reflexivity|]. split; [vm_compute; reflexivity|]. repeat split; vm_compute; reflexivity. Qed.
