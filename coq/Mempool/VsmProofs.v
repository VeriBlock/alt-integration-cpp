(** Proofs about the ValueSortedMap model: after ANY operation sequence the
    multiset of set values equals the multiset of map values, the set is
    sorted by the comparator and the sizes agree, so none of the C++
    assertions fires. *)
From Coq Require Import List NArith Bool Lia Permutation PeanoNat.
From VB Require Import Mempool.VsmDefs.
Import ListNotations.
Local Open Scope N_scope.

Lemma m_remove_incl k m : incl (m_remove k m) m.
Proof.
  induction m as [|[k' v'] r IH]; cbn [m_remove]; [apply incl_refl|].
  destruct (k' =? k); [apply incl_tl, incl_refl|]. intros x [<-|H]; [left; reflexivity|right; apply IH, H].
Qed.

Lemma m_find_keys q m : m_find q m <> None <-> In q (map fst m).
Proof.
  induction m as [|[k' v'] r IH]; cbn [m_find map fst In]; [tauto|].
  destruct (N.eqb_spec k' q); [split; [auto|discriminate]|]. rewrite IH. tauto.
Qed.
Lemma m_find_incl q m m' : incl m' m -> m_find q m = None -> m_find q m' = None.
Proof.
  intros Hi F. destruct (m_find q m') eqn:F'; [exfalso|reflexivity].
  apply (proj2 (m_find_keys q m)); [apply (incl_map fst Hi), m_find_keys; congruence | exact F].
Qed.
Lemma m_remove_absent k m : m_find k m = None -> m_remove k m = m.
Proof.
  induction m as [|[k' v'] r IH]; cbn [m_find m_remove]; [reflexivity|].
  destruct (k' =? k); [discriminate|]. intro H. rewrite (IH H). reflexivity.
Qed.
Lemma m_find_set q k v m : m_find q (m_set k v m) = if q =? k then Some v else m_find q m.
Proof.
  induction m as [|[k' v'] r IH]; cbn [m_find m_set]; [rewrite N.eqb_sym; reflexivity|].
  destruct (N.eqb_spec k' k) as [->|Hk]; cbn [m_find]; [rewrite (N.eqb_sym q k); destruct (k =? q); reflexivity|].
  rewrite IH. destruct (N.eqb_spec k' q) as [->|]; [|reflexivity]. apply N.eqb_neq in Hk. rewrite Hk. reflexivity.
Qed.
Lemma m_find_remove q k m :
  NoDup (map fst m) -> m_find q (m_remove k m) = if q =? k then None else m_find q m.
Proof.
  induction m as [|[k' v'] r IH]; cbn [m_find m_remove map fst]; intro ND; [destruct (q =? k); reflexivity|].
  inversion ND as [|? ? Hk NDr]; subst. destruct (N.eqb_spec k' k) as [->|Hk'].
  - rewrite (N.eqb_sym q k). destruct (k =? q) eqn:E; [|reflexivity]. apply N.eqb_eq in E. subst q.
    destruct (m_find k r) eqn:F; [|reflexivity]. exfalso. apply Hk, m_find_keys. congruence.
  - cbn [m_find]. rewrite (IH NDr). destruct (N.eqb_spec k' q) as [->|]; [|reflexivity].
    apply N.eqb_neq in Hk'. rewrite Hk'. reflexivity.
Qed.

Lemma m_find_remove_perm k m v :
  m_find k m = Some v -> Permutation (map snd m) (v :: map snd (m_remove k m)).
Proof.
  induction m as [|[k' v'] r IH]; cbn [m_find m_remove map snd]; [discriminate|].
  destruct (k' =? k); intro H.
  - injection H as ->. reflexivity.
  - cbn [map snd]. rewrite (IH H). apply perm_swap.
Qed.
Lemma m_set_perm k v m : Permutation (m_set k v m) ((k, v) :: m_remove k m).
Proof.
  induction m as [|[k' v'] r IH]; cbn [m_remove m_set]; [reflexivity|].
  destruct (k' =? k); [reflexivity|]. rewrite IH. apply perm_swap.
Qed.

Lemma m_remove_nodup k m : NoDup (map fst m) -> NoDup (map fst (m_remove k m)).
Proof.
  induction m as [|[k' v'] r IH]; cbn [m_remove map fst]; intro H; [constructor|].
  inversion H; subst. destruct (k' =? k); [assumption|].
  cbn [map fst]. constructor; [|auto]. intro X. apply in_map_iff in X. destruct X as [x [E X]].
  apply m_remove_incl in X. apply (in_map fst) in X. rewrite E in X. contradiction.
Qed.
Lemma m_set_nodup k v m : NoDup (map fst m) -> NoDup (map fst (m_set k v m)).
Proof.
  intro H. apply (Permutation_NoDup (Permutation_sym (Permutation_map fst (m_set_perm k v m)))). cbn [map fst].
  constructor; [|apply m_remove_nodup, H].
  rewrite <- m_find_keys, (m_find_remove k k m H), N.eqb_refl. congruence.
Qed.

Section P.
  Variable height : N -> N.
  Notation lt := (lt height).
  Notation ms_insert := (ms_insert height).
  Notation ms_erase_exact := (ms_erase_exact height).
  Notation sorted := (sorted height).

  Lemma lt_irrefl a : lt a a = false.
  Proof. unfold VsmDefs.lt. apply N.ltb_irrefl. Qed.

  Lemma ms_insert_perm v s : Permutation (ms_insert v s) (v :: s).
  Proof.
    induction s as [|x r IH]; cbn [VsmDefs.ms_insert]; [reflexivity|].
    destruct (lt v x); [reflexivity|].
    rewrite IH. apply perm_swap.
  Qed.

  Lemma forallb_perm (f : N -> bool) l l' : Permutation l l' -> forallb f l = true -> forallb f l' = true.
  Proof.
    intros P H. rewrite forallb_forall in *. intros y Hy. apply H.
    eapply Permutation_in; [symmetry; exact P | exact Hy].
  Qed.

  Lemma lt_ge_trans v x y : lt v x = true -> lt y x = false -> lt y v = false.
  Proof. unfold VsmDefs.lt. rewrite N.ltb_lt, !N.ltb_ge. lia. Qed.

  Lemma ms_insert_sorted v s : sorted s = true -> sorted (ms_insert v s) = true.
  Proof.
    induction s as [|x r IH]; cbn [VsmDefs.ms_insert VsmDefs.sorted]; intro H; [reflexivity|].
    apply andb_true_iff in H. destruct H as [H1 H2]. destruct (lt v x) eqn:E.
    - (* v goes in front: whatever follows is not below x, hence not below v *)
      cbn [VsmDefs.sorted forallb]. rewrite H1, H2, (lt_ge_trans v x x E (lt_irrefl x)). cbn [negb andb].
      rewrite andb_true_r, forallb_forall in *. intros y Hy.
      apply negb_true_iff, (lt_ge_trans v x y E), negb_true_iff, H1, Hy.
    - cbn [VsmDefs.sorted]. rewrite (IH H2), andb_true_r.
      apply forallb_perm with (l := v :: r); [symmetry; apply ms_insert_perm|].
      cbn [forallb]. rewrite H1, E. reflexivity.
  Qed.

  Lemma ms_erase_exact_spec v s :
    sorted s = true -> In v s ->
    exists s', ms_erase_exact v s = Some s' /\ Permutation s (v :: s') /\ sorted s' = true.
  Proof.
    induction s as [|x r IH]; intros Hs Hin; [destruct Hin|].
    cbn [VsmDefs.sorted] in Hs. apply andb_true_iff in Hs. destruct Hs as [H1 H2].
    assert (In v r -> exists s', option_map (cons x) (ms_erase_exact v r) = Some s' /\
                                 Permutation (x :: r) (v :: s') /\ sorted s' = true) as Rec.
    { intro Hr. destruct (IH H2 Hr) as (s' & -> & P & S). exists (x :: s'). split; [reflexivity|].
      split; [rewrite P; apply perm_swap|]. cbn [VsmDefs.sorted]. rewrite S, andb_true_r.
      apply (forallb_perm _ _ _ P) in H1. cbn [forallb] in H1. apply andb_true_iff in H1. apply H1. }
    cbn [VsmDefs.ms_erase_exact].
    destruct (lt x v) eqn:E1; [|destruct (lt v x) eqn:E2; [|destruct (x =? v) eqn:E3]].
    - apply Rec. destruct Hin as [->|]; [rewrite lt_irrefl in E1; discriminate | assumption].
    - exfalso. destruct Hin as [->|Hr]; [rewrite lt_irrefl in E2; discriminate|].
      rewrite forallb_forall in H1. specialize (H1 v Hr). rewrite E2 in H1. discriminate.
    - apply N.eqb_eq in E3. subst x. exists r. repeat split; [reflexivity | exact H2].
    - apply Rec. destruct Hin as [->|]; [rewrite N.eqb_refl in E3; discriminate | assumption].
  Qed.

  Definition Inv (s : vsm) : Prop :=
    Permutation (vset s) (map snd (vmap s)) /\ sorted (vset s) = true /\ NoDup (map fst (vmap s)).

  Lemma inv_checked s : Inv s -> checked s = Ok s.
  Proof.
    intros (P & _). unfold checked.
    rewrite (Permutation_length P), map_length, Nat.eqb_refl. reflexivity.
  Qed.

  Lemma inv_empty : Inv empty.
  Proof. repeat split; cbn; constructor. Qed.

  Lemma inv_take k v s :
    Inv s -> m_find k (vmap s) = Some v ->
    exists set', ms_erase_exact v (vset s) = Some set' /\
                 Permutation set' (map snd (m_remove k (vmap s))) /\ sorted set' = true.
  Proof.
    intros (P & S & _) F. pose proof (m_find_remove_perm k _ v F) as Pm.
    assert (In v (vset s)) as Hin.
    { eapply Permutation_in; [symmetry; exact P|]. eapply Permutation_in; [symmetry; exact Pm|left; reflexivity]. }
    destruct (ms_erase_exact_spec v (vset s) S Hin) as (set' & E & P' & S'). exists set'. split; [exact E|]. split; [|exact S'].
    apply Permutation_cons_inv with (a := v). rewrite <- P', P. exact Pm.
  Qed.

  Lemma erase_inv k s : Inv s -> exists s', erase height k s = Ok s' /\ Inv s' /\ vmap s' = m_remove k (vmap s).
  Proof.
    intros I. unfold erase, erase_with. destruct (m_find k (vmap s)) as [v|] eqn:F.
    - destruct (inv_take k v s I F) as (set' & -> & P' & S').
      assert (Inv (mk set' (m_remove k (vmap s)))) as I'
          by (split; [exact P'|split; [exact S'|apply m_remove_nodup, I]]).
      eexists. split; [apply inv_checked, I'|]. split; [exact I'|reflexivity].
    - exists s. split; [reflexivity|]. split; [exact I|]. symmetry. apply m_remove_absent, F.
  Qed.

  Lemma insert_inv k v s : Inv s -> exists s', insert height k v s = Ok s' /\ Inv s' /\ vmap s' = m_set k v (vmap s).
  Proof.
    intros I.
    assert (forall set0, Permutation set0 (map snd (m_remove k (vmap s))) -> sorted set0 = true ->
                         Inv (mk (ms_insert v set0) (m_set k v (vmap s)))) as Hins.
    { intros set0 P0 S0. split; [|split; [apply ms_insert_sorted, S0|apply m_set_nodup, I]].
      cbn [vset vmap]. rewrite ms_insert_perm, (Permutation_map snd (m_set_perm k v _)), P0. reflexivity. }
    unfold insert, insert_with. destruct (m_find k (vmap s)) as [old|] eqn:F.
    - destruct (inv_take k old s I F) as (set' & -> & P' & S'). specialize (Hins set' P' S').
      eexists. split; [apply inv_checked, Hins|]. split; [exact Hins|reflexivity].
    - rewrite (m_remove_absent k _ F) in Hins. specialize (Hins (vset s) (proj1 I) (proj1 (proj2 I))).
      eexists. split; [apply inv_checked, Hins|]. split; [exact Hins|reflexivity].
  Qed.

  Lemma step_inv s o : Inv s -> exists s', step height s o = Ok s' /\ Inv s'.
  Proof.
    intro I. destruct o as [k v|k|]; cbn [step].
    - destruct (insert_inv k v s I) as (s' & E & I' & _). eauto.
    - destruct (erase_inv k s I) as (s' & E & I' & _). eauto.
    - unfold clear. rewrite (inv_checked s I). exists empty. split; [reflexivity | apply inv_empty].
  Qed.

  Lemma run_inv ops : forall s, Inv s -> exists s', run height s ops = Ok s' /\ Inv s'.
  Proof.
    induction ops as [|o r IH]; intros s I; cbn [run run_with].
    - exists s. split; [reflexivity | assumption].
    - destruct (step_inv s o I) as (s1 & E & I1). unfold run in *. rewrite E. apply IH. exact I1.
  Qed.
End P.

(** The code before commit 913f84f9 (erase the FIRST equivalent element): with a comparator on v/10,
    insert(1,11), insert(2,12), erase(2) leaves 12 in the sorted view and 11 in the map
    (Properties_C13.C13_vsm_v0_refuted). *)
Definition h10 (v : N) : N := v / 10.
(** the same sequence on the code as it is now *)
Example vsm_now_witness :
  run h10 empty [Insert 1 11; Insert 2 12; Erase 2] = Ok (mk [11] [(1, 11)]).
Proof. vm_compute. reflexivity. Qed.
