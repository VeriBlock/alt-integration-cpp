(** What generatePopData hands out (GenDefs), for every pool content and every tree oracle; a sort witness; the pools
    and limits of the examples of Properties_C12. *)
From Coq Require Import List NArith Bool Permutation Lia.
From VB Require Import Mempool.CountDefs Mempool.CountProofs Mempool.RelDefs Mempool.RelProofs Mempool.GenDefs.
Import ListNotations.
Local Open Scope N_scope.

Inductive subseq : list N -> list N -> Prop :=
| ss_nil : subseq [] []
| ss_skip x l1 l2 : subseq l1 l2 -> subseq l1 (x :: l2)
| ss_take x l1 l2 : subseq l1 l2 -> subseq (x :: l1) (x :: l2).

Lemma subseq_In l1 l2 : subseq l1 l2 -> forall x, In x l1 -> In x l2.
Proof. induction 1; simpl; intros y Hy; auto. destruct Hy; auto. Qed.
Lemma subseq_asc hgt l1 l2 : subseq l1 l2 -> asc hgt l2 -> asc hgt l1.
Proof.
  induction 1; simpl; auto.
  - intros [_ H2]; auto.
  - intros [H1 H2]. split; auto. intros y Hy. apply H1. eapply subseq_In; eauto.
Qed.

Lemma NoDup_snoc (x : N) l : NoDup l -> ~ In x l -> NoDup (l ++ [x]).
Proof. intros. apply (Permutation_NoDup (Permutation_cons_append l x)). constructor; auto. Qed.

Lemma subseq_covers proj rs order st l :
  covers proj rs st -> Permutation order rs -> subseq l (flat_map proj order) -> incl l st.
Proof.
  intros Hc P S x Hx. apply Hc. apply (subseq_In _ _ S), in_flat_map in Hx. destruct Hx as [r [Hr Hx]].
  exists r. split; auto. eapply Permutation_in; eauto.
Qed.

Definition setk (k : kind) (l : list N) (r : kept) : kept :=
  match k with
  | KVbk => mkk l (k_vtb r) (k_atv r)
  | KVtb => mkk (k_vbk r) l (k_atv r)
  | KAtv => mkk (k_vbk r) (k_vtb r) l
  end.
Lemma len_snoc l z : len (l ++ [z]) = len l + 1.
Proof. unfold len. rewrite app_length. cbn [length]. lia. Qed.
Lemma sum_snoc l z : sum (l ++ [z]) = sum l + z.
Proof. unfold sum. induction l as [|x l IH]; cbn [app fold_right]; [|rewrite IH]; lia. Qed.
Lemma agrees_snoc c r k l z : agrees c (setk k l r) -> agrees (update c k z) (setk k (l ++ [z]) r).
Proof.
  intros (A & B & C & D & E & F).
  destruct k; unfold agrees; cbn [setk update n_vbk n_vtb n_atv s_vbk s_vtb s_atv k_vbk k_vtb k_atv] in *;
    rewrite ?len_snoc, ?sum_snoc; repeat split; congruence.
Qed.

Section Stage.
  Variable L : limits.
  Variable k : kind.
  Variable sz : N -> N.
  Variable adm : list N -> N -> bool.

  Lemma stage_spec cands : forall c kept,
    exists k', snd (stage L k sz adm cands c kept) = kept ++ k' /\ subseq k' cands /\
      (NoDup kept -> NoDup (kept ++ k')) /\
      (forall pre x post, k' = pre ++ x :: post -> adm (kept ++ pre) x = true).
  Proof.
    induction cands as [|x r IH]; intros c kept; cbn [stage].
    - exists []. rewrite app_nil_r. split; [reflexivity|]. split; [constructor|]. split; [auto|].
      intros pre x post E. destruct pre; discriminate.
    - destruct (can_fit L c k (sz x) && negb (rmem x kept) && adm kept x) eqn:E.
      + apply andb_true_iff in E. destruct E as [E Ea]. apply andb_true_iff in E. destruct E as [_ En].
        apply negb_true_iff, rmem_false in En.
        destruct (IH (update c k (sz x)) (kept ++ [x])) as [k' [E1 [S1 [N1 A1]]]]. rewrite <- app_assoc in E1, N1.
        exists (x :: k'). split; [exact E1|]. split; [apply ss_take, S1|]. split; [auto using NoDup_snoc|].
        intros pre y post Ek. destruct pre as [|p pre]; simpl in Ek; injection Ek as <- Ek.
        * rewrite app_nil_r. exact Ea.
        * specialize (A1 pre y post Ek). rewrite <- app_assoc in A1. exact A1.
      + destruct (IH c kept) as [k' [E1 [S1 [N1 A1]]]]. exists k'. split; [exact E1|]. split; [apply ss_skip, S1|auto].
  Qed.
  Lemma stage_nil cands c :
    let k' := snd (stage L k sz adm cands c []) in
    subseq k' cands /\ NoDup k' /\ (forall pre x post, k' = pre ++ x :: post -> adm pre x = true).
  Proof.
    destruct (stage_spec cands c []) as [k' [-> [S [Nd A]]]]. split; [exact S|]. split; [apply Nd; constructor|exact A].
  Qed.

  Lemma stage_count cands : forall c kept r,
    agrees c (setk k (map sz kept) r) -> within L c ->
    agrees (fst (stage L k sz adm cands c kept)) (setk k (map sz (snd (stage L k sz adm cands c kept))) r) /\
    within L (fst (stage L k sz adm cands c kept)).
  Proof.
    induction cands as [|x rest IH]; intros c kept r A W; cbn [stage]; [auto|].
    destruct (can_fit L c k (sz x) && negb (rmem x kept) && adm kept x) eqn:E; [|apply IH; auto].
    apply andb_true_iff in E. destruct E as [E _]. apply andb_true_iff in E. destruct E as [F _].
    apply IH; [rewrite map_app; apply agrees_snoc, A|apply within_step; auto].
  Qed.
End Stage.

(** the common shape of admB / admV / admA *)
Lemma needs_block (dup tree ok : bool) b kb :
  negb dup && (tree || rmem b kb) && ok = true -> dup = false /\ (tree = true \/ In b kb).
Proof.
  destruct dup; [discriminate|]. destruct tree; [auto|]. destruct (rmem b kb) eqn:E; [|discriminate].
  apply rmem_In in E. auto.
Qed.
Lemma admB_true par treeB dupB okB pre b :
  admB par treeB dupB okB pre b = true ->
  dupB b = false /\ (treeB b = true \/ treeB (par b) = true \/ In (par b) pre).
Proof. intros H. apply needs_block in H. rewrite orb_true_iff in H. tauto. Qed.

Section Gen.
  Variable par : N -> N.
  Variable bop cont : N -> N.
  Variable szB szV szA : N -> N.
  Variable L : limits.
  Variable treeB : N -> bool.
  Variable dupB dupV dupA : N -> bool.
  Variable okB : list N -> N -> bool.
  Variable okV : list N -> list N -> N -> bool.
  Variable okA : list N -> list N -> list N -> N -> bool.

  Let gen := generatePop par bop cont szB szV szA L treeB dupB dupV dupA okB okV okA.

  Lemma gen_spec order :
    let out := gen order in
    (subseq (o_ctx out) (map hdr order) /\ subseq (o_vtbs out) (flat_map rvtbs order) /\
     subseq (o_atvs out) (flat_map ratvs order)) /\
    (NoDup (o_ctx out) /\ NoDup (o_vtbs out) /\ NoDup (o_atvs out)) /\
    (forall pre b post, o_ctx out = pre ++ b :: post -> admB par treeB dupB okB pre b = true) /\
    (forall pre t post, o_vtbs out = pre ++ t :: post -> admV cont treeB dupV okV (o_ctx out) pre t = true) /\
    (forall pre a post, o_atvs out = pre ++ a :: post ->
                        admA bop treeB dupA okA (o_ctx out) (o_vtbs out) pre a = true).
  Proof.
    unfold gen, generatePop, filterPop, raw. cbn [o_ctx o_vtbs o_atvs].
    pose proof (stage_nil L KVbk szB (admB par treeB dupB okB) (map hdr order) c0) as H1.
    destruct (stage L KVbk szB _ (map hdr order) c0 []) as [c1 kb].
    pose proof (stage_nil L KVtb szV (admV cont treeB dupV okV kb) (flat_map rvtbs order) c1) as H2.
    destruct (stage L KVtb szV _ (flat_map rvtbs order) c1 []) as [c2 kv].
    pose proof (stage_nil L KAtv szA (admA bop treeB dupA okA kb kv) (flat_map ratvs order) c2) as H3.
    destruct (stage L KAtv szA _ (flat_map ratvs order) c2 []) as [c3 ka].
    destruct H1 as (S1 & N1 & A1), H2 as (S2 & N2 & A2), H3 as (S3 & N3 & A3). repeat split; assumption.
  Qed.

  Lemma selection_from_pool s order :
    RInv bop cont s -> Permutation order (rels s) ->
    incl (o_ctx (gen order)) (vbks s) /\ incl (o_vtbs (gen order)) (svtbs s) /\ incl (o_atvs (gen order)) (satvs s).
  Proof.
    intros I P. destruct (gen_spec order) as [[S1 [S2 S3]] _].
    split; [|split].
    - intros x Hx. apply (ri_same _ _ _ I), (Permutation_in _ (Permutation_map hdr P)), (subseq_In _ _ S1), Hx.
    - exact (subseq_covers rvtbs _ order _ _ (ri_cv _ _ _ I) P S2).
    - exact (subseq_covers ratvs _ order _ _ (ri_ca _ _ _ I) P S3).
  Qed.

  (** the counter of the three stages is the one of CountProofs *)
  Lemma selection_fits order : 10 <= max_size L -> out_fits szB szV szA L (gen order) = true.
  Proof.
    intros M. unfold gen, generatePop, filterPop, raw. cbn [o_ctx o_vtbs o_atvs].
    destruct (stage_count L KVbk szB (admB par treeB dupB okB) (map hdr order) c0 [] (mkk [] [] []) agrees0 (within0 L M))
      as [A1 W1].
    destruct (stage L KVbk szB _ (map hdr order) c0 []) as [c1 kb].
    destruct (stage_count L KVtb szV (admV cont treeB dupV okV kb) (flat_map rvtbs order) c1 [] _ A1 W1) as [A2 W2].
    destruct (stage L KVtb szV _ (flat_map rvtbs order) c1 []) as [c2 kv].
    destruct (stage_count L KAtv szA (admA bop treeB dupA okA kb kv) (flat_map ratvs order) c2 [] _ A2 W2) as [A3 W3].
    destruct (stage L KAtv szA _ (flat_map ratvs order) c2 []) as [c3 ka].
    apply (fits_within L _ _ A3) in W3. unfold fits, len in W3. cbn in W3. rewrite !map_length in W3. exact W3.
  Qed.
End Gen.

Section Sort.
  Variable hgt : N -> N.
  Lemma ins_perm r l : Permutation (ins_rel hgt r l) (r :: l).
  Proof.
    induction l as [|x t IH]; cbn [ins_rel]; [apply Permutation_refl|].
    destruct (hgt (hdr r) <? hgt (hdr x)); [apply Permutation_refl|].
    eapply perm_trans; [apply perm_skip, IH|apply perm_swap].
  Qed.
  Lemma ins_asc r l : asc hgt (map hdr l) -> asc hgt (map hdr (ins_rel hgt r l)).
  Proof.
    induction l as [|x t IH]; cbn [ins_rel map asc]; [intros _; split; [intros y []|exact I]|].
    intros [H1 H2]. destruct (N.ltb_spec (hgt (hdr r)) (hgt (hdr x))); cbn [map asc].
    - split; [|split; auto]. intros y [<-|Hy]; [lia|]. specialize (H1 y Hy). lia.
    - split; [|apply IH; auto]. intros y Hy.
      apply (Permutation_in _ (Permutation_map hdr (ins_perm r t))) in Hy. destruct Hy as [<-|Hy]; auto.
  Qed.
  Lemma sort_is_order rs : is_order hgt rs (sort_rels hgt rs).
  Proof.
    unfold is_order. induction rs as [|r t [P A]]; cbn [sort_rels fold_right]; [split; [constructor|exact I]|].
    split; [|apply ins_asc; exact A].
    eapply perm_trans; [apply ins_perm|apply perm_skip, P].
  Qed.
End Sort.

(** ** the examples of Properties_C12: the tree knows the VBK blocks up to 6, every ATV has block of proof 7, every VTB
    containing block 8, every payload size 100 *)
Definition xhgt (b : N) : N := b.
Definition xpar (b : N) : N := b - 1.
Definition xbop (a : N) : N := 7.
Definition xcont (t : N) : N := 8.
Definition xsz (x : N) : N := 100.
Definition xtree (b : N) : bool := b <=? 6.
Definition nodup (x : N) : bool := false.
Definition xgen (L : limits) (dupA : N -> bool) :=
  generatePop xpar xbop xcont xsz xsz xsz L xtree nodup nodup dupA
              (fun _ _ => true) (fun _ _ _ => true) (fun _ _ _ _ => true).
Definition wide : limits := mkl 10 10 10 100000.
Definition one_vtb : limits := mkl 10 1 10 100000.
Definition one_vbk : limits := mkl 1 10 10 100000.
(** two fork blocks 5 and 6 of the same height whose common parent 4 is in the tree *)
Definition fork_hgt (b : N) : N := 9.
Definition fork_gen :=
  generatePop (fun _ => 4) xbop xcont xsz xsz xsz one_vbk xtree nodup nodup nodup
              (fun _ _ => true) (fun _ _ _ => true) (fun _ _ _ _ => true).
