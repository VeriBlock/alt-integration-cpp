(** CountingContext against PopData::estimateSize and assertPopDataFits; the temporary-block machine of
    filterInvalidPayloads (CountDefs). *)
From Coq Require Import List NArith Bool Lia.
From VB Require Import Mempool.CountDefs.
Import ListNotations.
Local Open Scope N_scope.

Definition agrees (c : counter) (r : kept) : Prop :=
  n_vbk c = len (k_vbk r) /\ n_vtb c = len (k_vtb r) /\ n_atv c = len (k_atv r) /\
  s_vbk c = sum (k_vbk r) /\ s_vtb c = sum (k_vtb r) /\ s_atv c = sum (k_atv r).

Lemma len_cons x l : len (x :: l) = len l + 1.
Proof. unfold len. cbn [length]. lia. Qed.
Lemma sum_cons x l : sum (x :: l) = sum l + x.
Proof. apply N.add_comm. Qed.

Lemma agrees0 : agrees c0 (mkk [] [] []).
Proof. unfold agrees. cbn. repeat split; reflexivity. Qed.

Lemma agrees_step c r k size : agrees c r -> agrees (update c k size) (keep r k size).
Proof.
  intros (A & B & C & D & E & F).
  destruct k; unfold agrees; cbn [update keep n_vbk n_vtb n_atv s_vbk s_vtb s_atv k_vbk k_vtb k_atv];
    rewrite ?len_cons, ?sum_cons; repeat split; congruence.
Qed.

Lemma filter_fit_agrees cf L cands : forall c r, agrees c r ->
  agrees (fst (filter_fit_with cf L cands c r)) (snd (filter_fit_with cf L cands c r)).
Proof.
  induction cands as [|[[k size] valid] rest IH]; intros c r A; cbn [filter_fit_with]; [exact A|].
  destruct (cf L c k size && valid); [apply IH, agrees_step, A | apply IH, A].
Qed.

Lemma popsize_estimate c r : agrees c r -> popsize c = est_kept r.
Proof.
  intros (A & B & C & D & E & F). unfold popsize, est_kept, estimate. rewrite A, B, C, D, E, F. lia.
Qed.

(** the length prefix never shrinks: [trimmed_len] is a staircase, one step up at every threshold *)
Fixpoint stair (ts : list N) (k n : N) : N :=
  match ts with
  | [] => k
  | t :: r => if n <? t then k else stair r (k + 1) n
  end.
Lemma stair_ge ts : forall k n, k <= stair ts k n.
Proof.
  induction ts as [|t r IH]; intros k n; cbn [stair]; [lia|]. destruct (n <? t); [lia|].
  specialize (IH (k + 1) n). lia.
Qed.
Lemma stair_mono ts : forall k n m, n <= m -> stair ts k n <= stair ts k m.
Proof.
  induction ts as [|t r IH]; intros k n m H; cbn [stair]; [lia|].
  destruct (N.ltb_spec n t), (N.ltb_spec m t); [lia| |lia|apply IH, H].
  pose proof (stair_ge r (k + 1) m). lia.
Qed.
Lemma trimmed_len_mono n : trimmed_len n <= trimmed_len (n + 1).
Proof. apply (stair_mono (map (N.pow 256) [1; 2; 3; 4; 5; 6; 7]) 1). lia. Qed.

Lemma growth_exact n : prefix n + growth n = prefix (n + 1).
Proof. unfold growth, prefix. pose proof (trimmed_len_mono n). lia. Qed.

Lemma popsize_update c k size : popsize (update c k size) = popsize c + (size + growth (count_of c k)).
Proof.
  destruct k; unfold popsize; cbn [update count_of n_vbk n_vtb n_atv s_vbk s_vtb s_atv];
    [pose proof (growth_exact (n_vbk c)) | pose proof (growth_exact (n_vtb c)) | pose proof (growth_exact (n_atv c))]; lia.
Qed.

(** what assertPopDataFits asks, read off the counter *)
Definition within (L : limits) (c : counter) : Prop :=
  n_vbk c <= max_vbk L /\ n_vtb c <= max_vtb L /\ n_atv c <= max_atv L /\ popsize c <= max_size L.

Lemma within0 L : 10 <= max_size L -> within L c0.
Proof. intros M. unfold within. cbn. lia. Qed.

Lemma within_step L c k size : within L c -> can_fit L c k size = true -> within L (update c k size).
Proof.
  intros (A & B & C & _) F. unfold can_fit in F. apply andb_true_iff in F. destruct F as [Fn Fs].
  apply N.leb_le in Fs. rewrite <- popsize_update in Fs.
  destruct k; cbn [count_ok] in Fn; apply N.ltb_lt in Fn; (split; [|split; [|split; [|exact Fs]]]); cbn; lia.
Qed.

Lemma fits_within L c r : agrees c r -> (fits L r = true <-> within L c).
Proof.
  intros A. pose proof (popsize_estimate c r A) as P. destruct A as (A1 & A2 & A3 & _).
  unfold fits, within. rewrite P, A1, A2, A3, !andb_true_iff, !N.leb_le. tauto.
Qed.

Lemma filter_fit_within L cands : forall c r, within L c -> within L (fst (filter_fit L cands c r)).
Proof.
  unfold filter_fit. induction cands as [|[[k size] valid] rest IH]; intros c r W; cbn [filter_fit_with]; [exact W|].
  destruct (can_fit L c k size && valid) eqn:F; [|apply IH, W].
  apply andb_true_iff in F. apply IH, (within_step L c k size W), F.
Qed.

Lemma filter_fit_fits L cands c r :
  agrees c r -> fits L r = true -> fits L (snd (filter_fit L cands c r)) = true.
Proof.
  intros A F. apply (fits_within L (fst (filter_fit L cands c r))); [apply filter_fit_agrees, A|].
  apply filter_fit_within, (fits_within L c r A), F.
Qed.

(** before the repair the statement was false: the 256th payload of a kind that fits exactly makes the length prefix
    one byte longer, which the old canFit did not account for *)
Definition witness_cands : list (kind * N * bool) := repeat (KAtv, 1, true) 256.
Definition witness_limits : limits := mkl 200 200 1000 266.
(** the same candidates with canFit as coded now: the 256th does not fit, 255 are kept *)
Example witness_now :
  fits witness_limits (snd (filter_fit witness_limits witness_cands c0 (mkk [] [] []))) = true /\
  len (k_atv (snd (filter_fit witness_limits witness_cands c0 (mkk [] [] [])))) = 255.
Proof.
  assert (snd (filter_fit witness_limits witness_cands c0 (mkk [] [] [])) = mkk [] [] (repeat 1 255)) as ->
      by (vm_compute; reflexivity).
  split; vm_compute; reflexivity.
Qed.

Section M.
  Variable S P : Type.
  Variable exec : P -> S -> option S.
  Variable unexec : P -> S -> S.
  Hypothesis exec_inverse : forall p s s', exec p s = Some s' -> unexec p s' = s.

  Lemma apply_unapply ps : forall s ap,
    unapply_all S P unexec (snd (apply_all S P exec ps s ap)) (fst (apply_all S P exec ps s ap)) =
    unapply_all S P unexec ap s.
  Proof.
    induction ps as [|p r IH]; intros s ap; cbn [apply_all]; [reflexivity|].
    destruct (exec p s) as [s'|] eqn:E; [|apply IH].
    rewrite IH. cbn [unapply_all]. rewrite (exec_inverse _ _ _ E). reflexivity.
  Qed.
End M.

Section O.
  Variable S P : Type.
  Variable exec : P -> S -> option S.
  Variable pre : P -> list P -> bool.

  Lemma filter_apply_exec ps : forall s ap,
    exists mid, snd (filter_apply S P exec pre ps s ap) = mid ++ ap /\
                exec_all S P exec (rev mid) s = Some (fst (filter_apply S P exec pre ps s ap)).
  Proof.
    induction ps as [|p r IH]; intros s ap; cbn [filter_apply].
    - exists []. split; reflexivity.
    - destruct (pre p ap); [|apply IH].
      destruct (exec p s) as [s'|] eqn:E; [|apply IH].
      destruct (IH s' (p :: ap)) as (mid & A & B). exists (mid ++ [p]). split.
      + rewrite A, <- app_assoc. reflexivity.
      + rewrite rev_app_distr. cbn [rev app exec_all]. rewrite E. exact B.
  Qed.
  Lemma filter_apply_replays ps s :
    exec_all S P exec (rev (snd (filter_apply S P exec pre ps s []))) s = Some (fst (filter_apply S P exec pre ps s [])).
  Proof. destruct (filter_apply_exec ps s []) as (mid & A & B). rewrite A, app_nil_r. exact B. Qed.

  Lemma exec_all_app a b s :
    exec_all S P exec (a ++ b) s = match exec_all S P exec a s with Some s' => exec_all S P exec b s' | None => None end.
  Proof.
    revert s. induction a as [|p r IH]; intro s; cbn [app exec_all]; [reflexivity|].
    destruct (exec p s); [apply IH | reflexivity].
  Qed.
End O.

Lemma filter3_exec S P exec pre l1 l2 l3 s :
  let '(s3, k1, k2, k3) := filter3 S P exec pre l1 l2 l3 s in
  exec_all S P exec (k1 ++ k2 ++ k3) s = Some s3.
Proof.
  unfold filter3, stage.
  pose proof (filter_apply_replays S P exec (fun p ap => pre p (ap ++ [])) l1 s) as H1.
  destruct (filter_apply S P exec _ l1 s []) as [s1 m1]. cbn [fst snd] in H1.
  pose proof (filter_apply_replays S P exec (fun p ap => pre p (ap ++ m1)) l2 s1) as H2.
  destruct (filter_apply S P exec _ l2 s1 []) as [s2 m2]. cbn [fst snd] in H2.
  pose proof (filter_apply_replays S P exec (fun p ap => pre p (ap ++ m2 ++ m1)) l3 s2) as H3.
  destruct (filter_apply S P exec _ l3 s2 []) as [s3 m3]. cbn [fst snd] in H3.
  rewrite exec_all_app, H1, exec_all_app, H2. exact H3.
Qed.

(** the hypotheses of C12_generate_pure are satisfiable by a non-trivial machine: a counter with a temp flag *)
Example machine_instance :
  generate_machine (N * bool) N (fun s => (fst s, true)) (fun s => (fst s, false))
                   (fun p s => if p <? 10 then Some (fst s + p, snd s) else None)
                   (fun p s => (fst s - p, snd s)) (5, false) [1; 20; 3] = (5, false).
Proof. vm_compute. reflexivity. Qed.

(** the candidates of C12_generated_applies_other_order_refuted filtered in the order of the code: the VTB is dropped
    and the body executes *)
Example generated_applies_order_witness :
  let '(s3, kc, kv, ka) := filter_as_coded (list N) N om_exec (fun _ _ => true) [] [3] [1] [] in
  kv = [] /\ ka = [1] /\ exec_body (list N) N om_exec kc kv ka [] = Some s3.
Proof. vm_compute. repeat split; reflexivity. Qed.
