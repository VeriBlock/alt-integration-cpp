(** Relations bookkeeping, second part: connected/in-flight disjointness and duplicate-free relations under the caller
    contract, what cleanUp / removeAll / clear remove exactly, nothing reappears without a submit. *)
From Coq Require Import List NArith Bool.
From VB Require Import Mempool.RelDefs Mempool.RelProofs.
Import ListNotations.
Local Open Scope N_scope.

Section More.
  Variable bop cont : N -> N.
  Notation RInv := (RInv bop cont).

  (** Prop versions of MemPool::get != nullptr *)
  Definition KA (s : mp) (a : N) : Prop := In a (satvs s) \/ In a (fa s).
  Definition KV (s : mp) (t : N) : Prop := In t (svtbs s) \/ In t (fv s).

  Record DInv (s : mp) : Prop := mkDI {
    di_a : forall a, In a (fa s) -> ~ In a (satvs s);
    di_v : forall t, In t (fv s) -> ~ In t (svtbs s);
    di_nv : forall r, In r (rels s) -> NoDup (rvtbs r);
    di_na : forall r, In r (rels s) -> NoDup (ratvs r) }.

  Lemma dinv0 : DInv mp0.
  Proof. constructor; simpl; intros ? []. Qed.

  Lemma submitA_dinv v a s : RInv s -> DInv s -> ~ In a (satvs s) -> DInv (submitA bop v a s).
  Proof.
    intros I [DA DV NV NA] Hn. destruct v; simpl; [constructor; auto| |].
    - constructor; simpl; auto. intros x Hx. apply sadd_In in Hx. destruct Hx as [->|Hx]; auto.
    - destruct (put_rel_inv bop cont (bop a) s I). constructor; simpl; auto.
      + intros x Hx. apply sdel_In in Hx. rewrite sadd_In. intros [E|H]; [tauto|]. apply (DA x); tauto.
      + apply on_rel_nd_same; auto. apply put_rel_nd; auto.
      + apply on_rel_nd_add with (t := a) (st := satvs s); auto using add_atv_adds. apply put_rel_nd; auto.
  Qed.
  Lemma submitV_dinv v t s : RInv s -> DInv s -> ~ In t (svtbs s) -> DInv (submitV cont v t s).
  Proof.
    intros I [DA DV NV NA] Hn. destruct v; simpl; [constructor; auto| |].
    - constructor; simpl; auto. intros x Hx. apply sadd_In in Hx. destruct Hx as [->|Hx]; auto.
    - destruct (put_rel_inv bop cont (cont t) s I). constructor; simpl; auto.
      + intros x Hx. apply sdel_In in Hx. rewrite sadd_In. intros [E|H]; [tauto|]. apply (DV x); tauto.
      + apply on_rel_nd_add with (t := t) (st := svtbs s); auto using add_vtb_adds. apply put_rel_nd; auto.
      + apply on_rel_nd_same; auto. apply put_rel_nd; auto.
  Qed.
  Lemma submitB_dinv v st b s : DInv s -> DInv (submitB v st b s).
  Proof.
    intros [DA DV NV NA]. destruct v; simpl; [constructor; auto|constructor; simpl; auto|].
    destruct st; constructor; simpl; auto; apply put_rel_nd; auto.
  Qed.

  Lemma submitA_satvs v a s x : In x (satvs (submitA bop v a s)) -> x = a \/ In x (satvs s).
  Proof. destruct v; simpl; auto. rewrite sadd_In. tauto. Qed.
  Lemma submitV_svtbs v t s x : In x (svtbs (submitV cont v t s)) -> x = t \/ In x (svtbs s).
  Proof. destruct v; simpl; auto. rewrite sadd_In. tauto. Qed.

  (** a pass of tryConnectPayloads resubmits a duplicate-free list of ids none of which is connected ([stf] is the
      connected map of their type), so every resubmission respects the caller contract: an id connected meanwhile is an
      earlier one of the list *)
  Lemma pass_dinv (sub : mp -> N -> mp) (stf : mp -> list N) :
    (forall s x, RInv s -> RInv (sub s x)) ->
    (forall s x, RInv s -> DInv s -> ~ In x (stf s) -> DInv (sub s x)) ->
    (forall s x y, In y (stf (sub s x)) -> y = x \/ In y (stf s)) ->
    forall l s, NoDup l -> (forall x, In x l -> ~ In x (stf s)) -> RInv s -> DInv s -> DInv (fold_left sub l s).
  Proof.
    intros HI HD Hst. induction l as [|x l IH]; simpl; intros s ND Hn I D; auto. inversion ND; subst.
    apply IH; auto. intros y Hy Hin. apply Hst in Hin. destruct Hin as [->|Hin]; [auto|]. apply (Hn y); auto.
  Qed.

  Lemma tryConnect_dinv c s : RInv s -> DInv s -> DInv (tryConnect bop cont c s).
  Proof.
    intros I D. unfold tryConnect, passA, passV, passB.
    set (s1 := fold_left _ (fb s) s). set (s2 := fold_left _ (fv s1) s1).
    assert (I1 : RInv s1) by (apply fold_inv; auto using submitB_inv).
    assert (D1 : DInv s1) by (apply fold_inv; auto using submitB_dinv).
    assert (I2 : RInv s2) by (apply fold_inv; auto using submitV_inv).
    assert (D2 : DInv s2).
    { apply pass_dinv with (stf := svtbs); auto using submitV_inv, submitV_dinv.
      - intros s' t y. apply submitV_svtbs.
      - apply (ri_fv _ _ _ I1).
      - apply (di_v _ D1). }
    apply pass_dinv with (stf := satvs); auto using submitA_inv, submitA_dinv.
    - intros s' a y. apply submitA_satvs.
    - apply (ri_fa _ _ _ I2).
    - apply (di_a _ D2).
  Qed.

  Lemma shrunk_dinv g ev ea pv pa fb' fv' fa' s :
    shrinks g rvtbs ev pv -> shrinks g ratvs ea pa -> incl fv' (fv s) -> incl fa' (fa s) ->
    DInv s -> DInv (shrunk g ev ea fb' fv' fa' s).
  Proof.
    intros Sv Sa Iv Ia [DA DV NV NA]. constructor; simpl.
    - intros a Ha Hin. apply del_all_In in Hin. apply (DA a); [apply Ia, Ha|tauto].
    - intros t Ht Hin. apply del_all_In in Hin. apply (DV t); [apply Iv, Ht|tauto].
    - eapply keep_nd; eauto.
    - eapply keep_nd; eauto.
  Qed.
  Lemma clean_state_dinv o s : DInv s -> DInv (clean_state o s).
  Proof. apply shrunk_dinv with (pv := fun _ => validV o) (pa := fun r a => validA o a && negb (tooOld o (hdr r)));
           auto using cl_shrinks_v, cl_shrinks_a, incl_filter. Qed.
  Lemma dropPop_dinv pb pv pa s : DInv s -> DInv (dropPop pb pv pa s).
  Proof. rewrite dropPop_shape. eapply shrunk_dinv; eauto using rm_shrinks_v, rm_shrinks_a, incl_refl. Qed.

  Lemma rstep_dinv s op s' :
    RInv s -> DInv s -> allowed s op -> rstep bop cont s op = ROk s' -> DInv s'.
  Proof.
    intros I D Al. destruct op; simpl in *.
    - intros [= <-]. apply submitA_dinv; auto.
    - intros [= <-]. apply submitV_dinv; auto.
    - intros [= <-]. apply submitB_dinv; auto.
    - unfold generate. rewrite (cleanUp_ok bop cont) by (apply tryConnect_inv; auto). intros [= <-].
      apply clean_state_dinv, tryConnect_dinv; auto.
    - unfold removeAll. rewrite (cleanUp_ok bop cont) by (apply dropPop_inv; auto). intros [= <-].
      apply tryConnect_dinv; [apply clean_state_inv, dropPop_inv; auto|apply clean_state_dinv, dropPop_dinv; auto].
    - rewrite (cleanUp_ok bop cont) by auto. intros [= <-]. apply clean_state_dinv; auto.
    - intros [= <-]. apply dinv0.
  Qed.

  Lemma rrun_all ops : forall s, RInv s -> DInv s -> rcontract bop cont s ops ->
    exists s', rrun bop cont s ops = ROk s' /\ RInv s' /\ DInv s'.
  Proof.
    induction ops as [|op ops IH]; simpl; intros s I D C; [eauto|]. destruct C as [Al C].
    destruct (rstep_inv bop cont s op I) as [s1 [E I1]]. rewrite E in *.
    apply IH; auto. apply (rstep_dinv s op s1); auto.
  Qed.

  Lemma one_relation s r1 r2 x :
    RInv s -> In r1 (rels s) -> In r2 (rels s) ->
    In x (rvtbs r1) /\ In x (rvtbs r2) \/ In x (ratvs r1) /\ In x (ratvs r2) -> r1 = r2.
  Proof.
    intros [K _ _ _ _ HV HA _ _ _ _ _] H1 H2 H. apply (NoDup_map_inj hdr (rels s)); auto.
    destruct H as [[Ha Hb]|[Ha Hb]].
    - rewrite <- (HV r1 x), <- (HV r2 x); auto.
    - rewrite <- (HA r1 x), <- (HA r2 x); auto.
  Qed.

  (** no invariant is needed: what the operations do to the two known sets can be read off the containers *)
  Definition no_new (s s' : mp) : Prop := (forall a, KA s' a -> KA s a) /\ (forall t, KV s' t -> KV s t).

  Lemma no_new_refl s : no_new s s.
  Proof. split; auto. Qed.
  Lemma no_new_trans s1 s2 s3 : no_new s1 s2 -> no_new s2 s3 -> no_new s1 s3.
  Proof. intros [A1 V1] [A2 V2]. split; auto. Qed.

  Lemma submitA_known v a s :
    (forall x, KA (submitA bop v a s) x -> KA s x \/ x = a) /\ (forall t, KV (submitA bop v a s) t -> KV s t).
  Proof. unfold KA, KV. destruct v; simpl; split; auto; intros x; rewrite ?sadd_In, ?sdel_In; tauto. Qed.
  Lemma submitV_known v t s :
    (forall x, KV (submitV cont v t s) x -> KV s x \/ x = t) /\ (forall a, KA (submitV cont v t s) a -> KA s a).
  Proof. unfold KA, KV. destruct v; simpl; split; auto; intros x; rewrite ?sadd_In, ?sdel_In; tauto. Qed.
  Lemma submitB_no_new v st b s : no_new s (submitB v st b s).
  Proof. destruct v, st; split; intros x H; exact H. Qed.

  Lemma fold_no_new (sub : mp -> N -> mp) s0 l :
    (forall s x, In x l -> no_new s0 s -> no_new s0 (sub s x)) -> forall s, no_new s0 s -> no_new s0 (fold_left sub l s).
  Proof.
    induction l as [|x l IH]; simpl; intros H s Hs; auto.
  Qed.

  (** a connect pass resubmits in-flight ids only, and those are known already *)
  Lemma tryConnect_no_new c s : no_new s (tryConnect bop cont c s).
  Proof.
    unfold tryConnect. set (s1 := passB c (fb s) s). set (s2 := passV cont c (fv s1) s1).
    apply no_new_trans with s2; [apply no_new_trans with s1|]; apply fold_no_new; auto using no_new_refl.
    - intros s' b _ H. apply (no_new_trans _ _ _ H), submitB_no_new.
    - intros s' t Ht [HA HV]. destruct (submitV_known (vV c s' t) t s') as [Kt Ko]. split; intros x Hx.
      + apply HA, Ko, Hx.
      + apply Kt in Hx. destruct Hx as [Hx| ->]; [apply HV, Hx|right; exact Ht].
    - intros s' a Ha [HA HV]. destruct (submitA_known (vA c s' a) a s') as [Kt Ko]. split; intros x Hx.
      + apply Kt in Hx. destruct Hx as [Hx| ->]; [apply HA, Hx|right; exact Ha].
      + apply HV, Ko, Hx.
  Qed.

  Lemma shrunk_no_new g ev ea fb' fv' fa' s : incl fv' (fv s) -> incl fa' (fa s) -> no_new s (shrunk g ev ea fb' fv' fa' s).
  Proof.
    intros Iv Ia. unfold no_new, KA, KV; simpl. split; intros x; rewrite del_all_In; intros [[H _]|H]; auto.
  Qed.

  Lemma dropPop_no_new pb pv pa s : no_new s (dropPop pb pv pa s).
  Proof. rewrite dropPop_shape. apply shrunk_no_new; apply incl_refl. Qed.

  Lemma cleanUp_result o s s' : cleanUp o s = ROk s' -> s' = clean_state o s.
  Proof. unfold cleanUp. destruct (Nat.eqb _ _); [|discriminate]. intros [= <-]. reflexivity. Qed.

  Lemma cleanUp_no_new o s s' : cleanUp o s = ROk s' -> no_new s s'.
  Proof. intros E. rewrite (cleanUp_result _ _ _ E). apply shrunk_no_new; apply incl_filter. Qed.
  Lemma generate_no_new c o s s' : generate bop cont c o s = ROk s' -> no_new s s'.
  Proof. intros E. eapply no_new_trans; [apply tryConnect_no_new|apply (cleanUp_no_new _ _ _ E)]. Qed.
  Lemma removeAll_no_new pb pv pa o c s s' : removeAll bop cont pb pv pa o c s = ROk s' -> no_new s s'.
  Proof.
    unfold removeAll. destruct (cleanUp o (dropPop pb pv pa s)) as [s1|] eqn:E; [|discriminate]. intros [= <-].
    eapply no_new_trans; [apply dropPop_no_new|]. eapply no_new_trans; [apply (cleanUp_no_new _ _ _ E)|].
    apply tryConnect_no_new.
  Qed.

  Lemma no_new_adds (XA XV : N -> Prop) s s' :
    no_new s s' -> (forall a, KA s' a -> KA s a \/ XA a) /\ (forall t, KV s' t -> KV s t \/ XV t).
  Proof. intros [HA HV]. split; auto. Qed.
  Lemma rstep_known s op s' :
    rstep bop cont s op = ROk s' ->
    (forall a, KA s' a -> KA s a \/ exists v, op = SubA v a) /\
    (forall t, KV s' t -> KV s t \/ exists v, op = SubV v t).
  Proof.
    intros E. destruct op; simpl in E.
    - injection E as <-. destruct (submitA_known v a s) as [Kt Ko]. split; [|auto].
      intros x Hx. apply Kt in Hx. destruct Hx as [Hx| ->]; eauto.
    - injection E as <-. destruct (submitV_known v t s) as [Kt Ko]. split; [auto|].
      intros x Hx. apply Kt in Hx. destruct Hx as [Hx| ->]; eauto.
    - injection E as <-. apply no_new_adds, submitB_no_new.
    - apply no_new_adds, (generate_no_new _ _ _ _ E).
    - apply no_new_adds, (removeAll_no_new _ _ _ _ _ _ _ E).
    - apply no_new_adds, (cleanUp_no_new _ _ _ E).
    - injection E as <-. split; intros x [[]|[]].
  Qed.

  Lemma clean_svtbs o s : RInv s -> svtbs (clean_state o s) = filter (validV o) (svtbs s).
  Proof. intros []. apply (keep_exact _ _ _ _ (cl_shrinks_v o) (rels s)); auto. Qed.
  (** every ATV sits in the relation of its block of proof, so "the block of the relation is too old" can be said of
      the ATV *)
  Lemma clean_satvs o s :
    RInv s -> satvs (clean_state o s) = filter (fun a => validA o a && negb (tooOld o (bop a))) (satvs s).
  Proof.
    intros I. apply (keep_exact _ _ _ _ (cl_shrinks_a o) (rels s)); [apply I|].
    intros r x Hr Hx. rewrite (ri_ha _ _ _ I r x Hr Hx). reflexivity.
  Qed.
  Lemma clean_vbks o s b :
    RInv s -> In b (vbks (clean_state o s)) <-> exists r, In r (rels s) /\ hdr r = b /\ cl_rel o r <> None.
  Proof.
    intros I. rewrite (ri_same _ _ _ (clean_state_inv bop cont o s I)). simpl. rewrite in_map_iff. split.
    - intros [r' [E Hr']]. apply keep_In in Hr'. destruct Hr' as [r [Hr Eg]]. exists r.
      destruct (shrinks_some _ _ _ _ (cl_shrinks_v o) r r' Eg) as [Eh _]. repeat split; congruence.
    - intros [r [Hr [E Hn]]]. destruct (cl_rel o r) as [r'|] eqn:Eg; [|congruence]. exists r'.
      destruct (shrinks_some _ _ _ _ (cl_shrinks_v o) r r' Eg) as [Eh _].
      split; [congruence|]. apply keep_In. exists r; auto.
  Qed.

  Lemma dropPop_conn pb pv pa s :
    RInv s ->
    (forall a, In a pa -> ~ In a (satvs (dropPop pb pv pa s))) /\ (forall t, In t pv -> ~ In t (svtbs (dropPop pb pv pa s))).
  Proof.
    intros [K _ _ CV CA HV HA _ _ _ _ _]. split; intros x Hx Hin; rewrite dropPop_shape in Hin; simpl in Hin.
    - apply (stays _ _ _ _ (rm_shrinks_a pb pv pa) bop _ _ CA K HA) in Hin. destruct Hin as [r [_ [_ P]]].
      apply negb_true_iff, rmem_false in P. auto.
    - apply (stays _ _ _ _ (rm_shrinks_v pb pv pa) cont _ _ CV K HV) in Hin. destruct Hin as [r [_ [_ P]]].
      apply negb_true_iff, rmem_false in P. auto.
  Qed.
  Lemma removeAll_known pb pv pa o c s s' :
    RInv s -> removeAll bop cont pb pv pa o c s = ROk s' ->
    (forall a, In a pa -> KA s' a -> In a (fa s) /\ validA o a = true) /\
    (forall t, In t pv -> KV s' t -> In t (fv s) /\ validV o t = true).
  Proof.
    intros I. unfold removeAll. destruct (cleanUp o (dropPop pb pv pa s)) as [s1|] eqn:E; [|discriminate]. intros [= <-].
    rewrite (cleanUp_result _ _ _ E). destruct (tryConnect_no_new c (clean_state o (dropPop pb pv pa s))) as [TA TV].
    destruct (dropPop_conn pb pv pa s I) as [CA CV].
    split; intros x Hx Hk; [apply TA in Hk|apply TV in Hk]; destruct Hk as [Hk|Hk]; simpl in Hk.
    - apply del_all_In in Hk. destruct (CA x Hx). tauto.
    - apply filter_In in Hk. exact Hk.
    - apply del_all_In in Hk. destruct (CV x Hx). tauto.
    - apply filter_In in Hk. exact Hk.
  Qed.
  Lemma dropPop_block pb pv pa s b :
    RInv s -> In b pb -> In b (vbks (dropPop pb pv pa s)) ->
    exists r, In r (rels (dropPop pb pv pa s)) /\ hdr r = b /\ (rvtbs r <> [] \/ ratvs r <> []).
  Proof.
    intros I Hb Hin. apply (ri_same _ _ _ (dropPop_inv bop cont pb pv pa s I)) in Hin.
    apply in_map_iff in Hin. destruct Hin as [r' [E Hr']]. exists r'. split; [exact Hr'|]. split; [exact E|].
    rewrite dropPop_shape in Hr'. simpl in Hr'. apply keep_In in Hr'. destruct Hr' as [r [_ Eg]].
    destruct (shrinks_some _ _ _ _ (rm_shrinks_v pb pv pa) r r' Eg) as [Eh _]. unfold rm_rel in Eg.
    rewrite <- Eh, E in Eg. apply rmem_In in Hb. rewrite Hb in Eg. simpl in Eg.
    match type of Eg with (if ?c then _ else _) = _ => destruct c eqn:Ec end; [discriminate|].
    injection Eg as <-. simpl. apply andb_false_iff in Ec. destruct Ec as [Ec|Ec]; [left|right]; intros Z;
      rewrite Z in Ec; discriminate.
  Qed.

  Lemma submitB_fb v st x s y : In y (fb (submitB v st x s)) -> y = x \/ In y (fb s).
  Proof.
    destruct v; simpl; auto.
    - rewrite sadd_In. tauto.
    - destruct st; simpl; rewrite sdel_In; tauto.
  Qed.
  Lemma passB_fb c b : (forall s', vB c s' b = Fine) ->
    forall l s, In b l \/ ~ In b (fb s) -> ~ In b (fb (passB c l s)).
  Proof.
    intros Hv. induction l as [|x l IH]; intros s H.
    - destruct H as [[]|H]; exact H.
    - change (passB c (x :: l) s) with (passB c l (submitB (vB c s x) (stB c s x) x s)). apply IH.
      destruct (N.eq_dec x b) as [->|Hne].
      + right. rewrite Hv. simpl. destruct (stB c s b); simpl; rewrite sdel_In; tauto.
      + destruct H as [[E|H]|H]; [congruence|left; exact H|right].
        intros Hin. apply submitB_fb in Hin. destruct Hin; [congruence|auto].
  Qed.
  Lemma fold_keeps {A B} (h : mp -> B) (sub : mp -> A -> mp) l :
    (forall s x, h (sub s x) = h s) -> forall s, h (fold_left sub l s) = h s.
  Proof. intros H. induction l as [|x l IH]; simpl; intros s; [reflexivity|]. rewrite IH. apply H. Qed.

  Lemma inflight_block_resolved c s b :
    (forall s', vB c s' b = Fine) -> ~ In b (fb (tryConnect bop cont c s)).
  Proof.
    intros Hv. unfold tryConnect, passA, passV.
    rewrite (fold_keeps fb) by (intros s' a; destruct (vA c s' a); reflexivity).
    rewrite (fold_keeps fb) by (intros s' t; destruct (vV c s' t); reflexivity).
    apply passB_fb; auto. destruct (in_dec N.eq_dec b (fb s)); auto.
  Qed.
End More.

Definition ex_bop (a : N) : N := 7.
Definition ex_cont (t : N) : N := 8.
Definition all_fine : coracle :=
  mkco (fun _ _ => Fine) (fun _ _ => false) (fun _ _ => Fine) (fun _ _ => Fine).
Definition all_valid : oracle := mko (fun _ => false) (fun _ => false) (fun _ => true) (fun _ => true) (fun _ => true).

(** a history that exercises every operation; cleanUp with a too old block 7 and an invalid VTB 3 *)
Definition ex_ops : list (rop) :=
  [SubA Fine 1; SubA Fine 2; SubV Fine 3; SubV Fine 4; SubV Stateful 5; SubB Fine false 9; SubB Stateful false 10;
   Clean (mko (fun b => b =? 7) (fun b => b =? 9) (fun _ => true) (fun t => negb (t =? 3)) (fun _ => true))].
Lemma ex_ops_result :
  rcontract ex_bop ex_cont mp0 ex_ops /\
  rrun ex_bop ex_cont mp0 ex_ops = ROk (mkm [mkr 8 [4] []] [8] [4] [] [10] [5] []).
Proof. split; [simpl; intuition discriminate | vm_compute; reflexivity]. Qed.
