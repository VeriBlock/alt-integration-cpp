(** Invariants of the relations bookkeeping (RelDefs) for every operation sequence. *)
From Coq Require Import List NArith Bool Permutation.
From VB Require Import Mempool.RelDefs.
Import ListNotations.
Local Open Scope N_scope.

Lemma rmem_In x l : rmem x l = true <-> In x l.
Proof.
  unfold rmem. rewrite existsb_exists. split.
  - intros [y [H1 H2]]. apply N.eqb_eq in H2. subst; auto.
  - intros H. exists x. split; auto. apply N.eqb_refl.
Qed.
Lemma rmem_false x l : rmem x l = false <-> ~ In x l.
Proof. rewrite <- rmem_In. destruct (rmem x l); intuition congruence. Qed.

Lemma sadd_In x y l : In y (sadd x l) <-> y = x \/ In y l.
Proof.
  unfold sadd. destruct (rmem x l) eqn:E.
  - apply rmem_In in E. split; [auto|]. intros [->|]; auto.
  - simpl. intuition congruence.
Qed.
Lemma sadd_NoDup x l : NoDup l -> NoDup (sadd x l).
Proof. unfold sadd. destruct (rmem x l) eqn:E; auto. intros. constructor; auto. apply rmem_false; auto. Qed.
Lemma sdel_In x y l : In y (sdel x l) <-> In y l /\ y <> x.
Proof. unfold sdel. rewrite filter_In, negb_true_iff, N.eqb_neq. tauto. Qed.
Lemma sdel_NoDup x l : NoDup l -> NoDup (sdel x l).
Proof. apply NoDup_filter. Qed.
Lemma del_all_In ids y l : In y (del_all ids l) <-> In y l /\ ~ In y ids.
Proof. unfold del_all. rewrite filter_In, negb_true_iff, rmem_false. tauto. Qed.
Lemma del_all_NoDup ids l : NoDup l -> NoDup (del_all ids l).
Proof. apply NoDup_filter. Qed.
Lemma is_nil_true l : is_nil l = true <-> l = [].
Proof. destruct l; simpl; split; congruence. Qed.

Lemma filter_nil_In {A} (p : A -> bool) l x : filter p l = [] -> In x l -> p x = false.
Proof.
  intros Z Hx. destruct (p x) eqn:P; auto.
  assert (H : In x (filter p l)) by (apply filter_In; auto). rewrite Z in H. destruct H.
Qed.

Lemma NoDup_map_inj {A B} (f : A -> B) l x y :
  NoDup (map f l) -> In x l -> In y l -> f x = f y -> x = y.
Proof.
  induction l as [|a l IH]; simpl; [tauto|]. intros ND Hx Hy E. inversion ND; subst.
  destruct Hx as [->|Hx], Hy as [->|Hy]; auto.
  - exfalso. apply H1. rewrite E. apply in_map; auto.
  - exfalso. apply H1. rewrite <- E. apply in_map; auto.
Qed.
Lemma NoDup_map_filter {A B} (f : A -> B) g l : NoDup (map f l) -> NoDup (map f (filter g l)).
Proof.
  induction l as [|a l IH]; simpl; auto. intros ND. inversion ND; subst.
  destruct (g a); simpl; auto. constructor; auto.
  intros H. apply H1. apply in_map_iff in H. destruct H as [z [<- Hz]]. apply filter_In in Hz. apply in_map; tauto.
Qed.

(** [proj]: rvtbs / ratvs; [st]: stored_vtbs_ / stored_atvs_; [key]: cont / bop *)
Definition covers (proj : rel -> list N) (rs : list rel) (st : list N) : Prop :=
  forall x, In x st <-> exists r, In r rs /\ In x (proj r).
Definition homed (proj : rel -> list N) (key : N -> N) (rs : list rel) : Prop :=
  forall r x, In r rs -> In x (proj r) -> key x = hdr r.
Definition nd (proj : rel -> list N) (rs : list rel) : Prop := forall r, In r rs -> NoDup (proj r).

Lemma has_rel_In b rs : has_rel b rs = true <-> In b (map hdr rs).
Proof.
  unfold has_rel. rewrite existsb_exists, in_map_iff. split; intros [r [H1 H2]]; exists r.
  - apply N.eqb_eq in H2. tauto.
  - rewrite H1, N.eqb_refl. tauto.
Qed.

(** cleanUp and the first loop of removeAll *)
Definition keep (g : rel -> option rel) (rs : list rel) : list rel :=
  flat_map (fun r => match g r with None => [] | Some x => [x] end) rs.
Definition dropped (g : rel -> option rel) (rs : list rel) : list N :=
  map hdr (filter (fun r => is_none (g r)) rs).

Lemma keep_In g rs r' : In r' (keep g rs) <-> exists r, In r rs /\ g r = Some r'.
Proof.
  unfold keep. rewrite in_flat_map. split; intros [r [H1 H2]]; exists r; split; auto.
  - destruct (g r); simpl in H2; [|tauto]. destruct H2 as [->|[]]; auto.
  - rewrite H2. simpl; auto.
Qed.

Definition shrinks (g : rel -> option rel) (proj er : rel -> list N) (p : rel -> N -> bool) : Prop :=
  forall r,
    (forall x, In x (er r) <-> In x (proj r) /\ p r x = false) /\
    match g r with
    | Some r' => hdr r' = hdr r /\ (forall x, In x (proj r') <-> In x (proj r) /\ p r x = true) /\
                 (NoDup (proj r) -> NoDup (proj r'))
    | None => forall x, In x (proj r) -> p r x = false
    end.

Section Keep.
  Variable g : rel -> option rel.
  Variables proj er : rel -> list N.
  Variable p : rel -> N -> bool.
  Hypothesis sh : shrinks g proj er p.

  Lemma shrinks_some r r' :
    g r = Some r' ->
    hdr r' = hdr r /\ (forall x, In x (proj r') <-> In x (proj r) /\ p r x = true) /\ (NoDup (proj r) -> NoDup (proj r')).
  Proof. intros E. pose proof (proj2 (sh r)) as H. rewrite E in H. exact H. Qed.

  Lemma keep_hdr rs : map hdr (keep g rs) = map hdr (filter (fun r => negb (is_none (g r))) rs).
  Proof.
    induction rs as [|r rs IH]; simpl; auto. destruct (g r) eqn:E; simpl; auto.
    rewrite IH. f_equal. apply shrinks_some; auto.
  Qed.

  Lemma keep_same rs vb :
    NoDup (map hdr rs) -> (forall b, In b vb <-> In b (map hdr rs)) ->
    forall b, In b (del_all (dropped g rs) vb) <-> In b (map hdr (keep g rs)).
  Proof.
    intros ND Hs b. rewrite del_all_In, Hs, keep_hdr. unfold dropped. rewrite !in_map_iff. split.
    - intros [[r [<- Hr]] Hn]. exists r. split; auto. apply filter_In. split; auto.
      destruct (is_none (g r)) eqn:E; auto. exfalso. apply Hn. exists r. split; auto. apply filter_In; auto.
    - intros [r [<- Hr]]. apply filter_In in Hr. destruct Hr as [Hr Hk]. split; [exists r; auto|].
      intros [r2 [E2 H2]]. apply filter_In in H2. destruct H2 as [H2 Hd].
      assert (r2 = r) by (eapply NoDup_map_inj; eauto). subst. rewrite Hd in Hk. discriminate.
  Qed.

  Lemma keep_nd rs : nd proj rs -> nd proj (keep g rs).
  Proof. intros H r' Hr'. apply keep_In in Hr'. destruct Hr' as [r [Hr E]]. apply (shrinks_some r r' E); auto. Qed.

  Variable key : N -> N.
  Variable rs : list rel.
  Variable st : list N.
  Hypothesis Hc : covers proj rs st.

  Lemma keep_exact q :
    (forall r x, In r rs -> In x (proj r) -> p r x = q x) -> del_all (flat_map er rs) st = filter q st.
  Proof.
    intros Hq. apply filter_ext_in. intros x Hx. destruct (q x) eqn:Q.
    - apply negb_true_iff, rmem_false. intros He. apply in_flat_map in He. destruct He as [r [Hr He]].
      apply (sh r) in He. destruct He as [Hxr P]. rewrite (Hq r x Hr Hxr) in P. congruence.
    - apply negb_false_iff, rmem_In, in_flat_map. apply Hc in Hx. destruct Hx as [r [Hr Hxr]].
      exists r. split; auto. apply (sh r). split; auto. rewrite (Hq r x Hr Hxr). exact Q.
  Qed.

  Hypothesis ND : NoDup (map hdr rs).
  Hypothesis Hh : homed proj key rs.

  Lemma stays x : In x (del_all (flat_map er rs) st) <-> exists r, In r rs /\ In x (proj r) /\ p r x = true.
  Proof.
    rewrite del_all_In, in_flat_map, (Hc x). split.
    - intros [[r [Hr Hx]] Hn]. exists r. split; auto. split; auto.
      destruct (p r x) eqn:P; auto. exfalso. apply Hn. exists r. split; auto. apply (sh r). auto.
    - intros [r [Hr [Hx P]]]. split; [exists r; auto|]. intros [r2 [Hr2 He]]. apply (sh r2) in He. destruct He as [Hx2 P2].
      (* both list x, so both sit under the block of x; headers are unique *)
      assert (r2 = r) by (apply (NoDup_map_inj hdr rs); auto; rewrite <- (Hh r2 x), <- (Hh r x); auto).
      subst. congruence.
  Qed.

  Lemma keep_covers : covers proj (keep g rs) (del_all (flat_map er rs) st).
  Proof.
    intros x. rewrite stays. split.
    - intros [r [Hr [Hx P]]]. pose proof (proj2 (sh r)) as G. destruct (g r) as [r'|] eqn:E.
      + exists r'. split; [apply keep_In; exists r; auto|]. apply G. auto.
      + rewrite (G x Hx) in P. discriminate.
    - intros [r' [Hr' Hx']]. apply keep_In in Hr'. destruct Hr' as [r [Hr E]].
      exists r. split; auto. apply (shrinks_some r r' E). exact Hx'.
  Qed.
  Lemma keep_homed : homed proj key (keep g rs).
  Proof.
    intros r' x Hr' Hx'. apply keep_In in Hr'. destruct Hr' as [r [Hr E]].
    destruct (shrinks_some r r' E) as [-> [Hi _]]. apply Hh; auto. apply Hi; auto.
  Qed.
End Keep.

Definition shrunk (g : rel -> option rel) (ev ea : rel -> list N) (fb' fv' fa' : list N) (s : mp) : mp :=
  mkm (keep g (rels s)) (del_all (dropped g (rels s)) (vbks s))
      (del_all (flat_map ev (rels s)) (svtbs s)) (del_all (flat_map ea (rels s)) (satvs s)) fb' fv' fa'.

Lemma put_rel_has b s : In b (map hdr (rels (put_rel b s))).
Proof.
  unfold put_rel; simpl. destruct (has_rel b (rels s)) eqn:E; simpl; auto. apply has_rel_In; auto.
Qed.
Lemma put_rel_rels b s r : In r (rels (put_rel b s)) <-> In r (rels s) \/ r = mkr b [] [] /\ has_rel b (rels s) = false.
Proof. unfold put_rel; simpl. destruct (has_rel b (rels s)); simpl; intuition congruence. Qed.

Section PutRel.
  Variable proj : rel -> list N.
  Hypothesis proj_new : forall b, proj (mkr b [] []) = [].

  Lemma put_rel_covers b s st : covers proj (rels s) st -> covers proj (rels (put_rel b s)) st.
  Proof.
    intros Hc x. rewrite (Hc x). split; intros [r [Hr Hx]].
    - exists r. split; auto. apply put_rel_rels; auto.
    - apply put_rel_rels in Hr. destruct Hr as [Hr|[-> _]]; [exists r; auto|]. rewrite proj_new in Hx. destruct Hx.
  Qed.
  Lemma put_rel_homed key b s : homed proj key (rels s) -> homed proj key (rels (put_rel b s)).
  Proof.
    intros Hh r x Hr Hx. apply put_rel_rels in Hr. destruct Hr as [Hr|[-> _]]; [apply Hh; auto|].
    rewrite proj_new in Hx. destruct Hx.
  Qed.
  Lemma put_rel_nd b s : nd proj (rels s) -> nd proj (rels (put_rel b s)).
  Proof.
    intros H r Hr. apply put_rel_rels in Hr. destruct Hr as [Hr|[-> _]]; [auto|]. rewrite proj_new. constructor.
  Qed.
End PutRel.

Lemma on_rel_In b f rs r' :
  In r' (on_rel b f rs) <-> exists r, In r rs /\ r' = (if hdr r =? b then f r else r).
Proof. unfold on_rel. rewrite in_map_iff. split; intros [r [H1 H2]]; exists r; auto. Qed.
Lemma on_rel_hdr b f rs : (forall r, hdr (f r) = hdr r) -> map hdr (on_rel b f rs) = map hdr rs.
Proof.
  intros Hf. unfold on_rel. rewrite map_map. apply map_ext. intros r. destruct (hdr r =? b); auto.
Qed.

Section OnRel.
  Variable proj : rel -> list N.
  Variable key : N -> N.
  Variable f : rel -> rel.
  Variable t : N.
  Hypothesis f_hdr : forall r, hdr (f r) = hdr r.

  Section Add.
    Hypothesis f_adds : forall r, Permutation (proj (f r)) (t :: proj r).

    Lemma f_adds_In r x : In x (proj (f r)) <-> x = t \/ In x (proj r).
    Proof.
      split; intros H.
      - apply (Permutation_in _ (f_adds r)) in H. destruct H; auto.
      - apply (Permutation_in _ (Permutation_sym (f_adds r))). destruct H; [left|right]; auto.
    Qed.

    Lemma on_rel_covers_add b rs st :
      In b (map hdr rs) -> covers proj rs st -> covers proj (on_rel b f rs) (sadd t st).
    Proof.
      intros Hb Hc x. rewrite sadd_In. split.
      - intros [->|Hx].
        + apply in_map_iff in Hb. destruct Hb as [r [E Hr]]. exists (f r). split.
          * apply on_rel_In. exists r. split; auto. rewrite E, N.eqb_refl. auto.
          * apply f_adds_In; auto.
        + apply Hc in Hx. destruct Hx as [r [Hr Hx]].
          exists (if hdr r =? b then f r else r). split; [apply on_rel_In; exists r; auto|].
          destruct (hdr r =? b); auto. apply f_adds_In; auto.
      - intros [r' [Hr' Hx]]. apply on_rel_In in Hr'. destruct Hr' as [r [Hr ->]].
        destruct (hdr r =? b).
        + apply f_adds_In in Hx. destruct Hx as [->|Hx]; auto. right. apply Hc. exists r; auto.
        + right. apply Hc. exists r; auto.
    Qed.
    Lemma on_rel_homed_add b rs : key t = b -> homed proj key rs -> homed proj key (on_rel b f rs).
    Proof.
      intros Hk Hh r' x Hr' Hx. apply on_rel_In in Hr'. destruct Hr' as [r [Hr ->]].
      destruct (hdr r =? b) eqn:E; [|apply Hh; auto]. rewrite f_hdr. apply f_adds_In in Hx.
      destruct Hx as [->|Hx]; [|apply Hh; auto]. apply N.eqb_eq in E. congruence.
    Qed.
    Lemma on_rel_nd_add b rs st : covers proj rs st -> ~ In t st -> nd proj rs -> nd proj (on_rel b f rs).
    Proof.
      intros Hc Hn H r' Hr'. apply on_rel_In in Hr'. destruct Hr' as [r [Hr ->]].
      destruct (hdr r =? b); auto. apply (Permutation_NoDup (Permutation_sym (f_adds r))).
      constructor; auto. intros Hin. apply Hn, Hc. exists r; auto.
    Qed.
  End Add.

  Section Same.
    Hypothesis f_same : forall r, proj (f r) = proj r.

    Lemma on_rel_covers_same b rs st : covers proj rs st -> covers proj (on_rel b f rs) st.
    Proof.
      intros Hc x. rewrite (Hc x). split.
      - intros [r [Hr Hx]]. exists (if hdr r =? b then f r else r). split; [apply on_rel_In; exists r; auto|].
        destruct (hdr r =? b); auto. rewrite f_same; auto.
      - intros [r' [Hr' Hx]]. apply on_rel_In in Hr'. destruct Hr' as [r [Hr ->]]. exists r. split; auto.
        destruct (hdr r =? b); auto. rewrite f_same in Hx; auto.
    Qed.
    Lemma on_rel_homed_same b rs : homed proj key rs -> homed proj key (on_rel b f rs).
    Proof.
      intros Hh r' x Hr' Hx. apply on_rel_In in Hr'. destruct Hr' as [r [Hr ->]].
      destruct (hdr r =? b); [|apply Hh; auto]. rewrite f_hdr. rewrite f_same in Hx. apply Hh; auto.
    Qed.
    Lemma on_rel_nd_same b rs : nd proj rs -> nd proj (on_rel b f rs).
    Proof.
      intros H r' Hr'. apply on_rel_In in Hr'. destruct Hr' as [r [Hr ->]].
      destruct (hdr r =? b); auto. rewrite f_same; auto.
    Qed.
  End Same.
End OnRel.

Lemma add_vtb_adds t r : Permutation (rvtbs (add_vtb t r)) (t :: rvtbs r).
Proof. apply Permutation_sym, Permutation_cons_append. Qed.
Lemma add_atv_adds a r : Permutation (ratvs (add_atv a r)) (a :: ratvs r).
Proof. apply Permutation_refl. Qed.

Lemma erase_empty_cases (c : bool) h vt at' :
  let g := if c && (is_nil vt && is_nil at') then None else Some (mkr h vt at') in
  g = None /\ vt = [] /\ at' = [] \/ g = Some (mkr h vt at').
Proof.
  cbv zeta. destruct (c && (is_nil vt && is_nil at')) eqn:C; [left|right; reflexivity].
  apply andb_true_iff in C. destruct C as [_ C]. apply andb_true_iff in C.
  destruct C as [Z1 Z2]. apply is_nil_true in Z1, Z2. auto.
Qed.
Lemma cl_rel_cases o r :
  let vt := filter (validV o) (rvtbs r) in
  let at' := filter (validA o) (cl_atvs0 o r) in
  cl_rel o r = None /\ vt = [] /\ at' = [] \/ cl_rel o r = Some (mkr (hdr r) vt at').
Proof.
  cbv zeta. unfold cl_rel. destruct (tooOld o (hdr r) && is_nil (rvtbs r)) eqn:C1; [left|apply erase_empty_cases].
  apply andb_true_iff in C1. destruct C1 as [T Z]. apply is_nil_true in Z. unfold cl_atvs0. rewrite T, Z. auto.
Qed.
Lemma cl_shrinks_v o : shrinks (cl_rel o) rvtbs (cl_ev o) (fun _ => validV o).
Proof.
  intros r. split.
  - intros x. unfold cl_ev. rewrite filter_In, negb_true_iff. tauto.
  - destruct (cl_rel_cases o r) as [[-> [Z _]]| ->].
    + intros x. exact (filter_nil_In _ _ x Z).
    + split; [reflexivity|]. split; [intros x; apply filter_In|apply NoDup_filter].
Qed.
Lemma cl_shrinks_a o : shrinks (cl_rel o) ratvs (cl_ea o) (fun r a => validA o a && negb (tooOld o (hdr r))).
Proof.
  assert (K : forall r x, In x (filter (validA o) (cl_atvs0 o r)) <->
                          In x (ratvs r) /\ validA o x && negb (tooOld o (hdr r)) = true).
  { intros r x. unfold cl_atvs0. rewrite filter_In. destruct (tooOld o (hdr r)); simpl.
    - rewrite andb_false_r. intuition congruence.
    - rewrite andb_true_r. tauto. }
  intros r. split.
  - intros x. unfold cl_ea. destruct (tooOld o (hdr r)); simpl.
    + rewrite andb_false_r. tauto.
    + rewrite filter_In, andb_true_r, negb_true_iff. tauto.
  - destruct (cl_rel_cases o r) as [[-> [_ Z]]| ->].
    + intros x Hx. destruct (validA o x && negb (tooOld o (hdr r))) eqn:P; auto.
      assert (H : In x (filter (validA o) (cl_atvs0 o r))) by (apply K; auto). rewrite Z in H. destruct H.
    + split; [reflexivity|]. split; [exact (K r)|]. intros H. apply NoDup_filter. unfold cl_atvs0.
      destruct (tooOld o (hdr r)); [constructor|exact H].
Qed.

Definition rm_ev (pv : list N) (r : rel) : list N := filter (fun t => rmem t pv) (rvtbs r).
Definition rm_ea (pa : list N) (r : rel) : list N := filter (fun a => rmem a pa) (ratvs r).

Lemma rm_rel_cases pb pv pa r :
  let vt := filter (fun t => negb (rmem t pv)) (rvtbs r) in
  let at' := filter (fun a => negb (rmem a pa)) (ratvs r) in
  rm_rel pb pv pa r = None /\ vt = [] /\ at' = [] \/ rm_rel pb pv pa r = Some (mkr (hdr r) vt at').
Proof. apply erase_empty_cases. Qed.
Lemma rm_shrinks_v pb pv pa : shrinks (rm_rel pb pv pa) rvtbs (rm_ev pv) (fun _ t => negb (rmem t pv)).
Proof.
  intros r. split.
  - intros x. unfold rm_ev. rewrite filter_In, negb_false_iff. tauto.
  - destruct (rm_rel_cases pb pv pa r) as [[-> [Z _]]| ->].
    + intros x. exact (filter_nil_In _ _ x Z).
    + split; [reflexivity|]. split; [intros x; apply filter_In|apply NoDup_filter].
Qed.
Lemma rm_shrinks_a pb pv pa : shrinks (rm_rel pb pv pa) ratvs (rm_ea pa) (fun _ a => negb (rmem a pa)).
Proof.
  intros r. split.
  - intros x. unfold rm_ea. rewrite filter_In, negb_false_iff. tauto.
  - destruct (rm_rel_cases pb pv pa r) as [[-> [_ Z]]| ->].
    + intros x. exact (filter_nil_In _ _ x Z).
    + split; [reflexivity|]. split; [intros x; apply filter_In|apply NoDup_filter].
Qed.

Lemma dropPop_shape pb pv pa s :
  dropPop pb pv pa s = shrunk (rm_rel pb pv pa) (rm_ev pv) (rm_ea pa) (fb s) (fv s) (fa s) s.
Proof. reflexivity. Qed.

Definition clean_state (o : oracle) (s : mp) : mp :=
  shrunk (cl_rel o) (cl_ev o) (cl_ea o) (filter (validB o) (fb s)) (filter (validV o) (fv s)) (filter (validA o) (fa s)) s.

Lemma len_same rs vb :
  NoDup (map hdr rs) -> NoDup vb -> (forall b, In b vb <-> In b (map hdr rs)) -> length rs = length vb.
Proof.
  intros. rewrite <- (map_length hdr rs). apply Permutation_length. apply NoDup_Permutation; auto.
  intros; symmetry; auto.
Qed.

Lemma fold_inv {A} (P : mp -> Prop) (f : mp -> A -> mp) l :
  (forall s x, P s -> P (f s x)) -> forall s, P s -> P (fold_left f l s).
Proof. intros Hf. induction l; simpl; auto. Qed.

Section Inv.
  Variable bop cont : N -> N.

  Record RInv (s : mp) : Prop := mkRI {
    ri_keys : NoDup (map hdr (rels s));
    ri_vb : NoDup (vbks s);
    ri_same : forall b, In b (vbks s) <-> In b (map hdr (rels s));
    ri_cv : covers rvtbs (rels s) (svtbs s);
    ri_ca : covers ratvs (rels s) (satvs s);
    ri_hv : homed rvtbs cont (rels s);
    ri_ha : homed ratvs bop (rels s);
    ri_sv : NoDup (svtbs s);
    ri_sa : NoDup (satvs s);
    ri_fb : NoDup (fb s);
    ri_fv : NoDup (fv s);
    ri_fa : NoDup (fa s) }.

  Lemma rinv0 : RInv mp0.
  Proof.
    constructor; unfold covers, homed; simpl; try apply NoDup_nil.
    - tauto.
    - intros x; split; [tauto|intros [r [[] _]]].
    - intros x; split; [tauto|intros [r [[] _]]].
    - intros r x [].
    - intros r x [].
  Qed.

  Lemma put_rel_inv b s : RInv s -> RInv (put_rel b s).
  Proof.
    intros [K VB SM CV CA HV HA SV SA FB FV FA].
    constructor; auto using sadd_NoDup, put_rel_covers, put_rel_homed.
    - unfold put_rel; simpl. destruct (has_rel b (rels s)) eqn:E; simpl; auto.
      constructor; auto. intros H. apply has_rel_In in H. congruence.
    - apply sadd_NoDup, VB.
    - intros b'. unfold put_rel; simpl. rewrite sadd_In, SM. destruct (has_rel b (rels s)) eqn:E; simpl.
      + apply has_rel_In in E. split; [intros [->|]|]; auto.
      + split; intros [H|H]; auto.
  Qed.

  Lemma submitA_inv v a s : RInv s -> RInv (submitA bop v a s).
  Proof.
    intros I. destruct v; simpl; auto.
    - destruct I. constructor; simpl; auto using sadd_NoDup.
    - pose proof (put_rel_has (bop a) s) as Hb. destruct (put_rel_inv (bop a) s I).
      set (s1 := put_rel (bop a) s) in *.
      constructor; simpl; rewrite ?on_rel_hdr; auto using sadd_NoDup, sdel_NoDup.
      + apply on_rel_covers_same; auto.
      + apply on_rel_covers_add; auto using add_atv_adds.
      + apply on_rel_homed_same; auto.
      + apply on_rel_homed_add with (t := a); auto using add_atv_adds.
  Qed.
  Lemma submitV_inv v t s : RInv s -> RInv (submitV cont v t s).
  Proof.
    intros I. destruct v; simpl; auto.
    - destruct I. constructor; simpl; auto using sadd_NoDup.
    - pose proof (put_rel_has (cont t) s) as Hb. destruct (put_rel_inv (cont t) s I).
      set (s1 := put_rel (cont t) s) in *.
      constructor; simpl; rewrite ?on_rel_hdr; auto using sadd_NoDup, sdel_NoDup.
      + apply on_rel_covers_add; auto using add_vtb_adds.
      + apply on_rel_covers_same; auto.
      + apply on_rel_homed_add with (t := t); auto using add_vtb_adds.
      + apply on_rel_homed_same; auto.
  Qed.
  Lemma submitB_inv v st b s : RInv s -> RInv (submitB v st b s).
  Proof.
    intros I. destruct v; simpl; auto.
    - destruct I. constructor; simpl; auto using sadd_NoDup.
    - assert (I1 : RInv (if st then s else put_rel b s)) by (destruct st; auto using put_rel_inv).
      destruct I1. constructor; simpl; auto using sdel_NoDup.
  Qed.

  Lemma tryConnect_inv c s : RInv s -> RInv (tryConnect bop cont c s).
  Proof.
    intros I. unfold tryConnect, passA, passV, passB.
    apply fold_inv; [intros; apply submitA_inv; auto|].
    apply fold_inv; [intros; apply submitV_inv; auto|].
    apply fold_inv; [intros; apply submitB_inv; auto|]. auto.
  Qed.

  Lemma shrunk_inv g ev ea pv pa fb' fv' fa' s :
    shrinks g rvtbs ev pv -> shrinks g ratvs ea pa -> NoDup fb' -> NoDup fv' -> NoDup fa' ->
    RInv s -> RInv (shrunk g ev ea fb' fv' fa' s).
  Proof.
    intros Sv Sa Nb Nv Na [K VB SM CV CA HV HA SV SA _ _ _].
    constructor; simpl; auto using del_all_NoDup.
    - rewrite (keep_hdr _ _ _ _ Sv). apply NoDup_map_filter, K.
    - eapply keep_same; eauto.
    - eapply keep_covers; eauto.
    - eapply keep_covers; eauto.
    - eapply keep_homed; eauto.
    - eapply keep_homed; eauto.
  Qed.

  Lemma clean_state_inv o s : RInv s -> RInv (clean_state o s).
  Proof.
    intros I. destruct I. eapply shrunk_inv; eauto using cl_shrinks_v, cl_shrinks_a, NoDup_filter. constructor; auto.
  Qed.
  (** cleanUp's assertion compares the sizes of two views of the same key set *)
  Lemma cleanUp_ok o s : RInv s -> cleanUp o s = ROk (clean_state o s).
  Proof.
    intros I. pose proof (clean_state_inv o s I) as I'.
    change (cleanUp o s) with (if Nat.eqb (length (rels (clean_state o s))) (length (vbks (clean_state o s)))
                               then ROk (clean_state o s) else RAbort).
    rewrite (len_same _ _ (ri_keys _ I') (ri_vb _ I') (ri_same _ I')), PeanoNat.Nat.eqb_refl. reflexivity.
  Qed.

  Lemma dropPop_inv pb pv pa s : RInv s -> RInv (dropPop pb pv pa s).
  Proof.
    intros I. rewrite dropPop_shape. destruct I. eapply shrunk_inv; eauto using rm_shrinks_v, rm_shrinks_a. constructor; auto.
  Qed.

  Lemma rstep_inv s op : RInv s -> exists s', rstep bop cont s op = ROk s' /\ RInv s'.
  Proof.
    intros I. destruct op; simpl.
    - eexists; split; eauto using submitA_inv.
    - eexists; split; eauto using submitV_inv.
    - eexists; split; eauto using submitB_inv.
    - unfold generate. pose proof (tryConnect_inv c s I) as I1. rewrite cleanUp_ok by auto.
      eexists; split; eauto using clean_state_inv.
    - unfold removeAll. pose proof (dropPop_inv pb pv pa s I) as I1. rewrite cleanUp_ok by auto.
      eexists; split; eauto using clean_state_inv, tryConnect_inv.
    - rewrite cleanUp_ok by auto. eexists; split; eauto using clean_state_inv.
    - eexists; split; eauto using rinv0.
  Qed.
  Lemma rrun_inv ops : forall s, RInv s -> exists s', rrun bop cont s ops = ROk s' /\ RInv s'.
  Proof.
    induction ops as [|op ops IH]; simpl; intros s I; [eauto|].
    destruct (rstep_inv s op I) as [s1 [E I1]]. rewrite E. auto.
  Qed.
End Inv.
