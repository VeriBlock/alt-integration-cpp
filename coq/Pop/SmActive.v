(** POP state machine — C07 on the as-coded machine: in EVERY reachable state
      * a block carries BLOCK_ACTIVE iff it is on the active chain root..tip (nothing off the chain stays applied),
      * appliedBlockCount = |chain| = number of blocks flagged applied,
      * the chain is exactly the parent path root..tip.
    All from the quiet invariant (SmWf/SmCmp), the counting argument [applied_exactly] and the tree facts of SmTree. *)
From Coq Require Import List ZArith NArith Bool Lia Permutation.
Import ListNotations.
From VB Require Import Pop.SmDefs Pop.SmProofs Pop.SmWf Pop.SmTruth Pop.SmCmp Pop.SmAll Pop.SmCoh Pop.SmFull Pop.SmTree.
Local Open Scope Z_scope.

Lemma is_act_block : forall s j,
    is_act (cores s) j <-> exists b, find ccmd (blocks _ _ s) j = Some b /\ b_act _ b = true.
Proof. intros s j. split; [apply is_act_find|intros (b & Fb & Ha); exact (find_is_act _ _ _ Fb Ha)]. Qed.

Lemma block_act_is_act : forall s b,
    wf s -> In b (blocks _ _ s) -> (b_act _ b = true <-> is_act (cores s) (b_id _ b)).
Proof.
  intros s b W Hin. pose proof (find_in_blocks _ _ (wf_ids s W) Hin) as F. rewrite is_act_block. split.
  - intros Ha. exists b. split; assumption.
  - intros (b' & F' & Ha). rewrite F in F'. inversion F'; subst b'. exact Ha.
Qed.

Lemma filter_cores : forall s, filter e_act (cores s) = map core (filter (b_act ccmd) (blocks _ _ s)).
Proof.
  intros s. unfold cores. induction (blocks pstate ccmd s) as [|b r IH]; [reflexivity|].
  cbn [map filter]. change (e_act (core b)) with (b_act ccmd b). destruct (b_act ccmd b); [cbn [map]; f_equal|]; exact IH.
Qed.

Theorem active_iff_on_chain : forall base s, reachable base s ->
    forall b, In b (blocks _ _ s) -> (b_act _ b = true <-> In (b_id _ b) (chain s)).
Proof.
  intros base s R b Hin. destruct (reachable_quiet _ _ R) as [Q AE].
  rewrite <- AE. apply block_act_is_act; [exact (proj1 Q)|exact Hin].
Qed.

(* the same by ids: the chain consists of known blocks, and exactly of the applied ones *)
Theorem chain_iff_applied_block : forall base s, reachable base s ->
    forall j, In j (chain s) <-> exists b, find ccmd (blocks _ _ s) j = Some b /\ b_act _ b = true.
Proof. intros base s R j. destruct (reachable_quiet _ _ R) as [_ AE]. rewrite <- AE. apply is_act_block. Qed.

Theorem off_chain_not_applied : forall base s, reachable base s ->
    forall b, In b (blocks _ _ s) -> ~ In (b_id _ b) (chain s) -> b_act _ b = false.
Proof.
  intros base s R b Hin Hn. destruct (b_act ccmd b) eqn:A; [|reflexivity].
  exfalso. apply Hn. apply (active_iff_on_chain base s R b Hin). exact A.
Qed.

Lemma chain_length : forall s, quiet s -> N.of_nat (length (chain s)) = napp _ _ s.
Proof.
  intros s Q. pose proof (quiet_depth_nonneg s Q) as H0. destruct Q as (_ & _ & Hn).
  unfold chain. rewrite anc_list_length. apply N2Z.inj. rewrite nat_N_Z, Nat2Z.inj_succ, Z2Nat.id by lia. lia.
Qed.

Theorem applied_count_exact : forall base s, reachable base s ->
    napp _ _ s = N.of_nat (length (chain s)) /\
    napp _ _ s = N.of_nat (length (filter (b_act ccmd) (blocks _ _ s))).
Proof.
  intros base s R. destruct (reachable_quiet _ _ R) as [Q _]. split.
  - symmetry. apply chain_length. exact Q.
  - destruct Q as ((_ & _ & _ & HN) & _). rewrite HN. unfold nact. rewrite filter_cores, map_length. reflexivity.
Qed.

(* the applied blocks, as a set, are the chain *)
Theorem applied_set_is_chain : forall base s, reachable base s ->
    Permutation (map (b_id ccmd) (filter (b_act ccmd) (blocks _ _ s))) (chain s).
Proof.
  intros base s R. destruct (reachable_quiet _ _ R) as [Q AE]. pose proof (quiet_depth_nonneg s Q) as H0.
  destruct Q as (W & Ta & Hn). pose proof W as (ND & _).
  replace (map (b_id ccmd) (filter (b_act ccmd) (blocks _ _ s))) with (act_ids (cores s))
    by (unfold act_ids; rewrite filter_cores, map_map; reflexivity).
  apply NoDup_Permutation.
  - apply act_ids_nodup. exact ND.
  - unfold chain. apply anc_list_active; [exact W|exact Ta|]. rewrite Z2Nat.id by lia. lia.
  - intros j. rewrite (act_ids_in _ _ ND). apply AE.
Qed.

Lemma anc_list_nth : forall l n i k d, (k <= n)%nat -> nth k (anc_list l n i) d = up l k i.
Proof.
  intros l n. induction n as [|n IH]; intros i k d Hk.
  - assert (k = 0)%nat by lia. subst k. reflexivity.
  - destruct k as [|k]; [reflexivity|]. cbn [anc_list nth up]. apply IH. lia.
Qed.
Lemma anc_list_last : forall l n i d, last (anc_list l n i) d = up l n i.
Proof.
  intros l n. induction n as [|n IH]; intros i d; [reflexivity|]. cbn [anc_list up].
  destruct (anc_list l n (parent l i)) as [|y r] eqn:E.
  - pose proof (anc_list_length l n (parent l i)) as H. rewrite E in H. discriminate.
  - change (last (i :: y :: r) d) with (last (y :: r) d). rewrite <- E. apply IH.
Qed.
Lemma anc_list_hd : forall l n i, exists r, anc_list l n i = i :: r.
Proof. intros l n i. destruct n; cbn [anc_list]; eexists; reflexivity. Qed.

Lemma hd_error_rev_last : forall (l : list N) d, l <> [] -> hd_error (rev l) = Some (last l d).
Proof.
  intros l d Hne. destruct (exists_last Hne) as (l' & a & ->). rewrite rev_app_distr, last_last. reflexivity.
Qed.

Lemma rev_chain_nth : forall s k, let n := Z.to_nat (hgt (cores s) (tip _ _ s) - hgt (cores s) (root _ _ s)) in
    (k <= n)%nat -> nth k (rev (chain s)) 0%N = up (cores s) (n - k) (tip _ _ s).
Proof.
  intros s k n Hk. assert (Hlen : length (chain s) = S n) by apply anc_list_length.
  rewrite rev_nth by (rewrite Hlen; lia). rewrite Hlen. replace (S n - S k)%nat with (n - k)%nat by lia.
  apply anc_list_nth. lia.
Qed.

(** [p] lists root..tip: it starts at the root and ends at the tip, every element is a known block, the parent of each
    element is the element before it, its height is root height + position, and no block occurs twice *)
Definition is_parent_path (s : cst) (p : list N) : Prop :=
  hd_error p = Some (root _ _ s) /\
  last p (root _ _ s) = tip _ _ s /\
  NoDup p /\
  (forall j, In j p -> exists b, find ccmd (blocks _ _ s) j = Some b) /\
  (forall k, (S k < length p)%nat ->
     exists b, find ccmd (blocks _ _ s) (nth (S k) p 0%N) = Some b /\ b_par _ b = nth k p 0%N /\
               b_h _ b = root_h _ _ s + Z.of_nat (S k)).

Theorem chain_is_parent_path : forall base s, reachable base s -> is_parent_path s (rev (chain s)).
Proof.
  intros base s R. destruct (reachable_quiet _ _ R) as [Q AE]. destruct (reachable_good _ _ R) as (_ & _ & C & _).
  pose proof (quiet_depth_nonneg s Q) as H0. pose proof Q as (W & Ta & Hn).
  destruct Ta as (et & Het & Hat).
  destruct (dep_facts s (tip _ _ s) et W C Het) as (_ & Hroot & _).
  set (n := Z.to_nat (hgt (cores s) (tip _ _ s) - hgt (cores s) (root _ _ s))).
  assert (Hch : chain s = anc_list (cores s) n (tip _ _ s)) by reflexivity.
  assert (Hlen : length (chain s) = S n) by apply anc_list_length.
  assert (Hne : chain s <> []) by (intro E; rewrite E in Hlen; discriminate).
  assert (Hrevnth : forall k, (k <= n)%nat -> nth k (rev (chain s)) 0%N = up (cores s) (n - k) (tip _ _ s))
    by (intros k Hk; apply rev_chain_nth; exact Hk).
  split; [|split; [|split; [|split]]].
  - rewrite (hd_error_rev_last _ 0%N Hne). f_equal.
    rewrite Hch, anc_list_last. exact Hroot.
  - destruct (anc_list_hd (cores s) n (tip _ _ s)) as (r & Er). rewrite Hch, Er. cbn [rev]. apply last_last.
  - apply NoDup_rev. rewrite Hch. apply anc_list_active; [exact W|exists et; split; assumption|].
    unfold n. rewrite Z2Nat.id by lia. lia.
  - intros j Hj. apply in_rev in Hj. apply AE in Hj. destruct Hj as (e & He & _).
    destruct (core_find _ _ _ He) as (b & Fb & _). exists b. exact Fb.
  - intros k Hk. rewrite rev_length, Hlen in Hk.
    rewrite (Hrevnth (S k)) by lia. rewrite (Hrevnth k) by lia.
    replace (n - k)%nat with (S (n - S k)) by lia. rewrite up_succ_r.
    set (m := (n - S k)%nat).
    destruct (chain_up_active s Q m) as (e & He & _).
    destruct (core_find _ _ _ He) as (b & Fb & _). exists b. split; [exact Fb|]. split; [symmetry; apply parent_find; exact Fb|].
    destruct (up_hgt_dep s (tip _ _ s) et m W C Het) as [Hh _]; [unfold dep; fold n; unfold m; lia|].
    rewrite <- (hgt_find _ _ _ Fb), Hh, root_h_hgt. unfold m. unfold n in *. lia.
Qed.

Lemma last_is_nth : forall (l : list N) d, l <> [] -> last l d = nth (length l - 1) l d.
Proof.
  intros l d Hne. destruct (exists_last Hne) as (l' & a & ->). rewrite last_last, app_length. cbn [length].
  rewrite app_nth2 by lia. replace (length l' + 1 - 1 - length l')%nat with 0%nat by lia. reflexivity.
Qed.

Theorem parent_path_unique : forall base s, reachable base s -> forall p, is_parent_path s p -> p = rev (chain s).
Proof.
  intros base s R p (P1 & P2 & _ & _ & P5). destruct (reachable_quiet _ _ R) as [Q _].
  pose proof (quiet_depth_nonneg s Q) as H0.
  set (n := Z.to_nat (hgt (cores s) (tip _ _ s) - hgt (cores s) (root _ _ s))).
  assert (Hlenc : length (chain s) = S n) by apply anc_list_length.
  assert (Hne : p <> []) by (intro E; rewrite E in P1; discriminate).
  assert (Hlast : nth (length p - 1) p 0%N = tip _ _ s).
  { rewrite <- (last_is_nth p 0%N Hne). destruct p as [|x r]; [congruence|]. rewrite <- P2. apply last_cons_default. }
  assert (Hlen : length p = S n).
  { destruct p as [|x r]; [congruence|]. destruct r as [|y r].
    - cbn in P1, Hlast. injection P1 as P1. rewrite P1 in Hlast. unfold n. rewrite <- Hlast, Z.sub_diag. reflexivity.
    - destruct (P5 (length r)) as (b & Fb & _ & Hh); [cbn [length]; lia|].
      cbn [length] in Hlast. replace (S (S (length r)) - 1)%nat with (S (length r)) in Hlast by lia.
      rewrite Hlast in Fb. rewrite <- (hgt_find _ _ _ Fb), root_h_hgt in Hh. unfold n. cbn [length]. lia. }
  rewrite Hlen in Hlast. replace (S n - 1)%nat with n in Hlast by lia.
  assert (Hdown : forall i, (i <= n)%nat -> nth (n - i) p 0%N = up (cores s) i (tip _ _ s)).
  { induction i as [|i IH]; intros Hi.
    - rewrite Nat.sub_0_r. exact Hlast.
    - destruct (P5 (n - S i)%nat) as (b & Fb & Pb & _); [lia|].
      replace (S (n - S i)) with (n - i)%nat in Fb by lia. rewrite IH in Fb by lia.
      rewrite <- Pb, up_succ_r. symmetry. apply parent_find. exact Fb. }
  apply (nth_ext _ _ 0%N 0%N); [rewrite rev_length, Hlen, Hlenc; reflexivity|].
  intros k Hk. rewrite Hlen in Hk. rewrite (rev_chain_nth s k ltac:(fold n; lia)). fold n.
  replace k with (n - (n - k))%nat at 1 by lia. apply Hdown. lia.
Qed.

(** non-vacuity: the history [ex_ops] of SmProofs (tree 0 <- 3 <- {6, 15}, 0 <- 9 <- 12 with a poisoned block 12;
    switches, a failing switch that is rolled back, comparisons with either verdict). What is shown per state:
    (chain, root..tip, tip, appliedBlockCount, [(id, parent, ACTIVE)]) *)
Definition ex_view (k : nat) : option (list N * list N * N * N * list (N * N * bool)) :=
  match run (c_init 0 0%Z ex_base) (firstn k ex_ops) with
  | Ok s => Some (chain s, rev (chain s), tip _ _ s, napp _ _ s,
                  map (fun b => (b_id _ b, b_par _ b, b_act _ b)) (blocks _ _ s))
  | Abort _ => None
  end.

(* after setState 6, setState 9 and the FAILING setState 12 (Poison in block 12; rolled back): the chain is 0-9, the
   abandoned fork 3-6, the failed block 12 and the fork 15 are off the chain and not applied *)
Example ex_after_failed_setState :
  ex_view 8 = Some ([9; 0], [0; 9], 9, 2,
                    [(0, 0, true); (3, 0, false); (6, 3, false); (9, 0, true); (12, 9, false); (15, 3, false)])%N.
Proof. vm_compute. reflexivity. Qed.
(* after comparePopScore(15) with verdict "candidate wins": the tree switched from 0-9 to 0-3-15 *)
Example ex_after_compare_switch :
  ex_view 12 = Some ([15; 3; 0], [0; 3; 15], 15, 3,
                     [(0, 0, true); (3, 0, true); (6, 3, false); (9, 0, false); (12, 9, false); (15, 3, true)])%N.
Proof. vm_compute. reflexivity. Qed.
(* after comparePopScore(6) with verdict "current chain wins": candidate 6 was applied next to 15 and unapplied again *)
Example ex_after_compare_kept :
  ex_view 13 = Some ([15; 3; 0], [0; 3; 15], 15, 3,
                     [(0, 0, true); (3, 0, true); (6, 3, false); (9, 0, false); (12, 9, false); (15, 3, true)])%N.
Proof. vm_compute. reflexivity. Qed.

(* a reachable state with two forks off the chain: that of [ex_after_compare_kept] *)
Lemma ex_view_state : forall k ch rch t n l, ex_view k = Some (ch, rch, t, n, l) ->
    exists s, run (c_init 0 0%Z ex_base) (firstn k ex_ops) = Ok s /\ chain s = ch /\ napp _ _ s = n /\
              map (fun b => (b_id _ b, b_par _ b, b_act _ b)) (blocks _ _ s) = l.
Proof.
  intros k ch rch t n l H. unfold ex_view in H. destruct (run _ _) as [s|]; [|discriminate].
  inversion H. exists s. repeat split.
Qed.

Example ex_fork_state :
  exists s, reachable ex_base s /\ chain s = [15; 3; 0]%N /\ napp _ _ s = 3%N /\ length (blocks _ _ s) = 6%nat /\
            is_parent_path s [0; 3; 15]%N /\
            (exists b, In b (blocks _ _ s) /\ b_id _ b = 6%N /\ ~ In (b_id _ b) (chain s) /\ b_act _ b = false) /\
            (exists b, In b (blocks _ _ s) /\ b_id _ b = 15%N /\ In (b_id _ b) (chain s) /\ b_act _ b = true).
Proof.
  destruct (ex_view_state _ _ _ _ _ _ ex_after_compare_kept) as (s & E & Hc & Hn & Hl).
  assert (R : reachable ex_base s) by (exists 0%N, 0%Z, (firstn 13 ex_ops); exact E).
  assert (F : forall j p a, In (j, p, a) (map (fun b => (b_id _ b, b_par _ b, b_act _ b)) (blocks _ _ s)) ->
                            exists b, In b (blocks _ _ s) /\ b_id _ b = j /\ b_act _ b = a).
  { intros j p a Hin. apply in_map_iff in Hin. destruct Hin as (b & Hb & Hin). inversion Hb. exists b. repeat split. exact Hin. }
  rewrite Hl in F. exists s. split; [exact R|]. split; [exact Hc|]. split; [exact Hn|].
  split; [rewrite <- (map_length (fun b => (b_id _ b, b_par _ b, b_act _ b))), Hl; reflexivity|].
  split; [pose proof (chain_is_parent_path _ _ R) as P; rewrite Hc in P; exact P|].
  split.
  - destruct (F 6 3 false)%N as (b & Hin & Hid & Ha); [cbn; tauto|].
    exists b. repeat split; try assumption. rewrite Hid, Hc. cbn. intuition discriminate.
  - destruct (F 15 3 true)%N as (b & Hin & Hid & Ha); [cbn; tauto|].
    exists b. repeat split; try assumption. rewrite Hid, Hc. left. reflexivity.
Qed.
