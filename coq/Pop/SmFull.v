(** POP state machine — the active chain is fully valid in every reachable state. *)
From Coq Require Import List ZArith NArith Bool Lia.
Import ListNotations.
From VB Require Import Pop.SmDefs Pop.SmProofs Pop.SmWf Pop.SmTruth Pop.SmCmp Pop.SmAll Pop.SmCoh.
Local Open Scope Z_scope.

Lemma find_map_eq : forall (A : Type) (f : cblk -> A), (forall x y, f x = f y -> b_id _ x = b_id _ y) ->
    forall (l l' : list cblk) j, map f l' = map f l -> option_map f (bfind l' j) = option_map f (bfind l j).
Proof.
  intros A f Hid. induction l as [|x r IH]; intros l' j H; destruct l' as [|x' r']; try discriminate; [reflexivity|].
  injection H as Hx Hr. cbn [bfind]. rewrite (Hid _ _ Hx).
  destruct (N.eqb (b_id ccmd x) j); [cbn; f_equal; exact Hx|apply IH; exact Hr].
Qed.

(** levels never decrease *)
Definition lvl_ge (u : N) (j : N) (s : cst) : Prop := exists b, bfind (blocks _ _ s) j = Some b /\ N.le u (b_lvl _ b).

Lemma lvl_ge_upd : forall u j (l : list cblk) i f b,
    (forall x, b_id _ (f x) = b_id _ x) -> (forall x, N.le (b_lvl _ x) (b_lvl _ (f x))) ->
    bfind l j = Some b -> N.le u (b_lvl _ b) -> exists b', bfind (upd ccmd l i f) j = Some b' /\ N.le u (b_lvl _ b').
Proof.
  intros u j l i f b Hid Hf Fb Hl. rewrite find_upd_any, Fb by exact Hid. eexists. split; [reflexivity|].
  destruct (N.eqb (b_id ccmd b) i); [specialize (Hf b); lia|exact Hl].
Qed.

Lemma lvl_ge_apply : forall u j s i s' ok, lvl_ge u j s -> c_applyBlock s i = Ok (s', ok) -> lvl_ge u j s'.
Proof.
  intros u j s i s' ok (b & Fb & Hl) H. destruct ok.
  - destruct (applyBlock_inv _ _ _ _ _ _ _ _ H) as (bi & pb & _ & _ & _ & _ & _ & _ & p' & lv & _ & _ & _ & _ & ->).
    apply (lvl_ge_upd u j _ i (apf lv) b); try assumption; [reflexivity|]. intros x. rewrite apf_lvl. lia.
  - (* a failed applyBlock changes failure marks only *)
    apply c_applyBlock_atomic in H. destruct H as (_ & _ & _ & _ & Hs).
    pose proof (find_map_eq _ (strip ccmd) (fun x y E => f_equal (b_id ccmd) E) _ _ j Hs) as E. rewrite Fb in E.
    destruct (bfind (blocks pstate ccmd s') j) as [b'|] eqn:Fb'; [|discriminate]. injection E as _ _ _ El _ _ _.
    exists b'. split; [exact Fb'|]. rewrite El. exact Hl.
Qed.
Lemma lvl_ge_unapply : forall u j s i s', lvl_ge u j s -> c_unapplyBlock s i = Ok s' -> lvl_ge u j s'.
Proof.
  intros u j s i s' (b & Fb & Hl) H. destruct (unapplyBlock_inv _ _ _ _ _ _ H) as (bi & _ & _ & _ & _ & _ & _ & _ & _ & ->).
  apply (lvl_ge_upd u j _ i _ b); try assumption; [reflexivity|]. intros x. apply N.le_refl.
Qed.

Lemma lvl_ge_apply_path : forall u j path s from s' ok,
    lvl_ge u j s -> apply_path pstate ccmd cexec cunexec s from path = Ok (s', ok) -> lvl_ge u j s'.
Proof. intros u j path s from s' ok. apply (Inv_apply_path pstate ccmd cexec cunexec (lvl_ge u j) (lvl_ge_apply u j) (lvl_ge_unapply u j)). Qed.
Lemma lvl_ge_apply_range : forall u j s a b s' ok,
    lvl_ge u j s -> apply pstate ccmd cexec cunexec s a b = Ok (s', ok) -> lvl_ge u j s'.
Proof. intros u j s a b s' ok. apply (Inv_apply_range pstate ccmd cexec cunexec (lvl_ge u j) (lvl_ge_apply u j) (lvl_ge_unapply u j)). Qed.
Lemma lvl_ge_unapply_range : forall u j s a b s',
    lvl_ge u j s -> unapply pstate ccmd cunexec s a b = Ok s' -> lvl_ge u j s'.
Proof. intros u j s a b s'. apply (Inv_unapply_range pstate ccmd cunexec (lvl_ge u j) (lvl_ge_unapply u j)). Qed.
Lemma lvl_ge_uw : forall u j fuel s cur to pred s' w,
    lvl_ge u j s -> unapplyWhile pstate ccmd cunexec fuel s cur to pred = Ok (s', w) -> lvl_ge u j s'.
Proof. intros u j fuel s cur to pred s' w. apply (Inv_unapplyWhile pstate ccmd cunexec (lvl_ge u j) (lvl_ge_unapply u j)). Qed.
Lemma lvl_ge_setState : forall u j s to s' ok, lvl_ge u j s -> c_setState s to = Ok (s', ok) -> lvl_ge u j s'.
Proof. intros u j s to s' ok. apply (Inv_setState pstate ccmd cexec cunexec (lvl_ge u j) (lvl_ge_apply u j) (lvl_ge_unapply u j) (fun _ _ _ H => H)). Qed.
Lemma lvl_ge_compare : forall u j sc cr s c s' r, lvl_ge u j s -> c_compare sc cr s c = Ok (s', r) -> lvl_ge u j s'.
Proof.
  intros u j sc cr s c s' r.
  apply (Inv_compare pstate ccmd cexec cunexec (lvl_ge u j) (lvl_ge_apply u j) (lvl_ge_unapply u j) sc cr (fun _ _ H => H)).
Qed.

Lemma ap_full : forall path s from s' cur,
    winv s -> is_act (cores s) cur -> lvl_ge L_FULL cur s ->
    Z.of_N (napp _ _ s) = hgt (cores s) cur - hgt (cores s) (root _ _ s) + 1 ->
    linked (cores s) cur path ->
    apply_path pstate ccmd cexec cunexec s from path = Ok (s', true) ->
    forall x, In x path -> lvl_ge L_FULL x s'.
Proof.
  induction path as [|x r IH]; intros s from s' cur WI Ha Hl Hn L H y Hy; [destruct Hy|]. cbn in H.
  dbind H. destruct a as [s1 ok1]. destruct ok1.
  2:{ destruct (bfind (blocks pstate ccmd s1) x); [|discriminate]. dbind H. discriminate. }
  destruct L as [(e & He & Hp) Lr]. pose proof WI as (W & C).
  destruct (core_find _ _ _ He) as (b & Fb & <-). change (b_par ccmd b = cur) in Hp. subst cur.
  destruct (is_act_find _ _ Ha) as (pb & Fpb & Apb). destruct Hl as (pb2 & Fpb2 & Hl). rewrite Fpb in Fpb2. inversion Fpb2; subst pb2.
  destruct (applyBlock_inv _ _ _ _ _ _ _ _ E) as (_ & _ & _ & Hxr & _).
  pose proof (hgt_parent_find _ _ _ W Fb Hxr) as Hh.
  (* x reaches L_FULL: its parent is fully valid and only root..parent is applied *)
  destruct (applyBlock_level _ _ _ _ _ E Fb Fpb) as (b' & Fb' & Ab' & Lb').
  assert (Hfull : valid_upto ccmd pb L_FULL && Z.eqb (b_h ccmd b) (root_h pstate ccmd s + Z.of_N (napp pstate ccmd s)) = true).
  { apply andb_true_iff. split.
    - destruct C as (_ & _ & _ & _ & C3 & _). apply valid_upto_iff. split; [apply (C3 _ _ Fpb Apb)|exact Hl].
    - apply Z.eqb_eq. rewrite root_h_hgt, <- (hgt_find _ _ _ Fb). lia. }
  cbv zeta in Lb'. rewrite Hfull in Lb'.
  assert (Hx1 : lvl_ge L_FULL x s1).
  { exists b'. split; [exact Fb'|]. rewrite Lb'. destruct (N.ltb_spec (b_lvl ccmd b) L_FULL); [apply N.le_refl|assumption]. }
  destruct Hy as [<-|Hy]; [eapply lvl_ge_apply_path; eassumption|].
  destruct (apply_ok_core _ _ _ W E) as (W1 & C1 & N1 & R1 & T1 & _).
  assert (S1 : same_static (cores s) (cores s1)) by (rewrite C1; apply same_static_cupd).
  eapply (IH s1 from s' x); [eapply winv_apply; eassumption| |exact Hx1| |apply (linked_static _ _ _ _ S1 Lr)|exact H|exact Hy].
  - exact (find_is_act _ _ _ Fb' Ab').
  - rewrite N1, R1, !(hgt_static _ _ _ S1). lia.
Qed.

Lemma apply_full : forall s a b s',
    winv s -> is_act (cores s) a -> lvl_ge L_FULL a s ->
    Z.of_N (napp _ _ s) = hgt (cores s) a - hgt (cores s) (root _ _ s) + 1 ->
    apply pstate ccmd cexec cunexec s a b = Ok (s', true) -> lvl_ge L_FULL b s'.
Proof.
  intros s a b s' WI Ha Hl Hn H.
  destruct (apply_inv _ _ _ _ _ H) as [([<-|?] & ->)|(path & Hab & L & Lb & _ & Hin & Hp)]; [exact Hl|discriminate|].
  refine (ap_full _ _ _ _ a WI Ha Hl Hn L Hp b _). apply Hin. exists O. split; [destruct path; [contradiction|cbn; lia]|reflexivity].
Qed.

Lemma uw_stop : forall fuel s cur to pred s' w,
    unapplyWhile pstate ccmd cunexec fuel s cur to pred = Ok (s', w) ->
    w = to \/ exists bw, bfind (blocks _ _ s') w = Some bw /\ pred bw = false.
Proof.
  intros fuel s cur to pred s' w H.
  pattern s, cur, s', w. revert fuel s cur s' w H. apply unapplyWhile_ind; cbv beta.
  - intros s0. left. reflexivity.
  - intros s0 c bc bt Fc _ _ Hp. right. exists bc. split; [exact Fc|exact Hp].
  - intros s0 c bc s1 s2 w0 _ _ IH. exact IH.
Qed.

Lemma chain_lvl : forall s, quiet s -> scoh s -> lvl_ge L_FULL (tip _ _ s) s ->
    forall k, lvl_ge L_FULL (up (cores s) k (tip _ _ s)) s.
Proof.
  intros s Q C T k. induction k as [|k IH]; [exact T|]. rewrite up_succ_r.
  destruct IH as (b & Fb & Hl). rewrite (parent_find _ _ _ Fb).
  destruct (N.eq_dec (up (cores s) k (tip _ _ s)) (root _ _ s)) as [Heq|Hne].
  - destruct (wf_act_closed _ (proj1 Q)) as (_ & Pr & _). rewrite Heq in Fb. rewrite (Pr _ Fb). exists b. split; assumption.
  - pose proof (chain_up_active s Q (S k)) as Ha. rewrite up_succ_r, (parent_find _ _ _ Fb) in Ha.
    destruct (is_act_find _ _ Ha) as (pb & Fpb & _).
    destruct C as (_ & _ & _ & C2 & _). specialize (C2 _ _ _ Fb Hne Fpb). exists pb. split; [exact Fpb|lia].
Qed.

(** the tip is fully valid *)
Definition tf (s : cst) : Prop := lvl_ge L_FULL (tip _ _ s) s.

Lemma valid_upto_lvl : forall (b : cblk) u, valid_upto _ b u = true -> N.le u (b_lvl _ b).
Proof. intros b u V. apply valid_upto_iff in V. apply V. Qed.

Lemma tf_setState : forall base s to s' ok, canon base s -> tf s -> c_setState s to = Ok (s', ok) -> tf s'.
Proof.
  intros base s to s' ok C T H. destruct (setState_outcome _ _ _ _ _ C H) as (_ & Ht & Hf). unfold tf. destruct ok.
  - destruct (Ht eq_refl) as (-> & _ & (b & Fb & Vb)). exists b. split; [exact Fb|apply valid_upto_lvl; exact Vb].
  - destruct (Hf eq_refl) as (-> & _). eapply lvl_ge_setState; eassumption.
Qed.

Lemma lvl_ge_connect : forall u j s i par dup gs s', lvl_ge u j s -> c_connect s i par dup gs = Ok s' -> lvl_ge u j s'.
Proof.
  intros u j s i par dup gs s' (b & Fb & Hl) H. destruct (connect_inv _ _ _ _ _ _ H) as (pb & _ & _ & ->).
  exists b. split; [apply find_app_some; exact Fb|exact Hl].
Qed.
Lemma tf_connect : forall s i par dup gs s', tf s -> c_connect s i par dup gs = Ok s' -> tf s'.
Proof.
  intros s i par dup gs s' T H. pose proof (lvl_ge_connect _ _ _ _ _ _ _ _ T H) as T'.
  destruct (connect_inv _ _ _ _ _ _ H) as (pb & _ & _ & ->). exact T'.
Qed.

Lemma winv_apply_range : forall s a b s' ok, winv s -> apply pstate ccmd cexec cunexec s a b = Ok (s', ok) -> winv s'.
Proof. intros s a b s' ok. apply (Inv_apply_range pstate ccmd cexec cunexec winv winv_apply winv_unapply). Qed.
Lemma winv_unapply_range : forall s a b s', winv s -> unapply pstate ccmd cunexec s a b = Ok s' -> winv s'.
Proof. intros s a b s'. apply (Inv_unapply_range pstate ccmd cunexec winv winv_unapply). Qed.
Lemma winv_uw : forall fuel s cur to pred s' w, winv s -> unapplyWhile pstate ccmd cunexec fuel s cur to pred = Ok (s', w) -> winv s'.
Proof. intros fuel s cur to pred s' w. apply (Inv_unapplyWhile pstate ccmd cunexec winv winv_unapply). Qed.

Lemma compare_inv : forall sc cr s c s' r, c_compare sc cr s (Some c) = Ok (s', r) ->
    (s' = s /\ r = 1) \/
    (exists bc bt, compare_fork pstate ccmd cexec cunexec sc cr s c bc bt = Ok (s', r)) \/
    (exists s1 ok, apply pstate ccmd cexec cunexec s (tip _ _ s) c = Ok (s1, ok) /\
       if ok then s' = mkSt pstate ccmd (blocks _ _ s1) (root _ _ s1) c (napp _ _ s1) (pst _ _ s1) /\ r = -1 else s' = s1 /\ r = 1).
Proof.
  intros sc cr s c s' r H. unfold c_compare, compare in H.
  destruct (bfind (blocks pstate ccmd s) c) as [bc|]; [|discriminate].
  destruct (bfind (blocks pstate ccmd s) (tip pstate ccmd s)) as [bt|]; [|discriminate].
  destruct (is_failed ccmd bc); [inversion H; auto|].
  destruct (N.eqb (tip pstate ccmd s) c); [inversion H; auto|].
  destruct (on_active_chain pstate ccmd s c); [inversion H; auto|].
  destruct (anc_at ccmd (blocks pstate ccmd s) _ c (b_h ccmd bt)) as [a|]; [|right; left; exists bc, bt; exact H].
  destruct (N.eqb a (tip pstate ccmd s)); [|right; left; exists bc, bt; exact H].
  dbind H. destruct a0 as [s1 ok]. right. right. exists s1, ok. split; [reflexivity|]. destruct ok; inversion H; auto.
Qed.

Lemma tf_compare : forall sc cr s c s' r,
    quiet s -> scoh s -> tf s -> c_compare sc cr s c = Ok (s', r) -> tf s'.
Proof.
  intros sc cr s c s' r Q C T H. pose proof Q as (W & Ta & Hn).
  destruct (Z_lt_le_dec r 0) as [Hneg|Hpos].
  2:{ destruct (quiet_compare _ _ _ _ _ _ Q H) as (_ & _ & _ & Hp & _). destruct (Hp Hpos) as [Tp _].
      unfold tf. rewrite Tp. eapply lvl_ge_compare; eassumption. }
  (* the candidate won: applied alone on a fully valid block *)
  destruct c as [c|]; [|inversion H; lia].
  destruct (compare_inv _ _ _ _ _ _ H) as [[_ ->]|[(bc & bt & HF)|(s1 & ok & E & Hr)]]; [lia| |].
  - destruct (quiet_compare_fork _ _ _ _ _ _ _ _ Q HF) as (_ & _ & _ & _ & Htr).
    destruct (Htr Hneg) as (fork & s1 & s2 & vf & s3 & s4 & E & E0 & E1 & E2 & -> & Hvf3 & Hn3 & F1 & F2 & F3 & Hvfork).
    assert (WI3 : winv s3).
    { eapply winv_unapply_range; [|exact E1]. eapply winv_uw; [|exact E0]. eapply winv_apply_range; [|exact E]. split; assumption. }
    apply (apply_full s3 vf c s4 WI3 Hvf3); [|rewrite (fr_root _ _ F3), !(frame_hgt _ _ _ F3); exact Hn3|exact E2].
    eapply lvl_ge_unapply_range; [|exact E1].
    destruct (uw_stop _ _ _ _ _ _ _ E0) as [Heq|(bw & Fbw & Hbw)].
    + destruct (Hvfork Heq) as (k & Hk). rewrite Heq, Hk.
      eapply lvl_ge_uw; [|exact E0]. eapply lvl_ge_apply_range; [|exact E]. apply chain_lvl; assumption.
    + exists bw. split; [exact Fbw|]. apply valid_upto_lvl. apply negb_false_iff. exact Hbw.
  - destruct ok; destruct Hr as [-> ->]; [|lia]. exact (apply_full s (tip _ _ s) c s1 (conj W C) Ta T Hn E).
Qed.

Definition good (base : pstate) (s : cst) : Prop :=
  quiet s /\ canon base s /\ scoh s /\ tf s /\ truthful base s.

Lemma good_run : forall base ops s s', good base s -> run s ops = Ok s' -> good base s'.
Proof.
  intros base. apply run_inv_all.
  - intros s i par dup gs s' (Q & C & K & T & U) E.
    split; [eapply quiet_connect; eassumption|]. split; [eapply canon_connect; eassumption|].
    split; [eapply scoh_connect; eassumption|]. split; [eapply tf_connect; eassumption|].
    eapply truthful_connect; [exact (proj1 Q)|exact U|exact E].
  - intros s to s' ok (Q & C & K & T & U) E.
    split; [eapply quiet_setState; eassumption|]. split; [eapply canon_setState; eassumption|].
    split; [eapply scoh_setState; eassumption|]. split; [eapply tf_setState; eassumption|].
    eapply truthful_setState; eassumption.
  - intros sc cr s c s' r (Q & C & K & T & U) E.
    split; [eapply quiet_compare; eassumption|]. split; [eapply canon_compare; eassumption|].
    split; [eapply scoh_compare; eassumption|]. split; [eapply tf_compare; eassumption|].
    eapply SmAll.truthful_compare; eassumption.
Qed.

Lemma good_init : forall r h base, good base (c_init r h base).
Proof.
  intros r h base. split; [apply quiet_init|]. split; [apply canon_init|].
  split; [apply scoh_init|]. split; [|apply truthful_init].
  unfold tf, lvl_ge, c_init, init. cbn. rewrite N.eqb_refl. eexists. split; [reflexivity|cbn; lia].
Qed.

Theorem reachable_good : forall base s, reachable base s -> good base s.
Proof. intros base s (r & h & ops & R). eapply good_run; [apply good_init|exact R]. Qed.

Lemma anc_list_up : forall l n i j, In j (anc_list l n i) -> exists k, (k <= n)%nat /\ j = up l k i.
Proof.
  intros l n. induction n as [|n IH]; intros i j H; cbn in H.
  - destruct H as [<-|[]]. exists O. split; [lia|reflexivity].
  - destruct H as [<-|H]; [exists O; split; [lia|reflexivity]|]. destruct (IH _ _ H) as (k & Hk & ->). exists (S k). split; [lia|reflexivity].
Qed.

Lemma quiet_depth_nonneg : forall s, quiet s -> 0 <= hgt (cores s) (tip _ _ s) - hgt (cores s) (root _ _ s).
Proof. intros s (W & _ & Hn). pose proof (wf_napp_pos s W). lia. Qed.

Lemma quiet_active_bounds : forall s j, quiet s -> is_act (cores s) j ->
    hgt (cores s) (root _ _ s) <= hgt (cores s) j <= hgt (cores s) (tip _ _ s).
Proof.
  intros s j Q Hj. pose proof (quiet_depth_nonneg s Q) as H0. pose proof Q as (W & Ta & _).
  apply (applied_exactly s Q) in Hj. unfold chain in Hj.
  destruct (anc_list_active s (Z.to_nat (hgt (cores s) (tip _ _ s) - hgt (cores s) (root _ _ s))) (tip _ _ s) W Ta) as [Ab _];
    [rewrite Z2Nat.id by exact H0; lia|].
  destruct (Ab j Hj) as (_ & Hlo & Hhi). rewrite Z2Nat.id in Hlo by exact H0. lia.
Qed.

(** the active chain is fully valid: every block of root..tip is applied, not failed and at the fully-valid level *)
Theorem chain_full : forall base s, reachable base s ->
    forall j, In j (chain s) -> exists b, bfind (blocks _ _ s) j = Some b /\ b_act _ b = true /\ valid_upto _ b L_FULL = true.
Proof.
  intros base s R j Hj. destruct (reachable_good _ _ R) as (Q & _ & K & T & _).
  destruct (is_act_find _ _ (proj2 (applied_exactly s Q j) Hj)) as (b & Fb & Ab).
  exists b. split; [exact Fb|]. split; [exact Ab|].
  destruct (anc_list_up _ _ _ _ Hj) as (k & _ & ->).
  destruct (chain_lvl s Q K T k) as (b2 & Fb2 & Hl). rewrite Fb in Fb2. inversion Fb2; subst b2.
  destruct K as (_ & _ & _ & _ & C3 & _). apply valid_upto_iff. split; [apply (C3 _ _ Fb Ab)|exact Hl].
Qed.

Lemma replay_parent : forall base s x b p',
    wf s -> bfind (blocks _ _ s) x = Some b -> x <> root _ _ s -> hgt (cores s) (root _ _ s) <= hgt (cores s) (b_par _ b) ->
    replay (bgs s (depth s x) x) base = Some p' ->
    exists pp, replay (bgs s (depth s (b_par _ b)) (b_par _ b)) base = Some pp /\
               gsexec pstate ccmd cexec cunexec [] (b_gs _ b) pp = (p', true).
Proof.
  intros base s x b p' W Fb Hxr Hlo Hp'.
  pose proof (hgt_parent_find _ _ _ W Fb Hxr) as Hph.
  assert (Hd : depth s x = S (depth s (b_par ccmd b))) by (unfold depth; rewrite Hph, <- Z2Nat.inj_succ by lia; f_equal; lia).
  rewrite Hd in Hp'. unfold bgs in Hp'. cbn [anc_list map rev] in Hp'. rewrite (parent_find _ _ _ Fb) in Hp'.
  fold (bgs s (depth s (b_par ccmd b)) (b_par ccmd b)) in Hp'. rewrite replay_app in Hp'.
  destruct (replay (bgs s (depth s (b_par ccmd b)) (b_par ccmd b)) base) as [pp|]; [|discriminate].
  exists pp. split; [reflexivity|]. unfold gs_of in Hp'. rewrite Fb in Hp'. cbn in Hp'.
  destruct (gsexec pstate ccmd cexec cunexec [] (b_gs ccmd b) pp) as [q ok]. destruct ok; [|discriminate]. inversion Hp'. reflexivity.
Qed.

(** what property C04 needs: in every reachable state every applied block was executed successfully, all groups,
    on top of the state obtained by replaying its parent's chain root..parent alone from the bootstrap state.
    [cvalid] is the contextual validity of a payload command. *)
Definition cvalid (c : ccmd) (p : pstate) : Prop := cexec c p <> None.
Lemma cexec_iff_valid : forall c p, (exists p', cexec c p = Some p') <-> cvalid c p.
Proof. intros c p. unfold cvalid. destruct (cexec c p); split; intros H; [discriminate|eexists; reflexivity|destruct H; discriminate|congruence]. Qed.

Theorem applied_blocks_executed : forall base s, reachable base s ->
    forall j b, bfind (blocks _ _ s) j = Some b -> b_act _ b = true -> j <> root _ _ s ->
    exists pp p', replay (bgs s (depth s (b_par _ b)) (b_par _ b)) base = Some pp /\
                  gsexec pstate ccmd cexec cunexec [] (b_gs _ b) pp = (p', true).
Proof.
  intros base s R j b Fb Ab Hjr. pose proof (reachable_good _ _ R) as (Q & _ & K & T & U). pose proof Q as (W & Ta & Hn).
  (* applied, so on the chain, so at the full level, so it replays alone *)
  pose proof (proj1 (applied_exactly s Q j) (find_is_act _ _ _ Fb Ab)) as Hj.
  destruct (anc_list_up _ _ _ _ Hj) as (k & _ & Hk).
  destruct (chain_lvl s Q K T k) as (b2 & Fb2 & Hl). rewrite <- Hk, Fb in Fb2. inversion Fb2; subst b2.
  destruct (find_some_in _ _ _ Fb) as [Hin Hid].
  destruct (U b Hin (proj2 (N.leb_le _ _) Hl)) as (p' & Hp'). rewrite Hid in Hp'.
  (* the parent is applied as well, hence not below the root *)
  destruct (wf_act_closed _ W) as (_ & _ & Cl). destruct (Cl _ _ Fb Ab Hjr) as (pb & Fpb & Apb).
  pose proof (quiet_active_bounds s _ Q (find_is_act _ _ _ Fpb Apb)) as [Hlo _].
  destruct (replay_parent base s j b p' W Fb Hjr Hlo Hp') as (pp & Hpp & Eg). exists pp, p'. split; assumption.
Qed.
