(** POP state machine — the quiet invariant through comparePopScore (apply both chains, unapplyWhile the not fully
    valid part, unapply the loser, re-apply alone). *)
From Coq Require Import List ZArith NArith Bool Lia Permutation.
Import ListNotations.
From VB Require Import Pop.SmDefs Pop.SmProofs Pop.SmWf.
Local Open Scope Z_scope.

(** k-fold parent *)
Fixpoint up (l : list ent) (k : nat) (a : N) : N :=
  match k with O => a | S k' => up l k' (parent l a) end.

Lemma up_iter : forall l k a, up l k a = Nat.iter k (parent l) a.
Proof. intros l k. induction k as [|k IH]; intros a; [reflexivity|]. rewrite iter_succ_r. apply IH. Qed.
Lemma up_static : forall l l' k a, same_static l l' -> up l' k a = up l k a.
Proof. intros l l' k a S. rewrite !up_iter. apply iter_parent_static. exact S. Qed.
Lemma up_succ_r : forall l k a, up l (S k) a = parent l (up l k a).
Proof. intros. rewrite !up_iter. reflexivity. Qed.

Lemma chain_up_active : forall s, quiet s -> forall k, is_act (cores s) (up (cores s) k (tip _ _ s)).
Proof. intros s (W & Ta & _) k. rewrite up_iter. apply iter_parent_active; assumption. Qed.

Lemma frame_hgt : forall s s' j, frame s s' -> hgt (cores s') j = hgt (cores s) j.
Proof. intros s s' j F. apply hgt_static. exact (fr_static _ _ F). Qed.
Lemma frame_iter : forall s s' k a, frame s s' -> Nat.iter k (parent (cores s')) a = Nat.iter k (parent (cores s)) a.
Proof. intros s s' k a F. apply iter_parent_static. exact (fr_static _ _ F). Qed.

(** [quiet s] is [applied_to s (tip s)] *)
Definition applied_to (s : cst) (x : N) : Prop :=
  wf s /\ is_act (cores s) x /\ Z.of_N (napp _ _ s) = hgt (cores s) x - hgt (cores s) (root _ _ s) + 1.

Lemma applied_to_frame : forall s s' x, frame s s' -> is_act (cores s') x ->
    Z.of_N (napp _ _ s') = hgt (cores s) x - hgt (cores s) (root _ _ s) + 1 -> applied_to s' x.
Proof. intros s s' x F Hx Hn. split; [exact (fr_wf _ _ F)|]. rewrite (fr_root _ _ F), !(frame_hgt _ _ _ F). split; assumption. Qed.

Lemma top_apply : forall s a b s' ok,
    applied_to s a -> apply pstate ccmd cexec cunexec s a b = Ok (s', ok) -> frame s s' /\ applied_to s' (if ok then b else a).
Proof.
  intros s a b s' ok (W & Ha & Hn) E. destruct (apply_arith _ _ _ _ _ W E) as (F & T & Nf). split; [exact F|].
  destruct ok.
  - destruct (T eq_refl) as (A & B & C). apply (applied_to_frame _ _ _ F); [|lia].
    destruct (N.eq_dec a b) as [<-|Hne]; [exact (C _ Ha)|exact (B Hne)].
  - destruct (Nf eq_refl) as (A & B). apply (applied_to_frame _ _ _ F); [exact (B Ha)|rewrite A; exact Hn].
Qed.
Lemma top_unapply : forall s a b s',
    applied_to s a -> unapply pstate ccmd cunexec s a b = Ok s' -> frame s s' /\ applied_to s' b.
Proof.
  intros s a b s' (W & Ha & Hn) E. destruct (unapply_walk _ _ _ _ W E) as (k & [F A H _ IA _]). split; [exact F|].
  apply (applied_to_frame _ _ _ F); [exact (IA Ha)|lia].
Qed.

Lemma unapply_uw : forall s a b s', unapply pstate ccmd cunexec s a b = Ok s' ->
    unapplyWhile pstate ccmd cunexec (fuel_of _ _ s) s a b (fun _ => true) = Ok (s', b).
Proof.
  intros s a b s' H. unfold unapply in H. dbind H. destruct a0 as [s1 w]. cbn in H.
  destruct (N.eqb_spec w b) as [->|_]; inversion H; subst. reflexivity.
Qed.

(** the candidate's branch applied beside the active chain, then unapplied down to [w] *)
Lemma beside : forall s fork c s1 fuel pred s2 w,
    quiet s -> apply pstate ccmd cexec cunexec s fork c = Ok (s1, true) ->
    unapplyWhile pstate ccmd cunexec fuel s1 c fork pred = Ok (s2, w) ->
    frame s s1 /\ frame s s2 /\ is_act (cores s2) (tip _ _ s) /\
    Z.of_N (napp _ _ s2) = Z.of_N (napp _ _ s) + (hgt (cores s) w - hgt (cores s) fork) /\
    (w = fork \/ is_act (cores s2) w /\ ~ is_act (cores s) w).
Proof.
  intros s fork c s1 fuel pred s2 w (W & Ta & _) E U.
  destruct (apply_arith _ _ _ _ _ W E) as (F1 & T1 & _). destruct (T1 eq_refl) as (A1 & B1 & C1).
  pose proof (apply_keep _ _ _ _ _ W E) as K1. cbn beta iota in K1.
  destruct (uw_walk _ _ _ _ _ _ _ (fr_wf _ _ F1) U) as (Hw & k & [F2 A2 H2 Hup IA K2]).
  pose proof (fun j => frame_hgt _ _ j F1) as HS1. rewrite !HS1 in Hw, H2.
  rewrite (frame_iter _ _ _ _ F1) in Hup.
  assert (Hle : hgt (cores s) fork <= hgt (cores s) w) by (destruct Hw as [->|Hlt]; lia).
  split; [exact F1|]. split; [exact (frame_trans _ _ _ F1 F2)|]. split; [|split; [lia|]].
  - (* the blocks unapplied were not applied before, so none is the tip *)
    apply (K2 _ (C1 _ Ta)). intros i Hi Heq. rewrite (frame_iter _ _ _ _ F1) in Heq. apply (K1 i); [lia|]. rewrite Heq. exact Ta.
  - destruct Hw as [->|Hlt]; [left; reflexivity|right]. split; [apply IA, B1; intros ->; lia|].
    rewrite Hup. apply K1. lia.
Qed.

(** a won comparison: B applied beside A (s1), unapplied down to its fully valid part vf (s2), A unapplied (s3), the
    rest of B applied alone (s4) *)
Definition won_trace (s : cst) (c : N) (s' : cst) : Prop :=
  exists fork s1 s2 vf s3 s4,
    apply pstate ccmd cexec cunexec s fork c = Ok (s1, true) /\
    unapplyWhile pstate ccmd cunexec (fuel_of pstate ccmd s1) s1 c fork (not_full ccmd) = Ok (s2, vf) /\
    unapply pstate ccmd cunexec s2 (tip _ _ s) fork = Ok s3 /\
    apply pstate ccmd cexec cunexec s3 vf c = Ok (s4, true) /\
    s' = mkSt pstate ccmd (blocks _ _ s4) (root _ _ s4) c (napp _ _ s4) (pst _ _ s4) /\
    is_act (cores s3) vf /\
    Z.of_N (napp _ _ s3) = hgt (cores s) vf - hgt (cores s) (root _ _ s) + 1 /\
    frame s s1 /\ frame s s2 /\ frame s s3 /\
    (vf = fork -> exists k, fork = up (cores s) k (tip _ _ s)).

Lemma quiet_compare_fork : forall sc cr s c bc bt s' r,
    quiet s -> compare_fork pstate ccmd cexec cunexec sc cr s c bc bt = Ok (s', r) ->
    quiet s' /\ (same_static (cores s) (cores s') /\ root _ _ s' = root _ _ s) /\
    (0 <= r -> tip _ _ s' = tip _ _ s) /\ (r < 0 -> tip _ _ s' = c) /\ (r < 0 -> won_trace s c s').
Proof.
  intros sc cr s c bc bt s' r Q H. pose proof Q as (W & Ta & Hn).
  enough (X : 0 <= r /\ frame s s' /\ applied_to s' (tip _ _ s) \/ r < 0 /\ won_trace s c s').
  { destruct X as [(Hr & [_ FS FR FT] & A)|(Hr & Tr)].
    - rewrite <- FT in A. split; [exact A|]. split; [split; assumption|]. split; [intros _; exact FT|split; lia].
    - pose proof Tr as (fork & s1 & s2 & vf & s3 & s4 & _ & _ & _ & E2 & -> & Hvf3 & N3 & _ & _ & F3 & _).
      destruct (top_apply _ _ _ _ _ (applied_to_frame _ _ _ F3 Hvf3 N3) E2) as (F4 & A4).
      destruct (frame_trans _ _ _ F3 F4) as [_ FS FR _].
      split; [exact A4|]. split; [split; assumption|]. split; [lia|]. split; intros _; [reflexivity|exact Tr]. }
  unfold compare_fork in H.
  destruct (lca ccmd (blocks pstate ccmd s) _ (tip pstate ccmd s) c) as [fork|]; [|discriminate].
  destruct (find ccmd (blocks pstate ccmd s) fork) as [bf|]; [|discriminate].
  destruct (negb (cr _ _) && negb (cr _ _)).
  { inversion H; subst s' r. left. split; [lia|]. split; [apply frame_refl; exact W|exact Q]. }
  dbind H. destruct a as [s1 ok1]. destruct ok1; cbn [negb] in H.
  2:{ inversion H; subst s' r. destruct (apply_arith _ _ _ _ _ W E) as (F1 & _ & N1f). destruct (N1f eq_refl) as [A1 _].
      left. split; [lia|]. split; [exact F1|].
      apply (applied_to_frame _ _ _ F1); [exact (apply_keep _ _ _ _ _ W E _ Ta)|rewrite A1; exact Hn]. }
  destruct (Z.leb 0 (sc s1 c)) eqn:Sg.
  - apply Z.leb_le in Sg. dbind H. inversion H; subst s' r. rename a into s2.
    destruct (beside _ _ _ _ _ _ _ _ Q E (unapply_uw _ _ _ _ E0)) as (_ & F2 & Ta2 & N2 & _).
    left. split; [exact Sg|]. split; [exact F2|]. apply (applied_to_frame _ _ _ F2 Ta2). lia.
  - (* chain B is better: vf stays applied all along *)
    apply Z.leb_gt in Sg. dbind H. destruct a as [s2 vf].
    destruct (beside _ _ _ _ _ _ _ _ Q E E0) as (F1 & F2 & Ta2 & N2 & Hvf).
    dbind H. rename a into s3.
    destruct (unapply_walk _ _ _ _ (fr_wf _ _ F2) E1) as (k3 & [F3 A3 H3 Hup3 IA3 K3]).
    pose proof (fun j => frame_hgt _ _ j F2) as HS2. rewrite !HS2 in H3. rewrite (frame_iter _ _ _ _ F2) in Hup3.
    pose proof (frame_trans _ _ _ F2 F3) as F13.
    assert (Hvf3 : is_act (cores s3) vf).
    { destruct Hvf as [->|[Hv2 Hv0]]; [exact (IA3 Ta2)|]. apply (K3 _ Hv2).
      (* what lies below the tip was applied before, vf was not *)
      intros i _ Heq. apply Hv0. rewrite <- Heq, (frame_iter _ _ _ _ F2). apply iter_parent_active; assumption. }
    assert (N3 : Z.of_N (napp _ _ s3) = hgt (cores s) vf - hgt (cores s) (root _ _ s) + 1) by lia.
    dbind H. destruct a as [s4 ok2].
    destruct (top_apply _ _ _ _ _ (applied_to_frame _ _ _ F13 Hvf3 N3) E2) as (F4 & A4).
    destruct ok2.
    + inversion H; subst s' r. right. split; [exact Sg|]. exists fork, s1, s2, vf, s3, s4.
      refine (conj E (conj E0 (conj E1 (conj E2 (conj eq_refl (conj Hvf3 (conj N3 (conj F1 (conj F2 (conj F13 _)))))))))).
      intros _. exists k3. rewrite up_iter. exact Hup3.
    + (* B fails alone: back to the fork, A is applied again *)
      dbind H. rename a into s5. destruct (top_unapply _ _ _ _ A4 E3) as (F5 & A5).
      dbind H. destruct a as [s6 ok3]. destruct (top_apply _ _ _ _ _ A5 E4) as (F6 & A6).
      destruct ok3; inversion H; subst s' r. left. split; [lia|]. split; [|exact A6].
      exact (frame_trans _ _ _ F13 (frame_trans _ _ _ F4 (frame_trans _ _ _ F5 F6))).
Qed.

Lemma quiet_compare : forall sc cr s c s' r,
    quiet s -> c_compare sc cr s c = Ok (s', r) ->
    quiet s' /\ same_static (cores s) (cores s') /\ root _ _ s' = root _ _ s /\
    (0 <= r -> tip _ _ s' = tip _ _ s /\ napp _ _ s' = napp _ _ s) /\ (r < 0 -> c = Some (tip _ _ s')).
Proof.
  intros sc cr s c s' r Q H.
  (* napp: quiet states of one tree with the same tip count the same blocks *)
  enough (X : quiet s' /\ same_static (cores s) (cores s') /\ root _ _ s' = root _ _ s /\
              (0 <= r -> tip _ _ s' = tip _ _ s) /\ (r < 0 -> c = Some (tip _ _ s'))).
  { destruct X as (Q' & S & R & Hp & Hm). split; [exact Q'|]. split; [exact S|]. split; [exact R|]. split; [|exact Hm].
    intros Hr. specialize (Hp Hr). split; [exact Hp|].
    destruct Q as (_ & _ & Hn), Q' as (_ & _ & Hn'). rewrite Hp, R, !(hgt_static _ _ _ S) in Hn'. apply N2Z.inj. lia. }
  unfold c_compare, compare in H.
  match goal with |- ?G => assert (Same : Ok (s, 1) = Ok (s', r) -> G) end.
  { intros Hx. inversion Hx; subst. split; [exact Q|]. split; [apply same_static_refl|]. split; [reflexivity|]. split; [reflexivity|lia]. }
  destruct c as [c|]; [|exact (Same H)].
  destruct (find ccmd (blocks pstate ccmd s) c) as [bc|]; [|discriminate].
  destruct (find ccmd (blocks pstate ccmd s) (tip pstate ccmd s)) as [bt|]; [|discriminate].
  destruct (is_failed ccmd bc); [exact (Same H)|].
  destruct (N.eqb (tip pstate ccmd s) c); [exact (Same H)|].
  destruct (on_active_chain pstate ccmd s c); [exact (Same H)|].
  match goal with |- ?G => assert (Fork : compare_fork pstate ccmd cexec cunexec sc cr s c bc bt = Ok (s', r) -> G) end.
  { intros HF. destruct (quiet_compare_fork _ _ _ _ _ _ _ _ Q HF) as (Q' & [FS FR] & Hp & Hm & _).
    split; [exact Q'|]. split; [exact FS|]. split; [exact FR|]. split; [exact Hp|]. intros Hr. rewrite (Hm Hr). reflexivity. }
  destruct (anc_at ccmd (blocks pstate ccmd s) _ c (b_h ccmd bt)) as [a|]; [|exact (Fork H)].
  destruct (N.eqb a (tip pstate ccmd s)); [|exact (Fork H)].
  (* the candidate is a successor of the tip *)
  dbind H. destruct a0 as [s1 ok]. destruct (top_apply _ _ _ _ _ Q E) as ([_ S1 R1 Tp1] & A1).
  destruct ok; inversion H; subst s' r; (split; [|split; [exact S1|split; [exact R1|]]]).
  - exact A1.
  - split; [lia|reflexivity].
  - rewrite <- Tp1 in A1. exact A1.
  - split; [intros _; exact Tp1|lia].
Qed.

Theorem reachable_quiet : forall base s, reachable base s -> quiet s /\ forall j, is_act (cores s) j <-> In j (chain s).
Proof.
  intros base s (r & h & ops & R).
  assert (Q : quiet s).
  { refine (run_inv_all quiet _ _ _ ops _ _ (quiet_init r h base) R).
    - intros s0 i par dup gs s1 Q H. exact (proj1 (quiet_connect _ _ _ _ _ _ Q H)).
    - intros s0 to s1 ok Q H. exact (proj1 (quiet_setState _ _ _ _ Q H)).
    - intros sc cr s0 c s1 rr Q H. exact (proj1 (quiet_compare _ _ _ _ _ _ Q H)). }
  split; [exact Q|apply applied_exactly; exact Q].
Qed.

(** C01, for ALL histories (connectBlock, setState, comparePopScore with any scorer) *)
Theorem history_independence : forall base s1 s2,
    reachable base s1 -> reachable base s2 -> chain_gs s1 = chain_gs s2 ->
    Permutation (pst _ _ s1) (pst _ _ s2) /\ (forall x, count_ref x (pst _ _ s1) = count_ref x (pst _ _ s2)).
Proof.
  intros base s1 s2 R1 R2.
  exact (chain_determines_P base s1 s2 (proj1 (reachable_quiet _ _ R1)) (applied_canonical _ _ R1)
           (proj1 (reachable_quiet _ _ R2)) (applied_canonical _ _ R2)).
Qed.
