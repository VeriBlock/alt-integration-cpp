(** POP state machine — un-executing a command erases ITS item in place.

    The implementation keeps, per VBK block, the VTB ids as an ordered list; the VBK state machine re-executes
    (and, reversed, un-executes) the block's VTB command groups in that order on every SP reorg, and VTBs of one
    block may depend on each other. Removal is not always LIFO: comparePopScore unapplies the losing chain
    UNDER the still applied winner. In the model the protecting state is a list (newest item first) and
    [cunexec] removes with [remove1]: the first occurrence is erased in place, every other item keeps its
    position relative to the others - from ANY state, LIFO or not. A removal that moves the newest item into
    the freed slot ("swap and pop") does not have this property ([swap_and_pop_keeps_order_refuted]). *)
From Coq Require Import List NArith Bool.
Import ListNotations.
From VB Require Import Pop.SmDefs.

Lemma item_eqb_eq : forall a b, item_eqb a b = true <-> a = b.
Proof.
  intros [x|e c b] [y|e' c' b']; simpl; split; intro H; try discriminate.
  - apply N.eqb_eq in H. subst. reflexivity.
  - inversion H. apply N.eqb_refl.
  - apply andb_prop in H. destruct H as [H H3]. apply andb_prop in H. destruct H as [H1 H2].
    apply N.eqb_eq in H1, H2, H3. subst. reflexivity.
  - inversion H. rewrite !N.eqb_refl. reflexivity.
Qed.
Lemma item_eqb_refl : forall a, item_eqb a a = true.
Proof. intros. apply item_eqb_eq. reflexivity. Qed.

Lemma remove1_absent : forall x p, mem x p = false -> remove1 x p = p.
Proof.
  intros x p; induction p as [|y r IH]; simpl; intro H; [reflexivity|].
  apply orb_false_iff in H; destruct H as [H1 H2]. rewrite H1, (IH H2). reflexivity.
Qed.

(** erased in place: p = l1 ++ y :: l2 with y the first match, and the result is l1 ++ l2 *)
Lemma remove1_in_place : forall x p, mem x p = true ->
  exists l1 y l2, p = l1 ++ y :: l2 /\ item_eqb x y = true /\ mem x l1 = false /\ remove1 x p = l1 ++ l2.
Proof.
  intros x p; induction p as [|y r IH]; simpl; intro H; [discriminate|].
  destruct (item_eqb x y) eqn:E.
  - exists [], y, r. simpl. rewrite E. repeat split; reflexivity.
  - simpl in H. destruct (IH H) as (l1 & z & l2 & Hp & Hz & Hm & Hr).
    exists (y :: l1), z, l2. simpl. rewrite E, Hm, Hr, Hp. repeat split; try reflexivity. exact Hz.
Qed.
(* in particular under items added later that are different from it *)
Lemma remove1_under : forall x later p, mem x later = false -> remove1 x (later ++ x :: p) = later ++ p.
Proof.
  intros x later p; induction later as [|y r IH]; simpl; intro H; [rewrite item_eqb_refl; reflexivity|].
  apply orb_false_iff in H; destruct H as [H1 H2]. rewrite H1, (IH H2). reflexivity.
Qed.

(** the other items, in order *)
Definition others (x : item) (p : pstate) : pstate := filter (fun y => negb (item_eqb x y)) p.

(* removing x disturbs no subsequence that leaves x out *)
Lemma remove1_filter : forall (f : item -> bool) x p,
  (forall y, item_eqb x y = true -> f y = false) -> filter f (remove1 x p) = filter f p.
Proof.
  intros f x p Hf; induction p as [|y r IH]; simpl; [reflexivity|].
  destruct (item_eqb x y) eqn:E.
  - rewrite (Hf y E). reflexivity.
  - simpl. rewrite IH. reflexivity.
Qed.

Lemma remove1_keeps_order : forall x p, others x (remove1 x p) = others x p.
Proof. intros x p. apply remove1_filter. intros y E. rewrite E. reflexivity. Qed.

(** items different from x are untouched as a SEQUENCE also with respect to any third item z *)
Lemma remove1_keeps_order_of : forall x z p, item_eqb z x = false ->
  filter (item_eqb z) (remove1 x p) = filter (item_eqb z) p.
Proof. intros x z p Hzx. apply remove1_filter. intros y E. apply item_eqb_eq in E. subst y. exact Hzx. Qed.

Definition item_of (c : ccmd) : option item :=
  match c with
  | AddRef v _ => Some (IRef v)
  | AddEnd e c b => Some (IEnd e c b)
  | _ => None
  end.

(** un-executing ANY command from ANY state keeps the relative order of all other items *)
Theorem cunexec_keeps_order : forall c p,
  match item_of c with
  | Some x => others x (cunexec c p) = others x p /\
              (mem x p = true -> exists l1 y l2, p = l1 ++ y :: l2 /\ item_eqb x y = true /\ mem x l1 = false /\
                                                 cunexec c p = l1 ++ l2)
  | None => cunexec c p = p
  end.
Proof.
  intros c p; destruct c; simpl; try reflexivity; split;
    try apply remove1_keeps_order; apply remove1_in_place.
Qed.

(** the inverse of a successful execute is exact also under later items (non-LIFO): the items added after it stay
    where they are *)
Theorem cunexec_under_later : forall c p p' later,
  cexec c p = Some p' -> (forall x, item_of c = Some x -> mem x later = false) ->
  cunexec c (later ++ p') = later ++ p.
Proof.
  intros c p p' later H Hl; destruct c; simpl in *.
  - destruct (mem (IRef v) p || mem (IRef par) p)%bool; [|discriminate]. inversion H; subst.
    apply remove1_under, Hl. reflexivity.
  - destruct (mem (IRef b) p); [|discriminate]. inversion H; subst. apply remove1_under, Hl. reflexivity.
  - destruct (mem (IRef v) p); [|discriminate]. inversion H; subst. reflexivity.
  - discriminate.
Qed.

(** ** swap-and-pop removal (newest item = head moved into the freed slot) reorders the others *)
Fixpoint replace_first (x h : item) (r : pstate) : pstate :=
  match r with
  | [] => []
  | y :: t => if item_eqb x y then h :: t else y :: replace_first x h t
  end.
Definition remove_swap (x : item) (p : pstate) : pstate :=
  match p with
  | [] => []
  | h :: r => if item_eqb x h then r else replace_first x h r
  end.

(** VBK block 10 holds vA (fork a1), then v1, v2 (chain b; v2 depends on v1): newest first [v2; v1; vA].
    Un-executing vA under the still applied v1, v2: in place -> [v2; v1]; swap-and-pop -> [v1; v2]. *)
Example swap_and_pop_keeps_order_refuted :
  let vA := IEnd 1 10 21 in let v1 := IEnd 2 10 22 in let v2 := IEnd 3 10 23 in
  let p := [v2; v1; vA] in
  remove1 vA p = [v2; v1] /\ others vA (remove1 vA p) = others vA p /\
  remove_swap vA p = [v1; v2] /\ others vA (remove_swap vA p) <> others vA p.
Proof. simpl. repeat split; try reflexivity. discriminate. Qed.
