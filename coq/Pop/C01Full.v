(** C01 by composition, part 5: the verdict of comparePopScore against a given candidate is a function of the active
    chain and the candidate's chain, for candidates without a cached failed mark. *)
From Coq Require Import List ZArith NArith Bool Lia Permutation.
Import ListNotations.
From VB Require Import Pop.SmDefs Pop.SmProofs Pop.SmWf Pop.SmTruth Pop.SmCmp Pop.SmAll Pop.SmCoh Pop.SmFull Pop.SmMarks Pop.SmTree
     Pop.SmReact Pop.SmAbort Pop.C01Compose Pop.C01Verdict Pop.C01Fork Pop.C01Alone.
Local Open Scope Z_scope.

Lemma anc_at_complete : forall s, wf s -> scoh s -> forall k fuel i e,
    cfind (cores s) i = Some e -> Z.of_nat k <= dep s i -> (k <= fuel)%nat ->
    anc_at ccmd (blocks _ _ s) fuel i (hgt (cores s) i - Z.of_nat k) = Some (up (cores s) k i).
Proof.
  intros s W K. induction k as [|k IH]; intros fuel i e Ci Hk Hf; destruct (core_find _ _ _ Ci) as (b & Fb & Cb).
  - rewrite Z.sub_0_r. destruct fuel; cbn [anc_at]; rewrite Fb, <- (hgt_find _ _ _ Fb), Z.eqb_refl; reflexivity.
  - destruct fuel as [|f]; [lia|]. cbn [anc_at]. rewrite Fb, <- (hgt_find _ _ _ Fb).
    rewrite (proj2 (Z.eqb_neq _ _)), (proj2 (Z.ltb_ge _ _)) by lia.
    destruct (up_hgt_dep s i e 1 W K Ci ltac:(lia)) as (Hph & pe & Cp).
    pose proof (parent_find _ _ _ Fb) as Hp.
    cbn [up] in *. rewrite Hp in *.
    replace (hgt (cores s) i - Z.of_nat (S k)) with (hgt (cores s) (b_par ccmd b) - Z.of_nat k) by lia.
    apply (IH f _ pe Cp); [unfold dep in *; lia|lia].
Qed.

(** with i = tip: activeChain_.contains(y); with y = tip: i.getAncestor(bestTip->getHeight()) == bestTip *)
Definition anc_is (s : cst) (i y : N) : bool :=
  match anc_at ccmd (blocks _ _ s) (fuel_of _ _ s) i (hgt (cores s) y) with Some a => N.eqb a y | None => false end.

Lemma anc_is_iff : forall base s i y bi bY, reachable base s ->
    bfind (blocks _ _ s) i = Some bi -> bfind (blocks _ _ s) y = Some bY ->
    (anc_is s i y = true <-> on_chain s i y).
Proof.
  intros base s i y bi bY R Fi Fy. destruct (reachable_good _ _ R) as ((W & _) & _ & K & _).
  pose proof (find_cfind _ _ _ Fi) as Ci. pose proof (depth_dep s i _ W K Ci) as Di. pose proof (dep_bound s _ _ W K Ci) as Bi.
  destruct (dep_facts s _ _ W K (find_cfind _ _ _ Fy)) as (Dy & _).
  rewrite on_chain_iff. unfold anc_is. split.
  - destruct (anc_at ccmd _ _ i _) as [a|] eqn:Ea; [|discriminate].
    intros E. apply N.eqb_eq in E. subst a. destruct (anc_at_sound s W _ _ _ _ Ea) as (k & Hk & _ & Hh).
    exists k. split; [unfold dep in *; lia|exact Hk].
  - intros (k & Hk & ->). rewrite (up_hgt_depth s i _ k W K Ci Hk).
    rewrite (anc_at_complete s W K k _ _ _ Ci); [apply N.eqb_refl|lia|unfold fuel_of; lia].
Qed.

Lemma anc_is_agree : forall base s1 s2 i y bi1 by1 bi2 by2, reachable base s1 -> reachable base s2 ->
    bfind (blocks _ _ s1) i = Some bi1 -> bfind (blocks _ _ s1) y = Some by1 ->
    bfind (blocks _ _ s2) i = Some bi2 -> bfind (blocks _ _ s2) y = Some by2 ->
    chain_of s1 i = chain_of s2 i -> anc_is s1 i y = anc_is s2 i y.
Proof.
  intros base s1 s2 i y bi1 by1 bi2 by2 R1 R2 Fi1 Fy1 Fi2 Fy2 H. apply eq_true_iff_eq.
  rewrite (anc_is_iff base s1 i y _ _ R1 Fi1 Fy1), (anc_is_iff base s2 i y _ _ R2 Fi2 Fy2). unfold on_chain. rewrite H. reflexivity.
Qed.

Lemma compare_shape : forall sc cr s c bc bt s' r,
    bfind (blocks _ _ s) c = Some bc -> bfind (blocks _ _ s) (tip _ _ s) = Some bt ->
    c_compare sc cr s (Some c) = Ok (s', r) ->
    if is_failed _ bc then r = 1 else
    if N.eqb (tip _ _ s) c then r = 1 else
    if anc_is s (tip _ _ s) c then r = 1 else
    if anc_is s c (tip _ _ s)
    then exists t ok, apply pstate ccmd cexec cunexec s (tip _ _ s) c = Ok (t, ok) /\ r = if ok then -1 else 1
    else compare_fork pstate ccmd cexec cunexec sc cr s c bc bt = Ok (s', r).
Proof.
  intros sc cr s c bc bt s' r Fc Ft H. unfold c_compare, compare, on_active_chain in H. rewrite Fc, Ft in H.
  unfold anc_is. rewrite (hgt_find _ _ _ Fc), (hgt_find _ _ _ Ft).
  destruct (is_failed ccmd bc); [injection H as _ <-; reflexivity|].
  destruct (N.eqb (tip pstate ccmd s) c); [injection H as _ <-; reflexivity|].
  destruct (match anc_at ccmd _ _ (tip pstate ccmd s) _ with Some a => N.eqb a c | None => false end);
    [injection H as _ <-; reflexivity|].
  destruct (anc_at ccmd _ _ c _) as [a|]; [destruct (N.eqb a (tip pstate ccmd s))|]; try exact H.
  destruct (apply pstate ccmd cexec cunexec s (tip pstate ccmd s) c) as [[t ok]|]; cbn [bind] in H; [|discriminate].
  exists t, ok. split; [reflexivity|]. destruct ok; injection H as _ <-; reflexivity.
Qed.

Lemma compare_fork_trace : forall sc cr s c bc bt s' r,
    bfind (blocks _ _ s) c = Some bc -> bfind (blocks _ _ s) (tip _ _ s) = Some bt ->
    compare_fork pstate ccmd cexec cunexec sc cr s c bc bt = Ok (s', r) ->
    exists fork,
      lca ccmd (blocks _ _ s) (2 * fuel_of _ _ s) (tip _ _ s) c = Some fork /\
      if negb (cr (hgt (cores s) fork) (hgt (cores s) (tip _ _ s))) && negb (cr (hgt (cores s) fork) (hgt (cores s) c))
      then r = 0 else
      exists t ok, apply pstate ccmd cexec cunexec s fork c = Ok (t, ok) /\
        if ok then
          if 0 <=? sc t c then r = sc t c else revalidated sc s c fork t r
        else r = 1.
Proof.
  intros sc cr s c bc bt s' r Fc Ft H. unfold compare_fork in H.
  destruct (lca ccmd _ _ (tip pstate ccmd s) c) as [fork|]; [|discriminate].
  destruct (bfind (blocks pstate ccmd s) fork) as [bf|] eqn:Ef; [|discriminate].
  exists fork. split; [reflexivity|]. rewrite (hgt_find _ _ _ Ef), (hgt_find _ _ _ Ft), (hgt_find _ _ _ Fc).
  destruct (negb (cr _ _) && negb (cr _ _)); [injection H as _ <-; reflexivity|].
  destruct (apply pstate ccmd cexec cunexec s fork c) as [[t ok]|]; cbn [bind] in H; [|discriminate].
  exists t, ok. split; [reflexivity|].
  destruct ok; cbn [negb] in H; [|injection H as _ <-; reflexivity].
  destruct (0 <=? sc t c).
  - destruct (unapply pstate ccmd cunexec t c fork); cbn [bind] in H; [|discriminate]. injection H as _ <-. reflexivity.
  - destruct (unapplyWhile pstate ccmd cunexec _ t c fork _) as [[s2 vf]|] eqn:U2; cbn [bind] in H; [|discriminate].
    destruct (unapply pstate ccmd cunexec s2 _ fork) as [s3|] eqn:U3; cbn [bind] in H; [|discriminate].
    destruct (apply pstate ccmd cexec cunexec s3 vf c) as [[s4 ok2]|] eqn:A4; cbn [bind] in H; [|discriminate].
    exists s2, vf, s3, s4, ok2. split; [exact U2|]. split; [exact U3|]. split; [exact A4|].
    destruct ok2; [injection H as _ <-; reflexivity|].
    destruct (unapply pstate ccmd cunexec s4 vf fork); cbn [bind] in H; [|discriminate].
    destruct (apply pstate ccmd cexec cunexec _ fork _) as [[s6 ok3]|]; cbn [bind] in H; [|discriminate].
    destruct ok3; [injection H as _ <-; reflexivity|discriminate].
Qed.

Section Lockstep.
  Variables (sc : cst -> N -> Z) (cr : Z -> Z -> bool) (base : pstate) (s1 s2 : cst) (c : N) (bc1 bc2 : cblk).
  Hypothesis R1 : reachable base s1.
  Hypothesis R2 : reachable base s2.
  Hypothesis HA : active_chain s1 = active_chain s2.
  Hypothesis Fc1 : bfind (blocks _ _ s1) c = Some bc1.
  Hypothesis Fc2 : bfind (blocks _ _ s2) c = Some bc2.
  Hypothesis HC : chain_of s1 c = chain_of s2 c.
  Hypothesis Cl1 : clean_all s1 c.
  Hypothesis Cl2 : clean_all s2 c.
  Hypothesis Hsc : forall t1 t2, frame s1 t1 -> frame s2 t2 -> Permutation (pst _ _ t1) (pst _ _ t2) -> sc t1 c = sc t2 c.

  Lemma branch_agree : forall fork t1 ok1 t2 ok2,
      on_chain s1 c fork ->
      apply pstate ccmd cexec cunexec s1 fork c = Ok (t1, ok1) -> apply pstate ccmd cexec cunexec s2 fork c = Ok (t2, ok2) ->
      ok1 = ok2 /\ (ok1 = true -> sc t1 c = sc t2 c).
  Proof.
    intros fork t1 ok1 t2 ok2 Hin A1 A2.
    destruct (candidate_validation_history_independent base s1 s2 c fork t1 ok1 t2 ok2 R1 R2 HA
                (ex_intro _ _ Fc1) (ex_intro _ _ Fc2) HC Hin (Cl1 _) (Cl2 _) A1 A2) as (E & HP & F1 & F2).
    split; [exact E|]. intros Hok. exact (Hsc t1 t2 F1 F2 (HP Hok)).
  Qed.

  Lemma fork_verdict_agree : forall bt1 bt2 s1' r1 s2' r2,
      bfind (blocks _ _ s1) (tip _ _ s1) = Some bt1 -> bfind (blocks _ _ s2) (tip _ _ s2) = Some bt2 ->
      compare_fork pstate ccmd cexec cunexec sc cr s1 c bc1 bt1 = Ok (s1', r1) ->
      compare_fork pstate ccmd cexec cunexec sc cr s2 c bc2 bt2 = Ok (s2', r2) ->
      r1 = r2.
  Proof.
    intros bt1 bt2 s1' r1 s2' r2 Ft1 Ft2 H1 H2.
    destruct (compare_fork_trace _ _ _ _ _ _ _ _ Fc1 Ft1 H1) as (f1 & L1 & O1).
    destruct (compare_fork_trace _ _ _ _ _ _ _ _ Fc2 Ft2 H2) as (f2 & L2 & O2).
    destruct (fork_agree base s1 s2 c bc1 bc2 f1 f2 R1 R2 HA Fc1 Fc2 HC L1 L2) as (<- & Hin).
    (* same heights in both states: the same keystone test *)
    rewrite <- (tip_agree _ _ HA), (proj1 (chain_of_data _ _ _ _ HC Hin)), (proj1 (chain_of_data _ _ _ _ HC (chain_of_self _ _))),
      (proj1 (chain_of_data _ _ _ _ (active_chain_of_tip _ _ HA) (chain_of_self _ _))) in O2.
    destruct (negb _ && negb _); [congruence|].
    destruct O1 as (t1 & ok1 & A1 & O1), O2 as (t2 & ok2 & A2 & O2).
    destruct (branch_agree f1 t1 ok1 t2 ok2 Hin A1 A2) as (<- & Es).
    destruct ok1; [specialize (Es eq_refl)|congruence].
    rewrite <- Es in O2. destruct (0 <=? sc t1 c); [congruence|].
    (* either answer is whether the candidate's chain replays from the bootstrap state *)
    rewrite (revalidated_replay _ base s1 c bc1 f1 t1 r1 R1 Fc1 L1 Cl1 A1 O1),
      (revalidated_replay _ base s2 c bc2 f1 t2 r2 R2 Fc2 L2 Cl2 A2 O2), HC, Es. reflexivity.
  Qed.

  Theorem verdict_agree : forall s1' r1 s2' r2,
      c_compare sc cr s1 (Some c) = Ok (s1', r1) -> c_compare sc cr s2 (Some c) = Ok (s2', r2) -> r1 = r2.
  Proof.
    intros s1' r1 s2' r2 H1 H2.
    destruct (reachable_good _ _ R1) as ((_ & Ta1 & _) & _). destruct (reachable_good _ _ R2) as ((_ & Ta2 & _) & _).
    destruct (is_act_find _ _ Ta1) as (bt1 & Ft1 & _). destruct (is_act_find _ _ Ta2) as (bt2 & Ft2 & _).
    pose proof (compare_shape _ _ _ _ _ _ _ _ Fc1 Ft1 H1) as O1. pose proof (compare_shape _ _ _ _ _ _ _ _ Fc2 Ft2 H2) as O2.
    rewrite (Cl1 1%nat O bc1 Nat.lt_0_1 Fc1) in O1. rewrite (Cl2 1%nat O bc2 Nat.lt_0_1 Fc2) in O2.
    pose proof (tip_agree _ _ HA) as Ht. rewrite <- Ht in O2, Ft2.
    rewrite <- (anc_is_agree base s1 s2 _ c _ _ _ _ R1 R2 Ft1 Fc1 Ft2 Fc2 (active_chain_of_tip _ _ HA)),
            <- (anc_is_agree base s1 s2 c _ _ _ _ _ R1 R2 Fc1 Ft1 Fc2 Ft2 HC) in O2.
    destruct (N.eqb (tip _ _ s1) c); [congruence|]. destruct (anc_is s1 (tip _ _ s1) c); [congruence|].
    destruct (anc_is s1 c (tip _ _ s1)) eqn:Es.
    - destruct O1 as (t1 & ok1 & A1 & ->), O2 as (t2 & ok2 & A2 & ->).
      destruct (branch_agree _ t1 ok1 t2 ok2 (proj1 (anc_is_iff base s1 c _ _ _ R1 Fc1 Ft1) Es) A1 A2) as (-> & _). reflexivity.
    - rewrite Ht in Ft2. exact (fork_verdict_agree bt1 bt2 s1' r1 s2' r2 Ft1 Ft2 O1 O2).
  Qed.
End Lockstep.

Section FullVerdict.
  Variable cfg : VB.Score.CmpDefs.config.
  Variable ki : Z.
  Variable ta : bool.
  Variable alt_time : N -> Z.
  Variable spv : (N -> nat) -> N -> option Z.
  Variable sp_times : (N -> nat) -> list Z.
  Hypothesis SD : sp_determined spv.
  Hypothesis TD : sp_times_determined sp_times.

  Notation sc := (score_of cfg ki ta alt_time spv sp_times).
  Notation cr := (crossed_of ki).

  (** C01 *)
  Theorem verdict_history_independent : forall base s1 s2 c s1' r1 s2' r2,
      reachable base s1 -> reachable base s2 -> active_chain s1 = active_chain s2 ->
      (exists b, bfind (blocks _ _ s1) c = Some b) -> (exists b, bfind (blocks _ _ s2) c = Some b) ->
      chain_of s1 c = chain_of s2 c ->
      clean_all s1 c -> clean_all s2 c ->
      c_compare sc cr s1 (Some c) = Ok (s1', r1) ->
      c_compare sc cr s2 (Some c) = Ok (s2', r2) ->
      r1 = r2.
  Proof.
    intros base s1 s2 c s1' r1 s2' r2 R1 R2 HA (bc1 & Fc1) (bc2 & Fc2) HC Cl1 Cl2.
    apply (verdict_agree sc cr base s1 s2 c bc1 bc2 R1 R2 HA Fc1 Fc2 HC Cl1 Cl2).
    intros t1 t2 F1 F2 HP. exact (proj2 (score_agree cfg ki ta alt_time spv sp_times SD TD s1 s2 c t1 t2 F1 F2 HA HC HP)).
  Qed.

  Corollary verdict_fresh_instance : forall base s1 r h ops s2 c s1' r1 s2' r2,
      reachable base s1 -> fresh_history ops -> run (c_init r h base) ops = Ok s2 ->
      active_chain s1 = active_chain s2 ->
      (exists b, bfind (blocks _ _ s1) c = Some b) -> (exists b, bfind (blocks _ _ s2) c = Some b) ->
      chain_of s1 c = chain_of s2 c ->
      clean_all s1 c -> clean_all s2 c ->
      c_compare sc cr s1 (Some c) = Ok (s1', r1) ->
      c_compare sc cr s2 (Some c) = Ok (s2', r2) ->
      r1 = r2.
  Proof.
    intros base s1 r h ops s2 c s1' r1 s2' r2 R1 _ R2. apply (verdict_history_independent base s1 s2 c s1' r1 s2' r2 R1).
    exists r, h, ops. exact R2.
  Qed.
End FullVerdict.
