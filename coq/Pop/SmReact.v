(** POP state machine — C20 re-activation: setState to a fully valid block succeeds from every reachable state. *)
From Coq Require Import List ZArith NArith Bool Lia Permutation.
Import ListNotations.
From VB Require Import Pop.SmDefs Pop.SmProofs Pop.SmWf Pop.SmTruth Pop.SmCmp Pop.SmAll Pop.SmCoh Pop.SmFull Pop.SmMarks Pop.SmTree.
Local Open Scope Z_scope.

(** the state seen from block [cur]: nothing but root..cur is applied *)
Definition at_blk (s : cst) (cur : N) : cst := mkSt pstate ccmd (blocks _ _ s) (root _ _ s) cur (napp _ _ s) (pst _ _ s).
Definition alone (s : cst) (cur : N) : Prop := quiet (at_blk s cur).

Lemma alone_unfold : forall s cur, alone s cur <->
    wf s /\ is_act (cores s) cur /\ Z.of_N (napp _ _ s) = hgt (cores s) cur - hgt (cores s) (root _ _ s) + 1.
Proof. intros. reflexivity. Qed.

Lemma alone_active : forall s cur j, alone s cur -> is_act (cores s) j ->
    hgt (cores s) (root _ _ s) <= hgt (cores s) j <= hgt (cores s) cur.
Proof. intros s cur j A Hj. exact (quiet_active_bounds (at_blk s cur) j A Hj). Qed.

Lemma no_active_child : forall s cur x, alone s cur -> x <> root _ _ s ->
    hgt (cores s) cur <= hgt (cores s) x -> child_active ccmd (blocks _ _ s) x = false.
Proof.
  intros s cur x A Hxr Hh. apply not_true_iff_false. intro H. apply existsb_exists in H.
  destruct H as (c & Hin & Hc). apply andb_prop in Hc. destruct Hc as [Hc Ac]. apply andb_prop in Hc. destruct Hc as [Pc Nc].
  apply N.eqb_eq in Pc. apply negb_true_iff in Nc. apply N.eqb_neq in Nc.
  pose proof (proj1 A : wf s) as W. pose proof (find_in_blocks _ _ (wf_ids _ W) Hin) as Fc.
  (* an applied child of x would stand higher than cur *)
  pose proof (alone_active _ _ _ A (find_is_act _ _ _ Fc Ac)) as [_ Hhi].
  assert (Hcr : b_id ccmd c <> root _ _ s).
  { intro Heq. destruct (wf_act_closed _ W) as (_ & Pr & _). rewrite Heq in Fc. apply Hxr. rewrite <- Pc. exact (Pr c Fc). }
  pose proof (hgt_parent_find _ _ _ W Fc Hcr) as Hph. rewrite Pc in Hph. lia.
Qed.

Lemma applyBlock_frame : forall s x s' ok, wf s -> c_applyBlock s x = Ok (s', ok) -> frame s s'.
Proof.
  intros s x s' [|] W E.
  - destruct (apply_ok_core _ _ _ W E) as (W1 & C1 & _ & R1 & T1 & _). constructor; try assumption. rewrite C1. apply same_static_cupd.
  - destruct (apply_fail_core _ _ _ E) as (C1 & N1 & R1 & T1). constructor; try assumption.
    + unfold wf. rewrite C1, R1, N1. exact W.
    + rewrite C1. apply same_static_refl.
Qed.

Lemma unapplyBlock_frame : forall s x s', wf s -> c_unapplyBlock s x = Ok s' -> frame s s'.
Proof.
  intros s x s' W E. destruct (unapply_core _ _ _ W E) as (W1 & C1 & _ & R1 & T1 & _). constructor; try assumption.
  rewrite C1. apply same_static_cupd.
Qed.

Lemma unapplyBlock_runs : forall s x, wf s -> is_act (cores s) x -> x <> root _ _ s ->
    child_active ccmd (blocks _ _ s) x = false -> exists s', c_unapplyBlock s x = Ok s'.
Proof.
  intros s x W Hx Hxr Hnc. destruct (is_act_find _ _ Hx) as (b & Fb & Ab).
  assert (Hn : napp _ _ s <> 0%N).
  { destruct W as (ND & _ & _ & HN). apply (act_ids_in _ _ ND) in Hx. unfold act_ids in Hx. rewrite HN. unfold nact.
    destruct (filter e_act (cores s)); [destruct Hx|discriminate]. }
  destruct (wf_act_closed _ W) as (_ & _ & Cl). destruct (Cl _ _ Fb Ab Hxr) as (pb & Fpb & Apb).
  unfold c_unapplyBlock, unapplyBlock.
  rewrite Fb, (proj2 (N.eqb_neq _ _) Hxr), Ab, Fpb, Apb, Hnc, (proj2 (N.eqb_neq _ _) Hn). eexists. reflexivity.
Qed.

Lemma unapplyBlock_total : forall s cur, alone s cur -> cur <> root _ _ s ->
    exists s', c_unapplyBlock s cur = Ok s' /\ alone s' (parent (cores s) cur) /\ frame s s'.
Proof.
  intros s cur A Hr. pose proof (proj1 (alone_unfold _ _) A) as (W & Ta & Hn).
  destruct (is_act_find _ _ Ta) as (b & Fb & Ab).
  destruct (wf_act_closed _ W) as (_ & _ & Cl). destruct (Cl _ _ Fb Ab Hr) as (pb & Fpb & Apb).
  pose proof (hgt_parent_find _ _ _ W Fb Hr) as Hph.
  destruct (unapplyBlock_runs s cur W Ta Hr (no_active_child s cur cur A Hr (Z.le_refl _))) as (s' & E). exists s'. split; [exact E|].
  destruct (unapply_core _ _ _ W E) as (_ & C1 & N1 & _). pose proof (unapplyBlock_frame _ _ _ W E) as F.
  split; [|exact F]. rewrite (parent_find _ _ _ Fb). apply (applied_to_frame s s' _ F); [|lia].
  rewrite C1. apply is_act_cupd_other; [exact (find_is_act _ _ _ Fpb Apb)|right]. intro Heq. rewrite Heq in Hph. lia.
Qed.

Lemma uw_here : forall fuel s to pred, unapplyWhile pstate ccmd cunexec fuel s to to pred = Ok (s, to).
Proof. intros [|f] s to pred; cbn; rewrite N.eqb_refl; reflexivity. Qed.

Lemma uw_step : forall fuel s cur to pred bc bt,
    bfind (blocks _ _ s) cur = Some bc -> bfind (blocks _ _ s) to = Some bt -> b_h _ bt < b_h _ bc ->
    unapplyWhile pstate ccmd cunexec (S fuel) s cur to pred =
    if pred bc then s1 <- c_unapplyBlock s cur ;; unapplyWhile pstate ccmd cunexec fuel s1 (b_par _ bc) to pred else Ok (s, cur).
Proof.
  intros fuel s cur to pred bc bt Fc Ft Hlt. cbn [unapplyWhile].
  destruct (N.eqb_spec cur to) as [E|_]; [subst cur; rewrite Fc in Ft; inversion Ft; subst bt; lia|].
  rewrite Fc, Ft, (proj2 (Z.leb_gt _ _) Hlt). destruct (pred bc); reflexivity.
Qed.

Lemma unapply_of_uw : forall s a b s',
    unapplyWhile pstate ccmd cunexec (fuel_of _ _ s) s a b (fun _ => true) = Ok (s', b) -> unapply pstate ccmd cunexec s a b = Ok s'.
Proof. intros s a b s' E. unfold unapply. rewrite E. cbn. rewrite N.eqb_refl. reflexivity. Qed.

Lemma unapply_total : forall m s cur fuel,
    alone s cur -> scoh s -> Z.of_nat m <= dep s cur -> (m <= fuel)%nat ->
    exists s', unapplyWhile pstate ccmd cunexec fuel s cur (up (cores s) m cur) (fun _ => true) = Ok (s', up (cores s) m cur) /\
               alone s' (up (cores s) m cur) /\ frame s s'.
Proof.
  induction m as [|m IH]; intros s cur fuel A C Hm Hf.
  - exists s. split; [apply uw_here|split; [exact A|apply frame_refl; exact (proj1 A)]].
  - pose proof (proj1 (alone_unfold _ _) A) as (W & (e & He & _) & _).
    destruct (dep_facts s cur e W C He) as (_ & _ & Hmin).
    assert (Hr : cur <> root _ _ s) by (apply (Hmin O); lia).
    destruct (up_hgt_dep s cur e (S m) W C He Hm) as (Hh & (et & Het)).
    destruct (unapplyBlock_total s cur A Hr) as (s1 & E1 & A1 & F1).
    destruct fuel as [|f]; [lia|].
    destruct (core_find _ _ _ He) as (bc & Fc & _). destruct (core_find _ _ _ Het) as (bt & Ft & _).
    rewrite (uw_step f s cur _ _ bc bt Fc Ft) by (rewrite <- (hgt_find _ _ _ Fc), <- (hgt_find _ _ _ Ft); lia).
    rewrite E1, <- (parent_find _ _ _ Fc). cbn [bind].
    pose proof (fr_static _ _ F1) as S1.
    assert (Hd1 : Z.of_nat m <= dep s1 (parent (cores s) cur)).
    { destruct (dep_parent s cur e W He Hr) as (Dp & _). unfold dep in *. rewrite (fr_root _ _ F1), !(hgt_static _ _ _ S1). lia. }
    destruct (IH s1 (parent (cores s) cur) f A1 (scoh_unapply _ _ _ C E1) Hd1 ltac:(lia)) as (s' & E' & A' & F').
    rewrite (up_static _ _ m _ S1) in E', A'. exists s'. split; [exact E'|split; [exact A'|eapply frame_trans; eassumption]].
Qed.

Definition ginv (base : pstate) (s : cst) : Prop := winv s /\ canon base s /\ truthful base s.
Lemma ginv_apply : forall base s i s' ok, ginv base s -> c_applyBlock s i = Ok (s', ok) -> ginv base s'.
Proof.
  intros base s i s' ok (WI & C & T) H. split; [eapply winv_apply; eassumption|].
  split; [eapply canon_apply; eassumption|eapply truthful_apply; [exact (proj1 WI)|exact C|exact T|exact H]].
Qed.
Lemma ginv_unapply : forall base s i s', ginv base s -> c_unapplyBlock s i = Ok s' -> ginv base s'.
Proof.
  intros base s i s' (WI & C & T) H. split; [eapply winv_unapply; eassumption|].
  split; [eapply canon_unapply; eassumption|eapply truthful_unapply; eassumption].
Qed.
Lemma ginv_unapply_range : forall base s a b s', ginv base s -> unapply pstate ccmd cunexec s a b = Ok s' -> ginv base s'.
Proof. intros base s a b s'. apply (Inv_unapply_range pstate ccmd cunexec (ginv base) (ginv_unapply base)). Qed.

Lemma md_nobody_failed : forall s s' j b b', md nobody s s' ->
    bfind (blocks _ _ s) j = Some b -> bfind (blocks _ _ s') j = Some b' -> is_failed _ b' = is_failed _ b /\ b_lvl _ b' = b_lvl _ b.
Proof.
  intros s s' j b b' (_ & H) F F'. destruct (H j b b' F F') as (A & _ & C & D & E & G & I).
  split; [|destruct (N.eq_dec (b_lvl ccmd b) (b_lvl ccmd b')) as [e|n]; [symmetry; exact e|destruct (C n)]].
  unfold is_failed. rewrite A. f_equal; [f_equal|].
  - destruct (b_fp ccmd b); [apply D; reflexivity|]. destruct (b_fp ccmd b'); [|reflexivity]. destruct (E eq_refl) as [e|[]]. discriminate e.
  - destruct (b_fc ccmd b); [apply G; reflexivity|]. destruct (b_fc ccmd b'); [|reflexivity].
    destruct (I eq_refl) as [e|(x & k & [] & _)]. discriminate e.
Qed.

Lemma mem_app_l : forall x p e, mem x p = true -> mem x (p ++ e) = true.
Proof. intros x p e H. unfold mem in *. rewrite existsb_app, H. reflexivity. Qed.

Lemma cexec_mono : forall c p p' e, cexec c p = Some p' -> cexec c (p ++ e) = Some (p' ++ e).
Proof.
  intros [v par|en cn b|v|] p p' e H; cbn in *.
  - destruct (mem (IRef v) p || mem (IRef par) p) eqn:M; inversion H; subst.
    assert (mem (IRef v) (p ++ e) || mem (IRef par) (p ++ e) = true).
    { apply orb_true_iff in M. apply orb_true_iff. destruct M as [M|M]; [left|right]; apply mem_app_l; exact M. }
    rewrite H0. reflexivity.
  - destruct (mem (IRef b) p) eqn:M; inversion H; subst. rewrite (mem_app_l _ _ e M). reflexivity.
  - destruct (mem (IRef v) p) eqn:M; inversion H; subst. rewrite (mem_app_l _ _ e M). reflexivity.
  - discriminate.
Qed.
Lemma gexec_mono : forall todo done done' p p' e,
    gexec pstate ccmd cexec cunexec done todo p = (p', true) ->
    gexec pstate ccmd cexec cunexec done' todo (p ++ e) = (p' ++ e, true).
Proof.
  induction todo as [|c r IH]; intros done done' p p' e H; cbn in H |- *.
  - inversion H; subst. reflexivity.
  - destruct (cexec c p) as [p1|] eqn:E; [|discriminate]. rewrite (cexec_mono _ _ _ e E). eapply IH. exact H.
Qed.
Lemma gsexec_mono : forall todo done done' p p' e,
    gsexec pstate ccmd cexec cunexec done todo p = (p', true) ->
    gsexec pstate ccmd cexec cunexec done' todo (p ++ e) = (p' ++ e, true).
Proof.
  induction todo as [|g r IH]; intros done done' p p' e H; cbn in H |- *.
  - inversion H; subst. reflexivity.
  - destruct (group_execute pstate ccmd cexec cunexec g p) as [p1 ok] eqn:E. destruct ok; [|discriminate].
    unfold group_execute in *. rewrite (gexec_mono _ _ [] _ _ e E). eapply IH. exact H.
Qed.

Lemma NoDup_append : forall (A : Type) (l1 l2 : list A),
    NoDup l1 -> NoDup l2 -> (forall x, In x l1 -> In x l2 -> False) -> NoDup (l1 ++ l2).
Proof.
  intros A l1. induction l1 as [|x r IH]; intros l2 N1 N2 D; cbn; [exact N2|]. inversion N1 as [|? ? Hn N1']; subst.
  constructor.
  - intro Hin. apply in_app_or in Hin. destruct Hin as [Hin|Hin]; [exact (Hn Hin)|exact (D x (or_introl eq_refl) Hin)].
  - apply IH; [exact N1'|exact N2|]. intros y Hy1 Hy2. exact (D y (or_intror Hy1) Hy2).
Qed.

Lemma incl_perm_split : forall (A : Type) (Lp L : list A), NoDup Lp -> incl Lp L -> exists rest, Permutation L (Lp ++ rest).
Proof.
  intros A Lp. induction Lp as [|x r IH]; intros L ND Hi; [exists L; reflexivity|].
  inversion ND as [|? ? Hn ND']; subst.
  assert (Hx : In x L) by (apply Hi; left; reflexivity). apply in_split in Hx. destruct Hx as (l1 & l2 & ->).
  destruct (IH (l1 ++ l2) ND') as (rest & Hp).
  { intros y Hy. assert (In y (l1 ++ x :: l2)) by (apply Hi; right; exact Hy). apply in_app_or in H. apply in_or_app.
    destruct H as [H|[H|H]]; [left; exact H|subst; contradiction|right; exact H]. }
  exists rest. cbn. eapply perm_trans; [apply Permutation_sym; apply Permutation_middle|]. constructor. exact Hp.
Qed.

(** a block reported fully valid was executed on what its parent's chain makes of the bootstrap state; with that
    chain applied, P is that and more, and more items in P never make a command group fail *)
Lemma groups_succeed_sub : forall base s p x b,
    wf s -> scoh s -> canon base s -> truthful base s -> is_act (cores s) p ->
    bfind (blocks _ _ s) x = Some b -> b_par _ b = p -> x <> root _ _ s -> N.le L_FULL (b_lvl _ b) ->
    exists p', gsexec pstate ccmd cexec cunexec [] (b_gs _ b) (pst _ _ s) = (p', true).
Proof.
  intros base s p x b W K [CP _] T Hpa Fb Hp Hxr Hl.
  assert (Hd0 : 0 <= dep s p) by (destruct Hpa as (e & He & _); exact (proj1 (dep_facts s p e W K He))).
  destruct (find_some_in _ _ _ Fb) as [Hin Hid]. destruct (T b Hin (proj2 (N.leb_le _ _) Hl)) as (q & Hq). rewrite Hid in Hq.
  destruct (replay_parent base s x b q W Fb Hxr) as (pr & Hr & E); [rewrite Hp; unfold dep in Hd0; lia|exact Hq|]. rewrite Hp in Hr.
  destruct (anc_list_active s (depth s p) p W Hpa) as [AL NDp].
  { unfold depth. fold (dep s p). rewrite Z2Nat.id by exact Hd0. apply Z.le_refl. }
  assert (Hincl : incl (found s (anc_list (cores s) (depth s p) p)) (filter (b_act ccmd) (blocks _ _ s))).
  { intros b0 Hb0. unfold found in Hb0. apply in_flat_map in Hb0. destruct Hb0 as (j & Hj & Hb0).
    destruct (bfind (blocks pstate ccmd s) j) as [b1|] eqn:F1; [|destruct Hb0]. destruct Hb0 as [<-|[]].
    destruct (proj1 (AL j Hj)) as (e & He & Ha). rewrite (find_cfind _ _ _ F1) in He. injection He as <-.
    apply filter_In. split; [exact (proj1 (find_some_in _ _ _ F1))|exact Ha]. }
  destruct (incl_perm_split _ _ _ (found_nodup s _ NDp) Hincl) as (rest & HP).
  set (extra := flat_map (fun b0 => block_items (b_gs ccmd b0)) rest).
  assert (HPp : Permutation (pr ++ extra) (pst _ _ s)).
  { rewrite CP, active_items_filter, (flat_map_perm _ _ _ _ _ HP), flat_map_app, <- found_items.
    rewrite (replay_items _ _ _ Hr). unfold bgs. rewrite flat_map_rev_perm, <- !app_assoc.
    apply Permutation_app_head. apply Permutation_app_comm. }
  destruct (gsexec_perm _ [] [] _ _ _ HPp (gsexec_mono _ [] [] _ _ extra E)) as (q' & E' & _). exists q'. exact E'.
Qed.

Lemma applyBlock_alone : forall base s cur x b,
    alone s cur -> ginv base s ->
    bfind (blocks _ _ s) x = Some b -> b_par _ b = cur -> x <> root _ _ s ->
    N.le L_FULL (b_lvl _ b) -> is_failed _ b = false ->
    exists s', c_applyBlock s x = Ok (s', true) /\ alone s' x /\ ginv base s' /\ frame s s' /\ md nobody s s'.
Proof.
  intros base s cur x b A (WI & C & T) Fb Hp Hxr Hl Hnf. pose proof (proj1 (alone_unfold _ _) A) as (W & Ta & Hn).
  destruct (is_act_find _ _ Ta) as (pb & Fpb & Apb).
  pose proof (hgt_parent_find _ _ _ W Fb Hxr) as Hph. rewrite Hp in Hph.
  (* x is above cur: neither applied nor below an applied block *)
  assert (Hina : b_act ccmd b = false).
  { apply not_true_is_false. intro Ab. pose proof (alone_active _ _ _ A (find_is_act _ _ _ Fb Ab)). lia. }
  destruct (groups_succeed_sub base s cur x b W (proj2 WI) C T Ta Fb Hp Hxr Hl) as (p' & Eg).
  assert (E : exists s', c_applyBlock s x = Ok (s', true)).
  { unfold c_applyBlock, applyBlock. rewrite Fb, (proj2 (N.eqb_neq _ _) Hxr), Hp, Fpb, Apb. cbn [negb].
    rewrite Hina, (no_active_child s cur x A Hxr ltac:(lia)). pose proof Hnf as Hnf'. unfold is_failed in Hnf'. apply orb_false_iff in Hnf'.
    assert (Hc : N.ltb (b_lvl ccmd b) L_CONNECTED = false) by (apply N.ltb_ge; unfold L_CONNECTED, L_FULL in *; lia).
    rewrite (proj2 Hnf'), Hnf, Hc, Eg. cbn [negb].
    match goal with |- context [N.ltb (b_lvl ccmd b) ?u && _] => replace (N.ltb (b_lvl ccmd b) u) with false end.
    - eexists. reflexivity.
    - symmetry. apply N.ltb_ge. destruct (valid_upto ccmd pb L_FULL && _); unfold L_FULL, L_MAYBE in *; lia. }
  destruct E as (s' & E). exists s'. split; [exact E|].
  destruct (apply_ok_core _ _ _ W E) as (_ & C1 & N1 & _ & _ & (e0 & He0 & _)). pose proof (applyBlock_frame _ _ _ _ W E) as F.
  split; [|split; [eapply ginv_apply; [split; [exact WI|split; eassumption]|exact E]|split; [exact F|]]].
  - apply (applied_to_frame s s' _ F); [rewrite C1; exact (is_act_cupd_on _ _ _ He0)|lia].
  - apply (proj2 (md_apply_ok _ _ _ E)). exists b. split; [exact Fb|exact Hl].
Qed.

Definition okblk (s : cst) (x : N) : Prop :=
  x <> root _ _ s /\ exists b, bfind (blocks _ _ s) x = Some b /\ N.le L_FULL (b_lvl _ b) /\ is_failed _ b = false.

Lemma okblk_md : forall s s' x, md nobody s s' -> root _ _ s' = root _ _ s -> okblk s x -> okblk s' x.
Proof.
  intros s s' x M R (Hr & b & Fb & Hl & Hf). split; [rewrite R; exact Hr|].
  destruct (static_find _ _ x b (proj1 M) Fb) as (b' & Fb'). destruct (md_nobody_failed _ _ _ _ _ M Fb Fb') as [A B].
  exists b'. split; [exact Fb'|]. rewrite A, B. split; assumption.
Qed.

Lemma apply_path_alone : forall base path s from cur,
    alone s cur -> ginv base s -> linked (cores s) cur path -> (forall x, In x path -> okblk s x) ->
    exists s', apply_path pstate ccmd cexec cunexec s from path = Ok (s', true) /\ alone s' (last path cur) /\
               ginv base s' /\ frame s s' /\ md nobody s s'.
Proof.
  intros base path. induction path as [|x r IH]; intros s from cur A G L Hok.
  - exists s. cbn. split; [reflexivity|]. split; [exact A|]. split; [exact G|]. split; [apply frame_refl; exact (proj1 A)|apply md_refl].
  - destruct L as [(e & He & Hp) Lr]. destruct (Hok x (or_introl eq_refl)) as (Hxr & b & Fb & Hl & Hf).
    pose proof (find_cfind _ _ _ Fb) as Cb. rewrite He in Cb. inversion Cb; subst e. change (b_par ccmd b = cur) in Hp.
    destruct (applyBlock_alone base s cur x b A G Fb Hp Hxr Hl Hf) as (s1 & E1 & A1 & G1 & F1 & M1).
    assert (Hok1 : forall y, In y r -> okblk s1 y) by (intros y Hy; eapply okblk_md; [exact M1|exact (fr_root _ _ F1)|apply Hok; right; exact Hy]).
    destruct (IH s1 from x A1 G1 (linked_static _ _ _ _ (fr_static _ _ F1) Lr) Hok1) as (s' & E' & A' & G' & F' & M').
    exists s'. split.
    + cbn [apply_path]. change (applyBlock pstate ccmd cexec cunexec s x) with (c_applyBlock s x). rewrite E1. exact E'.
    + split; [|split; [exact G'|split; [eapply frame_trans; eassumption|eapply md_trans; eassumption]]].
      destruct r as [|y r']; [exact A'|]. change (last (x :: y :: r') cur) with (last (y :: r') cur).
      rewrite (last_cons_default r' y cur x). exact A'.
Qed.

Lemma path_up_seq : forall s n b,
    (forall i, (i < n)%nat -> exists e, cfind (cores s) (up (cores s) i b) = Some e) ->
    path_up ccmd (blocks _ _ s) n b = Some (map (fun i => up (cores s) i b) (seq 0 n)).
Proof.
  intros s n. induction n as [|n IH]; intros b H; [reflexivity|]. cbn [path_up].
  destruct (H O ltac:(lia)) as (e & He). destruct (core_find _ _ _ He) as (bb & Fb & _). cbn [up] in Fb. rewrite Fb.
  rewrite <- (parent_find _ _ _ Fb), IH.
  - cbn [option_map seq map]. rewrite <- seq_shift, map_map. reflexivity.
  - intros i Hi. exact (H (S i) ltac:(lia)).
Qed.

Lemma apply_as_path : forall s a b m ba bb bx,
    bfind (blocks _ _ s) a = Some ba -> bfind (blocks _ _ s) b = Some bb -> b_h _ bb = b_h _ ba + Z.of_nat (S m) ->
    (forall i, (i <= m)%nat -> exists e, cfind (cores s) (up (cores s) i b) = Some e) ->
    bfind (blocks _ _ s) (up (cores s) m b) = Some bx -> b_par _ bx = a ->
    apply pstate ccmd cexec cunexec s a b =
    if is_failed _ bb then Ok (s, false)
    else apply_path pstate ccmd cexec cunexec s a (rev (map (fun i => up (cores s) i b) (seq 0 (S m)))).
Proof.
  intros s a b m ba bb bx Fa Fb Hh Hfound Fx Px. unfold apply.
  assert (Hne : a <> b) by (intro E; subst b; rewrite Fa in Fb; injection Fb as <-; lia).
  rewrite (proj2 (N.eqb_neq _ _) Hne), Fa, Fb. destruct (is_failed ccmd bb); [reflexivity|].
  rewrite (proj2 (Z.ltb_lt _ _)) by lia. cbn [negb].
  replace (Z.to_nat (b_h ccmd bb - b_h ccmd ba)) with (S m) by lia.
  rewrite (path_up_seq s (S m) b) by (intros i Hi; apply Hfound; lia).
  rewrite seq_S, map_app, rev_app_distr. cbn [map rev app Nat.add]. rewrite Fx, Px, N.eqb_refl. reflexivity.
Qed.

Lemma apply_fwd : forall s a b m eb, wf s -> scoh s -> cfind (cores s) b = Some eb ->
    a = up (cores s) (S m) b -> Z.of_nat (S m) <= dep s b ->
    (forall bb, bfind (blocks _ _ s) b = Some bb -> is_failed _ bb = false) ->
    exists path, apply pstate ccmd cexec cunexec s a b = apply_path pstate ccmd cexec cunexec s a path /\
                 linked (cores s) a path /\ last path a = b /\
                 forall y, In y path -> exists i, (i <= m)%nat /\ y = up (cores s) i b.
Proof.
  intros s a b m eb W C Hb Ha Hm Hnf.
  assert (Hfound : forall i, (i <= S m)%nat -> hgt (cores s) (up (cores s) i b) = hgt (cores s) b - Z.of_nat i /\
                                               exists e, cfind (cores s) (up (cores s) i b) = Some e)
    by (intros i Hi; apply (up_hgt_dep s b eb i W C Hb); lia).
  destruct (Hfound (S m) (le_n _)) as (Hha & (ea & Hea)). rewrite <- Ha in Hha, Hea.
  destruct (Hfound m ltac:(lia)) as (_ & (ex & Hex)). destruct (core_find _ _ _ Hex) as (bx & Fx & _).
  assert (Hpx : b_par ccmd bx = a) by (rewrite Ha, up_succ_r; symmetry; apply parent_find; exact Fx).
  destruct (core_find _ _ _ Hea) as (ba & Fa & _). destruct (core_find _ _ _ Hb) as (bb & Fb & _).
  exists (rev (map (fun i => up (cores s) i b) (seq 0 (S m)))). split; [|split; [|split]].
  - rewrite (apply_as_path s a b m ba bb bx Fa Fb), (Hnf bb Fb); [reflexivity| |intros i Hi; apply Hfound; lia|exact Fx|exact Hpx].
    rewrite <- (hgt_find _ _ _ Fa), <- (hgt_find _ _ _ Fb). lia.
  - rewrite Ha, up_iter, (map_ext _ _ (fun i => up_iter (cores s) i b)). apply linked_iter.
    intros k Hk. rewrite <- up_iter. apply Hfound. lia.
  - cbn [seq map rev]. apply last_last.
  - intros y Hy. apply in_rev, in_map_iff in Hy. destruct Hy as (i & <- & Hi). apply in_seq in Hi. exists i. split; [lia|reflexivity].
Qed.

Lemma apply_alone_total : forall base s a b m eb,
    alone s a -> ginv base s -> scoh s -> cfind (cores s) b = Some eb ->
    a = up (cores s) m b -> Z.of_nat m <= dep s b ->
    (forall i, (i < m)%nat -> okblk s (up (cores s) i b)) ->
    exists s', apply pstate ccmd cexec cunexec s a b = Ok (s', true) /\ alone s' b /\ ginv base s' /\ frame s s' /\ md nobody s s'.
Proof.
  intros base s a b m eb A G C Hb Ha Hm Hok. pose proof (proj1 A : wf s) as W.
  destruct m as [|m].
  { cbn in Ha. subst a. exists s. unfold apply. rewrite N.eqb_refl. split; [reflexivity|]. split; [exact A|]. split; [exact G|].
    split; [apply frame_refl; exact W|apply md_refl]. }
  destruct (apply_fwd s a b m eb W C Hb Ha Hm) as (path & -> & L & Lb & Hin).
  { intros bb Fb. destruct (Hok O ltac:(lia)) as (_ & b0 & Fb0 & _ & Hf0). cbn in Fb0. rewrite Fb in Fb0. inversion Fb0; subst b0. exact Hf0. }
  destruct (apply_path_alone base path s a a A G L) as (s' & E' & A' & G' & F' & M').
  { intros y Hy. destruct (Hin y Hy) as (i & Hi & ->). apply Hok. lia. }
  exists s'. split; [exact E'|]. split; [rewrite Lb in A'; exact A'|]. split; [exact G'|split; assumption].
Qed.

Lemma anc_ok : forall s to bto u, wf s -> scoh s ->
    bfind (blocks _ _ s) to = Some bto -> valid_upto _ bto u = true ->
    forall i, Z.of_nat i <= dep s to ->
    exists b, bfind (blocks _ _ s) (up (cores s) i to) = Some b /\ N.le u (b_lvl _ b) /\ is_failed _ b = false.
Proof.
  intros s to bto u W C Fto Hv. pose proof (find_cfind _ _ _ Fto) as Cto.
  destruct (dep_facts s to _ W C Cto) as (_ & _ & Hmin).
  induction i as [|i IH]; intros Hi.
  - exists bto. split; [exact Fto|]. split; [exact (valid_upto_lvl _ _ Hv)|].
    unfold valid_upto in Hv. apply andb_prop in Hv. apply negb_true_iff. apply Hv.
  - destruct IH as (b & Fb & Hl & Hf); [lia|].
    assert (Hnr : up (cores s) i to <> root _ _ s) by (apply Hmin; lia).
    destruct (wf_closed s W _ _ (find_cfind _ _ _ Fb)) as (pe & Hpe). destruct (core_find _ _ _ Hpe) as (pb & Fpb & _).
    change (e_par (core b)) with (b_par ccmd b) in Fpb. rewrite up_succ_r, (parent_find _ _ _ Fb).
    exists pb. split; [exact Fpb|]. destruct C as (_ & _ & C1 & C2 & _). split.
    + specialize (C2 _ _ _ Fb Hnr Fpb). lia.
    + (* a failed parent would have left FAILED_CHILD on b *)
      apply not_true_is_false. intro Fp. pose proof (C1 _ _ _ Fb Hnr Fpb Fp) as Hfc.
      unfold is_failed in Hf. rewrite Hfc, !orb_true_r in Hf. discriminate.
Qed.

(** C20: re-activation. From every reachable state, setState to a block that is at the fully-valid level and not
    invalidated (neither itself nor - by coherence - any ancestor) returns true; no assert is hit on the way. *)
Theorem reactivation : forall base s to bto,
    reachable base s -> bfind (blocks _ _ s) to = Some bto -> valid_upto _ bto L_FULL = true ->
    exists s', c_setState s to = Ok (s', true).
Proof.
  intros base s to bto R Fto Hv. destruct (reachable_good _ _ R) as (Q & C & K & T & U).
  pose proof Q as (W & Ta & Hn). assert (G : ginv base s) by (split; [split; assumption|split; assumption]).
  destruct (is_act_find _ _ Ta) as (bt & Ft & At). pose proof (find_cfind _ _ _ Ft) as Ct. pose proof (find_cfind _ _ _ Fto) as Cto.
  unfold c_setState, setState. rewrite Ft, Fto.
  replace (Z.eqb (b_h ccmd bt + 1) (root_h pstate ccmd s + Z.of_N (napp pstate ccmd s))) with true
    by (symmetry; apply Z.eqb_eq; rewrite root_h_hgt, <- (hgt_find _ _ _ Ft); lia).
  cbn [negb]. destruct (N.eqb_spec (tip pstate ccmd s) to) as [Ett|Ett].
  { cbn [bind]. rewrite Fto, Hv. eexists. reflexivity. }
  pose proof (dep_bound s _ _ W K Ct) as Db1. destruct (dep_facts s _ _ W K Cto) as (_ & _ & Hmin2).
  destruct (lca_fuel s _ _ _ _ W K Ct Cto) as (fork & Hl & ka & kb & Hf1 & Hf2 & Ka & Kb & _).
  unfold sm_setState. rewrite (proj2 (N.eqb_neq _ _) Ett), Hl.
  destruct (unapply_total ka s (tip _ _ s) (fuel_of pstate ccmd s) Q K Ka) as (s1 & E1 & A1 & F1); [unfold fuel_of; lia|].
  rewrite <- Hf1 in E1, A1.
  pose proof (unapply_of_uw _ _ _ _ E1) as Eu.
  rewrite Eu. cbn [bind].
  pose proof (ginv_unapply_range _ _ _ _ _ G Eu) as G1. pose proof (md_unapply_range _ _ _ _ Eu) as M1.
  pose proof (fr_static _ _ F1) as S1.
  destruct (static_find _ _ to bto (proj1 M1) Fto) as (b1 & Fb1).
  assert (Hdep1 : dep s1 to = dep s to) by (unfold dep; rewrite (fr_root _ _ F1), !(hgt_static _ _ _ S1); reflexivity).
  destruct (apply_alone_total base s1 fork to kb _ A1 G1 (proj2 (proj1 G1)) (find_cfind _ _ _ Fb1)) as (s2 & E2 & A2 & G2 & F2 & M2).
  { rewrite (up_static _ _ kb to S1). exact Hf2. }
  { rewrite Hdep1. exact Kb. }
  { intros i Hi. rewrite (up_static _ _ i to S1). eapply okblk_md; [exact M1|exact (fr_root _ _ F1)|].
    split; [apply Hmin2; lia|]. apply (anc_ok s to bto _ W K Fto Hv). lia. }
  rewrite E2. cbn [bind].
  (* the target is still fully valid *)
  pose proof (md_trans _ _ _ _ M1 M2) as M12.
  destruct (static_find _ _ to bto (proj1 M12) Fto) as (b2 & Fb2). rewrite Fb2.
  destruct (md_nobody_failed _ _ _ _ _ M12 Fto Fb2) as [Hf Hlv].
  replace (valid_upto ccmd b2 L_FULL) with true by (unfold valid_upto in *; rewrite Hf, Hlv; symmetry; exact Hv).
  eexists. reflexivity.
Qed.
