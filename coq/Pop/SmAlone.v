(** C20 — the comparison clause as an invariant over ALL reachable states: the fully-valid level is carried only by
    blocks that were validated on their own ancestry alone. *)
From Coq Require Import List ZArith NArith Bool Lia.
Import ListNotations.
From VB Require Import Pop.SmDefs Pop.SmProofs Pop.SmWf Pop.SmTruth Pop.SmCmp Pop.SmAll Pop.SmCoh Pop.SmFull Pop.SmTree Pop.SmReact.
Local Open Scope Z_scope.

(** a block reporting full validity: every block of root..b is at the fully-valid level without a failure mark, and the
    bodies of root..b executed from the bootstrap state - nothing of any other chain present - all succeed *)
Theorem full_means_validated_alone : forall base s to bto,
    reachable base s -> bfind (blocks _ _ s) to = Some bto -> valid_upto _ bto L_FULL = true ->
    (forall i, Z.of_nat i <= dep s to ->
               exists b, bfind (blocks _ _ s) (up (cores s) i to) = Some b /\ N.le L_FULL (b_lvl _ b) /\ is_failed _ b = false) /\
    exists p', replay (bgs s (depth s to) to) base = Some p'.
Proof.
  intros base s to bto R F Hv. destruct (reachable_good _ _ R) as (Q & C & K & T & U). pose proof Q as (W & _).
  split; [exact (anc_ok s to bto _ W K F Hv)|].
  destruct (find_some_in _ _ _ F) as [Hin Hid]. rewrite <- Hid. apply U; [exact Hin|].
  apply N.leb_le. exact (valid_upto_lvl _ _ Hv).
Qed.

(** the comparison clause: a block whose own ancestry does NOT replay from the bootstrap state (e.g. a candidate whose
    payloads are valid only thanks to payloads of the competing chain, next to which comparePopScore applied it) is not
    at the fully-valid level in ANY reachable state - whatever comparisons, switches and failed switches happened *)
Theorem never_full_unless_valid_alone : forall base s b,
    reachable base s -> In b (blocks _ _ s) ->
    replay (bgs s (depth s (b_id _ b)) (b_id _ b)) base = None ->
    N.leb L_FULL (b_lvl _ b) = false.
Proof.
  intros base s b R Hin Hr. destruct (N.leb L_FULL (b_lvl ccmd b)) eqn:E; [|reflexivity].
  destruct (full_validity_truthful_all base s R b Hin E) as (p' & Hp). rewrite Hp in Hr. discriminate.
Qed.

(** non-vacuity: candidate 6 contains [Need 13]; 13 is delivered only by block 3 of the competing chain. A comparison
    applies 6 next to 3 (succeeds there), the candidate wins the score, is re-validated alone, fails, and ends below the
    fully-valid level - with FAILED_POP; its own-ancestry replay is None. *)
Definition ex_alone_ops : list op :=
  [OConnect 3 0 false [[AddRef 13 1]]; OConnect 6 0 false [[Need 13]]; OSetState 3;
   OCompare (Some 6%N) (fun _ _ => (-1)%Z) (fun _ _ => true)]%N.
Example never_full_example :
  match run (c_init 0 0 [IRef 1]%N) ex_alone_ops with
  | Ok s => match bfind (blocks _ _ s) 6%N with
            | Some b => (tip _ _ s, b_lvl _ b, b_fp _ b, b_act _ b, replay (bgs s (depth s 6%N) 6%N) [IRef 1]%N)
                        = (3%N, L_MAYBE, true, false, None)
            | None => False
            end
  | Abort _ => False
  end.
Proof. vm_compute. reflexivity. Qed.
