(** POP state machine — lemmas about the as-coded model (Pop/SmDefs.v). *)
From Coq Require Import List ZArith NArith Bool Permutation.
Import ListNotations.
From VB Require Import Pop.SmDefs Pop.SmOrder.

(* [H : bind e f = Ok _]: name the result of [e], drop the aborting case *)
Ltac dbind H :=
  match type of H with
  | bind ?e _ = Ok _ => let E := fresh "E" in destruct e eqn:E; cbn [bind] in H; [|discriminate]
  end.

Section Generic.
  Variable P : Type.
  Variable cmd : Type.
  Variable exec : cmd -> P -> option P.
  Variable unexec : cmd -> P -> P.
  Hypothesis inv_law : forall c p p', exec c p = Some p' -> unexec c p' = p.

  Notation undo := (undo P cmd unexec).
  Notation gexec := (gexec P cmd exec unexec).
  Notation group_execute := (group_execute P cmd exec unexec).
  Notation group_unexecute := (group_unexecute P cmd unexec).
  Notation gsundo := (gsundo P cmd unexec).
  Notation gsexec := (gsexec P cmd exec unexec).
  Notation st := (st P cmd).
  Notation blk := (blk cmd).

  Lemma undo_app : forall a b p, undo (a ++ b) p = undo b (undo a p).
  Proof. intros. unfold SmDefs.undo. apply fold_left_app. Qed.

  (* [done]: what has been executed so far, most recent first *)
  Lemma gexec_undo : forall todo done p p' ok,
      gexec done todo p = (p', ok) ->
      if ok then undo (rev todo ++ done) p' = undo done p else p' = undo done p.
  Proof.
    induction todo as [|c r IH]; intros done p p' ok H; cbn in H.
    - inversion H; subst. reflexivity.
    - destruct (exec c p) as [p1|] eqn:E; [|inversion H; subst; reflexivity].
      apply IH in H. cbn [rev]. rewrite <- app_assoc. cbn [app undo fold_left] in *.
      rewrite (inv_law _ _ _ E) in H. exact H.
  Qed.

  (** C02: CommandGroup::execute is atomic *)
  Lemma group_exec_atomic : forall g p p',
      group_execute g p = (p', false) -> p' = p.
  Proof. intros g p p' H. exact (gexec_undo _ _ _ _ _ H). Qed.

  Lemma group_unexec_exec : forall g p p',
      group_execute g p = (p', true) -> group_unexecute g p' = p.
  Proof. intros g p p' H. apply gexec_undo in H. rewrite app_nil_r in H. exact H. Qed.

  Lemma gsundo_app : forall a b p, gsundo (a ++ b) p = gsundo b (gsundo a p).
  Proof. intros. unfold SmDefs.gsundo. apply fold_left_app. Qed.

  (* the same one level up: groups for commands, group_execute / group_unexecute for exec / unexec *)
  Lemma gsexec_undo : forall todo done p p' ok,
      gsexec done todo p = (p', ok) ->
      if ok then gsundo (rev todo ++ done) p' = gsundo done p else p' = gsundo done p.
  Proof.
    induction todo as [|g r IH]; intros done p p' ok H; cbn in H.
    - inversion H; subst. reflexivity.
    - destruct (group_execute g p) as [p1 ok1] eqn:E. destruct ok1.
      + apply IH in H. cbn [rev]. rewrite <- app_assoc. cbn [app gsundo fold_left] in *.
        rewrite (group_unexec_exec _ _ _ E) in H. exact H.
      + apply group_exec_atomic in E. inversion H; subst. reflexivity.
  Qed.

  (** the command groups of a block: all or nothing, and unapplying restores P exactly *)
  Lemma block_groups_atomic : forall gs p p', gsexec [] gs p = (p', false) -> p' = p.
  Proof. intros gs p p' H. exact (gsexec_undo _ _ _ _ _ H). Qed.
  Lemma block_groups_inverse : forall gs p p', gsexec [] gs p = (p', true) -> gsundo (rev gs) p' = p.
  Proof. intros gs p p' H. apply gsexec_undo in H. rewrite app_nil_r in H. exact H. Qed.

  (** ** what never changes: ids, parents, heights, payloads; only marks *)
  Definition static (b : blk) : N * N * Z * list (list cmd) := (b_id _ b, b_par _ b, b_h _ b, b_gs _ b).
  (* everything but the FAILED_POP / FAILED_CHILD marks *)
  Definition strip (b : blk) : blk :=
    mkBlk cmd (b_id _ b) (b_par _ b) (b_h _ b) (b_lvl _ b) (b_fb _ b) false false (b_act _ b) (b_gs _ b).

  Lemma strip_upd_fp : forall l i, map strip (upd cmd l i (set_fp cmd)) = map strip l.
  Proof.
    intros. unfold upd. rewrite map_map. apply map_ext. intros b.
    destruct (N.eqb (b_id cmd b) i); reflexivity.
  Qed.
  Lemma strip_mark_desc : forall l x e, map strip (mark_desc cmd x e l) = map strip l.
  Proof.
    induction l as [|b r IH]; intros; cbn; [reflexivity|].
    destruct (N.eqb (b_par cmd b) x || existsb (N.eqb (b_par cmd b)) e); cbn; rewrite IH; reflexivity.
  Qed.

  (** ** the two block-level steps read backwards: the guards that were passed and the state that results.
      A block whose groups fail gets FAILED_POP and the marking pass of invalidateSubtree runs below it. *)
  Lemma applyBlock_inv : forall s i s' ok,
      applyBlock P cmd exec unexec s i = Ok (s', ok) ->
      exists b pb,
        find cmd (blocks _ _ s) i = Some b /\ i <> root _ _ s /\
        find cmd (blocks _ _ s) (b_par _ b) = Some pb /\ b_act _ pb = true /\
        b_act _ b = false /\ child_active cmd (blocks _ _ s) i = false /\
        if ok then
          exists p' lv, is_failed _ b = false /\ gsexec [] (b_gs _ b) (pst _ _ s) = (p', true) /\
            lv = (if valid_upto _ pb L_FULL && Z.eqb (b_h _ b) (root_h _ _ s + Z.of_N (napp _ _ s))
                  then L_FULL else L_MAYBE) /\
            (N.le lv (b_lvl _ b) \/ N.le lv (b_lvl _ pb)) /\
            s' = mkSt P cmd (upd cmd (blocks _ _ s) i (fun x => set_act cmd true (raise_lvl cmd lv x)))
                   (root _ _ s) (tip _ _ s) (N.succ (napp _ _ s)) p'
        else
          is_failed _ b = true /\ s' = s \/
          exists p', is_failed _ b = false /\ gsexec [] (b_gs _ b) (pst _ _ s) = (p', false) /\
            s' = with_blocks _ _ (with_pst _ _ s p') (mark_desc cmd i [] (upd cmd (blocks _ _ s) i (set_fp cmd))).
  Proof.
    intros s i s' ok H. unfold applyBlock in H.
    destruct (find cmd (blocks P cmd s) i) as [b|] eqn:Fi; [|discriminate].
    destruct (N.eqb i (root P cmd s)) eqn:R; [discriminate|]. apply N.eqb_neq in R.
    destruct (find cmd (blocks P cmd s) (b_par cmd b)) as [pb|] eqn:Fp; [|discriminate].
    destruct (b_act cmd pb) eqn:Pa; [|discriminate].
    destruct (b_act cmd b) eqn:Ha; [discriminate|].
    destruct (child_active cmd (blocks P cmd s) i) eqn:CA; [discriminate|].
    exists b, pb. do 6 (split; [reflexivity || assumption|]). cbn [negb] in H.
    destruct (b_fc cmd b); [discriminate|].
    destruct (is_failed cmd b) eqn:Hf.
    { inversion H; subst. left. split; reflexivity. }
    destruct (N.ltb (b_lvl cmd b) L_CONNECTED); [discriminate|].
    destruct (gsexec [] (b_gs cmd b) (pst P cmd s)) as [p' ok'].
    destruct ok'; cbn [negb] in H.
    - destruct (N.ltb (b_lvl cmd b) _ && N.ltb (b_lvl cmd pb) _) eqn:Hr; [discriminate|].
      apply andb_false_iff in Hr. rewrite !N.ltb_ge in Hr.
      inversion H; subst. eexists p', _. repeat split. exact Hr.
    - unfold invalidate_pop in H. cbn [blocks with_pst] in H. rewrite Fi, Hf in H.
      destruct (b_fp cmd b) eqn:Hfp; [unfold is_failed in Hf; rewrite Hfp, orb_true_r in Hf; discriminate|].
      destruct (on_active_chain P cmd _ i); [discriminate|].
      destruct (N.eqb (b_lvl cmd b) L_FULL); cbn in H; inversion H. right. exists p'. repeat split.
  Qed.

  Lemma unapplyBlock_inv : forall s i s',
      unapplyBlock P cmd unexec s i = Ok s' ->
      exists b pb,
        find cmd (blocks _ _ s) i = Some b /\ i <> root _ _ s /\ b_act _ b = true /\
        find cmd (blocks _ _ s) (b_par _ b) = Some pb /\ b_act _ pb = true /\
        child_active cmd (blocks _ _ s) i = false /\ napp _ _ s <> 0%N /\
        s' = mkSt P cmd (upd cmd (blocks _ _ s) i (set_act cmd false)) (root _ _ s) (tip _ _ s)
               (N.pred (napp _ _ s)) (gsundo (rev (b_gs _ b)) (pst _ _ s)).
  Proof.
    intros s i s' H. unfold unapplyBlock in H.
    destruct (find cmd (blocks P cmd s) i) as [b|] eqn:Fi; [|discriminate].
    destruct (N.eqb i (root P cmd s)) eqn:R; [discriminate|]. apply N.eqb_neq in R.
    destruct (b_act cmd b) eqn:Ha; [|discriminate].
    destruct (find cmd (blocks P cmd s) (b_par cmd b)) as [pb|] eqn:Fp; [|discriminate].
    destruct (b_act cmd pb) eqn:Pa; [|discriminate].
    destruct (child_active cmd (blocks P cmd s) i) eqn:CA; [discriminate|].
    destruct (N.eqb (napp P cmd s) 0) eqn:N0; [discriminate|]. apply N.eqb_neq in N0.
    inversion H. exists b, pb. repeat split; assumption.
  Qed.

  (** C02: applyBlock is atomic — a failing block leaves P, the applied count and the tip untouched, and
      changes nothing in the tree but FAILED_POP / FAILED_CHILD marks *)
  Lemma applyBlock_atomic : forall s i s',
      applyBlock P cmd exec unexec s i = Ok (s', false) ->
      pst _ _ s' = pst _ _ s /\ napp _ _ s' = napp _ _ s /\ tip _ _ s' = tip _ _ s /\ root _ _ s' = root _ _ s /\
      map strip (blocks _ _ s') = map strip (blocks _ _ s).
  Proof.
    intros s i s' H.
    destruct (applyBlock_inv _ _ _ _ H) as (b & _ & _ & _ & _ & _ & _ & _ & [[_ ->]|(p' & _ & E & ->)]); [auto|].
    apply block_groups_atomic in E. subst p'. cbn. rewrite strip_mark_desc, strip_upd_fp. auto.
  Qed.

  (** comparator.setState read backwards; its test [tip = to] repeats the first test of sm_setState *)
  Lemma setState_inv : forall s to s' ok,
      setState P cmd exec unexec s to = Ok (s', ok) ->
      exists s1 bto,
        sm_setState P cmd exec unexec s (tip _ _ s) to = Ok (s1, ok) /\
        find cmd (blocks _ _ s1) to = Some bto /\
        if ok then valid_upto cmd bto L_FULL = true /\
                   s' = mkSt P cmd (blocks _ _ s1) (root _ _ s1) to (chain_count _ _ s1 to) (pst _ _ s1)
        else is_failed cmd bto = true /\ napp _ _ s1 = chain_count _ _ s1 (tip _ _ s1) /\ s' = s1.
  Proof.
    intros s to s' ok H. unfold setState in H.
    destruct (find cmd (blocks P cmd s) (tip P cmd s)) as [bt|]; [|discriminate].
    destruct (find cmd (blocks P cmd s) to) as [b0|]; [|discriminate].
    destruct (negb _); [discriminate|].
    dbind H. destruct a as [s1 ok1].
    assert (E1 : sm_setState P cmd exec unexec s (tip _ _ s) to = Ok (s1, ok1)).
    { unfold sm_setState in *. destruct (N.eqb (tip P cmd s) to); exact E. }
    destruct (find cmd (blocks P cmd s1) to) as [bto|] eqn:Fto; [|discriminate].
    exists s1, bto. destruct ok1.
    - destruct (valid_upto cmd bto L_FULL); inversion H; subst. repeat split; assumption.
    - destruct (is_failed cmd bto); [|discriminate]. cbn [negb] in H.
      destruct (N.eqb (napp P cmd s1) _) eqn:C; inversion H; subst. apply N.eqb_eq in C. repeat split; assumption.
  Qed.

  (** unapplyWhile by its outcomes: stops at the target; stops at a block above it that fails [pred]; unapplies [cur]
      and goes on from its parent *)
  Lemma unapplyWhile_ind : forall to pred (R : st -> N -> st -> N -> Prop),
      (forall s, R s to s to) ->
      (forall s cur bc bt, find cmd (blocks _ _ s) cur = Some bc -> find cmd (blocks _ _ s) to = Some bt ->
                           (b_h _ bt < b_h _ bc)%Z -> pred bc = false -> R s cur s cur) ->
      (forall s cur bc s1 s' w, find cmd (blocks _ _ s) cur = Some bc -> unapplyBlock P cmd unexec s cur = Ok s1 ->
                                R s1 (b_par _ bc) s' w -> R s cur s' w) ->
      forall fuel s cur s' w, unapplyWhile P cmd unexec fuel s cur to pred = Ok (s', w) -> R s cur s' w.
  Proof.
    intros to pred R Hto Hstop Hstep.
    induction fuel as [|f IH]; intros s cur s' w H; cbn in H; destruct (N.eqb cur to) eqn:E.
    1, 3: apply N.eqb_eq in E; inversion H; subst; apply Hto.
    - discriminate.
    - destruct (find cmd (blocks P cmd s) cur) as [bc|] eqn:Fc; [|discriminate].
      destruct (find cmd (blocks P cmd s) to) as [bt|] eqn:Ft; [|discriminate].
      destruct (Z.leb (b_h cmd bc) (b_h cmd bt)) eqn:Hle; [discriminate|]. apply Z.leb_gt in Hle.
      destruct (pred bc) eqn:Hp; cbn [negb] in H.
      + dbind H. exact (Hstep _ _ _ _ _ _ Fc E0 (IH _ _ _ _ H)).
      + inversion H; subst. exact (Hstop _ _ _ _ Fc Ft Hle Hp).
  Qed.

  (** ** lifting: whatever every block-level step preserves is preserved by every compound operation
      (unapplyWhile / unapply / apply / PopStateMachine::setState / setState / comparePopScore), for ANY tree and
      ANY outcome. No reasoning about the shape of the tree is needed. *)
  Section Lift.
    Variable Inv : st -> Prop.
    Hypothesis Inv_apply : forall s i s' ok, Inv s -> applyBlock P cmd exec unexec s i = Ok (s', ok) -> Inv s'.
    Hypothesis Inv_unapply : forall s i s', Inv s -> unapplyBlock P cmd unexec s i = Ok s' -> Inv s'.
    (* the invariant does not mention the tip pointer and the applied counter *)
    Hypothesis Inv_tip : forall s t n, Inv s -> Inv (mkSt P cmd (blocks _ _ s) (root _ _ s) t n (pst _ _ s)).

    Lemma Inv_unapplyWhile : forall fuel s cur to pred s' w,
        Inv s -> unapplyWhile P cmd unexec fuel s cur to pred = Ok (s', w) -> Inv s'.
    Proof.
      intros fuel s cur to pred s' w HI H.
      refine (unapplyWhile_ind to pred (fun s _ s' _ => Inv s -> Inv s') _ _ _ fuel s cur s' w H HI); auto.
      intros s0 c bc s1 s2 w0 _ E IH HI0. exact (IH (Inv_unapply _ _ _ HI0 E)).
    Qed.

    Lemma Inv_unapply_range : forall s a b s', Inv s -> unapply P cmd unexec s a b = Ok s' -> Inv s'.
    Proof.
      intros s a b s' HI H. unfold unapply in H. dbind H. destruct a0 as [s1 w]. cbn in H.
      destruct (N.eqb w b); inversion H; subst. eapply Inv_unapplyWhile; eassumption.
    Qed.

    Lemma Inv_apply_path : forall path s from s' ok,
        Inv s -> apply_path P cmd exec unexec s from path = Ok (s', ok) -> Inv s'.
    Proof.
      induction path as [|x r IH]; intros s from s' ok HI H; cbn in H.
      - inversion H; subst. exact HI.
      - dbind H. destruct a as [s1 ok1]. pose proof (Inv_apply _ _ _ _ HI E) as HI1.
        destruct ok1.
        + eapply IH; eassumption.
        + destruct (find cmd (blocks P cmd s1) x) as [bx|]; [|discriminate].
          dbind H. inversion H; subst. eapply Inv_unapply_range; eassumption.
    Qed.

    Lemma Inv_apply_range : forall s a b s' ok,
        Inv s -> apply P cmd exec unexec s a b = Ok (s', ok) -> Inv s'.
    Proof.
      intros s a b s' ok HI H. unfold apply in H.
      destruct (N.eqb a b); [inversion H; subst; exact HI|].
      destruct (find cmd (blocks P cmd s) a) as [bf|]; [|discriminate].
      destruct (find cmd (blocks P cmd s) b) as [bt|]; [|discriminate].
      destruct (is_failed cmd bt); [inversion H; subst; exact HI|].
      destruct (negb (Z.ltb (b_h cmd bf) (b_h cmd bt))); [discriminate|].
      destruct (path_up cmd (blocks P cmd s) _ b) as [up|]; [|discriminate].
      destruct (rev up) as [|x r]; [discriminate|].
      destruct (find cmd (blocks P cmd s) x) as [bx|]; [|discriminate].
      destruct (N.eqb (b_par cmd bx) a); [|discriminate].
      eapply Inv_apply_path; eassumption.
    Qed.

    Lemma Inv_sm_setState : forall s a b s' ok,
        Inv s -> sm_setState P cmd exec unexec s a b = Ok (s', ok) -> Inv s'.
    Proof.
      intros s a b s' ok HI H. unfold sm_setState in H.
      destruct (N.eqb a b); [inversion H; subst; exact HI|].
      destruct (lca cmd (blocks P cmd s) _ a b) as [fork|]; [|discriminate].
      dbind H. pose proof (Inv_unapply_range _ _ _ _ HI E) as H1.
      dbind H. destruct a1 as [s2 ok2]. pose proof (Inv_apply_range _ _ _ _ _ H1 E0) as H2.
      destruct ok2; [inversion H; subst; exact H2|].
      dbind H. destruct a1 as [s3 ok3]. pose proof (Inv_apply_range _ _ _ _ _ H2 E1) as H3.
      destruct ok3; inversion H; subst. exact H3.
    Qed.

    Lemma Inv_setState : forall s to s' ok,
        Inv s -> setState P cmd exec unexec s to = Ok (s', ok) -> Inv s'.
    Proof.
      intros s to s' ok HI H. destruct (setState_inv _ _ _ _ H) as (s1 & bto & E & _ & Hs').
      apply (Inv_sm_setState _ _ _ _ _ HI) in E.
      destruct ok; [destruct Hs' as [_ ->]; apply Inv_tip|destruct Hs' as (_ & _ & ->)]; exact E.
    Qed.

    Variable score : st -> N -> Z.
    Variable crossed : Z -> Z -> bool.
    (* comparePopScore only moves the tip pointer (activeChain_.setTip), the counter is untouched *)
    Hypothesis Inv_tip_only : forall s t, Inv s -> Inv (mkSt P cmd (blocks _ _ s) (root _ _ s) t (napp _ _ s) (pst _ _ s)).

    Lemma Inv_compare_fork : forall s c bc bt s' r,
        Inv s -> compare_fork P cmd exec unexec score crossed s c bc bt = Ok (s', r) -> Inv s'.
    Proof.
      intros s c bc bt s' r HI H. unfold compare_fork in H.
      destruct (lca cmd (blocks P cmd s) _ (tip P cmd s) c) as [fork|]; [|discriminate].
      destruct (find cmd (blocks P cmd s) fork) as [bf|]; [|discriminate].
      destruct (negb (crossed _ _) && negb (crossed _ _)); [inversion H; subst; exact HI|].
      dbind H. destruct a as [s1 ok]. pose proof (Inv_apply_range _ _ _ _ _ HI E) as H1.
      destruct ok; cbn [negb] in H; [|inversion H; subst; exact H1].
      destruct (Z.leb 0 (score s1 c)).
      - dbind H. inversion H; subst. eapply Inv_unapply_range; eassumption.
      - dbind H. destruct a as [s2 vf]. pose proof (Inv_unapplyWhile _ _ _ _ _ _ _ H1 E0) as H2.
        dbind H. pose proof (Inv_unapply_range _ _ _ _ H2 E1) as H3.
        dbind H. destruct a0 as [s4 ok2]. pose proof (Inv_apply_range _ _ _ _ _ H3 E2) as H4.
        destruct ok2; [inversion H; subst; apply Inv_tip_only; exact H4|].
        dbind H. pose proof (Inv_unapply_range _ _ _ _ H4 E3) as H5.
        dbind H. destruct a1 as [s6 ok3]. pose proof (Inv_apply_range _ _ _ _ _ H5 E4) as H6.
        destruct ok3; inversion H; subst. exact H6.
    Qed.

    Lemma Inv_compare : forall s c s' r,
        Inv s -> compare P cmd exec unexec score crossed s c = Ok (s', r) -> Inv s'.
    Proof.
      intros s c s' r HI H. unfold compare in H.
      destruct c as [c|]; [|inversion H; subst; exact HI].
      destruct (find cmd (blocks P cmd s) c) as [bc|]; [|discriminate].
      destruct (find cmd (blocks P cmd s) (tip P cmd s)) as [bt|]; [|discriminate].
      destruct (is_failed cmd bc); [inversion H; subst; exact HI|].
      destruct (N.eqb (tip P cmd s) c); [inversion H; subst; exact HI|].
      destruct (on_active_chain P cmd s c); [inversion H; subst; exact HI|].
      destruct (anc_at cmd (blocks P cmd s) _ c (b_h cmd bt)) as [a|].
      - destruct (N.eqb a (tip P cmd s)).
        + dbind H. destruct a0 as [s1 ok]. pose proof (Inv_apply_range _ _ _ _ _ HI E) as H1.
          destruct ok; inversion H; subst; [apply Inv_tip_only|]; exact H1.
        + eapply Inv_compare_fork; eassumption.
      - eapply Inv_compare_fork; eassumption.
    Qed.
  End Lift.
End Generic.

Lemma cinv_law : forall c p p', cexec c p = Some p' -> cunexec c p' = p.
Proof. intros c p p' H. exact (cunexec_under_later c p p' [] H (fun _ _ => eq_refl)). Qed.

Definition cmd_items (c : ccmd) : list item :=
  match c with AddRef v _ => [IRef v] | AddEnd e c b => [IEnd e c b] | _ => [] end.
Definition group_items (g : list ccmd) : list item := flat_map cmd_items g.
Definition block_items (gs : list (list ccmd)) : list item := flat_map group_items gs.
(** what the applied blocks contribute to the protecting state *)
Definition active_items (l : list (blk ccmd)) : list item :=
  flat_map (fun b => if b_act _ b then block_items (b_gs _ b) else []) l.

(** executing puts the items of the commands in front of P, newest first *)
Lemma cexec_items : forall c p p', cexec c p = Some p' -> p' = rev (cmd_items c) ++ p.
Proof.
  intros [v par|e c b|v|] p p' H; cbn in H.
  - destruct (mem (IRef v) p || mem (IRef par) p); inversion H; reflexivity.
  - destruct (mem (IRef b) p); inversion H; reflexivity.
  - destruct (mem (IRef v) p); inversion H; reflexivity.
  - discriminate.
Qed.
Lemma gexec_items : forall todo done p p',
    gexec pstate ccmd cexec cunexec done todo p = (p', true) -> p' = rev (group_items todo) ++ p.
Proof.
  induction todo as [|c r IH]; intros done p p' H; cbn in H.
  - inversion H; reflexivity.
  - destruct (cexec c p) as [p1|] eqn:E; [|discriminate].
    apply IH in H. apply cexec_items in E. subst. cbn [group_items flat_map].
    rewrite rev_app_distr, <- app_assoc. reflexivity.
Qed.
Lemma gsexec_items : forall todo done p p',
    gsexec pstate ccmd cexec cunexec done todo p = (p', true) -> p' = rev (block_items todo) ++ p.
Proof.
  induction todo as [|g r IH]; intros done p p' H; cbn in H.
  - inversion H; reflexivity.
  - destruct (group_execute pstate ccmd cexec cunexec g p) as [p1 ok] eqn:E. destruct ok; [|discriminate].
    apply IH in H. apply gexec_items in E. subst. cbn [block_items flat_map].
    rewrite rev_app_distr, <- app_assoc. reflexivity.
Qed.

(** un-executing takes them out again, wherever they stand: up to order, from any P that holds them *)
Lemma remove1_perm : forall x l l', Permutation l l' -> Permutation (remove1 x l) (remove1 x l').
Proof.
  intros x l l' H. induction H as [|y l l' H IH|y z l|l l' l'' H1 IH1 H2 IH2]; cbn.
  - constructor.
  - destruct (item_eqb x y); [exact H|constructor; exact IH].
  - destruct (item_eqb x y) eqn:Ey, (item_eqb x z) eqn:Ez; try reflexivity; [|apply perm_swap].
    apply item_eqb_eq in Ey, Ez. subst. reflexivity.
  - eapply perm_trans; eassumption.
Qed.
Lemma remove1_perm_cons : forall x p q, Permutation p (x :: q) -> Permutation (remove1 x p) q.
Proof. intros x p q H. apply (remove1_perm x) in H. cbn in H. rewrite item_eqb_refl in H. exact H. Qed.
Lemma flat_map_rev_perm : forall (A B : Type) (f : A -> list B) l, Permutation (flat_map f (rev l)) (flat_map f l).
Proof. intros. apply Permutation_flat_map. symmetry. apply Permutation_rev. Qed.

(* the shape shared by [group_unexecute g = undo (rev g)] over commands and [gsundo (rev gs)] over groups *)
Lemma unexec_rev_perm : forall (A : Type) (un : A -> pstate -> pstate) (items : A -> list item),
    (forall a p q, Permutation p (items a ++ q) -> Permutation (un a p) q) ->
    forall l p q, Permutation p (flat_map items l ++ q) -> Permutation (fold_left (fun r a => un a r) (rev l) p) q.
Proof.
  intros A un items Hun l p q H. rewrite <- (flat_map_rev_perm _ _ items l) in H.
  revert p H. induction (rev l) as [|a r IH]; intros p H; cbn in *; [exact H|].
  apply IH, Hun. rewrite app_assoc. exact H.
Qed.
Lemma block_undo_perm : forall gs p q,
    Permutation p (block_items gs ++ q) -> Permutation (gsundo pstate ccmd cunexec (rev gs) p) q.
Proof.
  apply (unexec_rev_perm _ (group_unexecute pstate ccmd cunexec) group_items).
  apply (unexec_rev_perm _ cunexec cmd_items).
  intros c p q H. destruct c; cbn in *; try exact H; apply remove1_perm_cons; exact H.
Qed.

(** ** the canonical-state invariant (C01) *)
Notation cblk := (blk ccmd).
Definition ids (l : list cblk) : list N := map (b_id ccmd) l.

Lemma find_in_ids : forall (l : list cblk) i b, find ccmd l i = Some b -> b_id _ b = i /\ In i (ids l).
Proof.
  induction l as [|h r IH]; intros i b H; cbn in H; [discriminate|].
  destruct (N.eqb (b_id ccmd h) i) eqn:E.
  - inversion H; subst. apply N.eqb_eq in E. split; [exact E|left; exact E].
  - apply IH in H. destruct H. split; [assumption|right; assumption].
Qed.
Lemma find_none_notin : forall (l : list cblk) i, find ccmd l i = None -> ~ In i (ids l).
Proof.
  induction l as [|h r IH]; intros i H; cbn in *; [tauto|].
  destruct (N.eqb (b_id ccmd h) i) eqn:E; [discriminate|].
  apply N.eqb_neq in E. intros [A|A]; [contradiction|]. exact (IH _ H A).
Qed.
Lemma upd_notin : forall (l : list cblk) i f, ~ In i (ids l) -> upd ccmd l i f = l.
Proof.
  induction l as [|h r IH]; intros i f H; cbn in *; [reflexivity|].
  destruct (N.eqb (b_id ccmd h) i) eqn:E.
  - apply N.eqb_eq in E. tauto.
  - f_equal. apply IH. tauto.
Qed.
Lemma ids_upd : forall (l : list cblk) i f, (forall x, b_id _ (f x) = b_id _ x) -> ids (upd ccmd l i f) = ids l.
Proof.
  intros l i f Hf. unfold ids, upd. rewrite map_map. apply map_ext. intros x.
  destruct (N.eqb (b_id ccmd x) i); [apply Hf|reflexivity].
Qed.
Lemma find_upd_same : forall (l : list cblk) i f b,
    (forall x, b_id _ (f x) = b_id _ x) -> find ccmd l i = Some b -> find ccmd (upd ccmd l i f) i = Some (f b).
Proof.
  induction l as [|h r IH]; intros i f b Hf H; cbn in *; [discriminate|].
  destruct (N.eqb (b_id ccmd h) i) eqn:E.
  - inversion H; subst. rewrite Hf, E. reflexivity.
  - rewrite E. apply IH; assumption.
Qed.

(* replacing block i by [f b] exchanges its contribution, whichever way ACTIVE is switched *)
Lemma active_items_upd : forall (l : list cblk) i b f,
    NoDup (ids l) -> find ccmd l i = Some b ->
    Permutation ((if b_act _ b then block_items (b_gs _ b) else []) ++ active_items (upd ccmd l i f))
                ((if b_act _ (f b) then block_items (b_gs _ (f b)) else []) ++ active_items l).
Proof.
  induction l as [|h r IH]; intros i b f ND Hf; cbn in Hf; [discriminate|].
  inversion ND as [|? ? Hn ND']; subst. cbn [upd map active_items flat_map].
  destruct (N.eqb (b_id ccmd h) i) eqn:E.
  - inversion Hf; subst. apply N.eqb_eq in E. subst i.
    fold (upd ccmd r (b_id ccmd b) f). rewrite upd_notin by exact Hn. apply Permutation_app_swap_app.
  - fold (upd ccmd r i f) (active_items (upd ccmd r i f)) (active_items r).
    rewrite Permutation_app_swap_app, (IH _ _ f ND' Hf). apply Permutation_app_swap_app.
Qed.

Lemma active_items_strip : forall l : list cblk, active_items (map (strip ccmd) l) = active_items l.
Proof. intros. unfold active_items. rewrite flat_map_concat_map, map_map, <- flat_map_concat_map. reflexivity. Qed.
Lemma ids_strip : forall l : list cblk, ids (map (strip ccmd) l) = ids l.
Proof. intros. unfold ids. rewrite map_map. reflexivity. Qed.

Definition canon (base : pstate) (s : cst) : Prop :=
  Permutation (pst _ _ s) (active_items (blocks _ _ s) ++ base) /\ NoDup (ids (blocks _ _ s)).

Lemma canon_apply : forall base s i s' ok,
    canon base s -> c_applyBlock s i = Ok (s', ok) -> canon base s'.
Proof.
  intros base s i s' ok [HP ND] H. destruct ok.
  - destruct (applyBlock_inv _ _ _ _ _ _ _ _ H) as (b & pb & Fi & _ & _ & _ & Ha & _ & p' & lv & _ & E & _ & _ & ->).
    apply gsexec_items in E. subst p'. split; cbn [pst blocks]; [|rewrite ids_upd by reflexivity; exact ND].
    pose proof (active_items_upd _ _ _ (fun x => set_act ccmd true (raise_lvl ccmd lv x)) ND Fi) as HA.
    cbn in HA. rewrite Ha in HA. cbn in HA. rewrite HA, <- app_assoc, <- Permutation_rev.
    apply Permutation_app_head. exact HP.
  - apply applyBlock_atomic in H; [|exact cinv_law].
    destruct H as (Hp & _ & _ & _ & Hs). split.
    + rewrite Hp. rewrite <- (active_items_strip (blocks _ _ s')), Hs, active_items_strip. exact HP.
    + rewrite <- (ids_strip (blocks _ _ s')), Hs, ids_strip. exact ND.
Qed.

Lemma canon_unapply : forall base s i s', canon base s -> c_unapplyBlock s i = Ok s' -> canon base s'.
Proof.
  intros base s i s' [HP ND] H.
  destruct (unapplyBlock_inv _ _ _ _ _ _ H) as (b & _ & Fi & _ & Ha & _ & _ & _ & _ & ->).
  split; cbn [pst blocks]; [|rewrite ids_upd by reflexivity; exact ND].
  apply block_undo_perm. rewrite HP, app_assoc. apply Permutation_app_tail.
  pose proof (active_items_upd _ _ _ (set_act ccmd false) ND Fi) as HA.
  cbn in HA. rewrite Ha in HA. symmetry. exact HA.
Qed.

Lemma NoDup_snoc : forall (A : Type) (l : list A) x, NoDup l -> ~ In x l -> NoDup (l ++ [x]).
Proof. intros A l x ND Hn. eapply Permutation_NoDup; [apply Permutation_cons_append|constructor; assumption]. Qed.

Lemma canon_connect : forall base s i par dup gs s', canon base s -> c_connect s i par dup gs = Ok s' -> canon base s'.
Proof.
  intros base s i par dup gs s' [HP ND] H. unfold c_connect, connect in H.
  destruct (find ccmd (blocks pstate ccmd s) par) as [pb|]; [|discriminate].
  destruct (find ccmd (blocks pstate ccmd s) i) eqn:Fi; [discriminate|].
  inversion H; subst; clear H. split; cbn.
  - unfold active_items. rewrite flat_map_app. cbn. rewrite app_nil_r. exact HP.
  - unfold ids. rewrite map_app. cbn. apply find_none_notin in Fi.
    apply NoDup_snoc; assumption.
Qed.

Lemma canon_init : forall r h base, canon base (c_init r h base).
Proof. intros. split; cbn; [reflexivity|]. constructor; [intros []|constructor]. Qed.

Inductive op : Type :=
| OConnect (i par : N) (dup : bool) (gs : list (list ccmd))          (* acceptBlock -> connectBlock *)
| OSetState (to : N)
| OCompare (cand : option N) (score : cst -> N -> Z) (crossed : Z -> Z -> bool).   (* any scorer *)

Definition step_op (s : cst) (o : op) : res cst :=
  match o with
  | OConnect i par dup gs => c_connect s i par dup gs
  | OSetState to => r <- c_setState s to ;; Ok (fst r)
  | OCompare c sc cr => r <- c_compare sc cr s c ;; Ok (fst r)
  end.
Fixpoint run (s : cst) (ops : list op) : res cst :=
  match ops with
  | [] => Ok s
  | o :: r => s1 <- step_op s o ;; run s1 r
  end.
(** reachable from the bootstrapped tree (root r at height h, bootstrap protecting state [base]) *)
Definition reachable (base : pstate) (s : cst) : Prop := exists r h ops, run (c_init r h base) ops = Ok s.

(** what the three operations preserve holds along a history; [cmp] says whether comparisons are known to preserve
    it, and a history may contain them only then *)
Section Run.
  Variable Inv : cst -> Prop.
  Variable cmp : Prop.
  Hypothesis Inv_connect : forall s i par dup gs s', Inv s -> c_connect s i par dup gs = Ok s' -> Inv s'.
  Hypothesis Inv_setState : forall s to s' ok, Inv s -> c_setState s to = Ok (s', ok) -> Inv s'.
  Hypothesis Inv_compare : cmp -> forall sc cr s c s' r, Inv s -> c_compare sc cr s c = Ok (s', r) -> Inv s'.

  Lemma run_inv : forall ops s s',
      Forall (fun o => match o with OCompare _ _ _ => cmp | _ => True end) ops -> Inv s -> run s ops = Ok s' -> Inv s'.
  Proof.
    induction ops as [|o r IH]; intros s s' A HI H; cbn in H; [inversion H; subst; exact HI|].
    inversion A as [|? ? Ao Ar]; subst. dbind H. apply (IH _ _ Ar) in H; [exact H|].
    destruct o as [i par dup gs|to|c sc cr]; cbn in E.
    - eapply Inv_connect; eassumption.
    - dbind E. destruct a0. inversion E; subst. eapply Inv_setState; eassumption.
    - dbind E. destruct a0. inversion E; subst. eapply Inv_compare; eassumption.
  Qed.
End Run.
Lemma run_inv_all : forall Inv : cst -> Prop,
    (forall s i par dup gs s', Inv s -> c_connect s i par dup gs = Ok s' -> Inv s') ->
    (forall s to s' ok, Inv s -> c_setState s to = Ok (s', ok) -> Inv s') ->
    (forall sc cr s c s' r, Inv s -> c_compare sc cr s c = Ok (s', r) -> Inv s') ->
    forall ops s s', Inv s -> run s ops = Ok s' -> Inv s'.
Proof.
  intros Inv Hc Hs Hp ops s s'. apply (run_inv Inv True Hc Hs (fun _ => Hp)). apply Forall_forall. intros [] _; exact I.
Qed.

Lemma canon_setState : forall base s to s' ok, canon base s -> c_setState s to = Ok (s', ok) -> canon base s'.
Proof.
  intros base.
  exact (Inv_setState pstate ccmd cexec cunexec (canon base) (canon_apply base) (canon_unapply base) (fun s t n H => H)).
Qed.
Lemma canon_compare : forall base sc cr s c s' r, canon base s -> c_compare sc cr s c = Ok (s', r) -> canon base s'.
Proof.
  intros base sc cr.
  exact (Inv_compare pstate ccmd cexec cunexec (canon base) (canon_apply base) (canon_unapply base) sc cr (fun s t H => H)).
Qed.

(** C01 key invariant: in EVERY reachable state (any tree, any payloads, any history of connects, setStates and
    comparisons with any scorer, successful or failing at any position) the protecting state is, as a multiset,
    the bootstrap state plus exactly the effects of the currently applied blocks: nothing of an abandoned or
    rolled-back block is left. *)
Lemma applied_canonical : forall base s, reachable base s ->
    Permutation (pst _ _ s) (active_items (blocks _ _ s) ++ base) /\ NoDup (ids (blocks _ _ s)).
Proof.
  intros base s (r & h & ops & H).
  exact (run_inv_all (canon base) (canon_connect base) (canon_setState base) (canon_compare base)
           ops _ _ (canon_init r h base) H).
Qed.

Lemma count_ref_perm : forall x p q, Permutation p q -> count_ref x p = count_ref x q.
Proof.
  intros x p q H. unfold count_ref. induction H as [|y l l' H IH|y z l|l l' l'' H1 IH1 H2 IH2]; cbn [filter].
  - reflexivity.
  - destruct (item_eqb (IRef x) y); cbn [length]; congruence.
  - destruct (item_eqb (IRef x) y), (item_eqb (IRef x) z); reflexivity.
  - congruence.
Qed.

(** canonical states whose applied blocks carry the same payloads have the same protecting state: same reference
    count for every SP block, same endorsement multiset *)
Lemma canon_items_P : forall base s1 s2,
    canon base s1 -> canon base s2 ->
    Permutation (active_items (blocks _ _ s1)) (active_items (blocks _ _ s2)) ->
    Permutation (pst _ _ s1) (pst _ _ s2) /\ (forall x, count_ref x (pst _ _ s1) = count_ref x (pst _ _ s2)).
Proof.
  intros base s1 s2 [P1 _] [P2 _] HA.
  assert (HP : Permutation (pst _ _ s1) (pst _ _ s2)) by (rewrite P1, P2, HA; reflexivity).
  split; [exact HP|]. intros x. apply count_ref_perm. exact HP.
Qed.

(** in particular two histories, on possibly different trees *)
Lemma history_independence_applied : forall base s1 s2,
    reachable base s1 -> reachable base s2 ->
    Permutation (active_items (blocks _ _ s1)) (active_items (blocks _ _ s2)) ->
    Permutation (pst _ _ s1) (pst _ _ s2) /\ (forall x, count_ref x (pst _ _ s1) = count_ref x (pst _ _ s2)).
Proof. intros base s1 s2 R1 R2. exact (canon_items_P base s1 s2 (applied_canonical _ _ R1) (applied_canonical _ _ R2)). Qed.

Lemma tip_apply : forall t s i s' ok, tip _ _ s = t -> c_applyBlock s i = Ok (s', ok) -> tip _ _ s' = t.
Proof.
  intros t s i s' ok HT H. destruct ok.
  - destruct (applyBlock_inv _ _ _ _ _ _ _ _ H) as (b & pb & _ & _ & _ & _ & _ & _ & p' & lv & _ & _ & _ & _ & ->). exact HT.
  - apply applyBlock_atomic in H; [|exact cinv_law]. destruct H as (_ & _ & Ht & _). congruence.
Qed.
Lemma tip_unapply : forall t s i s', tip _ _ s = t -> c_unapplyBlock s i = Ok s' -> tip _ _ s' = t.
Proof.
  intros t s i s' HT H.
  destruct (unapplyBlock_inv _ _ _ _ _ _ H) as (b & pb & _ & _ & _ & _ & _ & _ & _ & ->). exact HT.
Qed.

(** setState from any canonical state; from a quiet one SmWf.setState_applied_exactly says which blocks end up applied *)
Lemma setState_outcome : forall base s to s' ok,
    canon base s -> c_setState s to = Ok (s', ok) ->
    (Permutation (pst _ _ s') (active_items (blocks _ _ s') ++ base)) /\
    (ok = true -> tip _ _ s' = to /\ napp _ _ s' = chain_count _ _ s' to /\
                  exists b, find ccmd (blocks _ _ s') to = Some b /\ valid_upto _ b L_FULL = true) /\
    (ok = false -> tip _ _ s' = tip _ _ s /\ napp _ _ s' = chain_count _ _ s' (tip _ _ s') /\
                   exists b, find ccmd (blocks _ _ s') to = Some b /\ is_failed _ b = true).
Proof.
  intros base s to s' ok HC H. split; [exact (proj1 (canon_setState _ _ _ _ _ HC H))|].
  destruct (setState_inv _ _ _ _ _ _ _ _ H) as (s1 & bto & E & Fto & Hs').
  pose proof (Inv_sm_setState pstate ccmd cexec cunexec (fun x => tip _ _ x = tip _ _ s)
                (tip_apply _) (tip_unapply _) _ _ _ _ _ eq_refl E) as HT.
  destruct ok.
  - destruct Hs' as [V ->]. split; [intros _|discriminate]. cbn. repeat split. exists bto. split; assumption.
  - destruct Hs' as (F & C & ->). split; [discriminate|intros _]. repeat split; try assumption. exists bto. split; assumption.
Qed.

Lemma setState_true_outcome : forall base s to s',
    canon base s -> c_setState s to = Ok (s', true) ->
    tip _ _ s' = to /\ napp _ _ s' = chain_count _ _ s' to /\
    exists b, find ccmd (blocks _ _ s') to = Some b /\ valid_upto _ b L_FULL = true.
Proof. intros base s to s' HC H. exact (proj1 (proj2 (setState_outcome base s to s' true HC H)) eq_refl). Qed.

(** ** C20: the level logic of applyBlock *)
Lemma applyBlock_level : forall s i s' b pb,
    c_applyBlock s i = Ok (s', true) ->
    find ccmd (blocks _ _ s) i = Some b -> find ccmd (blocks _ _ s) (b_par _ b) = Some pb ->
    let full := valid_upto _ pb L_FULL && Z.eqb (b_h _ b) (root_h _ _ s + Z.of_N (napp _ _ s)) in
    exists b', find ccmd (blocks _ _ s') i = Some b' /\ b_act _ b' = true /\
               b_lvl _ b' = (let up := if full then L_FULL else L_MAYBE in if N.ltb (b_lvl _ b) up then up else b_lvl _ b).
Proof.
  intros s i s' b pb H Fi Fp full.
  destruct (applyBlock_inv _ _ _ _ _ _ _ _ H) as (b0 & pb0 & Fi0 & _ & Fp0 & _ & _ & _ & p' & lv & _ & _ & -> & _ & ->).
  rewrite Fi in Fi0. inversion Fi0; subst b0. rewrite Fp in Fp0. inversion Fp0; subst pb0. cbn [blocks].
  eexists. split; [apply find_upd_same; [reflexivity|exact Fi]|]. split; reflexivity.
Qed.

(** a block applied while another chain is applied (or on a parent that is not fully valid) is never reported as
    fully valid by that application *)
Lemma maybe_level_never_reported_full : forall s i s' b pb b',
    c_applyBlock s i = Ok (s', true) ->
    find ccmd (blocks _ _ s) i = Some b -> find ccmd (blocks _ _ s) (b_par _ b) = Some pb ->
    find ccmd (blocks _ _ s') i = Some b' ->
    b_lvl _ b <> L_FULL ->
    (valid_upto _ pb L_FULL = false \/ b_h _ b <> (root_h _ _ s + Z.of_N (napp _ _ s))%Z) ->
    b_lvl _ b' <> L_FULL.
Proof.
  intros s i s' b pb b' H Fi Fp Fi' Hl Hc.
  destruct (applyBlock_level _ _ _ _ _ H Fi Fp) as (b'' & F'' & _ & L). rewrite Fi' in F''. inversion F''; subst b''.
  assert (Hf : valid_upto ccmd pb L_FULL && Z.eqb (b_h ccmd b) (root_h pstate ccmd s + Z.of_N (napp pstate ccmd s)) = false).
  { destruct Hc as [Hc|Hc]; [rewrite Hc; reflexivity|]. apply Z.eqb_neq in Hc. rewrite Hc. apply andb_false_r. }
  cbv zeta in L. rewrite Hf in L. rewrite L.
  destruct (N.ltb (b_lvl ccmd b) L_MAYBE); [discriminate|exact Hl].
Qed.

(** conversely the fully-valid level is only ever raised on top of a fully valid parent when the applied block
    count says that nothing but root..parent is applied *)
Lemma full_level_guard : forall s i s' b pb b',
    c_applyBlock s i = Ok (s', true) ->
    find ccmd (blocks _ _ s) i = Some b -> find ccmd (blocks _ _ s) (b_par _ b) = Some pb ->
    find ccmd (blocks _ _ s') i = Some b' ->
    b_lvl _ b <> L_FULL -> b_lvl _ b' = L_FULL ->
    valid_upto _ pb L_FULL = true /\ b_h _ b = (root_h _ _ s + Z.of_N (napp _ _ s))%Z.
Proof.
  intros s i s' b pb b' H Fi Fp Fi' Hl Hl'.
  pose proof (maybe_level_never_reported_full s i s' b pb b' H Fi Fp Fi' Hl) as M.
  destruct (valid_upto ccmd pb L_FULL); [|exfalso; apply M; auto].
  destruct (Z.eq_dec (b_h ccmd b) (root_h pstate ccmd s + Z.of_N (napp pstate ccmd s))); [auto|exfalso; apply M; auto].
Qed.

(** unapply order: a block is only ever unapplied while it is applied, its parent is applied and none of its
    children is (stack discipline per branch); otherwise the model aborts like the asserts of the code *)
Lemma unapply_order : forall s i s',
    c_unapplyBlock s i = Ok s' ->
    exists b pb, find ccmd (blocks _ _ s) i = Some b /\ b_act _ b = true /\
                 find ccmd (blocks _ _ s) (b_par _ b) = Some pb /\ b_act _ pb = true /\
                 child_active _ (blocks _ _ s) i = false /\ i <> root _ _ s.
Proof.
  intros s i s' H. destruct (unapplyBlock_inv _ _ _ _ _ _ H) as (b & pb & Fi & R & Ha & Fp & Pa & CA & _).
  exists b, pb. auto 6.
Qed.

(** ** closed statements about the concrete machine (no hypothesis left) *)
Lemma c_group_exec_atomic : forall g p p',
    group_execute pstate ccmd cexec cunexec g p = (p', false) -> p' = p.
Proof. exact (group_exec_atomic pstate ccmd cexec cunexec cinv_law). Qed.

Lemma c_group_unexec_exec : forall g p p',
    group_execute pstate ccmd cexec cunexec g p = (p', true) -> group_unexecute pstate ccmd cunexec g p' = p.
Proof. exact (group_unexec_exec pstate ccmd cexec cunexec cinv_law). Qed.

Lemma c_applyBlock_atomic : forall s i s',
    c_applyBlock s i = Ok (s', false) ->
    pst _ _ s' = pst _ _ s /\ napp _ _ s' = napp _ _ s /\ tip _ _ s' = tip _ _ s /\ root _ _ s' = root _ _ s /\
    map (strip ccmd) (blocks _ _ s') = map (strip ccmd) (blocks _ _ s).
Proof. exact (applyBlock_atomic pstate ccmd cexec cunexec cinv_law). Qed.

(** applying a block and unapplying it again restores the protecting state EXACTLY (not only as a multiset) *)
Lemma c_unapply_apply : forall s i s1 s2,
    c_applyBlock s i = Ok (s1, true) -> c_unapplyBlock s1 i = Ok s2 ->
    pst _ _ s2 = pst _ _ s /\ napp _ _ s2 = napp _ _ s /\ tip _ _ s2 = tip _ _ s.
Proof.
  intros s i s1 s2 H1 H2.
  destruct (applyBlock_inv _ _ _ _ _ _ _ _ H1) as (b & pb & Fi & _ & _ & _ & _ & _ & p' & lv & _ & E & _ & _ & ->).
  destruct (unapplyBlock_inv _ _ _ _ _ _ H2) as (b1 & _ & Fi1 & _ & _ & _ & _ & _ & _ & ->).
  cbn [blocks] in Fi1. erewrite find_upd_same in Fi1; [|reflexivity|exact Fi]. inversion Fi1; subst b1.
  cbn. rewrite N.pred_succ. apply (block_groups_inverse pstate ccmd cexec cunexec cinv_law) in E. auto.
Qed.

(** * non-vacuity: concrete histories *)
(* ids: ALT a_n = 3n, SP blocks v_n = 3n+1 *)
Definition ex_base : pstate := [IRef 1].
Definition ex_ops : list op :=
  [ OConnect 3 0 false [[AddRef 4 1]; [AddRef 7 4; AddEnd 3 3 7]];        (* a1 on a0 *)
    OConnect 6 3 false [[AddRef 10 7]];                                     (* a2 on a1 *)
    OConnect 9 0 false [[AddRef 4 1]; [AddRef 13 4]];                       (* a3 on a0: fork 1 *)
    OConnect 12 9 false [[AddRef 16 13]; [AddRef 19 16; Poison]];           (* a4 on a3: Poison at (block 2, group 2, cmd 2) *)
    OConnect 15 3 false [[AddRef 22 7]];                                    (* a5 on a1: fork 2 *)
    OSetState 6; OSetState 9; OSetState 12; OSetState 15; OSetState 6; OSetState 9;
    OCompare (Some 15%N) (fun _ _ => (-1)%Z) (fun _ _ => true); OCompare (Some 6%N) (fun _ _ => 1%Z) (fun _ _ => true);
    OSetState 6 ].
Definition ex_final : res (N * N * pstate * list (N * N * bool * bool)) :=
  match run (c_init 0 0%Z ex_base) ex_ops with
  | Ok s => Ok (tip _ _ s, napp _ _ s, pst _ _ s, map (fun b => (b_id _ b, b_lvl _ b, b_fp _ b, b_act _ b)) (blocks _ _ s))
  | Abort c => Abort c
  end.
(** a history with two abandoned forks, a failing switch (Poison in the 2nd group of the 2nd block of the branch),
    comparisons with either verdict and a back-and-forth reorg ends, without Abort, on a1-a2 with exactly that
    chain's effects in P; the poisoned block is FAILED_POP, the block below it fully valid *)
Example ex_history :
  ex_final = Ok (6%N, 3%N, [IRef 10; IEnd 3 3 7; IRef 7; IRef 4; IRef 1]%N,
                 [(0, 4, false, true); (3, 4, false, true); (6, 4, false, true); (9, 4, false, false);
                  (12, 2, true, false); (15, 4, false, false)]%N).
Proof. vm_compute. reflexivity. Qed.
Example ex_reachable : exists s, reachable ex_base s /\ tip _ _ s = 6%N.
Proof.
  pose proof ex_history as H. unfold ex_final in H.
  destruct (run (c_init 0 0%Z ex_base) ex_ops) as [s|] eqn:E; [|discriminate].
  exists s. split; [exists 0%N, 0%Z, ex_ops; exact E|]. inversion H. reflexivity.
Qed.
(** the failing setState to the poisoned branch is atomic on this instance *)
Example ex_poison_atomic :
  match run (c_init 0 0%Z ex_base) (firstn 7 ex_ops) with
  | Ok s => match c_setState s 12 with
            | Ok (s', ok) => ok = false /\ pst _ _ s' = pst _ _ s /\ tip _ _ s' = tip _ _ s
            | Abort _ => False
            end
  | Abort _ => False
  end.
Proof. vm_compute. repeat split. Qed.
