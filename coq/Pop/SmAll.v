(** POP state machine — the C02 / C20 statements over all histories (including comparePopScore). *)
From Coq Require Import List ZArith NArith Bool Permutation.
Import ListNotations.
From VB Require Import Pop.SmDefs Pop.SmProofs Pop.SmWf Pop.SmTruth Pop.SmCmp.
Local Open Scope Z_scope.

(** C02, comparePopScore from any reachable (quiet) state, any scorer: the result is a quiet state again (exactly
    root..tip applied); a non-negative result leaves the tip, the counter, the applied flag of every block and P (as a
    multiset) unchanged; a negative result makes the candidate the tip. *)
Theorem compare_atomic : forall base sc cr s c s' r,
    quiet s -> canon base s -> c_compare sc cr s c = Ok (s', r) ->
    quiet s' /\ (forall j, is_act (cores s') j <-> In j (chain s')) /\
    (0 <= r -> tip _ _ s' = tip _ _ s /\ napp _ _ s' = napp _ _ s /\ cores s' = cores s /\
               Permutation (pst _ _ s') (pst _ _ s)) /\
    (r < 0 -> c = Some (tip _ _ s')).
Proof.
  intros base sc cr s c s' r Q C H.
  destruct (quiet_compare _ _ _ _ _ _ Q H) as (Q' & _ & R & Hp & Hm).
  split; [exact Q'|]. split; [apply applied_exactly; exact Q'|]. split; [|exact Hm].
  intros Hr. destruct (Hp Hr) as [T Nn]. split; [exact T|]. split; [exact Nn|].
  exact (same_tip_same_P base s s' Q Q' C (canon_compare _ _ _ _ _ _ _ C H) (static_compare _ _ _ _ _ _ H) R T).
Qed.

Lemma truthful_compare : forall base sc cr s c s' r,
    quiet s -> canon base s -> truthful base s -> c_compare sc cr s c = Ok (s', r) -> truthful base s'.
Proof.
  intros base sc cr s c s' r (W & _) C T H.
  exact (proj2 (proj2 (Inv_compare pstate ccmd cexec cunexec (tinv base) (tinv_apply base) (tinv_unapply base) sc cr
                         (fun s0 t H0 => H0) s c s' r (conj W (conj C T)) H))).
Qed.

Lemma tq_compare : forall base sc cr s c s' r, tq base s -> c_compare sc cr s c = Ok (s', r) -> tq base s'.
Proof.
  intros base sc cr s c s' r (Q & C & T) H. split; [|split].
  - eapply quiet_compare; eassumption.
  - eapply canon_compare; eassumption.
  - eapply truthful_compare; eassumption.
Qed.

(** C20: in EVERY reachable state (histories of connectBlock / setState / comparePopScore with any scorer, any tree,
    any payloads, any failing position) a block at the fully-valid level replays successfully alone *)
Theorem full_validity_truthful_all : forall base s,
    reachable base s ->
    forall b, In b (blocks _ _ s) -> N.leb L_FULL (b_lvl _ b) = true ->
              exists p', replay (bgs s (depth s (b_id _ b)) (b_id _ b)) base = Some p'.
Proof.
  intros base s (r & h & ops & R).
  exact (proj2 (proj2 (run_inv_all (tq base) (tq_connect base) (tq_setState base) (tq_compare base)
                         ops _ _ (tq_init r h base) R))).
Qed.
