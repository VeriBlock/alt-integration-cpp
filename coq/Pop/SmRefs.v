(** POP state machine — the reference list of one BTC block (BtcBlockAddon::refs).

    Every executed AddBtcBlock command of a VTB contained in a VBK block of height h appends h to the list of the
    BTC block, its un-execute removes the first entry EQUAL to h. Releases are not always LIFO (comparePopScore
    reverts the losing chain underneath the still applied winner). Whatever the order, the list holds exactly the
    multiset of heights of the commands that are still applied ([refs_are_applied_multiset]); the temporal check of a
    VTB's BTC context ("block-referenced-too-early": some reference <= containing height) reads this list.
    Removing "the last entry <= h" instead is LIFO-correct but drops the wrong entry otherwise
    ([remove_last_le_refuted]: [9;3] minus 9 gives [9] instead of [3]). *)
From Coq Require Import List ZArith Lia.
Import ListNotations.
Local Open Scope Z_scope.

Fixpoint rem_eq (h : Z) (l : list Z) : list Z :=
  match l with
  | [] => []
  | x :: r => if Z.eqb h x then r else x :: rem_eq h r
  end.

Fixpoint cnt (k : Z) (l : list Z) : Z :=
  match l with
  | [] => 0
  | x :: r => (if Z.eqb k x then 1 else 0) + cnt k r
  end.

Lemma cnt_app : forall k a b, cnt k (a ++ b) = cnt k a + cnt k b.
Proof. intros k a b; induction a as [|x r IH]; simpl; [reflexivity|]. rewrite IH. lia. Qed.

Lemma cnt_rem_eq : forall h k l, In h l -> cnt k (rem_eq h l) = cnt k l - (if Z.eqb k h then 1 else 0).
Proof.
  intros h k l; induction l as [|x r IH]; simpl; intro H; [contradiction|].
  destruct (Z.eqb h x) eqn:E.
  - apply Z.eqb_eq in E; subst x. lia.
  - simpl. destruct H as [H|H]; [subst x; rewrite Z.eqb_refl in E; discriminate|].
    rewrite (IH H). lia.
Qed.

Inductive rop : Type := Add (h : Z) | Rel (h : Z).

Fixpoint run (ops : list rop) (l : list Z) : list Z :=
  match ops with
  | [] => l
  | Add h :: r => run r (l ++ [h])
  | Rel h :: r => run r (rem_eq h l)
  end.

(** a release is only issued for a command that is applied: its height is in the list at that moment *)
Fixpoint wf (ops : list rop) (l : list Z) : Prop :=
  match ops with
  | [] => True
  | Add h :: r => wf r (l ++ [h])
  | Rel h :: r => In h l /\ wf r (rem_eq h l)
  end.

(** number of still applied commands of height k *)
Fixpoint bal (k : Z) (ops : list rop) : Z :=
  match ops with
  | [] => 0
  | Add h :: r => (if Z.eqb k h then 1 else 0) + bal k r
  | Rel h :: r => bal k r - (if Z.eqb k h then 1 else 0)
  end.

Theorem refs_are_applied_multiset_from : forall ops l k, wf ops l -> cnt k (run ops l) = cnt k l + bal k ops.
Proof.
  induction ops as [|o r IH]; intros l k H; simpl in *; [lia|].
  destruct o as [h|h].
  - rewrite (IH _ k H), cnt_app. simpl. lia.
  - destruct H as [Hin Hw]. rewrite (IH _ k Hw), (cnt_rem_eq h k l Hin). lia.
Qed.

(** any interleaving of executes and (non-LIFO) un-executes, starting from no reference *)
Theorem refs_are_applied_multiset : forall ops k, wf ops [] -> cnt k (run ops []) = bal k ops.
Proof. intros ops k H. rewrite (refs_are_applied_multiset_from ops [] k H). reflexivity. Qed.

(** ** the variant "erase the last entry <= h" *)
Fixpoint rem_first_le (h : Z) (l : list Z) : list Z :=     (* on the reversed list *)
  match l with
  | [] => []
  | x :: r => if Z.leb x h then r else x :: rem_first_le h r
  end.
Definition rem_last_le (h : Z) (l : list Z) : list Z := rev (rem_first_le h (rev l)).

(** chain A (VTB in VBK 9) is active, the better chain B (VTB in VBK 3, same BTC block) is applied next to it and
    stays, A is reverted underneath: the reference that must remain is 3 *)
Example remove_last_le_refuted :
  let ops := [Add 9; Add 3; Rel 9] in
  wf ops [] /\ run ops [] = [3] /\ cnt 3 (run ops []) = bal 3 ops /\
  rem_last_le 9 [9; 3] = [9] /\ cnt 3 (rem_last_le 9 [9; 3]) <> bal 3 ops /\
  (* LIFO releases agree *) rem_last_le 3 [9; 3] = rem_eq 3 [9; 3].
Proof. simpl. repeat split; auto; try discriminate. Qed.
