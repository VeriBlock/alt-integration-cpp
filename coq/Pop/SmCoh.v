(** POP state machine — coherence of validity marks: list order (parents first), FAILED_CHILD below every failed
    block, levels non-increasing towards the leaves; the marking pass of invalidateSubtree. *)
From Coq Require Import List ZArith NArith Bool Lia.
Import ListNotations.
From VB Require Import Pop.SmDefs Pop.SmProofs Pop.SmWf Pop.SmTruth.
Local Open Scope Z_scope.

Notation bfind := (find ccmd).

Lemma bfind_id : forall (l : list cblk) i b, bfind l i = Some b -> b_id _ b = i.
Proof. intros l i b H. apply find_some_in in H. apply H. Qed.

Lemma find_upd_any : forall (l : list cblk) i f j,
    (forall b, b_id _ (f b) = b_id _ b) ->
    bfind (upd ccmd l i f) j = option_map (fun b => if N.eqb (b_id _ b) i then f b else b) (bfind l j).
Proof.
  induction l as [|y r IH]; intros i f j Hf; [reflexivity|]. cbn [upd map bfind]. fold (upd ccmd r i f).
  replace (b_id ccmd (if N.eqb (b_id ccmd y) i then f y else y)) with (b_id ccmd y)
    by (destruct (N.eqb (b_id ccmd y) i); [rewrite Hf|]; reflexivity).
  destruct (N.eqb (b_id ccmd y) j); [reflexivity|apply IH; exact Hf].
Qed.

Lemma find_snoc : forall (l : list cblk) nb j,
    bfind (l ++ [nb]) j = match bfind l j with Some x => Some x | None => bfind [nb] j end.
Proof.
  induction l as [|y t IH]; intros nb j; [reflexivity|]. cbn [app bfind].
  destruct (N.eqb (b_id ccmd y) j); [reflexivity|apply IH].
Qed.

Lemma core_find : forall s j e, cfind (cores s) j = Some e -> exists b, bfind (blocks _ _ s) j = Some b /\ core b = e.
Proof.
  intros s j e H. unfold cores in H. rewrite cfind_core in H. destruct (bfind (blocks pstate ccmd s) j) as [b|]; [|discriminate].
  inversion H. exists b. split; reflexivity.
Qed.

Lemma hgt_parent_find : forall s j b, wf s -> bfind (blocks _ _ s) j = Some b -> j <> root _ _ s ->
    hgt (cores s) j = hgt (cores s) (b_par _ b) + 1.
Proof. intros s j b W F Hr. exact (wf_parent_height _ _ _ W (find_cfind _ _ _ F) Hr). Qed.

Lemma find_is_act : forall s j b, bfind (blocks _ _ s) j = Some b -> b_act _ b = true -> is_act (cores s) j.
Proof. intros s j b F A. exists (core b). split; [apply find_cfind; exact F|exact A]. Qed.
Lemma is_act_find : forall s j, is_act (cores s) j -> exists b, bfind (blocks _ _ s) j = Some b /\ b_act _ b = true.
Proof.
  intros s j (e & He & Ha). destruct (core_find _ _ _ He) as (b & Fb & Cb). exists b. split; [exact Fb|].
  rewrite <- Cb in Ha. exact Ha.
Qed.

Lemma existsb_eqb_in : forall j l, existsb (N.eqb j) l = true <-> In j l.
Proof.
  intros j l. rewrite existsb_exists. split.
  - intros (k & Hk & E). apply N.eqb_eq in E. subst k. exact Hk.
  - intros H. exists j. split; [exact H|apply N.eqb_refl].
Qed.

Lemma connect_inv : forall s i par dup gs s', c_connect s i par dup gs = Ok s' ->
    exists pb, bfind (blocks _ _ s) par = Some pb /\ bfind (blocks _ _ s) i = None /\
      s' = with_blocks _ _ s (blocks _ _ s ++ [mkBlk ccmd i par (b_h _ pb + 1) L_CONNECTED false dup (is_failed _ pb) false gs]).
Proof.
  intros s i par dup gs s' H. unfold c_connect, connect in H.
  destruct (bfind (blocks pstate ccmd s) par) as [pb|]; [|discriminate].
  destruct (bfind (blocks pstate ccmd s) i); [discriminate|]. inversion H. exists pb. repeat split.
Qed.

Lemma valid_upto_iff : forall (b : cblk) u, valid_upto _ b u = true <-> is_failed _ b = false /\ N.le u (b_lvl _ b).
Proof. intros b u. unfold valid_upto. rewrite andb_true_iff, negb_true_iff, N.leb_le. reflexivity. Qed.

(* the block after a successful applyBlock *)
Definition apf (upTo : N) (x : cblk) : cblk := set_act ccmd true (raise_lvl ccmd upTo x).
Lemma apf_lvl : forall u x, b_lvl _ (apf u x) = N.max u (b_lvl _ x).
Proof. intros u x. unfold apf. cbn. destruct (N.ltb_spec (b_lvl ccmd x) u); lia. Qed.

(** ids marked by [mark_desc] *)
Fixpoint marks (x : N) (expand : list N) (l : list cblk) : list N :=
  match l with
  | [] => []
  | b :: r =>
    if N.eqb (b_par _ b) x || existsb (N.eqb (b_par _ b)) expand
    then b_id _ b :: marks x (if is_failed _ b then expand else b_id _ b :: expand) r
    else marks x expand r
  end.

Lemma marked_iff : forall p x e, N.eqb p x || existsb (N.eqb p) e = true <-> p = x \/ In p e.
Proof. intros p x e. rewrite orb_true_iff, N.eqb_eq, existsb_eqb_in. reflexivity. Qed.

Lemma marks_in_ids : forall l x e j, In j (marks x e l) -> In j (ids l).
Proof.
  induction l as [|y r IH]; intros x e j H; cbn in *; [destruct H|].
  destruct (N.eqb (b_par ccmd y) x || existsb (N.eqb (b_par ccmd y)) e); [destruct H as [H|H]; [left; exact H|]|];
    right; eapply IH; exact H.
Qed.

Lemma find_mark_desc : forall l x e j,
    NoDup (ids l) ->
    bfind (mark_desc ccmd x e l) j =
    option_map (fun b => if existsb (N.eqb j) (marks x e l) then set_fc _ b else b) (bfind l j).
Proof.
  induction l as [|b r IH]; intros x e j ND; [reflexivity|]. inversion ND as [|? ? Hn ND']; subst.
  cbn [mark_desc marks bfind].
  destruct (N.eqb (b_par ccmd b) x || existsb (N.eqb (b_par ccmd b)) e).
  - cbn [bfind existsb]. change (b_id ccmd (set_fc ccmd b)) with (b_id ccmd b). rewrite (N.eqb_sym j).
    destruct (N.eqb (b_id ccmd b) j); [reflexivity|apply IH; exact ND'].
  - cbn [bfind]. destruct (N.eqb (b_id ccmd b) j) eqn:E; [|apply IH; exact ND'].
    apply N.eqb_eq in E. subst j. cbn [option_map].
    (* an unmarked head is not marked later: ids are unique *)
    destruct (existsb (N.eqb (b_id ccmd b)) (marks x e r)) eqn:Hex; [|reflexivity].
    apply existsb_eqb_in, marks_in_ids in Hex. contradiction.
Qed.

Lemma marks_direct : forall l x e c,
    In c l -> (b_par _ c = x \/ In (b_par _ c) e) -> In (b_id _ c) (marks x e l).
Proof.
  induction l as [|y r IH]; intros x e c Hin Hc; [destruct Hin|]. cbn [marks]. destruct Hin as [->|Hin].
  - rewrite (proj2 (marked_iff _ _ _) Hc). left. reflexivity.
  - destruct (N.eqb (b_par ccmd y) x || existsb (N.eqb (b_par ccmd y)) e); [right|]; apply IH; try exact Hin; [|exact Hc].
    destruct Hc as [Hc|Hc]; [left; exact Hc|right]. destruct (is_failed ccmd y); [|right]; exact Hc.
Qed.

Lemma marks_parent : forall l x e j,
    In j (marks x e l) ->
    exists c, In c l /\ b_id _ c = j /\ (b_par _ c = x \/ In (b_par _ c) e \/ In (b_par _ c) (marks x e l)).
Proof.
  induction l as [|y r IH]; intros x e j H; cbn [marks] in *; [destruct H|].
  destruct (N.eqb (b_par ccmd y) x || existsb (N.eqb (b_par ccmd y)) e) eqn:C.
  - destruct H as [<-|H].
    + exists y. split; [left; reflexivity|split; [reflexivity|]]. apply marked_iff in C. tauto.
    + destruct (IH _ _ _ H) as (c & Hin & Hid & Hc). exists c. split; [right; exact Hin|split; [exact Hid|]].
      destruct (is_failed ccmd y); cbn [In] in *; tauto.
  - destruct (IH _ _ _ H) as (c & Hin & Hid & Hc). exists c. split; [right; exact Hin|split; [exact Hid|exact Hc]].
Qed.

Lemma marks_ind : forall (Q : N -> Prop) x t e,
    (forall y, In y t -> b_par _ y = x \/ Q (b_par _ y) -> Q (b_id _ y)) ->
    (forall k, In k e -> Q k) ->
    forall j, In j (marks x e t) -> Q j.
Proof.
  intros Q x t. induction t as [|y t IH]; intros e Ht He j Hj; cbn [marks] in Hj; [destruct Hj|].
  assert (Ht' : forall y0, In y0 t -> b_par _ y0 = x \/ Q (b_par _ y0) -> Q (b_id _ y0)) by (intros; apply Ht; [right|]; assumption).
  destruct (N.eqb (b_par ccmd y) x || existsb (N.eqb (b_par ccmd y)) e) eqn:C; [|exact (IH e Ht' He j Hj)].
  assert (Hy : Q (b_id ccmd y)).
  { apply Ht; [left; reflexivity|]. apply marked_iff in C. destruct C as [C|C]; [left; exact C|right; apply He; exact C]. }
  destruct Hj as [<-|Hj]; [exact Hy|]. apply (IH _ Ht') in Hj; [exact Hj|].
  intros k Hk. destruct (is_failed ccmd y); [|destruct Hk as [<-|Hk]; [exact Hy|]]; apply He; exact Hk.
Qed.

(** ** list order: every non-root block comes after its parent *)
Fixpoint ord_ok (r : N) (seen : list N) (l : list (N * N)) : Prop :=
  match l with
  | [] => True
  | (i, p) :: t => (i = r \/ In p seen) /\ ord_ok r (i :: seen) t
  end.
Definition idpar (b : cblk) : N * N := (b_id _ b, b_par _ b).

Lemma ord_ok_mono : forall r l seen seen', (forall x, In x seen -> In x seen') -> ord_ok r seen l -> ord_ok r seen' l.
Proof.
  intros r l. induction l as [|[i p] t IH]; intros seen seen' Hs H; [exact I|]. cbn in *. destruct H as [H1 H2]. split.
  - destruct H1 as [H1|H1]; [left; exact H1|right; apply Hs; exact H1].
  - eapply IH; [|exact H2]. intros x [Hx|Hx]; [left; exact Hx|right; apply Hs; exact Hx].
Qed.
Lemma ord_ok_snoc : forall r l seen i p,
    ord_ok r seen l -> In p (seen ++ map fst l) -> ord_ok r seen (l ++ [(i, p)]).
Proof.
  intros r l. induction l as [|[j q] t IH]; intros seen i p H Hp; cbn in *.
  - rewrite app_nil_r in Hp. split; [right; exact Hp|exact I].
  - destruct H as [H1 H2]. split; [exact H1|]. apply IH; [exact H2|]. rewrite in_app_iff in *. cbn [In] in *. tauto.
Qed.
Lemma ord_ok_parent : forall r l seen c,
    ord_ok r seen (map idpar l) -> In c l -> b_id _ c <> r -> In (b_par _ c) (seen ++ ids l).
Proof.
  intros r l. induction l as [|y t IH]; intros seen c H Hc Hr; [destruct Hc|]. destruct H as [Hy Ht]. rewrite in_app_iff. cbn [ids map In].
  destruct Hc as [->|Hc]; [destruct Hy; [contradiction|tauto]|].
  specialize (IH _ _ Ht Hc Hr). rewrite in_app_iff in IH. cbn [In] in IH. unfold ids in IH. tauto.
Qed.
Lemma ord_ok_ind : forall (Q : N -> Prop) r t seen,
    ord_ok r seen (map idpar t) -> (forall k, In k seen -> Q k) ->
    (forall y, In y t -> b_id _ y = r \/ Q (b_par _ y) -> Q (b_id _ y)) ->
    forall y, In y t -> Q (b_id _ y).
Proof.
  intros Q r t. induction t as [|z t IH]; intros seen H Hs Hq y Hy; [destruct Hy|]. destruct H as [Hz Ht].
  assert (Qz : Q (b_id ccmd z)) by (apply Hq; [left; reflexivity|destruct Hz as [Hz|Hz]; [left; exact Hz|right; apply Hs; exact Hz]]).
  destruct Hy as [<-|Hy]; [exact Qz|]. apply (IH (b_id ccmd z :: seen) Ht); [|intros; apply Hq; [right|]; assumption|exact Hy].
  intros k [<-|Hk]; [exact Qz|apply Hs; exact Hk].
Qed.

Lemma marks_child : forall r l seen x e c p,
    ord_ok r seen (map idpar l) -> NoDup (ids l) -> (forall k, In k seen -> ~ In k (ids l)) ->
    In c l -> In p l -> b_par _ c = b_id _ p -> b_id _ c <> r ->
    In (b_id _ p) (marks x e l) -> is_failed _ p = false -> In (b_id _ c) (marks x e l).
Proof.
  intros r l. induction l as [|y t IH]; intros seen x e c p H ND Hs Hc Hp Hpar Hr Hm Hf; [destruct Hc|].
  destruct H as [Hy Ht]. inversion ND as [|? ? Hn ND']; subst.
  assert (Hs' : forall k, In k (b_id ccmd y :: seen) -> ~ In k (ids t)).
  { intros k [<-|Hk]; [exact Hn|]. intro Hkt. apply (Hs k Hk). right. exact Hkt. }
  destruct Hc as [->|Hc].
  - (* c is the head: its parent was seen, so p is not in the list *)
    exfalso. destruct Hy as [Hy|Hy]; [contradiction|]. apply (Hs _ Hy). cbn [idpar snd] in *. rewrite Hpar. apply in_map. exact Hp.
  - cbn [marks] in *. destruct Hp as [->|Hp].
    + (* p is the head *)
      destruct (N.eqb (b_par ccmd p) x || existsb (N.eqb (b_par ccmd p)) e).
      * right. rewrite Hf. apply marks_direct; [exact Hc|right; left; symmetry; exact Hpar].
      * apply marks_in_ids in Hm. contradiction.
    + assert (Hpy : b_id ccmd y <> b_id ccmd p) by (intro E; apply Hn; rewrite E; apply in_map; exact Hp).
      destruct (N.eqb (b_par ccmd y) x || existsb (N.eqb (b_par ccmd y)) e);
        [right; destruct Hm as [Hm|Hm]; [contradiction|]|]; eapply (IH _ _ _ _ _ Ht ND' Hs'); eassumption.
Qed.

Definition coh (l : list cblk) (r : N) : Prop :=
  NoDup (ids l) /\
  ord_ok r [] (map idpar l) /\
  (* FAILED_CHILD below every failed block *)
  (forall i c p, bfind l i = Some c -> i <> r -> bfind l (b_par _ c) = Some p -> is_failed _ p = true -> b_fc _ c = true) /\
  (* levels do not increase towards the leaves *)
  (forall i c p, bfind l i = Some c -> i <> r -> bfind l (b_par _ c) = Some p -> N.le (b_lvl _ c) (b_lvl _ p)) /\
  (* applied blocks are valid and at least at the MAYBE level *)
  (forall i b, bfind l i = Some b -> b_act _ b = true -> is_failed _ b = false /\ N.le L_MAYBE (b_lvl _ b)) /\
  (forall i b, bfind l i = Some b -> N.le L_CONNECTED (b_lvl _ b)).

Lemma idpar_upd : forall (l : list cblk) i f, (forall b, idpar (f b) = idpar b) -> map idpar (upd ccmd l i f) = map idpar l.
Proof.
  intros l i f Hf. unfold upd. rewrite map_map. apply map_ext. intros b. destruct (N.eqb (b_id ccmd b) i); [apply Hf|reflexivity].
Qed.
Lemma in_upd_idpar : forall (l : list cblk) i f y1, (forall b, idpar (f b) = idpar b) -> In y1 (upd ccmd l i f) ->
    exists y, In y l /\ b_id _ y1 = b_id _ y /\ b_par _ y1 = b_par _ y.
Proof.
  intros l i f y1 Hf H. apply in_upd in H. destruct H as (y & Hy & ->). exists y. split; [exact Hy|].
  destruct (N.eqb (b_id ccmd y) i); [injection (Hf y)|]; auto.
Qed.
Lemma idpar_mark_desc : forall l x e, map idpar (mark_desc ccmd x e l) = map idpar l.
Proof.
  induction l as [|b r IH]; intros x e; [reflexivity|]. cbn [mark_desc].
  destruct (N.eqb (b_par ccmd b) x || existsb (N.eqb (b_par ccmd b)) e); cbn [map]; f_equal; apply IH.
Qed.

Lemma coh_pointwise : forall (g : N -> cblk -> cblk) l l' r,
    coh l r -> map idpar l' = map idpar l ->
    (forall j, bfind l' j = option_map (g j) (bfind l j)) ->
    (forall j b, b_par _ (g j b) = b_par _ b) ->
    (forall j c p, bfind l j = Some c -> j <> r -> bfind l (b_par _ c) = Some p ->
        (is_failed _ (g (b_par _ c) p) = true -> b_fc _ (g j c) = true) /\
        N.le (b_lvl _ (g j c)) (b_lvl _ (g (b_par _ c) p))) ->
    (forall j b, bfind l j = Some b ->
        (b_act _ (g j b) = true -> is_failed _ (g j b) = false /\ N.le L_MAYBE (b_lvl _ (g j b))) /\
        N.le L_CONNECTED (b_lvl _ (g j b))) ->
    coh l' r.
Proof.
  intros g l l' r (ND & OR & _) HI F Gp H2 H1.
  assert (inv : forall j x', bfind l' j = Some x' -> exists x, bfind l j = Some x /\ x' = g j x).
  { intros j x' H. rewrite F in H. destruct (bfind l j) as [x|]; [|discriminate]. exists x. inversion H. split; reflexivity. }
  assert (E : forall t : list cblk, ids t = map fst (map idpar t)) by (intro; rewrite map_map; reflexivity).
  split; [rewrite E, HI, <- E; exact ND|]. split; [rewrite HI; exact OR|].
  split; [|split; [|split]].
  - intros j c' p' Hc Hr Hp. destruct (inv _ _ Hc) as (c & Fc & ->). rewrite Gp in Hp. destruct (inv _ _ Hp) as (p & Fp & ->).
    exact (proj1 (H2 j c p Fc Hr Fp)).
  - intros j c' p' Hc Hr Hp. destruct (inv _ _ Hc) as (c & Fc & ->). rewrite Gp in Hp. destruct (inv _ _ Hp) as (p & Fp & ->).
    exact (proj2 (H2 j c p Fc Hr Fp)).
  - intros j b' Hb. destruct (inv _ _ Hb) as (b & Fb & ->). exact (proj1 (H1 j b Fb)).
  - intros j b' Hb. destruct (inv _ _ Hb) as (b & Fb & ->). exact (proj2 (H1 j b Fb)).
Qed.

(** unapplyBlock and the successful applyBlock only touch level / ACTIVE of one block *)
Lemma coh_unapply : forall l r i, coh l r -> coh (upd ccmd l i (set_act ccmd false)) r.
Proof.
  intros l r i C. pose proof C as (_ & _ & C1 & C2 & C3 & C5).
  apply (coh_pointwise (fun _ b => if N.eqb (b_id _ b) i then set_act ccmd false b else b) l _ r C).
  - apply idpar_upd. reflexivity.
  - intro j. apply find_upd_any. reflexivity.
  - intros j b. destruct (N.eqb (b_id ccmd b) i); reflexivity.
  - intros j c p Fc Hr Fp. specialize (C1 _ _ _ Fc Hr Fp). specialize (C2 _ _ _ Fc Hr Fp).
    destruct (N.eqb (b_id ccmd c) i), (N.eqb (b_id ccmd p) i); split; assumption.
  - intros j b Fb. specialize (C3 _ _ Fb). specialize (C5 _ _ Fb).
    destruct (N.eqb (b_id ccmd b) i); split; try assumption. discriminate.
Qed.

Lemma coh_apply_ok : forall l r i b pb upTo,
    coh l r -> bfind l i = Some b -> bfind l (b_par _ b) = Some pb -> i <> r -> is_failed _ b = false ->
    N.le L_MAYBE upTo -> (N.le upTo (b_lvl _ b) \/ N.le upTo (b_lvl _ pb)) ->
    coh (upd ccmd l i (apf upTo)) r.
Proof.
  intros l r i b pb upTo C Fi Fpb Hir Hnf Hup Hraise. pose proof C as (_ & _ & C1 & C2 & C3 & C5).
  set (g := fun (_ : N) (x : cblk) => if N.eqb (b_id _ x) i then apf upTo x else x).
  assert (G : forall j x, b_par _ (g j x) = b_par _ x /\ is_failed _ (g j x) = is_failed _ x /\ b_fc _ (g j x) = b_fc _ x /\
                          N.le (b_lvl _ x) (b_lvl _ (g j x))).
  { intros j x. unfold g. destruct (N.eqb (b_id ccmd x) i); repeat split; try apply N.le_refl. rewrite apf_lvl. lia. }
  assert (Gi : forall j x, bfind l j = Some x -> g j x = x \/ (x = b /\ g j x = apf upTo b)).
  { intros j x Fx. unfold g. destruct (N.eqb (b_id ccmd x) i) eqn:E; [right|left; reflexivity].
    apply N.eqb_eq in E. rewrite (bfind_id _ _ _ Fx) in E. subst j. rewrite Fi in Fx. inversion Fx. split; reflexivity. }
  apply (coh_pointwise g l _ r C).
  - apply idpar_upd. reflexivity.
  - intro j. apply find_upd_any. reflexivity.
  - intros j x. apply G.
  - intros j c p Fc Hr Fp. destruct (G j c) as (_ & _ & -> & _). destruct (G (b_par ccmd c) p) as (_ & -> & _ & Hp).
    split; [exact (C1 _ _ _ Fc Hr Fp)|]. specialize (C2 _ _ _ Fc Hr Fp).
    destruct (Gi _ _ Fc) as [->|[-> ->]]; [lia|]. rewrite Fpb in Fp. inversion Fp; subst p. rewrite apf_lvl. lia.
  - intros j x Fx. destruct (G j x) as (_ & -> & _ & Hx). specialize (C5 _ _ Fx). split; [|lia].
    destruct (Gi _ _ Fx) as [->|[-> ->]]; [exact (C3 _ _ Fx)|]. intros _. split; [exact Hnf|]. rewrite apf_lvl. lia.
Qed.

Lemma coh_connect : forall l r i par pb dup gs,
    coh l r -> bfind l par = Some pb -> bfind l i = None ->
    coh (l ++ [mkBlk ccmd i par (b_h _ pb + 1) L_CONNECTED false dup (is_failed _ pb) false gs]) r.
Proof.
  intros l r i par pb dup gs (ND & OR & C1 & C2 & C3 & C5) Fp Fi.
  set (nb := mkBlk ccmd i par (b_h ccmd pb + 1) L_CONNECTED false dup (is_failed ccmd pb) false gs).
  assert (Hni : ~ In i (ids l)) by (apply find_none_notin; exact Fi).
  assert (Fnew : forall j x, bfind (l ++ [nb]) j = Some x -> bfind l j = Some x \/ x = nb).
  { intros j x. rewrite find_snoc. cbn. destruct (bfind l j); [left; assumption|]. destruct (N.eqb i j); [|discriminate].
    intro H. inversion H. right. reflexivity. }
  assert (Hold : forall j c p, bfind l j = Some c -> j <> r -> bfind (l ++ [nb]) (b_par ccmd c) = Some p -> bfind l (b_par ccmd c) = Some p).
  { intros j c p Fc Hr Hp. rewrite find_snoc in Hp. destruct (bfind l (b_par ccmd c)) eqn:Fpc; [exact Hp|]. exfalso.
    apply find_some_in in Fc. destruct Fc as [Hin Hid]. rewrite <- Hid in Hr.
    apply (find_none_notin _ _ Fpc). exact (ord_ok_parent r l [] c OR Hin Hr). }
  assert (Fpn : bfind (l ++ [nb]) par = Some pb) by (apply find_app_some; exact Fp).
  split; [unfold ids; rewrite map_app; apply NoDup_snoc; assumption|]. split; [|split; [|split; [|split]]].
  - rewrite map_app. apply ord_ok_snoc; [exact OR|]. cbn. apply find_some_in in Fp. destruct Fp as [Hin Hid].
    apply in_map_iff. exists (idpar pb). split; [exact Hid|apply in_map; exact Hin].
  - intros j c p Hc Hr Hp Hf. destruct (Fnew _ _ Hc) as [Hc0| ->].
    + eapply C1; [exact Hc0|exact Hr|eapply Hold; eassumption|exact Hf].
    + cbn in Hp |- *. rewrite Fpn in Hp. inversion Hp; subst p. exact Hf.
  - intros j c p Hc Hr Hp. destruct (Fnew _ _ Hc) as [Hc0| ->].
    + eapply C2; [exact Hc0|exact Hr|eapply Hold; eassumption].
    + cbn in Hp |- *. rewrite Fpn in Hp. inversion Hp; subst p. apply (C5 _ _ Fp).
  - intros j x Hx Ha. destruct (Fnew _ _ Hx) as [Hx0| ->]; [eapply C3; eassumption|discriminate Ha].
  - intros j x Hx. destruct (Fnew _ _ Hx) as [Hx0| ->]; [eapply C5; eassumption|cbn; unfold L_CONNECTED; lia].
Qed.

(** ** the failing applyBlock: FAILED_POP on the block, FAILED_CHILD on everything below it *)
Definition actid (l : list cblk) (k : N) : Prop := exists c, bfind l k = Some c /\ b_act _ c = true.
(* parent-closedness of the applied set, as provided by [wf] *)
Definition act_closed (l : list cblk) (r : N) : Prop :=
  actid l r /\ (forall c, bfind l r = Some c -> b_par _ c = r) /\
  (forall j c, bfind l j = Some c -> b_act _ c = true -> j <> r -> actid l (b_par _ c)).

(* what the failing applyBlock of [i], marking [M], leaves of the block [b] at [j] *)
Definition failmark (i : N) (M : list N) (j : N) (b : cblk) : cblk :=
  mkBlk ccmd (b_id _ b) (b_par _ b) (b_h _ b) (b_lvl _ b) (b_fb _ b) (N.eqb (b_id _ b) i || b_fp _ b)
        (existsb (N.eqb j) M || b_fc _ b) (b_act _ b) (b_gs _ b).
Lemma find_fail : forall l i j, NoDup (ids l) ->
    bfind (mark_desc ccmd i [] (upd ccmd l i (set_fp ccmd))) j
    = option_map (failmark i (marks i [] (upd ccmd l i (set_fp ccmd))) j) (bfind l j).
Proof.
  intros l i j ND. rewrite find_mark_desc by (rewrite ids_upd by reflexivity; exact ND).
  rewrite find_upd_any by reflexivity. destruct (bfind l j) as [b|]; [|reflexivity]. unfold failmark. cbn [option_map].
  destruct b. cbn. destruct (existsb _ _), (N.eqb _ i); reflexivity.
Qed.
Lemma failmark_failed : forall i M j b,
    is_failed _ (failmark i M j b) = is_failed _ b || (N.eqb (b_id _ b) i || existsb (N.eqb j) M).
Proof. intros. unfold is_failed. cbn. destruct (b_fb ccmd b), (b_fp ccmd b), (b_fc ccmd b), (N.eqb (b_id ccmd b) i), (existsb (N.eqb j) M); reflexivity. Qed.

Lemma coh_apply_fail : forall l r i b,
    coh l r -> act_closed l r -> bfind l i = Some b -> is_failed _ b = false -> b_act _ b = false -> i <> r ->
    coh (mark_desc ccmd i [] (upd ccmd l i (set_fp ccmd))) r.
Proof.
  intros l r i b C (Ar & Pr & Cl) Fi Hnf Hna Hir. pose proof C as (ND & OR & C1 & C2 & C3 & C5).
  set (l1 := upd ccmd l i (set_fp ccmd)). set (M := marks i [] l1).
  assert (ND1 : NoDup (ids l1)) by (unfold l1; rewrite ids_upd by reflexivity; exact ND).
  assert (OR1 : ord_ok r [] (map idpar l1)) by (unfold l1; rewrite idpar_upd by reflexivity; exact OR).
  assert (In1 : forall j x, bfind l j = Some x -> exists x1, In x1 l1 /\ b_id _ x1 = j /\ b_par _ x1 = b_par _ x /\ (j <> i -> x1 = x)).
  { intros j x Fx. destruct (find_some_in _ _ _ Fx) as [Hin Hid].
    exists (if N.eqb (b_id ccmd x) i then set_fp ccmd x else x). split; [exact (in_map (fun b0 => if N.eqb (b_id ccmd b0) i then set_fp ccmd b0 else b0) _ _ Hin)|]. rewrite Hid.
    destruct (N.eqb_spec j i); repeat split; try assumption; intros; congruence. }
  (* marked blocks are not applied: the applied set is parent-closed *)
  assert (HM : forall j x, In j M -> bfind l j = Some x -> b_act ccmd x = false).
  { intros j x Hj Fx. apply not_true_is_false. intro Ax. revert j Hj x Fx Ax.
    apply (marks_ind (fun k => forall x, bfind l k = Some x -> b_act ccmd x <> true) i l1 []); [|intros k []].
    intros y1 Hy1 Hpar x Fx Ax. apply in_upd_idpar in Hy1; [|reflexivity]. destruct Hy1 as (y & Hy & Ei & Ep).
    rewrite Ei in Fx. rewrite Ep in Hpar.
    pose proof (find_in_blocks _ _ ND Hy) as Fy. rewrite Fy in Fx. inversion Fx; subst x.
    assert (Hp : forall px, bfind l (b_par ccmd y) = Some px -> b_act ccmd px <> true).
    { destruct Hpar as [->|Hp]; [|exact Hp]. intros px Fpx. rewrite Fi in Fpx. inversion Fpx; subst px. congruence. }
    destruct (N.eq_dec (b_id ccmd y) r) as [Heq|Hne].
    - rewrite Heq in Fy. destruct Ar as (c & Fc & Ac). rewrite (Pr _ Fy) in Hp. exact (Hp c Fc Ac).
    - destruct (Cl _ _ Fy Ax Hne) as (c & Fc & Ac). exact (Hp c Fc Ac). }
  apply (coh_pointwise (failmark i M) l _ r C).
  - rewrite idpar_mark_desc. apply idpar_upd. reflexivity.
  - intro j. apply find_fail. exact ND.
  - reflexivity.
  - intros j c p Fc Hr Fp. split; [|exact (C2 _ _ _ Fc Hr Fp)]. rewrite failmark_failed. cbn [failmark b_fc]. intros Hf.
    destruct (is_failed ccmd p) eqn:Fp0; [rewrite (C1 _ _ _ Fc Hr Fp Fp0); apply orb_true_r|].
    cbn [orb] in Hf. rewrite (bfind_id _ _ _ Fp) in Hf. apply orb_true_iff. left. apply existsb_eqb_in.
    destruct (In1 _ _ Fc) as (c1 & Hc1 & <- & Hcp & _).
    destruct (N.eqb_spec (b_par ccmd c) i) as [E|E].
    + (* child of the failing block *)
      apply marks_direct; [exact Hc1|left; rewrite Hcp; exact E].
    + (* child of a marked, unfailed block *)
      destruct (In1 _ _ Fp) as (p1 & Hp1 & Hpid & _ & Hpe). rewrite (Hpe E) in *.
      apply (marks_child r l1 [] i [] c1 p OR1 ND1 (fun k H => match H with end) Hc1 Hp1); try assumption.
      * rewrite Hcp. symmetry. exact Hpid.
      * rewrite Hpid. apply existsb_eqb_in. exact Hf.
  - intros j x Fx. split; [|exact (C5 _ _ Fx)]. rewrite failmark_failed. cbn [failmark b_act b_lvl]. intros Ax.
    destruct (C3 _ _ Fx Ax) as [-> Hl]. split; [|exact Hl]. cbn [orb]. apply orb_false_iff. split.
    + apply N.eqb_neq. rewrite (bfind_id _ _ _ Fx). intros ->. rewrite Fi in Fx. inversion Fx; subst x. congruence.
    + apply not_true_is_false. intro Hj. apply existsb_eqb_in in Hj. rewrite (HM _ _ Hj Fx) in Ax. discriminate.
Qed.

Definition scoh (s : cst) : Prop := coh (blocks _ _ s) (root _ _ s).

Lemma wf_act_closed : forall s, wf s -> act_closed (blocks _ _ s) (root _ _ s).
Proof.
  intros s (ND & (hr & HR) & HP & _). split; [|split].
  - destruct (core_find _ _ _ HR) as (b & Fb & Cb). exists b. split; [exact Fb|]. apply (f_equal e_act) in Cb. exact Cb.
  - intros c Fc. pose proof (find_cfind _ _ _ Fc) as Cc. rewrite HR in Cc. inversion Cc. reflexivity.
  - intros j c Fc Ac Hr. pose proof (find_cfind _ _ _ Fc) as Cc. pose proof (cfind_some _ _ _ Cc) as [Hid Hin].
    destruct (HP _ Hin) as (pe & Hpe & _ & Hpa); [cbn; rewrite (bfind_id _ _ _ Fc); exact Hr|].
    destruct (core_find _ _ _ Hpe) as (pb & Fpb & Cpb). exists pb. split; [exact Fpb|].
    specialize (Hpa Ac). rewrite <- Cpb in Hpa. exact Hpa.
Qed.

Lemma scoh_apply : forall s i s' ok, wf s -> scoh s -> c_applyBlock s i = Ok (s', ok) -> scoh s'.
Proof.
  intros s i s' ok W C H. destruct (applyBlock_inv _ _ _ _ _ _ _ _ H) as (b & pb & Fi & R & Fp & _ & Ha & _ & O).
  destruct ok; [destruct O as (p' & lv & Hf & _ & -> & Hr & ->)|destruct O as [[_ ->]|(p' & Hf & _ & ->)]];
    unfold scoh; cbn [blocks root with_blocks with_pst].
  - eapply (coh_apply_ok _ _ _ _ _ _ C Fi Fp R Hf); [destruct (_ && _); discriminate|exact Hr].
  - exact C.
  - eapply coh_apply_fail; try eassumption. apply wf_act_closed. exact W.
Qed.

Lemma scoh_unapply : forall s i s', scoh s -> c_unapplyBlock s i = Ok s' -> scoh s'.
Proof. intros s i s' C H. destruct (unapplyBlock_inv _ _ _ _ _ _ H) as (b & _ & _ & _ & _ & _ & _ & _ & _ & ->). apply coh_unapply. exact C. Qed.

Definition winv (s : cst) : Prop := wf s /\ scoh s.
Lemma winv_apply : forall s i s' ok, winv s -> c_applyBlock s i = Ok (s', ok) -> winv s'.
Proof.
  intros s i s' ok (W & C) H. split; [exact (wf_apply _ _ _ _ W H)|eapply scoh_apply; eassumption].
Qed.
Lemma winv_unapply : forall s i s', winv s -> c_unapplyBlock s i = Ok s' -> winv s'.
Proof.
  intros s i s' (W & C) H. split; [exact (proj1 (unapply_core _ _ _ W H))|eapply scoh_unapply; eassumption].
Qed.

Lemma scoh_setState : forall s to s' ok, quiet s -> scoh s -> c_setState s to = Ok (s', ok) -> scoh s'.
Proof.
  intros s to s' ok (W & _) C H. destruct (setState_inv _ _ _ _ _ _ _ _ H) as (s1 & bto & E & _ & Hs').
  pose proof (proj2 (Inv_sm_setState pstate ccmd cexec cunexec winv winv_apply winv_unapply s _ _ s1 ok (conj W C) E)) as C1.
  destruct ok; [destruct Hs' as [_ ->]|destruct Hs' as (_ & _ & ->)]; exact C1.
Qed.

Lemma scoh_compare : forall sc cr s c s' r, quiet s -> scoh s -> c_compare sc cr s c = Ok (s', r) -> scoh s'.
Proof.
  intros sc cr s c s' r (W & _) C H.
  exact (proj2 (Inv_compare pstate ccmd cexec cunexec winv winv_apply winv_unapply sc cr (fun _ _ I => I) s c s' r (conj W C) H)).
Qed.

Lemma scoh_connect : forall s i par dup gs s', scoh s -> c_connect s i par dup gs = Ok s' -> scoh s'.
Proof.
  intros s i par dup gs s' C H. destruct (connect_inv _ _ _ _ _ _ H) as (pb & Fp & Fi & ->). apply coh_connect; assumption.
Qed.

Lemma scoh_init : forall r h base, scoh (c_init r h base).
Proof.
  intros r h base. unfold scoh, c_init, init. cbn [blocks root].
  assert (F : forall i b, bfind [mkBlk ccmd r r h L_FULL false false false true []] i = Some b ->
                          i = r /\ b = mkBlk ccmd r r h L_FULL false false false true []).
  { intros i b Hb. cbn in Hb. destruct (N.eqb r i) eqn:E; [|discriminate]. apply N.eqb_eq in E. inversion Hb. split; [symmetry; exact E|reflexivity]. }
  split; [cbn; constructor; [intros []|constructor]|]. split; [cbn; split; [left; reflexivity|exact I]|].
  split; [|split; [|split]].
  - intros i c p Hc Hr. destruct (F _ _ Hc) as [-> _]. contradiction.
  - intros i c p Hc Hr. destruct (F _ _ Hc) as [-> _]. contradiction.
  - intros i b Hb _. destruct (F _ _ Hb) as [_ ->]. split; [reflexivity|discriminate].
  - intros i b Hb. destruct (F _ _ Hb) as [_ ->]. discriminate.
Qed.
