(** POP state machine — C20: the fully-valid level is truthful (replaying root..b alone succeeds). *)
From Coq Require Import List ZArith NArith Bool Lia Permutation.
Import ListNotations.
From VB Require Import Pop.SmDefs Pop.SmProofs Pop.SmWf.
Local Open Scope Z_scope.

(** ** success of command groups does not depend on the order of the items of P *)
Lemma mem_perm : forall x p q, Permutation p q -> mem x p = mem x q.
Proof.
  intros x p q H. unfold mem. induction H; cbn.
  - reflexivity.
  - rewrite IHPermutation. reflexivity.
  - destruct (item_eqb x y), (item_eqb x x0); reflexivity.
  - congruence.
Qed.
Lemma cexec_perm : forall c p q p', Permutation p q -> cexec c p = Some p' ->
    exists q', cexec c q = Some q' /\ Permutation p' q'.
Proof.
  intros [v par|e c b|v|] p q p' HP H; cbn in *.
  - rewrite <- !(mem_perm _ _ _ HP). destruct (mem (IRef v) p || mem (IRef par) p); inversion H; subst.
    eexists. split; [reflexivity|constructor; exact HP].
  - rewrite <- !(mem_perm _ _ _ HP). destruct (mem (IRef b) p); inversion H; subst.
    eexists. split; [reflexivity|constructor; exact HP].
  - rewrite <- !(mem_perm _ _ _ HP). destruct (mem (IRef v) p); inversion H; subst.
    eexists. split; [reflexivity|exact HP].
  - discriminate.
Qed.
Lemma gexec_perm : forall todo done done' p q p', Permutation p q ->
    gexec pstate ccmd cexec cunexec done todo p = (p', true) ->
    exists q', gexec pstate ccmd cexec cunexec done' todo q = (q', true) /\ Permutation p' q'.
Proof.
  induction todo as [|c r IH]; intros done done' p q p' HP H; cbn in H.
  - inversion H; subst. exists q. split; [reflexivity|exact HP].
  - destruct (cexec c p) as [p1|] eqn:E; [|discriminate].
    destruct (cexec_perm _ _ _ _ HP E) as (q1 & E' & HP1). cbn. rewrite E'. eapply IH; eassumption.
Qed.
Lemma gsexec_perm : forall todo done done' p q p', Permutation p q ->
    gsexec pstate ccmd cexec cunexec done todo p = (p', true) ->
    exists q', gsexec pstate ccmd cexec cunexec done' todo q = (q', true) /\ Permutation p' q'.
Proof.
  induction todo as [|g r IH]; intros done done' p q p' HP H; cbn in H.
  - inversion H; subst. exists q. split; [reflexivity|exact HP].
  - destruct (group_execute pstate ccmd cexec cunexec g p) as [p1 ok] eqn:E. destruct ok; [|discriminate].
    destruct (gexec_perm _ _ [] _ _ _ HP E) as (q1 & E' & HP1). cbn. unfold group_execute. rewrite E'. eapply IH; eassumption.
Qed.

(** ** replaying a list of block bodies from a given state *)
Fixpoint replay (gss : list (list (list ccmd))) (p : pstate) : option pstate :=
  match gss with
  | [] => Some p
  | gs :: r => match gsexec pstate ccmd cexec cunexec [] gs p with
               | (p', true) => replay r p'
               | (_, false) => None
               end
  end.
Lemma replay_app : forall a b p,
    replay (a ++ b) p = match replay a p with Some p' => replay b p' | None => None end.
Proof.
  induction a as [|gs r IH]; intros b p; cbn; [reflexivity|].
  destruct (gsexec pstate ccmd cexec cunexec [] gs p) as [p' ok]. destruct ok; [apply IH|reflexivity].
Qed.
Lemma replay_items : forall gss p p', replay gss p = Some p' -> Permutation p' (flat_map block_items gss ++ p).
Proof.
  induction gss as [|gs r IH]; intros p p' H; cbn in H.
  - inversion H; subst. reflexivity.
  - destruct (gsexec pstate ccmd cexec cunexec [] gs p) as [p1 ok] eqn:E. destruct ok; [|discriminate].
    apply IH in H. apply gsexec_items in E. subst p1. eapply perm_trans; [exact H|].
    cbn [flat_map]. rewrite <- !app_assoc. rewrite app_assoc. rewrite (app_assoc (block_items gs)).
    apply Permutation_app_tail. eapply perm_trans; [apply Permutation_app_comm|].
    apply Permutation_app_tail. symmetry. apply Permutation_rev.
Qed.

(** the bodies of root..i, for a block i that is n levels above the root *)
Definition bgs (s : cst) (n : nat) (i : N) : list (list (list ccmd)) :=
  rev (map (gs_of s) (anc_list (cores s) n i)).
Definition depth (s : cst) (i : N) : nat := Z.to_nat (hgt (cores s) i - hgt (cores s) (root _ _ s)).

Lemma bgs_succ : forall s n i, bgs s (S n) i = bgs s n (parent (cores s) i) ++ [gs_of s i].
Proof. reflexivity. Qed.

(** C20: every block at the fully-valid level can be applied on its own ancestry alone from the bootstrap state *)
Definition truthful (base : pstate) (s : cst) : Prop :=
  forall b, In b (blocks _ _ s) -> N.leb L_FULL (b_lvl _ b) = true ->
            exists p', replay (bgs s (depth s (b_id _ b)) (b_id _ b)) base = Some p'.

(** ** what [truthful] depends on *)
Lemma gs_of_static : forall s s' j,
    map (static ccmd) (blocks _ _ s') = map (static ccmd) (blocks _ _ s) -> gs_of s' j = gs_of s j.
Proof.
  intros s s' j. unfold gs_of. generalize (blocks pstate ccmd s) (blocks pstate ccmd s').
  induction l as [|b r IH]; intros l' H; destruct l' as [|b' r']; cbn in H; try discriminate; [reflexivity|].
  inversion H as [[H1 H2 H3 H4 H5]]. cbn. rewrite H1. destruct (N.eqb (b_id ccmd b) j); [exact H4|apply IH; exact H5].
Qed.
Lemma bgs_static : forall s s' n i,
    map (static ccmd) (blocks _ _ s') = map (static ccmd) (blocks _ _ s) -> bgs s' n i = bgs s n i.
Proof.
  intros s s' n i H. unfold bgs. f_equal.
  rewrite (anc_list_static (cores s) (cores s') n i (same_static_of_static _ _ H)).
  apply map_ext. intros j. apply gs_of_static. exact H.
Qed.
Lemma depth_static : forall s s' i,
    map (static ccmd) (blocks _ _ s') = map (static ccmd) (blocks _ _ s) -> root _ _ s' = root _ _ s -> depth s' i = depth s i.
Proof.
  intros s s' i H R. unfold depth. rewrite R. rewrite !(hgt_static _ _ _ (same_static_of_static _ _ H)). reflexivity.
Qed.

Lemma truthful_ext : forall base s s',
    map (static ccmd) (blocks _ _ s') = map (static ccmd) (blocks _ _ s) -> root _ _ s' = root _ _ s ->
    (forall b', In b' (blocks _ _ s') -> N.leb L_FULL (b_lvl _ b') = true ->
                exists b0, In b0 (blocks _ _ s) /\ b_id _ b0 = b_id _ b' /\ N.leb L_FULL (b_lvl _ b0) = true) ->
    truthful base s -> truthful base s'.
Proof.
  intros base s s' H R HL T b' Hin Hl. destruct (HL b' Hin Hl) as (b0 & Hin0 & Hid & Hl0).
  destruct (T b0 Hin0 Hl0) as (p' & Hp). exists p'.
  rewrite (depth_static _ _ _ H R), (bgs_static _ _ _ _ H), <- Hid. exact Hp.
Qed.

Lemma in_upd : forall (l : list (blk ccmd)) i f b', In b' (upd ccmd l i f) ->
    exists b0, In b0 l /\ b' = (if N.eqb (b_id _ b0) i then f b0 else b0).
Proof. intros l i f b' H. unfold upd in H. apply in_map_iff in H. destruct H as (b0 & A & B). exists b0. split; [exact B|symmetry; exact A]. Qed.

(** the key step: applyBlock raises to the fully-valid level only when the replay of root..block succeeds *)
Lemma raise_truthful : forall base s i b pb p',
    wf s -> canon base s -> truthful base s ->
    find ccmd (blocks _ _ s) i = Some b -> find ccmd (blocks _ _ s) (b_par _ b) = Some pb ->
    i <> root _ _ s -> b_act _ pb = true -> valid_upto _ pb L_FULL = true ->
    b_h _ b = root_h _ _ s + Z.of_N (napp _ _ s) ->
    gsexec pstate ccmd cexec cunexec [] (b_gs _ b) (pst _ _ s) = (p', true) ->
    exists pr, replay (bgs s (depth s i) i) base = Some pr.
Proof.
  intros base s i b pb p' W C T Fi Fp Hir Pa Pv Hh E.
  set (cur := b_par ccmd b).
  pose proof (find_cfind _ _ _ Fi) as Ci. pose proof (find_cfind _ _ _ Fp) as Cp.
  pose proof (wf_parent_height _ _ _ W Ci Hir) as Hph. change (e_par (core b)) with cur in Hph.
  pose proof (hgt_find _ _ _ Fi) as Hi.
  rewrite root_h_hgt in Hh.
  (* the state seen from the parent: nothing but root..parent is applied *)
  set (sc := mkSt pstate ccmd (blocks _ _ s) (root _ _ s) cur (napp _ _ s) (pst _ _ s)).
  assert (Q : quiet sc).
  { unfold quiet, wf, cores, sc. cbn [blocks root tip napp]. fold (cores s). split; [exact W|]. split.
    - exists (core pb). split; [exact Cp|exact Pa].
    - lia. }
  pose proof (active_items_chain sc Q) as HA. change (blocks pstate ccmd sc) with (blocks pstate ccmd s) in HA.
  assert (Hcg : chain_gs sc = map (gs_of s) (anc_list (cores s) (depth s cur) cur)) by reflexivity.
  rewrite Hcg in HA.
  (* the parent is fully valid: its replay succeeds *)
  assert (Hpl : N.leb L_FULL (b_lvl ccmd pb) = true).
  { unfold valid_upto in Pv. apply andb_prop in Pv. destruct Pv as [_ Pv]. exact Pv. }
  pose proof (find_some_in _ _ _ Fp) as [Hpin Hpid].
  destruct (T pb Hpin Hpl) as (pr0 & Hr0). rewrite Hpid in Hr0. fold cur in Hr0.
  (* P is a permutation of the result of that replay *)
  assert (HP : Permutation (pst _ _ s) pr0).
  { rewrite (proj1 C), (replay_items _ _ _ Hr0), HA. unfold bgs. rewrite flat_map_rev_perm. reflexivity. }
  destruct (gsexec_perm _ [] [] _ _ _ HP E) as (q' & E' & _).
  exists q'.
  assert (Hd : depth s i = S (depth s cur)).
  { unfold depth. pose proof (wf_napp_pos s W) as Hpos. rewrite <- Z2Nat.inj_succ by lia. f_equal. lia. }
  assert (Hg : gs_of s i = b_gs ccmd b) by (unfold gs_of; rewrite Fi; reflexivity).
  rewrite Hd, bgs_succ, (parent_find _ _ _ Fi : _ = cur), Hg, replay_app, Hr0. cbn. rewrite E'. reflexivity.
Qed.

Lemma truthful_apply : forall base s i s' ok,
    wf s -> canon base s -> truthful base s -> c_applyBlock s i = Ok (s', ok) -> truthful base s'.
Proof.
  intros base s i s' ok W C T H. destruct ok.
  - pose proof (staticInv_apply _ _ _ _ _ (eq_refl : staticInv (map (static ccmd) (blocks _ _ s)) s) H) as HS.
    unfold staticInv in HS.
    destruct (applyBlock_inv _ _ _ _ _ _ _ _ H) as (b & pb & Fi & R & Fp & Pa & _ & _ & p' & lv & _ & E & Hlv & _ & ->).
    intros b' Hin Hl. cbn [blocks] in Hin. apply in_upd in Hin. destruct Hin as (b0 & Hin0 & ->).
    rewrite (depth_static _ _ _ HS eq_refl), (bgs_static _ _ _ _ HS).
    destruct (N.eqb (b_id ccmd b0) i) eqn:E0; [|exact (T b0 Hin0 Hl)].
    apply N.eqb_eq in E0. cbn [b_id set_act raise_lvl]. rewrite E0.
    assert (b0 = b) by (pose proof (find_in_blocks _ _ (proj2 C) Hin0) as F; rewrite E0, Fi in F; inversion F; reflexivity).
    subst b0. cbn [b_lvl set_act raise_lvl] in Hl.
    destruct (N.leb L_FULL (b_lvl ccmd b)) eqn:Lb; [rewrite <- E0; exact (T b Hin0 Lb)|].
    (* the level has just been raised to fully valid: the guard of applyBlock held *)
    destruct (valid_upto ccmd pb L_FULL && Z.eqb (b_h ccmd b) (root_h pstate ccmd s + Z.of_N (napp pstate ccmd s))) eqn:Full; subst lv.
    + apply andb_prop in Full. destruct Full as [Pv Hh]. apply Z.eqb_eq in Hh. eapply raise_truthful; eassumption.
    + exfalso. apply N.leb_gt in Lb. unfold L_FULL, L_MAYBE in *.
      destruct (N.ltb (b_lvl ccmd b) 3) eqn:L3; [cbn in Hl; discriminate|].
      apply N.ltb_ge in L3. apply N.leb_le in Hl. lia.
  - apply c_applyBlock_atomic in H. destruct H as (_ & _ & _ & HR & Hs).
    eapply truthful_ext; [apply static_strip_eq; exact Hs|exact HR| |exact T].
    intros b' Hin Hl.
    assert (Hm : In (strip ccmd b') (map (strip ccmd) (blocks _ _ s))) by (rewrite <- Hs; apply in_map; exact Hin).
    apply in_map_iff in Hm. destruct Hm as (b0 & Hst & Hin0). exists b0. split; [exact Hin0|].
    rewrite (f_equal (b_lvl ccmd) Hst : b_lvl _ b0 = b_lvl _ b'). split; [exact (f_equal (b_id ccmd) Hst)|exact Hl].
Qed.

Lemma truthful_unapply : forall base s i s',
    truthful base s -> c_unapplyBlock s i = Ok s' -> truthful base s'.
Proof.
  intros base s i s' T H.
  pose proof (staticInv_unapply _ _ _ _ (eq_refl : staticInv (map (static ccmd) (blocks _ _ s)) s) H) as HS.
  unfold staticInv in HS.
  destruct (unapplyBlock_inv _ _ _ _ _ _ H) as (b & pb & _ & _ & _ & _ & _ & _ & _ & ->).
  eapply truthful_ext; [exact HS|reflexivity| |exact T].
  intros b' Hin Hl. cbn [blocks] in Hin. apply in_upd in Hin. destruct Hin as (b0 & Hin0 & ->).
  exists b0. split; [exact Hin0|]. destruct (N.eqb (b_id ccmd b0) i); split; try reflexivity; exact Hl.
Qed.

(** the three invariants together are preserved by every block-level step, hence by every walk *)
Definition tinv (base : pstate) (s : cst) : Prop := wf s /\ canon base s /\ truthful base s.
Lemma tinv_apply : forall base s i s' ok, tinv base s -> c_applyBlock s i = Ok (s', ok) -> tinv base s'.
Proof.
  intros base s i s' ok (W & C & T) H. split; [|split].
  - exact (wf_apply _ _ _ _ W H).
  - eapply canon_apply; eassumption.
  - eapply truthful_apply; eassumption.
Qed.
Lemma tinv_unapply : forall base s i s', tinv base s -> c_unapplyBlock s i = Ok s' -> tinv base s'.
Proof.
  intros base s i s' (W & C & T) H. split; [|split].
  - exact (proj1 (unapply_core _ _ _ W H)).
  - eapply canon_unapply; eassumption.
  - eapply truthful_unapply; eassumption.
Qed.

(* [truthful] does not look at the tip pointer and the counter, which is all that setState changes after the walks *)
Lemma truthful_setState : forall base s to s' ok,
    quiet s -> canon base s -> truthful base s -> c_setState s to = Ok (s', ok) -> truthful base s'.
Proof.
  intros base s to s' ok (W & _) C T H.
  destruct (setState_inv _ _ _ _ _ _ _ _ H) as (s1 & bto & E & _ & Hs').
  destruct (Inv_sm_setState pstate ccmd cexec cunexec (tinv base) (tinv_apply base) (tinv_unapply base) _ _ _ _ _
              (conj W (conj C T)) E) as (_ & _ & T1).
  destruct ok; [destruct Hs' as [_ ->]|destruct Hs' as (_ & _ & ->)]; exact T1.
Qed.

(** ** connectBlock *)
Lemma find_app_some : forall (l : list (blk ccmd)) x j b, find ccmd l j = Some b -> find ccmd (l ++ [x]) j = Some b.
Proof. induction l as [|y r IH]; intros x j b H; cbn in *; [discriminate|]. destruct (N.eqb (b_id ccmd y) j); [exact H|apply IH; exact H]. Qed.

Lemma wf_closed : forall s, wf s -> forall j e, cfind (cores s) j = Some e -> exists pe, cfind (cores s) (e_par e) = Some pe.
Proof.
  intros s W j e He. destruct (wf_parent _ _ _ W He) as (pe & Hpe & _). exists pe. exact Hpe.
Qed.

(* a block appended to the tree is no ancestor of the blocks that were there *)
Lemma gs_of_snoc : forall s nb i e,
    cfind (cores s) i = Some e -> gs_of (with_blocks pstate ccmd s (blocks _ _ s ++ [nb])) i = gs_of s i.
Proof.
  intros s nb i e He. unfold gs_of, cores in *. rewrite cfind_core in He. cbn [blocks with_blocks].
  destruct (find ccmd (blocks pstate ccmd s) i) as [bi|] eqn:Fi; [|discriminate].
  rewrite (find_app_some _ _ _ _ Fi). reflexivity.
Qed.
Lemma bgs_snoc : forall s nb n i e,
    wf s -> cfind (cores s) i = Some e ->
    bgs (with_blocks pstate ccmd s (blocks _ _ s ++ [nb])) n i = bgs s n i.
Proof.
  intros s nb n. induction n as [|n IH]; intros i e W He.
  - unfold bgs. cbn. rewrite (gs_of_snoc _ _ _ _ He). reflexivity.
  - rewrite !bgs_succ, (gs_of_snoc _ _ _ _ He). f_equal. destruct (wf_closed s W _ _ He) as (pe & Hpe).
    rewrite (parent_cfind _ _ _ He), (parent_cfind (cores (with_blocks pstate ccmd s (blocks _ _ s ++ [nb]))) i e)
      by (rewrite cores_snoc; apply cfind_app_some, He).
    exact (IH _ _ W Hpe).
Qed.

Lemma truthful_connect : forall base s i par dup gs s',
    wf s -> truthful base s -> c_connect s i par dup gs = Ok s' -> truthful base s'.
Proof.
  intros base s i par dup gs s' W T H. unfold c_connect, connect in H.
  destruct (find ccmd (blocks pstate ccmd s) par) as [pb|] eqn:Fp; [|discriminate].
  destruct (find ccmd (blocks pstate ccmd s) i) eqn:Fi; [discriminate|].
  inversion H; subst s'; clear H.
  intros b' Hin Hl. cbn [blocks with_blocks] in Hin. apply in_app_or in Hin. destruct Hin as [Hin|[<-|[]]]; [|cbn in Hl; discriminate].
  destruct (T b' Hin Hl) as (pp & Hp). exists pp.
  pose proof (find_cfind _ _ _ (find_in_blocks _ _ (wf_ids s W) Hin)) as Cb.
  rewrite (bgs_snoc _ _ _ _ _ W Cb).
  replace (depth _ (b_id ccmd b')) with (depth s (b_id ccmd b')); [exact Hp|].
  unfold depth. rewrite cores_snoc. cbn [root with_blocks].
  destruct W as (_ & (hr & HR) & _). rewrite (hgt_app_some _ _ _ _ Cb), (hgt_app_some _ _ _ _ HR). reflexivity.
Qed.

Lemma truthful_init : forall r h base, truthful base (c_init r h base).
Proof.
  intros r h base b [<-|[]] _. exists base.
  unfold depth, bgs, hgt, cores, c_init, init. cbn [blocks root map core b_id b_par b_h b_act cfind e_id fst snd].
  rewrite N.eqb_refl. cbn [e_h snd fst]. rewrite Z.sub_diag. cbn [Z.to_nat anc_list map rev app].
  unfold gs_of. cbn [blocks find b_id]. rewrite N.eqb_refl. reflexivity.
Qed.

(** ** C20 along histories: what holds between two top-level calls *)
Definition tq (base : pstate) (s : cst) : Prop := quiet s /\ canon base s /\ truthful base s.
Lemma tq_init : forall r h base, tq base (c_init r h base).
Proof. intros. split; [apply quiet_init|split; [apply canon_init|apply truthful_init]]. Qed.
Lemma tq_connect : forall base s i par dup gs s', tq base s -> c_connect s i par dup gs = Ok s' -> tq base s'.
Proof.
  intros base s i par dup gs s' (Q & C & T) H. split; [|split].
  - eapply quiet_connect; eassumption.
  - eapply canon_connect; eassumption.
  - eapply truthful_connect; [exact (proj1 Q)|exact T|exact H].
Qed.
Lemma tq_setState : forall base s to s' ok, tq base s -> c_setState s to = Ok (s', ok) -> tq base s'.
Proof.
  intros base s to s' ok (Q & C & T) H. split; [|split].
  - eapply quiet_setState; eassumption.
  - eapply canon_setState; eassumption.
  - eapply truthful_setState; eassumption.
Qed.

(** C20 over all histories of connectBlock / setState *)
Theorem full_validity_truthful : forall base r h ops s,
    no_compare ops -> run (c_init r h base) ops = Ok s ->
    forall b, In b (blocks _ _ s) -> N.leb L_FULL (b_lvl _ b) = true ->
              exists p', replay (bgs s (depth s (b_id _ b)) (b_id _ b)) base = Some p'.
Proof.
  intros base r h ops s NC R.
  exact (proj2 (proj2 (run_inv_nc (tq base) (tq_connect base) (tq_setState base) ops _ _ NC (tq_init r h base) R))).
Qed.
