(** C01 by composition, part 3: the fork block that comparePopScore computes ([lca] of the POP machine) is the same in
    two reachable states with the same active chain, for a candidate whose chain is the same in both. *)
From Coq Require Import List ZArith NArith Bool Lia Permutation.
Import ListNotations.
From VB Require Import Pop.SmDefs Pop.SmProofs Pop.SmWf Pop.SmTruth Pop.SmCmp Pop.SmAll Pop.SmCoh Pop.SmFull Pop.SmTree
     Pop.C01Compose Pop.C01Verdict.
Local Open Scope Z_scope.

Lemma lca_tip_spec : forall base s c bc fork,
    reachable base s -> bfind (blocks _ _ s) c = Some bc ->
    lca ccmd (blocks _ _ s) (2 * fuel_of _ _ s) (tip _ _ s) c = Some fork -> is_lca s (tip _ _ s) c fork.
Proof.
  intros base s c bc fork R Fc L. destruct (reachable_good _ _ R) as ((W & (et & Ct & _) & _) & _ & K & _).
  destruct (lca_fuel s _ _ _ _ W K Ct (find_cfind _ _ _ Fc)) as (f & Hl & H). rewrite L in Hl. injection Hl as <-. exact H.
Qed.

Lemma lca_on_chains : forall base s c bc fork,
    reachable base s -> bfind (blocks _ _ s) c = Some bc ->
    lca ccmd (blocks _ _ s) (2 * fuel_of _ _ s) (tip _ _ s) c = Some fork ->
    on_chain s (tip _ _ s) fork /\ on_chain s c fork /\
    forall g, on_chain s (tip _ _ s) g -> on_chain s c g -> hgt (cores s) g <= hgt (cores s) fork.
Proof.
  intros base s c bc fork R Fc L. destruct (lca_tip_spec base s c bc fork R Fc L) as (ka & kb & Ha & Hb & Ka & Kb & M).
  destruct (reachable_good _ _ R) as ((W & (et & Ct & _) & _) & _ & K & _).
  pose proof (depth_dep s _ _ W K Ct) as Dt. pose proof (depth_dep s _ _ W K (find_cfind _ _ _ Fc)) as Dc.
  split; [apply on_chain_iff; exists ka; split; [lia|exact Ha]|]. split; [apply on_chain_iff; exists kb; split; [lia|exact Hb]|].
  intros g Ht Hc. apply on_chain_iff in Ht, Hc. destruct Ht as (i & Hi & Ei), Hc as (j & Hj & Ej). apply (M g i j Ei Ej); lia.
Qed.

Lemma chain_hgt_inj : forall s c e x y, wf s -> scoh s -> cfind (cores s) c = Some e ->
    on_chain s c x -> on_chain s c y -> hgt (cores s) x = hgt (cores s) y -> x = y.
Proof.
  intros s c e x y W K C Hx Hy E. apply on_chain_iff in Hx, Hy. destruct Hx as (i & Hi & ->), Hy as (j & Hj & ->).
  rewrite (up_hgt_depth s c e i W K C Hi), (up_hgt_depth s c e j W K C Hj) in E. replace j with i by lia. reflexivity.
Qed.

Lemma fork_agree : forall base s1 s2 c bc1 bc2 f1 f2,
    reachable base s1 -> reachable base s2 -> active_chain s1 = active_chain s2 ->
    bfind (blocks _ _ s1) c = Some bc1 -> bfind (blocks _ _ s2) c = Some bc2 ->
    chain_of s1 c = chain_of s2 c ->
    lca ccmd (blocks _ _ s1) (2 * fuel_of _ _ s1) (tip _ _ s1) c = Some f1 ->
    lca ccmd (blocks _ _ s2) (2 * fuel_of _ _ s2) (tip _ _ s2) c = Some f2 ->
    f1 = f2 /\ on_chain s1 c f1.
Proof.
  intros base s1 s2 c bc1 bc2 f1 f2 R1 R2 HA Fc1 Fc2 HC L1 L2.
  destruct (lca_on_chains base s1 c bc1 f1 R1 Fc1 L1) as (T1 & C1 & M1).
  destruct (lca_on_chains base s2 c bc2 f2 R2 Fc2 L2) as (T2 & C2 & M2).
  unfold on_chain in T2, C2, M2. rewrite <- active_chain_of, <- HA in T2, M2. rewrite <- HC in C2, M2.
  destruct (reachable_good _ _ R1) as ((W1 & _) & _ & K1 & _).
  (* each is a common block of the two chains in the other state, hence not above the other *)
  pose proof (M1 f2 T2 C2) as Le1. pose proof (M2 f1 T1 C1) as Le2.
  rewrite (proj1 (chain_of_data _ _ _ _ HC C1)), (proj1 (chain_of_data _ _ _ _ HC C2)) in Le2.
  split; [|exact C1]. apply (chain_hgt_inj s1 c _ f1 f2 W1 K1 (find_cfind _ _ _ Fc1) C1 C2). lia.
Qed.

(** no block of c's chain carries a failed mark (BLOCK_FAILED_BLOCK / _POP / _CHILD) *)
Definition clean_all (s : cst) (c : N) : Prop := forall n, clean s c n.
