(** C20 — effects are applied in body order on top of the state left by the parent and reverted in exactly the reverse
    order (command by command, across the command groups of a block), at full strength: equalities of protecting
    states, for every state and block. Only definitions of Pop/SmDefs.v are used ([gexec], [undo]). *)
From Coq Require Import List ZArith NArith Bool Lia.
Import ListNotations.
From VB Require Import Pop.SmDefs Pop.SmProofs Pop.SmWf Pop.SmCoh Pop.SmFull.
Local Open Scope Z_scope.

Notation gex := (gexec pstate ccmd cexec cunexec).
Notation und := (undo pstate ccmd cunexec).

Lemma gexec_ok_app : forall todo d p p', gex d todo p = (p', true) ->
    forall d' rest, gex d' (todo ++ rest) p = gex (rev todo ++ d') rest p'.
Proof.
  induction todo as [|c r IH]; intros d p p' H d' rest; cbn in *.
  - inversion H; subst. reflexivity.
  - destruct (cexec c p) as [p1|]; [|inversion H].
    rewrite (IH _ _ _ H (c :: d') rest). rewrite <- app_assoc. reflexivity.
Qed.

Lemma gsexec_ok_flat : forall gs done p p', gsexec pstate ccmd cexec cunexec done gs p = (p', true) ->
    forall d, gex d (concat gs) p = (p', true).
Proof.
  induction gs as [|g r IH]; intros done p p' H d; cbn in *.
  - inversion H; subst. reflexivity.
  - unfold group_execute in H. destruct (gex [] g p) as [p1 ok] eqn:E. destruct ok; [|inversion H].
    rewrite (gexec_ok_app _ _ _ _ E d (concat r)). eapply IH. exact H.
Qed.

Lemma gsundo_flat : forall l p, gsundo pstate ccmd cunexec l p = und (concat (map (@rev ccmd) l)) p.
Proof.
  induction l as [|g r IH]; intros p; [reflexivity|].
  cbn [map concat]. rewrite (undo_app pstate ccmd cunexec), <- IH. reflexivity.
Qed.

Lemma concat_map_rev_rev : forall gs : list (list ccmd), concat (map (@rev ccmd) (rev gs)) = rev (concat gs).
Proof.
  induction gs as [|g r IH]; cbn; [reflexivity|].
  rewrite map_app, concat_app, IH, rev_app_distr. cbn. rewrite app_nil_r. reflexivity.
Qed.

(** a successful applyBlock executes the commands of the block, in body order, on the state it found (which - by the
    assert "follows an applied block" and C20_unapply_order - is the state left by the parent and the blocks applied next
    to it), and leaves exactly that state *)
Theorem apply_executes_in_order : forall s i s' b,
    c_applyBlock s i = Ok (s', true) -> bfind (blocks _ _ s) i = Some b ->
    gex [] (concat (b_gs _ b)) (pst _ _ s) = (pst _ _ s', true).
Proof.
  intros s i s' b H Fi. destruct (applyBlock_inv _ _ _ _ _ _ _ _ H) as (b0 & pb & Fi0 & _ & _ & _ & _ & _ & p' & lv & _ & E & _ & _ & ->).
  rewrite Fi in Fi0. inversion Fi0; subst b0. eapply gsexec_ok_flat. exact E.
Qed.

(** unapplyBlock reverts the commands of the block one by one in exactly the reverse order *)
Theorem unapply_reverts_in_reverse : forall s i s' b,
    c_unapplyBlock s i = Ok s' -> bfind (blocks _ _ s) i = Some b ->
    pst _ _ s' = und (rev (concat (b_gs _ b))) (pst _ _ s).
Proof.
  intros s i s' b H Fi. destruct (unapplyBlock_inv _ _ _ _ _ _ H) as (b0 & _ & Fi0 & _ & _ & _ & _ & _ & _ & ->).
  rewrite Fi in Fi0. inversion Fi0; subst b0. cbn [pst]. rewrite gsundo_flat, concat_map_rev_rev. reflexivity.
Qed.

(** the not-yet-validated part goes first: the unapplyWhile(not fully valid) of comparePopScore, which runs before the
    losing chain is unapplied, stops only at the fork block or at a block that IS fully valid *)
Theorem unvalidated_unapplied_first : forall fuel s cur to s' w,
    unapplyWhile pstate ccmd cunexec fuel s cur to (not_full ccmd) = Ok (s', w) ->
    w = to \/ exists bw, bfind (blocks _ _ s') w = Some bw /\ valid_upto _ bw L_FULL = true.
Proof.
  intros fuel s cur to s' w H. destruct (uw_stop _ _ _ _ _ _ _ H) as [E|(bw & F & P)]; [left; exact E|].
  right. exists bw. split; [exact F|]. unfold not_full in P. apply negb_false_iff in P. exact P.
Qed.

(** non-vacuity: a block with two command groups whose second group needs the first *)
Example revert_example :
  let gs := [[AddRef 4 1; AddRef 7 4]; [AddEnd 10 4 2; Need 7]]%N in
  let base := [IRef 1; IRef 2]%N in
  let s0 := c_init 0 0 base in
  match c_connect s0 3 0 false gs with
  | Ok s1 => match c_applyBlock s1 3 with
             | Ok (s2, true) =>
               pst _ _ s2 = [IEnd 10 4 2; IRef 7; IRef 4; IRef 1; IRef 2]%N /\
               match c_unapplyBlock s2 3 with Ok s3 => pst _ _ s3 = base | Abort _ => False end
             | _ => False
             end
  | Abort _ => False
  end.
Proof. vm_compute. split; reflexivity. Qed.
