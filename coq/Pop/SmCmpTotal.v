(** POP state machine — setState, comparePopScore and connectBlock never hit an assert from a reachable state. *)
From Coq Require Import List ZArith NArith Bool Lia Permutation.
Import ListNotations.
From VB Require Import Pop.SmDefs Pop.SmProofs Pop.SmWf Pop.SmTruth Pop.SmCmp Pop.SmAll Pop.SmCoh Pop.SmFull Pop.SmMarks Pop.SmTree Pop.SmReact Pop.SmAbort Pop.SmTwin.
Local Open Scope Z_scope.

(* getForkBlock(tip, c) has fuel enough *)
Lemma lca_tip : forall base s c ec, good base s -> cfind (cores s) c = Some ec ->
    exists fork, lca ccmd (blocks _ _ s) (2 * fuel_of _ _ s) (tip _ _ s) c = Some fork /\ is_lca s (tip _ _ s) c fork.
Proof. intros base s c ec ((W & (et & Ct & _) & _) & _ & K & _) Cc. exact (lca_fuel s _ _ _ _ W K Ct Cc). Qed.

(** C02 / C20: setState never hits an assert. From every reachable state, for every known target (valid, failing at any
    position, already invalid, ahead, behind, on a fork), it returns true or false, never Abort. *)
Theorem setState_total : forall base s to bto,
    reachable base s -> bfind (blocks _ _ s) to = Some bto -> exists s' ok, c_setState s to = Ok (s', ok).
Proof.
  intros base s to bto R Fto. pose proof (reachable_good _ _ R) as G0. pose proof G0 as ((W & Ta & Hn) & _ & K & T & _).
  destruct (is_act_find _ _ Ta) as (bt & Ft & _). pose proof (find_cfind _ _ _ Fto) as Cto.
  unfold c_setState, setState. rewrite Ft, Fto.
  (* the tree must have the best chain applied *)
  assert (Hchk : negb (Z.eqb (b_h ccmd bt + 1) (root_h pstate ccmd s + Z.of_N (napp pstate ccmd s))) = false).
  { apply negb_false_iff. apply Z.eqb_eq. rewrite root_h_hgt, <- (hgt_find _ _ _ Ft). lia. }
  rewrite Hchk.
  destruct (N.eqb_spec (tip pstate ccmd s) to) as [Ett|Ett].
  { (* the tip is fully valid by the invariant *)
    cbn [bind]. subst to. rewrite Ft. destruct T as (b2 & F2 & Hl). destruct (act_valid s _ K Ta) as (b3 & F3 & _ & Hnf).
    rewrite Ft in F2, F3. injection F2 as <-. injection F3 as <-. rewrite (valid_upto_intro _ _ Hnf Hl). eexists. eexists. reflexivity. }
  destruct (lca_tip base s to _ G0 Cto) as (fork & Hl & ka & kb & Hf1 & Hf2 & Ka & Kb & Hmax).
  destruct (twin_sm_setState base s G0 to fork ka kb _ Cto Hf1 Hf2 Ka Kb Hmax Hl Ett) as (s1 & ok & E & H).
  rewrite E. cbn [bind]. destruct ok.
  - destruct H as (b1 & Fb1 & Hv). rewrite Fb1, Hv. eexists. eexists. reflexivity.
  - destruct H as ((b1 & Fb1 & Hf1') & Hcnt). rewrite Fb1, Hf1', Hcnt, N.eqb_refl. eexists. eexists. reflexivity.
Qed.

Theorem compare_fork_total : forall base sc cr s c bc bt,
    reachable base s -> bfind (blocks _ _ s) c = Some bc ->
    exists s' r, compare_fork pstate ccmd cexec cunexec sc cr s c bc bt = Ok (s', r).
Proof.
  intros base sc cr s c bc bt R Fc. pose proof (reachable_good _ _ R) as G0. pose proof (find_cfind _ _ _ Fc) as Cc.
  destruct (lca_tip base s c _ G0 Cc) as (fork & Hl & ka & kb & Hf1 & Hf2 & Ka & Kb & Hmax).
  exact (twin_compare_fork base s G0 c fork ka kb _ Cc Hf1 Hf2 Ka Kb Hmax sc cr bc bt Hl).
Qed.

(** C02: comparePopScore never hits an assert. From every reachable state, for every candidate (unknown, invalid, the
    tip, on the active chain, a successor of the tip, on a fork; failing at any position next to the active chain or
    alone) and every scorer, it returns a verdict, never Abort. *)
Theorem compare_total : forall base sc cr s cand,
    reachable base s -> (forall c, cand = Some c -> exists bc, bfind (blocks _ _ s) c = Some bc) ->
    exists s' r, c_compare sc cr s cand = Ok (s', r).
Proof.
  intros base sc cr s cand R Hcand. unfold c_compare, compare.
  destruct cand as [c|]; [|eexists; eexists; reflexivity].
  destruct (Hcand c eq_refl) as (bc & Fc). rewrite Fc.
  pose proof (reachable_good _ _ R) as G0. pose proof G0 as ((W & Ta & _) & _ & K & _).
  destruct (is_act_find _ _ Ta) as (bt & Ft & _). rewrite Ft.
  destruct (is_failed ccmd bc); [eexists; eexists; reflexivity|].
  destruct (N.eqb (tip pstate ccmd s) c); [eexists; eexists; reflexivity|].
  destruct (on_active_chain pstate ccmd s c); [eexists; eexists; reflexivity|].
  destruct (anc_at ccmd (blocks pstate ccmd s) (fuel_of pstate ccmd s) c (b_h ccmd bt)) as [a|] eqn:Ea;
    [|exact (compare_fork_total base sc cr s c bc bt R Fc)].
  destruct (N.eqb_spec a (tip pstate ccmd s)) as [Eat|_]; [|exact (compare_fork_total base sc cr s c bc bt R Fc)].
  (* the candidate descends from the tip: the twin walk with the tip as fork *)
  subst a. destruct (anc_at_sound s W _ _ _ _ Ea) as (k & Hk & _ & Hh2).
  pose proof (find_cfind _ _ _ Fc) as Cc. pose proof (find_cfind _ _ _ Ft) as Ct.
  destruct (dep_facts s _ _ W K Ct) as (D1 & _).
  assert (Kb : Z.of_nat k <= dep s c) by (unfold dep in *; lia).
  assert (Hmax : forall g i j, g = up (cores s) i (tip _ _ s) -> g = up (cores s) j c ->
                               Z.of_nat i <= dep s (tip _ _ s) -> Z.of_nat j <= dep s c -> hgt (cores s) g <= hgt (cores s) (tip _ _ s)).
  { intros g i j -> _ Hi _. rewrite (proj1 (up_hgt_dep s _ _ i W K Ct Hi)). lia. }
  destruct (twin_apply base s G0 c (tip _ _ s) O k _ Cc eq_refl Hk D1 Kb Hmax s O (twin_init base s G0 c (tip _ _ s) O k eq_refl Hk))
    as (s1 & ok & E & _).
  rewrite E. cbn [bind]. destruct ok; eexists; eexists; reflexivity.
Qed.

Theorem connect_total : forall s i par pb dup gs,
    bfind (blocks _ _ s) par = Some pb -> bfind (blocks _ _ s) i = None -> exists s', c_connect s i par dup gs = Ok s'.
Proof. intros s i par pb dup gs Fp Fi. unfold c_connect, connect. rewrite Fp, Fi. eexists. reflexivity. Qed.
