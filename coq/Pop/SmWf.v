(** POP state machine — structural invariants of the tree part (ids, parents, heights, ACTIVE flags,
    appliedBlockCount) and the counting argument "the applied blocks are exactly root..tip". *)
From Coq Require Import List ZArith NArith Bool Lia Permutation.
Import ListNotations.
From VB Require Import Pop.SmDefs Pop.SmProofs.
Local Open Scope Z_scope.

(** the part of a block that matters here: (id, parent, height, ACTIVE) *)
Definition ent : Type := (N * N * Z * bool)%type.
Definition e_id (e : ent) : N := fst (fst (fst e)).
Definition e_par (e : ent) : N := snd (fst (fst e)).
Definition e_h (e : ent) : Z := snd (fst e).
Definition e_act (e : ent) : bool := snd e.
Definition core (b : blk ccmd) : ent := (b_id _ b, b_par _ b, b_h _ b, b_act _ b).
Definition cores (s : cst) : list ent := map core (blocks _ _ s).

Fixpoint cfind (l : list ent) (i : N) : option ent :=
  match l with
  | [] => None
  | e :: r => if N.eqb (e_id e) i then Some e else cfind r i
  end.
Definition setact (i : N) (v : bool) (e : ent) : ent :=
  if N.eqb (e_id e) i then (e_id e, e_par e, e_h e, v) else e.
Definition cupd (l : list ent) (i : N) (v : bool) : list ent := map (setact i v) l.
Definition nact (l : list ent) : nat := length (filter e_act l).

Lemma cfind_core : forall (l : list (blk ccmd)) i, cfind (map core l) i = option_map core (find ccmd l i).
Proof.
  induction l as [|b r IH]; intros i; [reflexivity|].
  cbn [map cfind find]. change (e_id (core b)) with (b_id ccmd b).
  destruct (N.eqb (b_id ccmd b) i); [reflexivity|apply IH].
Qed.
Lemma find_cfind : forall s i b, find ccmd (blocks _ _ s) i = Some b -> cfind (cores s) i = Some (core b).
Proof. intros s i b H. unfold cores. rewrite cfind_core, H. reflexivity. Qed.
Lemma core_strip : forall b, core (strip ccmd b) = core b.
Proof. reflexivity. Qed.
Lemma cores_strip_eq : forall l l' : list (blk ccmd),
    map (strip ccmd) l = map (strip ccmd) l' -> map core l = map core l'.
Proof.
  intros l l' H. apply (f_equal (map core)) in H. rewrite !map_map in H. exact H.
Qed.
Lemma cores_upd : forall (l : list (blk ccmd)) i f v,
    (forall b, core (f b) = (b_id _ b, b_par _ b, b_h _ b, v)) -> map core (upd ccmd l i f) = cupd (map core l) i v.
Proof.
  intros l i f v Hf. unfold upd, cupd. rewrite !map_map. apply map_ext. intros b.
  unfold setact. change (e_id (core b)) with (b_id ccmd b). destruct (N.eqb (b_id ccmd b) i); [apply Hf|reflexivity].
Qed.

Lemma cfind_some : forall l i e, cfind l i = Some e -> e_id e = i /\ In e l.
Proof.
  induction l as [|h r IH]; intros i e H; cbn in H; [discriminate|].
  destruct (N.eqb (e_id h) i) eqn:E.
  - inversion H; subst. apply N.eqb_eq in E. split; [exact E|left; reflexivity].
  - apply IH in H. destruct H. split; [assumption|right; assumption].
Qed.
Lemma cfind_in : forall l e, NoDup (map e_id l) -> In e l -> cfind l (e_id e) = Some e.
Proof.
  induction l as [|h r IH]; intros e ND HI; [destruct HI|]. cbn in ND. inversion ND as [|? ? Hn ND']; subst.
  cbn. destruct HI as [HI|HI].
  - subst. rewrite N.eqb_refl. reflexivity.
  - destruct (N.eqb (e_id h) (e_id e)) eqn:E.
    + apply N.eqb_eq in E. exfalso. apply Hn. rewrite E. apply in_map. exact HI.
    + apply IH; assumption.
Qed.

Lemma setact_static : forall i v e, e_id (setact i v e) = e_id e /\ e_par (setact i v e) = e_par e /\ e_h (setact i v e) = e_h e.
Proof. intros. unfold setact. destruct (N.eqb (e_id e) i); auto. Qed.
Lemma cfind_cupd : forall l i v j, cfind (cupd l i v) j = option_map (setact i v) (cfind l j).
Proof.
  induction l as [|h r IH]; intros i v j; [reflexivity|].
  cbn [cupd map cfind]. rewrite (proj1 (setact_static i v h)). destruct (N.eqb (e_id h) j); [reflexivity|apply IH].
Qed.
Lemma ids_cupd : forall l i v, map e_id (cupd l i v) = map e_id l.
Proof. intros. unfold cupd. rewrite map_map. apply map_ext. intros e. apply setact_static. Qed.

Lemma cupd_notin : forall l i v, ~ In i (map e_id l) -> cupd l i v = l.
Proof.
  intros l i v Hn. rewrite <- (map_id l) at 2. apply map_ext_in. intros x Hx. unfold setact.
  destruct (N.eqb (e_id x) i) eqn:Ex; [|reflexivity].
  apply N.eqb_eq in Ex. exfalso. apply Hn. rewrite <- Ex. apply in_map. exact Hx.
Qed.

Lemma nact_cupd : forall l i e v, NoDup (map e_id l) -> cfind l i = Some e ->
    (nact (cupd l i v) + (if e_act e then 1 else 0) = nact l + (if v then 1 else 0))%nat.
Proof.
  assert (C : forall x r, nact (x :: r) = ((if e_act x then 1 else 0) + nact r)%nat).
  { intros. unfold nact. cbn [filter]. destruct (e_act x); reflexivity. }
  induction l as [|h r IH]; intros i e v ND H; cbn in H; [discriminate|].
  cbn in ND. inversion ND as [|? ? Hn ND']; subst. cbn [cupd map]. fold (cupd r i v). rewrite !C. unfold setact at 1.
  destruct (N.eqb (e_id h) i) eqn:E.
  - inversion H; subst h. apply N.eqb_eq in E. subst i.
    rewrite (cupd_notin _ _ _ Hn). cbn [e_act snd]. lia.
  - specialize (IH _ _ v ND' H). lia.
Qed.

(** ** well-formedness of (ids, parents, heights, ACTIVE flags, counter) *)
Definition wfc (l : list ent) (r : N) (n : N) : Prop :=
  NoDup (map e_id l) /\
  (exists h, cfind l r = Some (r, r, h, true)) /\
  (forall e, In e l -> e_id e <> r ->
     exists pe, cfind l (e_par e) = Some pe /\ e_h e = e_h pe + 1 /\ (e_act e = true -> e_act pe = true)) /\
  n = N.of_nat (nact l).

Definition is_act (l : list ent) (i : N) : Prop := exists e, cfind l i = Some e /\ e_act e = true.

(* ACTIVE may be switched on below an active parent, off above inactive children *)
Lemma wfc_cupd : forall l r n i e v,
    wfc l r n -> cfind l i = Some e -> e_act e = negb v -> i <> r ->
    (if v then is_act l (e_par e)
     else forall c, In c l -> e_par c = i -> e_id c <> i -> e_act c = false) ->
    wfc (cupd l i v) r (if v then N.succ n else N.pred n).
Proof.
  intros l r n i e v (ND & (h & HR) & HP & HN) Hi Ha Hir Hv.
  split; [rewrite ids_cupd; exact ND|]. split; [|split].
  - exists h. rewrite cfind_cupd, HR. cbn. unfold setact. change (e_id (r, r, h, true)) with r.
    destruct (N.eqb r i) eqn:E; [apply N.eqb_eq in E; congruence|reflexivity].
  - intros e' Hin Hne. apply in_map_iff in Hin. destruct Hin as (e0 & <- & Hin0).
    destruct (setact_static i v e0) as (Sid & Spar & Sh). rewrite Sid in Hne. rewrite Spar, Sh.
    destruct (HP e0 Hin0 Hne) as (pe0 & Hf0 & Hh0 & Hact0).
    exists (setact i v pe0). rewrite cfind_cupd, Hf0. split; [reflexivity|].
    rewrite (proj2 (proj2 (setact_static i v pe0))). split; [exact Hh0|].
    unfold setact. destruct (N.eqb (e_id pe0) i) eqn:E1, (N.eqb (e_id e0) i) eqn:E0; cbn [e_act snd]; auto.
    + (* a child of i stays active only if i does *)
      destruct v; [reflexivity|]. intros A0. apply N.eqb_eq in E1. apply N.eqb_neq in E0.
      apply cfind_some in Hf0. rewrite <- A0. symmetry. apply Hv; [exact Hin0|destruct Hf0; congruence|exact E0].
    + (* i itself becomes active only below an active parent *)
      destruct v; [intros _|discriminate]. apply N.eqb_eq in E0.
      pose proof (cfind_in _ _ ND Hin0) as F. rewrite E0, Hi in F. inversion F; subst e0.
      destruct Hv as (pe & Hpe & Hpa). rewrite Hpe in Hf0. inversion Hf0; subst. exact Hpa.
  - pose proof (nact_cupd _ _ _ v ND Hi) as C. rewrite Ha in C. subst n. destruct v; cbn in C.
    + rewrite <- Nat2N.inj_succ. f_equal. lia.
    + rewrite <- Nat2N.inj_pred. f_equal. lia.
Qed.

Lemma cfind_app_some : forall l x j e, cfind l j = Some e -> cfind (l ++ [x]) j = Some e.
Proof. induction l as [|y r IH]; intros x j e H; cbn in *; [discriminate|]. destruct (N.eqb (e_id y) j); [exact H|apply IH; exact H]. Qed.

Lemma wfc_snoc : forall l r n i p h pe,
    wfc l r n -> cfind l i = None -> cfind l p = Some pe -> h = e_h pe + 1 ->
    wfc (l ++ [(i, p, h, false)]) r n.
Proof.
  intros l r n i p h pe (ND & (hr & HR) & HP & HN) Hi Hp Hh.
  assert (Hni : ~ In i (map e_id l)).
  { intro Hin. apply in_map_iff in Hin. destruct Hin as (e & He & Hin). pose proof (cfind_in _ _ ND Hin) as F. rewrite He, Hi in F. discriminate. }
  split; [rewrite map_app; apply NoDup_snoc; assumption|]. split; [|split].
  - exists hr. apply cfind_app_some. exact HR.
  - intros e Hin Hne. apply in_app_or in Hin. destruct Hin as [Hin|[<-|[]]].
    + destruct (HP e Hin Hne) as (pe0 & A & B & C). exists pe0. split; [apply cfind_app_some; exact A|split; assumption].
    + exists pe. split; [apply cfind_app_some; exact Hp|]. split; [exact Hh|]. intro Hx. discriminate Hx.
  - unfold nact in *. rewrite filter_app. cbn. rewrite app_nil_r. exact HN.
Qed.

Definition wf (s : cst) : Prop := wfc (cores s) (root _ _ s) (napp _ _ s).

(** static part of the tree as seen through ids *)
Definition sfind (l : list ent) (i : N) : option (N * Z) := option_map (fun e => (e_par e, e_h e)) (cfind l i).
Definition same_static (l l' : list ent) : Prop := forall j, sfind l' j = sfind l j.
Lemma same_static_refl : forall l, same_static l l.
Proof. intros l j. reflexivity. Qed.
Lemma same_static_trans : forall a b c, same_static a b -> same_static b c -> same_static a c.
Proof. intros a b c H1 H2 j. rewrite H2. apply H1. Qed.
Lemma same_static_cupd : forall l i v, same_static l (cupd l i v).
Proof.
  intros l i v j. unfold sfind. rewrite cfind_cupd. destruct (cfind l j) as [e|]; [|reflexivity]. cbn.
  destruct (setact_static i v e) as (_ & A & B). rewrite A, B. reflexivity.
Qed.

Definition hgt (l : list ent) (i : N) : Z := match cfind l i with Some e => e_h e | None => 0 end.
Definition parent (l : list ent) (i : N) : N := match cfind l i with Some e => e_par e | None => i end.
Lemma hgt_cfind : forall l i e, cfind l i = Some e -> hgt l i = e_h e.
Proof. intros l i e H. unfold hgt. rewrite H. reflexivity. Qed.
Lemma parent_cfind : forall l i e, cfind l i = Some e -> parent l i = e_par e.
Proof. intros l i e H. unfold parent. rewrite H. reflexivity. Qed.
Lemma hgt_find : forall s j b, find ccmd (blocks _ _ s) j = Some b -> hgt (cores s) j = b_h _ b.
Proof. intros s j b F. exact (hgt_cfind _ _ _ (find_cfind _ _ _ F)). Qed.
Lemma parent_find : forall s j b, find ccmd (blocks _ _ s) j = Some b -> parent (cores s) j = b_par _ b.
Proof. intros s j b F. exact (parent_cfind _ _ _ (find_cfind _ _ _ F)). Qed.
Lemma cores_snoc : forall s nb, cores (with_blocks pstate ccmd s (blocks _ _ s ++ [nb])) = cores s ++ [core nb].
Proof. intros. unfold cores. cbn [blocks with_blocks]. apply map_app. Qed.
Lemma hgt_app_some : forall l x j e, cfind l j = Some e -> hgt (l ++ [x]) j = hgt l j.
Proof. intros l x j e He. unfold hgt. rewrite (cfind_app_some _ _ _ _ He), He. reflexivity. Qed.
Lemma wf_ids : forall s, wf s -> NoDup (ids (blocks _ _ s)).
Proof. intros s (ND & _). unfold ids. unfold cores in ND. rewrite map_map in ND. exact ND. Qed.

Lemma child_active_core : forall (l : list (blk ccmd)) i,
    child_active ccmd l i = false ->
    forall c, In c (map core l) -> e_par c = i -> e_id c <> i -> e_act c = false.
Proof.
  intros l i H c Hin Hp Hn. apply in_map_iff in Hin. destruct Hin as (b & <- & Hb).
  unfold child_active in H. rewrite <- not_true_iff_false in H. rewrite existsb_exists in H.
  change (e_act (core b)) with (b_act ccmd b). change (e_par (core b)) with (b_par ccmd b) in Hp.
  change (e_id (core b)) with (b_id ccmd b) in Hn.
  destruct (b_act ccmd b) eqn:A; [|reflexivity]. exfalso. apply H. exists b. split; [exact Hb|].
  rewrite A. apply N.eqb_eq in Hp. apply N.eqb_neq in Hn. rewrite Hp, Hn. reflexivity.
Qed.

Lemma apply_ok_core : forall s i s',
    wf s -> c_applyBlock s i = Ok (s', true) ->
    wf s' /\ cores s' = cupd (cores s) i true /\ napp _ _ s' = N.succ (napp _ _ s) /\
    root _ _ s' = root _ _ s /\ tip _ _ s' = tip _ _ s /\
    exists e, cfind (cores s) i = Some e /\ e_act e = false.
Proof.
  intros s i s' W H.
  destruct (applyBlock_inv _ _ _ _ _ _ _ _ H) as (b & pb & Fi & R & Fp & Pa & Ha & _ & p' & lv & _ & _ & _ & _ & ->).
  apply find_cfind in Fi. apply find_cfind in Fp.
  assert (C : forall n t p, cores (mkSt pstate ccmd (upd ccmd (blocks _ _ s) i (fun x => set_act ccmd true (raise_lvl ccmd lv x))) (root _ _ s) t n p)
                            = cupd (cores s) i true).
  { intros. apply cores_upd. reflexivity. }
  split; [|split; [apply C|repeat split; exists (core b); split; [exact Fi|exact Ha]]].
  unfold wf. rewrite C. apply (wfc_cupd _ _ _ _ _ true W Fi Ha R). exists (core pb). split; [exact Fp|exact Pa].
Qed.

Lemma apply_fail_core : forall s i s',
    c_applyBlock s i = Ok (s', false) ->
    cores s' = cores s /\ napp _ _ s' = napp _ _ s /\ root _ _ s' = root _ _ s /\ tip _ _ s' = tip _ _ s.
Proof.
  intros s i s' H. apply c_applyBlock_atomic in H. destruct H as (_ & A & B & C & D).
  split; [apply cores_strip_eq; exact D|auto].
Qed.

Lemma wf_apply : forall s i s' ok, wf s -> c_applyBlock s i = Ok (s', ok) -> wf s'.
Proof.
  intros s i s' ok W H. destruct ok; [exact (proj1 (apply_ok_core _ _ _ W H))|].
  destruct (apply_fail_core _ _ _ H) as (C1 & N1 & R1 & _). unfold wf. rewrite C1, R1, N1. exact W.
Qed.

Lemma unapply_core : forall s i s',
    wf s -> c_unapplyBlock s i = Ok s' ->
    wf s' /\ cores s' = cupd (cores s) i false /\ N.succ (napp _ _ s') = napp _ _ s /\
    root _ _ s' = root _ _ s /\ tip _ _ s' = tip _ _ s /\ i <> root _ _ s /\
    exists e, cfind (cores s) i = Some e /\ e_act e = true /\ is_act (cores s) (e_par e).
Proof.
  intros s i s' W H.
  destruct (unapplyBlock_inv _ _ _ _ _ _ H) as (b & pb & Fi & R & Ha & Fp & Pa & CA & N0 & ->).
  apply find_cfind in Fi. apply find_cfind in Fp.
  assert (C : forall n t p, cores (mkSt pstate ccmd (upd ccmd (blocks _ _ s) i (set_act ccmd false)) (root _ _ s) t n p)
                            = cupd (cores s) i false).
  { intros. apply cores_upd. reflexivity. }
  split; [|split; [apply C|split; [apply N.succ_pred; exact N0|repeat split; try exact R]]].
  - unfold wf. rewrite C. apply (wfc_cupd _ _ _ _ _ false W Fi Ha R). apply child_active_core. exact CA.
  - exists (core b). split; [exact Fi|]. split; [exact Ha|]. exists (core pb). split; [exact Fp|exact Pa].
Qed.

Lemma hgt_static : forall l l' j, same_static l l' -> hgt l' j = hgt l j.
Proof.
  intros l l' j H. specialize (H j). unfold sfind in H. unfold hgt.
  destruct (cfind l' j), (cfind l j); cbn in H; try discriminate; [inversion H; reflexivity|reflexivity].
Qed.

Lemma wf_parent_height : forall s x e,
    wf s -> cfind (cores s) x = Some e -> x <> root _ _ s -> hgt (cores s) x = hgt (cores s) (e_par e) + 1.
Proof.
  intros s x e (ND & _ & HP & _) Hx Hr. pose proof (cfind_some _ _ _ Hx) as [Hid Hin].
  destruct (HP e Hin) as (pe & Hpe & Hh & _); [congruence|].
  rewrite (hgt_cfind _ _ _ Hx), (hgt_cfind _ _ _ Hpe). exact Hh.
Qed.

(* the root is its own parent *)
Lemma wf_parent : forall s j e, wf s -> cfind (cores s) j = Some e ->
    exists pe, cfind (cores s) (e_par e) = Some pe /\ (e_act e = true -> e_act pe = true).
Proof.
  intros s j e (ND & (hr & HR) & HP & _) He. pose proof (cfind_some _ _ _ He) as [Hid Hin].
  destruct (N.eq_dec (e_id e) (root _ _ s)) as [Heq|Hne].
  - pose proof (cfind_in _ _ ND Hin) as F. rewrite Heq, HR in F. inversion F; subst e.
    exists (root pstate ccmd s, root pstate ccmd s, hr, true). split; [exact HR|intros _; reflexivity].
  - destruct (HP e Hin Hne) as (pe & Hpe & _ & Hpa). exists pe. split; assumption.
Qed.

Record frame (s s' : cst) : Prop := mkFrame {
  fr_wf : wf s';
  fr_static : same_static (cores s) (cores s');
  fr_root : root _ _ s' = root _ _ s;
  fr_tip : tip _ _ s' = tip _ _ s }.

Lemma frame_refl : forall s, wf s -> frame s s.
Proof. intros s W. constructor; [exact W|apply same_static_refl|reflexivity|reflexivity]. Qed.
Lemma frame_trans : forall a b c, frame a b -> frame b c -> frame a c.
Proof.
  intros a b c [W1 S1 R1 T1] [W2 S2 R2 T2]. constructor; [exact W2|eapply same_static_trans; eassumption|congruence|congruence].
Qed.

Lemma is_act_cupd_other : forall l i v j, is_act l j -> (v = true \/ j <> i) -> is_act (cupd l i v) j.
Proof.
  intros l i v j (e & He & Ha) Hv. exists (setact i v e). rewrite cfind_cupd, He. split; [reflexivity|].
  unfold setact. destruct (N.eqb (e_id e) i) eqn:E; [|exact Ha].
  destruct Hv as [->|Hn]; [reflexivity|]. apply N.eqb_eq in E. apply cfind_some in He. destruct He. congruence.
Qed.
Lemma is_act_cupd_on : forall l i e, cfind l i = Some e -> is_act (cupd l i true) i.
Proof.
  intros l i e He. exists (setact i true e). rewrite cfind_cupd, He. split; [reflexivity|].
  unfold setact. rewrite (proj1 (cfind_some _ _ _ He)), N.eqb_refl. reflexivity.
Qed.

Lemma parent_static : forall l l' j, same_static l l' -> parent l' j = parent l j.
Proof.
  intros l l' j S. specialize (S j). unfold sfind in S. unfold parent.
  destruct (cfind l' j), (cfind l j); cbn in S; try discriminate; [inversion S; reflexivity|reflexivity].
Qed.
Lemma iter_succ_r : forall (A : Type) (f : A -> A) n x, Nat.iter (S n) f x = Nat.iter n f (f x).
Proof.
  induction n as [|n IH]; intros x; [reflexivity|].
  change (f (Nat.iter (S n) f x) = f (Nat.iter n f (f x))). rewrite IH. reflexivity.
Qed.
Lemma iter_parent_static : forall l l' k a, same_static l l' -> Nat.iter k (parent l') a = Nat.iter k (parent l) a.
Proof.
  intros l l' k a S. induction k as [|k IH]; [reflexivity|].
  change (parent l' (Nat.iter k (parent l') a) = parent l (Nat.iter k (parent l) a)). rewrite IH. apply parent_static. exact S.
Qed.

(* whatever is reached from an applied block by parent pointers is applied (the root is its own parent) *)
Lemma iter_parent_active : forall s k j, wf s -> is_act (cores s) j -> is_act (cores s) (Nat.iter k (parent (cores s)) j).
Proof.
  intros s k j W Hj. induction k as [|k IH]; [exact Hj|].
  change (is_act (cores s) (parent (cores s) (Nat.iter k (parent (cores s)) j))).
  destruct IH as (e & He & Ha). rewrite (parent_cfind _ _ _ He).
  destruct (wf_parent _ _ _ W He) as (pe & Hpe & Hpa). exists pe. split; [exact Hpe|exact (Hpa Ha)].
Qed.

(* the two block-level steps as the walks see them *)
Lemma apply_step : forall s x e s1,
    wf s -> cfind (cores s) x = Some e -> c_applyBlock s x = Ok (s1, true) ->
    frame s s1 /\ Z.of_N (napp _ _ s1) = Z.of_N (napp _ _ s) + 1 /\
    e_act e = false /\ hgt (cores s) x = hgt (cores s) (e_par e) + 1 /\
    is_act (cores s1) x /\ (forall j, is_act (cores s) j -> is_act (cores s1) j).
Proof.
  intros s x e s1 W He H.
  destruct (apply_ok_core _ _ _ W H) as (W1 & C1 & N1 & R1 & T1 & (e0 & He0 & Ha0)).
  rewrite He in He0. inversion He0; subst e0.
  destruct (applyBlock_inv _ _ _ _ _ _ _ _ H) as (_ & _ & _ & R & _).
  split; [constructor; [exact W1|rewrite C1; apply same_static_cupd|exact R1|exact T1]|].
  split; [lia|]. split; [exact Ha0|]. split; [exact (wf_parent_height _ _ _ W He R)|]. rewrite C1.
  split; [exact (is_act_cupd_on _ _ _ He)|]. intros j Hj. apply is_act_cupd_other; [exact Hj|left; reflexivity].
Qed.
Lemma unapply_step : forall s x e s1,
    wf s -> cfind (cores s) x = Some e -> c_unapplyBlock s x = Ok s1 ->
    frame s s1 /\ Z.of_N (napp _ _ s) = Z.of_N (napp _ _ s1) + 1 /\
    is_act (cores s) (e_par e) /\ hgt (cores s) x = hgt (cores s) (e_par e) + 1 /\
    (forall j, is_act (cores s) j -> j <> x -> is_act (cores s1) j).
Proof.
  intros s x e s1 W He H.
  destruct (unapply_core _ _ _ W H) as (W1 & C1 & N1 & R1 & T1 & R & (e0 & He0 & _ & Hpa)).
  rewrite He in He0. inversion He0; subst e0.
  split; [constructor; [exact W1|rewrite C1; apply same_static_cupd|exact R1|exact T1]|].
  split; [lia|]. split; [exact Hpa|]. split; [exact (wf_parent_height _ _ _ W He R)|].
  intros j Hj Hn. rewrite C1. apply is_act_cupd_other; [exact Hj|right; exact Hn].
Qed.

(** [s'] is [s] with the [k] blocks cur, parent cur, ... unapplied; the next one, [w], is the first left alone.
    The blocks are named by iterating [parent] (SmCmp.up is the same function). *)
Record unapplied (s s' : cst) (cur w : N) (k : nat) : Prop := mkUnapplied {
  un_frame : frame s s';
  un_count : Z.of_N (napp _ _ s) = Z.of_N (napp _ _ s') + Z.of_nat k;
  un_hgt : hgt (cores s) cur = hgt (cores s) w + Z.of_nat k;
  un_end : w = Nat.iter k (parent (cores s)) cur;
  un_act : is_act (cores s) cur -> is_act (cores s') w;
  un_keep : forall j, is_act (cores s) j ->
                      (forall i, (i < k)%nat -> Nat.iter i (parent (cores s)) cur <> j) -> is_act (cores s') j }.

Lemma unapplied_refl : forall s cur, wf s -> unapplied s s cur cur 0.
Proof. intros s cur W. constructor; [apply frame_refl; exact W|lia|lia|reflexivity|auto|auto]. Qed.

Lemma unapplied_step : forall s cur e s1 s' w k,
    wf s -> cfind (cores s) cur = Some e -> c_unapplyBlock s cur = Ok s1 ->
    unapplied s1 s' (e_par e) w k -> unapplied s s' cur w (S k).
Proof.
  intros s cur e s1 s' w k W He H [F A Hh Hw IA K].
  destruct (unapply_step _ _ _ _ W He H) as (F1 & N1 & Hpa & Hp & Hoff). pose proof (fr_static _ _ F1) as S1.
  rewrite !(hgt_static _ _ _ S1) in Hh.
  assert (Hit : forall i, Nat.iter i (parent (cores s1)) (e_par e) = Nat.iter (S i) (parent (cores s)) cur).
  { intros i. rewrite iter_succ_r, (iter_parent_static _ _ _ _ S1), (parent_cfind _ _ _ He). reflexivity. }
  constructor.
  - exact (frame_trans _ _ _ F1 F).
  - lia.
  - lia.
  - rewrite <- Hit. exact Hw.
  - intros _. apply IA, Hoff; [exact Hpa|]. intro Heq. rewrite Heq in Hp. lia.
  - intros j Hj Hk. apply K.
    + apply Hoff; [exact Hj|]. intro Heq. exact (Hk O (Nat.lt_0_succ k) (eq_sym Heq)).
    + intros i Hi. rewrite Hit. apply Hk. lia.
Qed.

Lemma uw_walk : forall fuel s cur to pred s' w,
    wf s -> unapplyWhile pstate ccmd cunexec fuel s cur to pred = Ok (s', w) ->
    (w = to \/ hgt (cores s) to < hgt (cores s) w) /\ exists k, unapplied s s' cur w k.
Proof.
  intros fuel s cur to pred s' w W H. revert W.
  pattern s, cur, s', w. revert fuel s cur s' w H. apply unapplyWhile_ind; cbv beta.
  - intros s0 W0. split; [left; reflexivity|exists O; apply unapplied_refl; exact W0].
  - intros s0 c bc bt Fc Ft Hlt _ W0. split; [right|exists O; apply unapplied_refl; exact W0].
    rewrite (hgt_find _ _ _ Fc), (hgt_find _ _ _ Ft). exact Hlt.
  - intros s0 c bc s1 s2 w0 Fc E IH W0. apply find_cfind in Fc.
    destruct (unapply_step _ _ _ _ W0 Fc E) as (F1 & _).
    destruct (IH (fr_wf _ _ F1)) as (Hstop & k & U). rewrite !(hgt_static _ _ _ (fr_static _ _ F1)) in Hstop.
    split; [exact Hstop|]. exists (S k). exact (unapplied_step _ _ _ _ _ _ _ W0 Fc E U).
Qed.

Lemma unapply_walk : forall s a b s',
    wf s -> unapply pstate ccmd cunexec s a b = Ok s' -> exists k, unapplied s s' a b k.
Proof.
  intros s a b s' W H. unfold unapply in H. dbind H. destruct a0 as [s1 w]. cbn in H.
  destruct (N.eqb w b) eqn:Ew; inversion H; subst. apply N.eqb_eq in Ew. subst.
  exact (proj2 (uw_walk _ _ _ _ _ _ _ W E)).
Qed.

(** an ascending path: every block's parent is its predecessor, the first one's is [cur] *)
Fixpoint linked (l : list ent) (cur : N) (path : list N) : Prop :=
  match path with
  | [] => True
  | x :: r => (exists e, cfind l x = Some e /\ e_par e = cur) /\ linked l x r
  end.
Lemma linked_static : forall l l' path cur, same_static l l' -> linked l cur path -> linked l' cur path.
Proof.
  intros l l' path. induction path as [|x r IH]; intros cur S H; [exact I|]. destruct H as [(e & He & Hp) Hl].
  split; [|apply IH; assumption]. specialize (S x). unfold sfind in S. rewrite He in S.
  destruct (cfind l' x) as [e'|]; cbn in S; [|discriminate]. inversion S. exists e'. split; [reflexivity|congruence].
Qed.

Lemma last_cons_default : forall (l : list N) y d d', last (y :: l) d = last (y :: l) d'.
Proof. induction l as [|z r IH]; intros y d d'; [reflexivity|]. change (last (z :: r) d = last (z :: r) d'). apply IH. Qed.

(* applying x on top of its parent and then unapplying from x downwards is unapplying from the parent, one block less *)
Lemma unapplied_after_apply : forall s x e s1 s' to k,
    wf s -> cfind (cores s) x = Some e -> c_applyBlock s x = Ok (s1, true) ->
    hgt (cores s) to <= hgt (cores s) (e_par e) ->
    unapplied s1 s' x to k -> exists k', unapplied s s' (e_par e) to k'.
Proof.
  intros s x e s1 s' to k W He H Hle [F A Hh Hw IA K].
  destruct (apply_step _ _ _ _ W He H) as (F1 & N1 & Ha & Hp & Hx & Hon). pose proof (fr_static _ _ F1) as S1.
  rewrite !(hgt_static _ _ _ S1) in Hh.
  destruct k as [|k]; [lia|]. exists k.
  assert (Hit : forall i, Nat.iter (S i) (parent (cores s1)) x = Nat.iter i (parent (cores s)) (e_par e)).
  { intros i. rewrite iter_succ_r, (iter_parent_static _ _ _ _ S1), (parent_static _ _ _ S1), (parent_cfind _ _ _ He). reflexivity. }
  constructor.
  - exact (frame_trans _ _ _ F1 F).
  - lia.
  - lia.
  - rewrite <- Hit. exact Hw.
  - intros _. exact (IA Hx).
  - intros j Hj Hk. apply K.
    + exact (Hon j Hj).
    + intros [|i] Hi; [|rewrite Hit; apply Hk; lia].
      cbn. intros <-. destruct Hj as (e1 & He1 & Ha1). congruence.
Qed.

(** apply_path along a linked path: success applies exactly the path, on top of what was applied; failure
    leaves the state as if cur..from had been unapplied (nothing at all when cur = from, as in [apply]) *)
Lemma ap_walk : forall path s from s' ok cur,
    wf s -> linked (cores s) cur path -> hgt (cores s) from <= hgt (cores s) cur ->
    apply_path pstate ccmd cexec cunexec s from path = Ok (s', ok) ->
    if ok then
      frame s s' /\ Z.of_N (napp _ _ s') = Z.of_N (napp _ _ s) + Z.of_nat (length path) /\
      (forall x, In x path -> is_act (cores s') x) /\
      (forall j, is_act (cores s) j -> is_act (cores s') j) /\
      (forall x, In x path -> ~ is_act (cores s) x)
    else exists k, unapplied s s' cur from k.
Proof.
  induction path as [|x r IH]; intros s from s' ok cur W L Hle H; cbn in H.
  { inversion H; subst. split; [apply frame_refl; exact W|]. split; [cbn; lia|]. split; [intros x []|]. split; [auto|intros x []]. }
  dbind H. destruct a as [s1 ok1]. destruct L as [(e & He & Hp) Lr]. destruct ok1.
  - destruct (apply_step _ _ _ _ W He E) as (F1 & N1 & Ha & Hh & Hx & Hon). pose proof (fr_static _ _ F1) as S1. rewrite Hp in Hh.
    assert (Hle1 : hgt (cores s1) from <= hgt (cores s1) x) by (rewrite !(hgt_static _ _ _ S1); lia).
    specialize (IH _ _ _ _ x (fr_wf _ _ F1) (linked_static _ _ _ _ S1 Lr) Hle1 H). destruct ok.
    + destruct IH as (F & A & B & C & D).
      split; [exact (frame_trans _ _ _ F1 F)|]. split; [cbn [length]; lia|]. split; [|split].
      * intros y [<-|Hy]; [exact (C _ Hx)|exact (B y Hy)].
      * intros j Hj. apply C, Hon, Hj.
      * intros y [<-|Hy] Hact; [destruct Hact as (e1 & He1 & Ha1); congruence|]. exact (D y Hy (Hon _ Hact)).
    + destruct IH as (k & U). rewrite <- Hp.
      apply (unapplied_after_apply _ _ _ _ _ _ k W He E); [rewrite Hp; exact Hle|exact U].
  - destruct (apply_fail_core _ _ _ E) as (C1 & N1 & R1 & T1). pose proof (wf_apply _ _ _ _ W E) as W1.
    destruct (find ccmd (blocks pstate ccmd s1) x) as [bx|] eqn:Fx; [|discriminate].
    dbind H. inversion H; subst s' ok; clear H.
    apply find_cfind in Fx. rewrite C1, He in Fx. inversion Fx; subst e. change (e_par (core bx)) with (b_par ccmd bx) in Hp.
    rewrite Hp in E0. destruct (unapply_walk _ _ _ _ W1 E0) as (k & [F A Hh Hw IA K]). exists k.
    rewrite C1 in *. rewrite N1 in A. constructor; try assumption.
    destruct F as [Wa Sa Ra Ta]. constructor; [exact Wa|rewrite <- C1; exact Sa|congruence|congruence].
Qed.

(* [path_up n i] lists i, parent i, ... (n blocks), all of them known *)
Lemma path_up_spec : forall s n i up,
    path_up ccmd (blocks _ _ s) n i = Some up ->
    up = map (fun k => Nat.iter k (parent (cores s)) i) (seq 0 n) /\
    forall k, (k < n)%nat -> exists e, cfind (cores s) (Nat.iter k (parent (cores s)) i) = Some e.
Proof.
  intros s n. induction n as [|n IH]; intros i up H; cbn in H.
  - inversion H. split; [reflexivity|intros k Hk; lia].
  - destruct (find ccmd (blocks pstate ccmd s) i) as [b|] eqn:Fi; [|discriminate].
    destruct (path_up ccmd (blocks pstate ccmd s) n (b_par ccmd b)) as [up'|] eqn:E; cbn in H; [|discriminate].
    inversion H; subst up. destruct (IH _ _ E) as [-> K]. apply find_cfind in Fi.
    assert (Hp : forall k, Nat.iter k (parent (cores s)) (b_par ccmd b) = Nat.iter (S k) (parent (cores s)) i).
    { intros k. rewrite iter_succ_r, (parent_cfind _ _ _ Fi). reflexivity. }
    split.
    + cbn [seq map]. f_equal. rewrite <- seq_shift, map_map. apply map_ext. exact Hp.
    + intros [|k] Hk; [exists (core b); exact Fi|]. rewrite <- Hp. apply K. lia.
Qed.
(* read upwards, such a list is linked below the next ancestor *)
Lemma linked_iter : forall l i n,
    (forall k, (k < n)%nat -> exists e, cfind l (Nat.iter k (parent l) i) = Some e) ->
    linked l (Nat.iter n (parent l) i) (rev (map (fun k => Nat.iter k (parent l) i) (seq 0 n))).
Proof.
  intros l i n. induction n as [|n IH]; intros K; [exact I|].
  rewrite seq_S, map_app, rev_app_distr. cbn [map rev app Nat.add]. split; [|apply IH; intros k Hk; apply K; lia].
  destruct (K n (Nat.lt_succ_diag_r n)) as (e & He). exists e. split; [exact He|].
  symmetry. exact (parent_cfind _ _ _ He).
Qed.

(** [apply] read backwards: nothing to do, a failed target, or apply_path along the linked path from a up to b *)
Lemma apply_inv : forall s a b s' ok,
    apply pstate ccmd cexec cunexec s a b = Ok (s', ok) ->
    (a = b \/ ok = false) /\ s' = s \/
    exists path,
      a <> b /\ linked (cores s) a path /\ last path a = b /\
      Z.of_nat (length path) = hgt (cores s) b - hgt (cores s) a /\
      (forall x, In x path <-> exists k, (k < length path)%nat /\ x = Nat.iter k (parent (cores s)) b) /\
      apply_path pstate ccmd cexec cunexec s a path = Ok (s', ok).
Proof.
  intros s a b s' ok H. unfold apply in H.
  destruct (N.eqb a b) eqn:Eab.
  { inversion H; subst. apply N.eqb_eq in Eab. auto. }
  apply N.eqb_neq in Eab.
  destruct (find ccmd (blocks pstate ccmd s) a) as [bf|] eqn:Fa; [|discriminate].
  destruct (find ccmd (blocks pstate ccmd s) b) as [bt|] eqn:Fb; [|discriminate].
  destruct (is_failed ccmd bt).
  { inversion H; subst. auto. }
  destruct (negb (Z.ltb (b_h ccmd bf) (b_h ccmd bt))) eqn:Hlt; [discriminate|].
  apply negb_false_iff in Hlt. apply Z.ltb_lt in Hlt.
  destruct (path_up ccmd (blocks pstate ccmd s) _ b) as [up|] eqn:Eup; [|discriminate].
  destruct (rev up) as [|x r] eqn:Erev; [discriminate|].
  destruct (find ccmd (blocks pstate ccmd s) x) as [bx|] eqn:Fx; [|discriminate].
  destruct (N.eqb (b_par ccmd bx) a) eqn:Epx; [|discriminate]. apply N.eqb_eq in Epx.
  destruct (path_up_spec _ _ _ _ Eup) as [Hup K]. pose proof (linked_iter _ b _ K) as L. rewrite <- Hup, Erev in L.
  (* the lowest block of the path hangs on a *)
  assert (Ha : Nat.iter (Z.to_nat (b_h ccmd bt - b_h ccmd bf)) (parent (cores s)) b = a).
  { destruct L as [(e & He & Hp) _]. rewrite (find_cfind _ _ _ Fx) in He. inversion He; subst e. rewrite <- Hp. exact Epx. }
  rewrite Ha in L.
  assert (Hlen : length (x :: r) = Z.to_nat (b_h ccmd bt - b_h ccmd bf)).
  { rewrite <- Erev, rev_length, Hup, map_length, seq_length. reflexivity. }
  right. exists (x :: r). split; [exact Eab|]. split; [exact L|]. rewrite Hlen, <- Erev. split; [|split; [|split; [|rewrite Erev; exact H]]].
  - rewrite Hup. destruct (Z.to_nat (b_h ccmd bt - b_h ccmd bf)) eqn:En; [lia|]. cbn [seq map rev]. apply last_last.
  - rewrite (hgt_find _ _ _ Fa), (hgt_find _ _ _ Fb). lia.
  - intros y. rewrite <- in_rev, Hup, in_map_iff. split; intros (k & Hk & Hy); exists k; rewrite in_seq in *; split; auto; lia.
Qed.

Lemma apply_arith : forall s a b s' ok,
    wf s -> apply pstate ccmd cexec cunexec s a b = Ok (s', ok) ->
    frame s s' /\
    (ok = true -> Z.of_N (napp _ _ s') = Z.of_N (napp _ _ s) + (hgt (cores s) b - hgt (cores s) a) /\
                  (a <> b -> is_act (cores s') b) /\
                  (forall j, is_act (cores s) j -> is_act (cores s') j)) /\
    (ok = false -> napp _ _ s' = napp _ _ s /\ (is_act (cores s) a -> is_act (cores s') a)).
Proof.
  intros s a b s' ok W H.
  destruct (apply_inv _ _ _ _ _ H) as [[Hab ->]|(path & Hab & L & Lb & Hlen & Hin & HP)].
  { split; [apply frame_refl; exact W|]. split; [|auto].
    intros ->. destruct Hab as [->|Hab]; [|discriminate]. split; [lia|]. split; [congruence|auto]. }
  pose proof (ap_walk _ _ _ _ _ _ W L (Z.le_refl _) HP) as Hw. destruct ok.
  - destruct Hw as (F & A & B & C & _). split; [exact F|]. split; [intros _|discriminate].
    split; [lia|]. split; [|exact C]. intros _. apply B, Hin. exists O.
    split; [destruct path; [cbn in Lb; congruence|cbn; lia]|reflexivity].
  - destruct Hw as (k & [F A Hh _ IA _]). split; [exact F|]. split; [discriminate|intros _].
    split; [apply N2Z.inj; lia|exact IA].
Qed.

(** a failing apply keeps every applied block applied; a successful one only applies blocks that were not *)
Lemma apply_keep : forall s a b s' ok,
    wf s -> apply pstate ccmd cexec cunexec s a b = Ok (s', ok) ->
    if ok then forall k, Z.of_nat k < hgt (cores s) b - hgt (cores s) a -> ~ is_act (cores s) (Nat.iter k (parent (cores s)) b)
    else forall j, is_act (cores s) j -> is_act (cores s') j.
Proof.
  intros s a b s' ok W H.
  destruct (apply_inv _ _ _ _ _ H) as [[Hab ->]|(path & Hab & L & Lb & Hlen & Hin & HP)].
  { destruct ok; [|auto]. destruct Hab as [->|Hab]; [|discriminate]. intros k Hk. lia. }
  pose proof (ap_walk _ _ _ _ _ _ W L (Z.le_refl _) HP) as Hw. destruct ok.
  - destruct Hw as (_ & _ & _ & _ & D). intros k Hk. apply D, Hin. exists k. split; [lia|reflexivity].
  - destruct Hw as (k & [_ _ Hh _ _ K]). intros j Hj. apply K; [exact Hj|]. intros i Hi. lia.
Qed.

(** ** PopStateMachine::setState *)
Lemma sm_arith : forall s a b s' ok,
    wf s -> is_act (cores s) a -> sm_setState pstate ccmd cexec cunexec s a b = Ok (s', ok) ->
    frame s s' /\
    if ok then Z.of_N (napp _ _ s') = Z.of_N (napp _ _ s) + (hgt (cores s) b - hgt (cores s) a) /\ is_act (cores s') b
    else napp _ _ s' = napp _ _ s /\ is_act (cores s') a.
Proof.
  intros s a b s' ok W Ha H. unfold sm_setState in H.
  destruct (N.eqb a b) eqn:Eab.
  { inversion H; subst. apply N.eqb_eq in Eab. subst. split; [apply frame_refl; exact W|]. split; [lia|exact Ha]. }
  destruct (lca ccmd (blocks pstate ccmd s) _ a b) as [fork|]; [|discriminate].
  dbind H. destruct (unapply_walk _ _ _ _ W E) as (k & [F1 A1 H1 _ I1 _]).
  dbind H. destruct a1 as [s2 ok2].
  pose proof (fr_wf _ _ F1) as W1.
  destruct (apply_arith _ _ _ _ _ W1 E0) as (F2 & T2 & N2).
  pose proof (fr_static _ _ F1) as S1.
  destruct ok2.
  - inversion H; subst; clear H. split; [eapply frame_trans; eassumption|].
    destruct (T2 eq_refl) as (A2 & B2 & C2). rewrite !(hgt_static _ _ _ S1) in A2. split; [lia|].
    destruct (N.eq_dec fork b) as [->|Hn]; [apply C2; apply I1; exact Ha|apply B2; exact Hn].
  - destruct (N2 eq_refl) as [A2 B2].
    dbind H. destruct a1 as [s3 ok3]. pose proof (fr_wf _ _ F2) as W2.
    destruct (apply_arith _ _ _ _ _ W2 E1) as (F3 & T3 & _).
    destruct ok3; inversion H; subst; clear H.
    split; [eapply frame_trans; [eassumption|eapply frame_trans; eassumption]|].
    destruct (T3 eq_refl) as (A3 & B3 & C3).
    pose proof (fr_static _ _ F2) as S2.
    rewrite !(hgt_static _ _ _ S2), !(hgt_static _ _ _ S1) in A3. split; [apply N2Z.inj; lia|].
    destruct (N.eq_dec fork a) as [->|Hn]; [apply C3; apply B2; apply I1; exact Ha|apply B3; exact Hn].
Qed.

(** ** the quiescent invariant: between top-level calls the tree is well formed, the tip is applied and the
    applied counter equals the length of root..tip *)
Definition quiet (s : cst) : Prop :=
  wf s /\ is_act (cores s) (tip _ _ s) /\
  Z.of_N (napp _ _ s) = hgt (cores s) (tip _ _ s) - hgt (cores s) (root _ _ s) + 1.

Lemma root_h_hgt : forall s, root_h _ _ s = hgt (cores s) (root _ _ s).
Proof.
  intros s. unfold root_h, hgt, cores. rewrite cfind_core.
  destruct (find ccmd (blocks pstate ccmd s) (root pstate ccmd s)); reflexivity.
Qed.

Lemma quiet_setState : forall s to s' ok,
    quiet s -> c_setState s to = Ok (s', ok) ->
    quiet s' /\ same_static (cores s) (cores s') /\ root _ _ s' = root _ _ s /\
    (ok = true -> tip _ _ s' = to) /\ (ok = false -> tip _ _ s' = tip _ _ s /\ napp _ _ s' = napp _ _ s).
Proof.
  intros s to s' ok (W & Ta & Hn) H.
  destruct (setState_inv _ _ _ _ _ _ _ _ H) as (s1 & bto & E & Fto & Hs').
  destruct (sm_arith _ _ _ _ _ W Ta E) as ([W1 S1 R1 T1] & X).
  pose proof (fun j => hgt_static _ _ j S1) as HS.
  destruct ok; destruct X as [A B].
  - destruct Hs' as [_ ->].
    split; [|split; [exact S1|split; [exact R1|split; [reflexivity|discriminate]]]].
    assert (Hc : chain_count pstate ccmd s1 to = napp _ _ s1).
    { unfold chain_count. rewrite Fto, <- (hgt_find _ _ _ Fto), root_h_hgt, R1, !HS.
      apply N2Z.inj. rewrite Z2N.id by lia. lia. }
    unfold quiet, wf, cores. cbn [blocks root tip napp]. fold (cores s1). rewrite Hc.
    split; [exact W1|]. split; [exact B|]. rewrite R1, !HS. lia.
  - destruct Hs' as (_ & _ & ->).
    split; [|split; [exact S1|split; [exact R1|split; [discriminate|intros _; split; assumption]]]].
    split; [exact W1|]. rewrite T1, R1, A, !HS. split; [exact B|exact Hn].
Qed.

Lemma quiet_connect : forall s i par dup gs s',
    quiet s -> c_connect s i par dup gs = Ok s' -> quiet s' /\ tip _ _ s' = tip _ _ s /\ root _ _ s' = root _ _ s.
Proof.
  intros s i par dup gs s' (W & Ta & Hn) H. unfold c_connect, connect in H.
  destruct (find ccmd (blocks pstate ccmd s) par) as [pb|] eqn:Fp; [|discriminate].
  destruct (find ccmd (blocks pstate ccmd s) i) eqn:Fi; [discriminate|].
  inversion H; subst; clear H. split; [|split; reflexivity].
  unfold quiet, wf. rewrite cores_snoc. cbn [root tip napp with_blocks].
  split; [|split].
  - apply (wfc_snoc (cores s) _ _ i par (b_h ccmd pb + 1) (core pb) W); [|apply find_cfind; exact Fp|reflexivity].
    unfold cores. rewrite cfind_core, Fi. reflexivity.
  - destruct Ta as (e & He & Hact). exists e. split; [apply cfind_app_some; exact He|exact Hact].
  - destruct Ta as (e & He & _). destruct W as (_ & (hr & HR) & _). rewrite (hgt_app_some _ _ _ _ He), (hgt_app_some _ _ _ _ HR). exact Hn.
Qed.

Lemma quiet_init : forall r h base, quiet (c_init r h base).
Proof.
  intros r h base. unfold quiet, wf, cores, c_init, init. cbn [blocks root tip napp map core b_id b_par b_h b_act].
  split; [|split].
  - split; [cbn; constructor; [intros []|constructor]|]. split; [exists h; cbn; rewrite N.eqb_refl; reflexivity|].
    split; [|reflexivity]. intros e [<-|[]] Hne. exfalso. apply Hne. reflexivity.
  - exists (r, r, h, true). cbn. rewrite N.eqb_refl. split; reflexivity.
  - unfold hgt. cbn. rewrite N.eqb_refl. cbn. lia.
Qed.

(** ** the counting argument: in a quiet state the applied blocks are exactly root..tip *)
Fixpoint anc_list (l : list ent) (n : nat) (i : N) : list N :=
  match n with
  | O => [i]
  | S m => i :: anc_list l m (parent l i)
  end.
Definition chain (s : cst) : list N :=
  anc_list (cores s) (Z.to_nat (hgt (cores s) (tip _ _ s) - hgt (cores s) (root _ _ s))) (tip _ _ s).
Definition act_ids (l : list ent) : list N := map e_id (filter e_act l).

Lemma anc_list_length : forall l n i, length (anc_list l n i) = S n.
Proof. induction n as [|n IH]; intros i; cbn; [reflexivity|]. rewrite IH. reflexivity. Qed.
Lemma anc_list_static : forall l l' n i, same_static l l' -> anc_list l' n i = anc_list l n i.
Proof.
  intros l l' n. induction n as [|n IH]; intros i S; [reflexivity|]. cbn. rewrite (parent_static _ _ _ S), IH by exact S. reflexivity.
Qed.

Lemma act_ids_in : forall l j, NoDup (map e_id l) -> (In j (act_ids l) <-> is_act l j).
Proof.
  intros l j ND. unfold act_ids, is_act. rewrite in_map_iff. split.
  - intros (e & <- & Hin). apply filter_In in Hin. destruct Hin as [Hin Ha]. exists e. split; [apply cfind_in; assumption|exact Ha].
  - intros (e & He & Ha). apply cfind_some in He. destruct He as [Hid Hin]. exists e. split; [exact Hid|]. apply filter_In. split; assumption.
Qed.
Lemma act_ids_nodup : forall l, NoDup (map e_id l) -> NoDup (act_ids l).
Proof.
  unfold act_ids. induction l as [|e r IH]; intros ND; cbn in *; [constructor|].
  inversion ND as [|? ? Hn ND']; subst. destruct (e_act e); cbn; [|apply IH; exact ND'].
  constructor; [|apply IH; exact ND']. intro Hin. apply Hn. apply in_map_iff in Hin. destruct Hin as (x & Hx & Hin).
  apply filter_In in Hin. destruct Hin as [Hin _]. apply in_map_iff. exists x. split; assumption.
Qed.

Lemma anc_list_active : forall s n i,
    wf s -> is_act (cores s) i -> Z.of_nat n <= hgt (cores s) i - hgt (cores s) (root _ _ s) ->
    (forall j, In j (anc_list (cores s) n i) -> is_act (cores s) j /\ hgt (cores s) i - Z.of_nat n <= hgt (cores s) j <= hgt (cores s) i) /\
    NoDup (anc_list (cores s) n i).
Proof.
  intros s n. induction n as [|n IH]; intros i W Ha Hn.
  - split; [|constructor; [intros []|constructor]]. intros j [<-|[]]. split; [exact Ha|lia].
  - assert (Hir : i <> root _ _ s) by (intro; subst i; lia).
    destruct Ha as (e & He & Hact).
    pose proof (wf_parent_height _ _ _ W He Hir) as Hh.
    destruct (wf_parent _ _ _ W He) as (pe & Hpe & Hpa).
    destruct (IH (e_par e) W (ex_intro _ pe (conj Hpe (Hpa Hact)))) as [A B]; [lia|].
    cbn [anc_list]. rewrite (parent_cfind _ _ _ He). split.
    + intros j [<-|Hj]; [split; [exists e; split; assumption|lia]|].
      destruct (A j Hj) as [A1 A2]. split; [exact A1|lia].
    + constructor; [|exact B]. intro Hj. destruct (A i Hj) as [_ A2]. lia.
Qed.

(* the root is applied and counted *)
Lemma wf_napp_pos : forall s, wf s -> 1 <= Z.of_N (napp _ _ s).
Proof.
  intros s (_ & (hr & HR) & _ & HN0). apply cfind_some in HR. destruct HR as [_ Hin].
  assert (In (root pstate ccmd s, root pstate ccmd s, hr, true) (filter e_act (cores s))) by (apply filter_In; split; [exact Hin|reflexivity]).
  assert (1 <= nact (cores s))%nat by (unfold nact; destruct (filter e_act (cores s)); [destruct H|cbn; lia]).
  rewrite HN0, nat_N_Z. lia.
Qed.
Lemma quiet_chain : forall s, quiet s ->
    (forall j, In j (chain s) -> is_act (cores s) j) /\ NoDup (chain s) /\ length (chain s) = nact (cores s).
Proof.
  intros s (W & Ta & Hn). pose proof (wf_napp_pos s W) as Hpos. unfold chain.
  destruct (anc_list_active s (Z.to_nat (hgt (cores s) (tip _ _ s) - hgt (cores s) (root _ _ s))) (tip _ _ s) W Ta) as [A B];
    [rewrite Z2Nat.id; lia|].
  split; [intros j Hj; apply A; exact Hj|]. split; [exact B|].
  rewrite anc_list_length. destruct W as (_ & _ & _ & HN). apply Nat2Z.inj. rewrite <- (nat_N_Z (nact _)), <- HN. lia.
Qed.

Theorem applied_exactly : forall s, quiet s -> forall j, is_act (cores s) j <-> In j (chain s).
Proof.
  intros s Q j. destruct (quiet_chain s Q) as (A & B & L). destruct Q as ((ND & _) & _).
  split; [|apply A]. intros Hj. apply (act_ids_in _ _ ND) in Hj.
  refine (NoDup_length_incl B _ _ j Hj).
  - rewrite L. unfold act_ids. rewrite map_length. apply Nat.le_refl.
  - intros x Hx. apply (act_ids_in _ _ ND). apply A. exact Hx.
Qed.

(* the applied set of a quiet state is determined by the static tree, the root and the tip *)
Lemma quiet_same_act : forall s s', quiet s -> quiet s' -> same_static (cores s) (cores s') ->
    root _ _ s' = root _ _ s -> tip _ _ s' = tip _ _ s -> forall j, is_act (cores s') j <-> is_act (cores s) j.
Proof.
  intros s s' Q Q' S R T j. rewrite (applied_exactly _ Q'), (applied_exactly _ Q). unfold chain.
  rewrite T, R, !(hgt_static _ _ _ S), (anc_list_static _ _ _ _ S). reflexivity.
Qed.

(** ** histories without comparisons: the quiet invariant holds throughout *)
Fixpoint no_compare (ops : list op) : Prop :=
  match ops with
  | [] => True
  | OCompare _ _ _ :: _ => False
  | _ :: r => no_compare r
  end.
Lemma run_inv_nc : forall Inv : cst -> Prop,
    (forall s i par dup gs s', Inv s -> c_connect s i par dup gs = Ok s' -> Inv s') ->
    (forall s to s' ok, Inv s -> c_setState s to = Ok (s', ok) -> Inv s') ->
    forall ops s s', no_compare ops -> Inv s -> run s ops = Ok s' -> Inv s'.
Proof.
  intros Inv Hc Hs ops s s' NC. apply (run_inv Inv False Hc Hs); [intros []|].
  induction ops as [|[] r IH]; cbn in NC; [constructor..|destruct NC]; auto.
Qed.

Lemma quiet_run : forall ops s s', no_compare ops -> quiet s -> run s ops = Ok s' -> quiet s'.
Proof.
  apply (run_inv_nc quiet).
  - intros s i par dup gs s' Q H. exact (proj1 (quiet_connect _ _ _ _ _ _ Q H)).
  - intros s to s' ok Q H. exact (proj1 (quiet_setState _ _ _ _ Q H)).
Qed.

(** C02, full statement for setState from a quiet state (any tree, any payloads, any failing position):
    success = the target is the tip and EXACTLY root..target is applied; failure = tip, counter and the applied set are
    exactly what they were. *)
Theorem setState_applied_exactly : forall s to s' ok,
    quiet s -> c_setState s to = Ok (s', ok) ->
    quiet s' /\
    (forall j, is_act (cores s') j <-> In j (chain s')) /\
    (ok = true -> tip _ _ s' = to) /\
    (ok = false -> tip _ _ s' = tip _ _ s /\ napp _ _ s' = napp _ _ s /\
                   forall j, is_act (cores s') j <-> is_act (cores s) j).
Proof.
  intros s to s' ok Q H. destruct (quiet_setState _ _ _ _ Q H) as (Q' & S & R & Ht & Hf).
  split; [exact Q'|]. split; [apply applied_exactly; exact Q'|]. split; [exact Ht|].
  intros Hok. destruct (Hf Hok) as [T N]. split; [exact T|]. split; [exact N|].
  exact (quiet_same_act s s' Q Q' S R T).
Qed.

(** ** what no operation changes: ids, parents, heights, payloads *)
Definition staticInv (L : list (N * N * Z * list (list ccmd))) (s : cst) : Prop :=
  map (static ccmd) (blocks _ _ s) = L.
Lemma static_upd : forall (l : list (blk ccmd)) i f,
    (forall b, static ccmd (f b) = static ccmd b) -> map (static ccmd) (upd ccmd l i f) = map (static ccmd) l.
Proof.
  intros l i f Hf. unfold upd. rewrite map_map. apply map_ext. intros b. destruct (N.eqb (b_id ccmd b) i); [apply Hf|reflexivity].
Qed.
Lemma static_strip_eq : forall l l' : list (blk ccmd),
    map (strip ccmd) l = map (strip ccmd) l' -> map (static ccmd) l = map (static ccmd) l'.
Proof. intros l l' H. apply (f_equal (map (static ccmd))) in H. rewrite !map_map in H. exact H. Qed.
Lemma staticInv_apply : forall L s i s' ok, staticInv L s -> c_applyBlock s i = Ok (s', ok) -> staticInv L s'.
Proof.
  intros L s i s' ok HI H. unfold staticInv. destruct ok.
  - destruct (applyBlock_inv _ _ _ _ _ _ _ _ H) as (b & pb & _ & _ & _ & _ & _ & _ & p' & lv & _ & _ & _ & _ & ->).
    cbn [blocks]. rewrite static_upd; [exact HI|reflexivity].
  - apply c_applyBlock_atomic in H. destruct H as (_ & _ & _ & _ & Hs). rewrite (static_strip_eq _ _ Hs). exact HI.
Qed.
Lemma staticInv_unapply : forall L s i s', staticInv L s -> c_unapplyBlock s i = Ok s' -> staticInv L s'.
Proof.
  intros L s i s' HI H. destruct (unapplyBlock_inv _ _ _ _ _ _ H) as (b & pb & _ & _ & _ & _ & _ & _ & _ & ->).
  unfold staticInv. cbn [blocks]. rewrite static_upd; [exact HI|reflexivity].
Qed.
Lemma static_setState : forall s to s' ok,
    c_setState s to = Ok (s', ok) -> map (static ccmd) (blocks _ _ s') = map (static ccmd) (blocks _ _ s).
Proof.
  intros s to s' ok H.
  exact (Inv_setState pstate ccmd cexec cunexec (staticInv (map (static ccmd) (blocks _ _ s)))
           (staticInv_apply _) (staticInv_unapply _) (fun s t n H => H) s to s' ok eq_refl H).
Qed.
Lemma static_compare : forall sc cr s c s' r,
    c_compare sc cr s c = Ok (s', r) -> map (static ccmd) (blocks _ _ s') = map (static ccmd) (blocks _ _ s).
Proof.
  intros sc cr s c s' r H.
  exact (Inv_compare pstate ccmd cexec cunexec (staticInv (map (static ccmd) (blocks _ _ s)))
           (staticInv_apply _) (staticInv_unapply _) sc cr (fun s0 t H0 => H0) s c s' r eq_refl H).
Qed.
Lemma same_static_of_static : forall bl bl' : list (blk ccmd),
    map (static ccmd) bl' = map (static ccmd) bl -> same_static (map core bl) (map core bl').
Proof.
  induction bl as [|b r IH]; intros bl' H j; destruct bl' as [|b' r']; cbn in H; try discriminate; [reflexivity|].
  inversion H as [[H1 H2 H3 H4 H5]]. unfold sfind. cbn [map cfind].
  change (e_id (core b')) with (b_id ccmd b'). change (e_id (core b)) with (b_id ccmd b). rewrite H1.
  destruct (N.eqb (b_id ccmd b) j).
  - cbn. unfold e_par, e_h, core. cbn. rewrite H2, H3. reflexivity.
  - apply (IH r' H5 j).
Qed.

(** ** two quiet states of one tree with the same tip have the same blocks applied, hence (as a multiset) the same P *)
Lemma active_items_ext : forall l l' : list (blk ccmd),
    map core l' = map core l -> map (static ccmd) l' = map (static ccmd) l -> active_items l' = active_items l.
Proof.
  induction l as [|b r IH]; intros l' Hc Hs; destruct l' as [|b' r']; cbn in Hc, Hs; try discriminate; [reflexivity|].
  inversion Hc. inversion Hs. cbn [active_items flat_map].
  fold (active_items r'). fold (active_items r). rewrite (IH r') by assumption.
  replace (b_act ccmd b') with (b_act ccmd b) by congruence. replace (b_gs ccmd b') with (b_gs ccmd b) by congruence. reflexivity.
Qed.

(* ids are distinct, so the ACTIVE flag of an entry is what [is_act] says of its id *)
Lemma e_act_is_act : forall l e, NoDup (map e_id l) -> In e l -> (e_act e = true <-> is_act l (e_id e)).
Proof.
  intros l e ND Hin. pose proof (cfind_in _ _ ND Hin) as F. split.
  - intros Ha. exists e. split; assumption.
  - intros (e2 & He2 & Ha2). rewrite F in He2. inversion He2; subst. exact Ha2.
Qed.
(* a list of entries is determined by its static part and the set of its applied ids *)
Lemma ents_eq : forall (A : N -> Prop) (l l' : list ent),
    map (fun e => (e_id e, e_par e, e_h e)) l' = map (fun e => (e_id e, e_par e, e_h e)) l ->
    (forall e, In e l -> (e_act e = true <-> A (e_id e))) ->
    (forall e, In e l' -> (e_act e = true <-> A (e_id e))) -> l' = l.
Proof.
  intros A. induction l as [|y b IH]; intros [|x a] Hm HA HA'; cbn in Hm; try discriminate; [reflexivity|].
  inversion Hm. f_equal; [|apply IH; [assumption|intros; apply HA; right; assumption|intros; apply HA'; right; assumption]].
  specialize (HA y (or_introl eq_refl)). specialize (HA' x (or_introl eq_refl)).
  destruct x as [[[xi xp] xh] xa], y as [[[yi yp] yh] ya]. unfold e_id, e_par, e_h, e_act in *. cbn in *. subst.
  f_equal. destruct xa, ya; try reflexivity; [symmetry; apply HA, HA'|apply HA', HA]; reflexivity.
Qed.

Lemma same_tip_same_P : forall base s s',
    quiet s -> quiet s' -> canon base s -> canon base s' ->
    map (static ccmd) (blocks _ _ s') = map (static ccmd) (blocks _ _ s) ->
    root _ _ s' = root _ _ s -> tip _ _ s' = tip _ _ s ->
    cores s' = cores s /\ Permutation (pst _ _ s') (pst _ _ s).
Proof.
  intros base s s' Q Q' [P0 _] [P' _] Hs R T.
  pose proof (same_static_of_static _ _ Hs : same_static (cores s) (cores s')) as S.
  assert (Hc : cores s' = cores s).
  { apply (ents_eq (is_act (cores s))).
    - apply (f_equal (map (fun t : N * N * Z * list (list ccmd) => fst t))) in Hs. unfold cores. rewrite !map_map in *. exact Hs.
    - intros e. apply e_act_is_act. exact (proj1 (proj1 Q)).
    - intros e Hin. rewrite <- (quiet_same_act s s' Q Q' S R T). apply e_act_is_act; [exact (proj1 (proj1 Q'))|exact Hin]. }
  split; [exact Hc|]. rewrite P', P0, (active_items_ext _ _ Hc Hs). reflexivity.
Qed.

Theorem setState_failure_P_unchanged : forall base s to s',
    quiet s -> canon base s -> c_setState s to = Ok (s', false) ->
    cores s' = cores s /\ Permutation (pst _ _ s') (pst _ _ s).
Proof.
  intros base s to s' Q C H.
  destruct (quiet_setState _ _ _ _ Q H) as (Q' & _ & R & _ & Hf). destruct (Hf eq_refl) as [T _].
  exact (same_tip_same_P base s s' Q Q' C (canon_setState _ _ _ _ _ C H) (static_setState _ _ _ _ H) R T).
Qed.

(** ** C01: the protecting state is a function of the active chain *)
Definition gs_of (s : cst) (j : N) : list (list ccmd) :=
  match find ccmd (blocks _ _ s) j with Some b => b_gs _ b | None => [] end.
(** the payloads (command groups) of tip, parent(tip), ..., root *)
Definition chain_gs (s : cst) : list (list (list ccmd)) := map (gs_of s) (chain s).

Lemma active_items_filter : forall l : list (blk ccmd),
    active_items l = flat_map (fun b => block_items (b_gs _ b)) (filter (b_act ccmd) l).
Proof.
  induction l as [|b r IH]; [reflexivity|]. cbn [active_items flat_map filter]. fold (active_items r). rewrite IH.
  destruct (b_act ccmd b); reflexivity.
Qed.
Lemma flat_map_perm : forall (A B : Type) (f : A -> list B) l l', Permutation l l' -> Permutation (flat_map f l) (flat_map f l').
Proof. intros A B f l l' H. apply Permutation_flat_map. exact H. Qed.
Lemma find_in_blocks : forall (l : list (blk ccmd)) b, NoDup (ids l) -> In b l -> find ccmd l (b_id _ b) = Some b.
Proof.
  induction l as [|h r IH]; intros b ND HI; [destruct HI|]. cbn in ND. inversion ND as [|? ? Hn ND']; subst.
  cbn. destruct HI as [HI|HI].
  - subst. rewrite N.eqb_refl. reflexivity.
  - destruct (N.eqb (b_id ccmd h) (b_id ccmd b)) eqn:E.
    + apply N.eqb_eq in E. exfalso. apply Hn. rewrite E. apply in_map. exact HI.
    + apply IH; assumption.
Qed.
Lemma find_some_in : forall (l : list (blk ccmd)) i b, find ccmd l i = Some b -> In b l /\ b_id _ b = i.
Proof.
  induction l as [|h r IH]; intros i b H; cbn in H; [discriminate|].
  destruct (N.eqb (b_id ccmd h) i) eqn:E.
  - inversion H; subst. apply N.eqb_eq in E. split; [left; reflexivity|exact E].
  - apply IH in H. destruct H. split; [right; assumption|assumption].
Qed.

Definition found (s : cst) (js : list N) : list (blk ccmd) :=
  flat_map (fun j => match find ccmd (blocks _ _ s) j with Some b => [b] | None => [] end) js.
Lemma found_items : forall s js,
    flat_map block_items (map (gs_of s) js) = flat_map (fun b => block_items (b_gs _ b)) (found s js).
Proof.
  intros s js. unfold found. induction js as [|j r IH]; [reflexivity|]. cbn. rewrite flat_map_app, IH. unfold gs_of.
  destruct (find ccmd (blocks pstate ccmd s) j); cbn; [rewrite app_nil_r|]; reflexivity.
Qed.
Lemma found_nodup : forall s js, NoDup js -> NoDup (found s js).
Proof.
  intros s js. unfold found. induction js as [|j r IH]; intros NDc; [constructor|].
  inversion NDc as [|? ? Hn NDr]; subst. cbn. destruct (find ccmd (blocks pstate ccmd s) j) as [b|] eqn:F; cbn; [|apply IH; exact NDr].
  constructor; [|apply IH; exact NDr]. intro Hin. apply Hn. apply in_flat_map in Hin. destruct Hin as (k & Hk & Hb).
  destruct (find ccmd (blocks pstate ccmd s) k) as [b2|] eqn:F2; [|destruct Hb]. destruct Hb as [<-|[]].
  apply find_some_in in F. apply find_some_in in F2. destruct F, F2. congruence.
Qed.

Theorem active_items_chain : forall s,
    quiet s -> Permutation (active_items (blocks _ _ s)) (flat_map block_items (chain_gs s)).
Proof.
  intros s Q. pose proof (applied_exactly s Q) as AE. destruct (quiet_chain s Q) as (_ & NDc & _).
  pose proof (wf_ids s (proj1 Q)) as NDi.
  rewrite active_items_filter. unfold chain_gs. rewrite found_items. apply Permutation_flat_map.
  apply NoDup_Permutation; [apply NoDup_filter, (NoDup_map_inv _ _ NDi)|apply found_nodup; exact NDc|].
  intros b. unfold found. rewrite filter_In, in_flat_map. split.
  - intros [Hin Ha]. exists (b_id ccmd b). pose proof (find_in_blocks _ _ NDi Hin) as F. rewrite F. split; [|left; reflexivity].
    apply AE. exists (core b). split; [apply find_cfind; exact F|exact Ha].
  - intros (j & Hj & Hb). destruct (find ccmd (blocks pstate ccmd s) j) as [b2|] eqn:F; [|destruct Hb]. destruct Hb as [<-|[]].
    apply AE in Hj. destruct Hj as (e & He & Ha). rewrite (find_cfind _ _ _ F) in He. inversion He; subst e.
    apply find_some_in in F. destruct F. split; [assumption|exact Ha].
Qed.

(** C01: quiet canonical states with the same active chain - the same payloads on root..tip - have the same protecting
    state: same reference count of every SP block, same endorsement multiset *)
Theorem chain_determines_P : forall base s1 s2,
    quiet s1 -> canon base s1 -> quiet s2 -> canon base s2 -> chain_gs s1 = chain_gs s2 ->
    Permutation (pst _ _ s1) (pst _ _ s2) /\ (forall x, count_ref x (pst _ _ s1) = count_ref x (pst _ _ s2)).
Proof.
  intros base s1 s2 Q1 C1 Q2 C2 Hc. apply (canon_items_P base); [exact C1|exact C2|].
  rewrite (active_items_chain s1 Q1), (active_items_chain s2 Q2), Hc. reflexivity.
Qed.

(** so do two histories (without comparisons) ending with the same active chain; in particular the fresh instance
    that is only shown the final chain *)
Theorem history_independence_chain : forall base r1 h1 ops1 s1 r2 h2 ops2 s2,
    no_compare ops1 -> no_compare ops2 ->
    run (c_init r1 h1 base) ops1 = Ok s1 -> run (c_init r2 h2 base) ops2 = Ok s2 ->
    chain_gs s1 = chain_gs s2 ->
    Permutation (pst _ _ s1) (pst _ _ s2) /\ (forall x, count_ref x (pst _ _ s1) = count_ref x (pst _ _ s2)).
Proof.
  intros base r1 h1 ops1 s1 r2 h2 ops2 s2 N1 N2 R1 R2.
  apply (chain_determines_P base).
  - exact (quiet_run _ _ _ N1 (quiet_init _ _ _) R1).
  - apply applied_canonical. exists r1, h1, ops1. exact R1.
  - exact (quiet_run _ _ _ N2 (quiet_init _ _ _) R2).
  - apply applied_canonical. exists r2, h2, ops2. exact R2.
Qed.

Theorem applied_exactly_run : forall base r h ops s,
    no_compare ops -> run (c_init r h base) ops = Ok s ->
    quiet s /\ forall j, is_act (cores s) j <-> In j (chain s).
Proof.
  intros base r h ops s NC R. assert (Q : quiet s) by (eapply quiet_run; [exact NC|apply quiet_init|exact R]).
  split; [exact Q|apply applied_exactly; exact Q].
Qed.
