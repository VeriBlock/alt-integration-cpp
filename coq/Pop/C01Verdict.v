(** C01 by composition, part 2: the fork-resolution verdict against a given candidate.

    comparePopScore applies the candidate's branch next to the active chain ([apply s fork c]), builds the two
    publication views (ReducedPublicationView of [fork..tip] and of [fork..candidate]) from the protecting state
    and runs the scoring core on them (Score/CmpDefs.v [impl], property C03).  This file
      - defines the publication views as a projection of the POP model's state ([pub_view]) with explicit adapters,
        and the scorer [score_of] that the POP machine's [compare] takes as its [score] argument;
      - proves that applying a branch is replaying its bodies on the protecting state ([apply_replay]) PROVIDED NO
        BLOCK OF THE BRANCH CARRIES A CACHED FAILED MARK ([clean]);
      - concludes that the validation outcome of a given candidate is the same in any two reachable states with the
        same active chain, and that its score is a function of the two chains and the protecting multiset
        ([score_agree]; the verdict of comparePopScore as a whole: C01Fork/C01Alone/C01Full.v).

    Adapters (Section variables): [cfg] scoring table and finality delay, [ki] keystone interval, [ta]
    EnableTimeAdjustment, [alt_time j] timestamp of ALT block j, [spv refs b] height of SP block b on the best SP
    chain ([None]: not on it), [sp_times refs] timestamps of the best SP chain by height; the last two are functions
    of the reference counts (premises [sp_determined], [sp_times_determined]: the carve-out of the property text). *)
From Coq Require Import List ZArith NArith Bool Lia Permutation.
Import ListNotations.
From VB Require Import Pop.SmDefs Pop.SmProofs Pop.SmWf Pop.SmTruth Pop.SmCmp Pop.SmAll Pop.SmCoh Pop.SmFull Pop.SmTree
     Pop.C01Compose.
From VB Require Score.CInt Score.KeystoneDefs Score.CmpDefs Score.ViewDefs Score.ViewProofs.
Local Open Scope Z_scope.

Definition unfailed (s : cst) (x : N) : Prop :=
  exists b, bfind (blocks _ _ s) x = Some b /\ is_failed _ b = false.

Definition kept (s t : cst) : Prop :=
  forall j b, bfind (blocks _ _ s) j = Some b ->
    exists b', bfind (blocks _ _ t) j = Some b' /\ b_gs _ b' = b_gs _ b /\ is_failed _ b' = is_failed _ b.

Lemma kept_refl : forall s, kept s s.
Proof. intros s j b F. exists b. auto. Qed.

Lemma kept_trans : forall s t u, kept s t -> kept t u -> kept s u.
Proof.
  intros s t u K1 K2 j b F. destruct (K1 j b F) as (b1 & F1 & G1 & H1). destruct (K2 j b1 F1) as (b2 & F2 & G2 & H2).
  exists b2. split; [exact F2|]. split; congruence.
Qed.

Lemma kept_unfailed : forall s t x, kept s t -> unfailed s x -> unfailed t x /\ gs_of t x = gs_of s x.
Proof.
  intros s t x K (b & F & Hf). destruct (K x b F) as (b' & F' & G & Hf'). split.
  - exists b'. split; [exact F'|congruence].
  - unfold gs_of. rewrite F, F'. exact G.
Qed.

Lemma applyBlock_gsexec : forall s x b t ok,
    bfind (blocks _ _ s) x = Some b -> is_failed _ b = false -> c_applyBlock s x = Ok (t, ok) ->
    exists p', gsexec pstate ccmd cexec cunexec [] (b_gs _ b) (pst _ _ s) = (p', ok) /\
               (ok = true -> pst _ _ t = p' /\ kept s t).
Proof.
  intros s x b t ok F Hf H. unfold c_applyBlock, applyBlock in H. rewrite F in H.
  destruct (N.eqb x (root pstate ccmd s)); [discriminate|].
  destruct (bfind (blocks pstate ccmd s) (b_par ccmd b)) as [pb|]; [|discriminate].
  destruct (negb (b_act ccmd pb)); [discriminate|].
  destruct (b_act ccmd b); [discriminate|].
  destruct (child_active ccmd (blocks pstate ccmd s) x); [discriminate|].
  destruct (b_fc ccmd b); [discriminate|]. rewrite Hf in H.
  destruct (N.ltb (b_lvl ccmd b) L_CONNECTED); [discriminate|].
  destruct (gsexec pstate ccmd cexec cunexec [] (b_gs ccmd b) (pst pstate ccmd s)) as [p' g].
  exists p'. destruct g; cbn [negb] in H.
  - match type of H with (if ?c then _ else _) = _ => destruct c end; [discriminate|]. injection H as <- <-.
    split; [reflexivity|]. intros _. split; [reflexivity|]. intros j bj Fj. cbn [blocks].
    rewrite find_upd_any by reflexivity. rewrite Fj. cbn.
    destruct (N.eqb (b_id ccmd bj) x); eexists; (split; [reflexivity|split; reflexivity]).
  - destruct (invalidate_pop pstate ccmd _ x); cbn in H; [|discriminate]. injection H as _ <-.
    split; [reflexivity|discriminate].
Qed.

Lemma apply_path_replay : forall path s from t ok,
    (forall x, In x path -> unfailed s x) ->
    apply_path pstate ccmd cexec cunexec s from path = Ok (t, ok) ->
    replay (map (gs_of s) path) (pst _ _ s) = (if ok then Some (pst _ _ t) else None) /\ (ok = true -> kept s t).
Proof.
  induction path as [|x r IH]; intros s from t ok Hc H; cbn in H.
  - inversion H; subst. split; [reflexivity|intros _; apply kept_refl].
  - destruct (applyBlock pstate ccmd cexec cunexec s x) as [[s1 o1]|] eqn:E; cbn [bind] in H; [|discriminate].
    destruct (Hc x (or_introl eq_refl)) as (b & Fb & Hf).
    destruct (applyBlock_gsexec s x b s1 o1 Fb Hf E) as (p' & Eg & Hp).
    cbn [map replay]. unfold gs_of at 1. rewrite Fb, Eg.
    destruct o1.
    + destruct (Hp eq_refl) as [<- K1].
      rewrite (map_ext_in _ (gs_of s1) r) by (intros y Hy; symmetry; apply (kept_unfailed s s1 y K1 (Hc y (or_intror Hy)))).
      destruct (IH s1 from t ok (fun y Hy => proj1 (kept_unfailed s s1 y K1 (Hc y (or_intror Hy)))) H) as [HR HK].
      split; [exact HR|]. intros Hok. exact (kept_trans _ _ _ K1 (HK Hok)).
    + destruct (bfind (blocks pstate ccmd s1) x); [|discriminate].
      destruct (unapply pstate ccmd cunexec s1 _ from); cbn [bind] in H; [|discriminate]. inversion H; subst.
      split; [reflexivity|discriminate].
Qed.

Lemma path_up_ups : forall s n c upl, path_up ccmd (blocks _ _ s) n c = Some upl ->
    upl = map (fun i => up (cores s) i c) (seq 0 n) /\ forall x, In x upl -> exists b, bfind (blocks _ _ s) x = Some b.
Proof.
  intros s n. induction n as [|n IH]; intros c upl H; cbn in H; [inversion H; split; [reflexivity|intros x []]|].
  destruct (bfind (blocks pstate ccmd s) c) as [b|] eqn:Fc; [|discriminate].
  destruct (path_up ccmd (blocks pstate ccmd s) n (b_par ccmd b)) as [r|] eqn:E; cbn in H; [|discriminate].
  inversion H; subst upl. destruct (IH _ _ E) as [-> Hr]. split.
  - cbn [seq map up]. f_equal. rewrite <- seq_shift, map_map. apply map_ext. intros i. cbn [up].
    rewrite (parent_find _ _ _ Fc). reflexivity.
  - intros x [<-|Hx]; [exists b; exact Fc|exact (Hr x Hx)].
Qed.

(** the path that [apply] walks *)
Definition top (s : cst) (c : N) (n : nat) : list N := rev (map (fun i => up (cores s) i c) (seq 0 n)).

(** no block among the n topmost blocks of c's chain carries a failed mark (BLOCK_FAILED_BLOCK / _POP / _CHILD) *)
Definition clean (s : cst) (c : N) (n : nat) : Prop :=
  forall k b, (k < n)%nat -> bfind (blocks _ _ s) (up (cores s) k c) = Some b -> is_failed _ b = false.

Lemma apply_replay : forall s from c n t ok,
    from = up (cores s) n c -> hgt (cores s) from = hgt (cores s) c - Z.of_nat n -> clean s c n ->
    apply pstate ccmd cexec cunexec s from c = Ok (t, ok) ->
    replay (map (gs_of s) (top s c n)) (pst _ _ s) = (if ok then Some (pst _ _ t) else None) /\ (ok = true -> kept s t).
Proof.
  intros s from c n t ok Hf Hh Cl H. unfold apply in H.
  destruct (N.eqb from c) eqn:Efc.
  { apply N.eqb_eq in Efc. assert (n = O) by (rewrite Efc in Hh; lia). subst n. inversion H; subst.
    split; [reflexivity|intros _; apply kept_refl]. }
  assert (Hpos : (0 < n)%nat) by (destruct n; [apply N.eqb_neq in Efc; contradiction|apply Nat.lt_0_succ]).
  destruct (bfind (blocks pstate ccmd s) from) as [bf|] eqn:Ff; [|discriminate].
  destruct (bfind (blocks pstate ccmd s) c) as [bt|] eqn:Fc; [|discriminate].
  rewrite (Cl O bt Hpos Fc) in H.
  destruct (negb (Z.ltb (b_h ccmd bf) (b_h ccmd bt))); [discriminate|].
  replace (Z.to_nat (b_h ccmd bt - b_h ccmd bf)) with n in H by (rewrite <- (hgt_find _ _ _ Ff), <- (hgt_find _ _ _ Fc); lia).
  destruct (path_up ccmd (blocks pstate ccmd s) n c) as [upl|] eqn:Eu; [|discriminate].
  destruct (path_up_ups _ _ _ _ Eu) as [Eupl Hknown].
  assert (Hall : forall x, In x (rev upl) -> unfailed s x).
  { intros x Hx. apply in_rev in Hx. destruct (Hknown x Hx) as (b & Fb). exists b. split; [exact Fb|].
    rewrite Eupl in Hx. apply in_map_iff in Hx. destruct Hx as (k & <- & Hk). apply in_seq in Hk.
    apply (Cl k b); [lia|exact Fb]. }
  unfold top. rewrite <- Eupl.
  destruct (rev upl) as [|x r] eqn:Er; [discriminate|].
  destruct (bfind (blocks pstate ccmd s) x); [|discriminate]. destruct (N.eqb _ from); [|discriminate].
  exact (apply_path_replay (x :: r) s from t ok Hall H).
Qed.

Lemma replay_perm : forall gss p q, Permutation p q ->
    match replay gss p, replay gss q with
    | Some p', Some q' => Permutation p' q'
    | None, None => True
    | _, _ => False
    end.
Proof.
  induction gss as [|gs r IH]; intros p q HP; cbn; [exact HP|].
  destruct (gsexec pstate ccmd cexec cunexec [] gs p) as [p1 g] eqn:E.
  destruct (gsexec pstate ccmd cexec cunexec [] gs q) as [q1 g'] eqn:E'.
  destruct g.
  - destruct (gsexec_perm _ [] [] _ _ _ HP E) as (q2 & E2 & HP1). rewrite E' in E2. inversion E2; subst. exact (IH _ _ HP1).
  - destruct g'; [|exact I]. destruct (gsexec_perm _ [] [] _ _ _ (Permutation_sym HP) E') as (p2 & E2 & _).
    rewrite E in E2. discriminate.
Qed.

(** (id, height, payloads) of x, parent x, ..., root; [active_chain s = chain_of s (tip s)] *)
Definition chain_of (s : cst) (x : N) : list (N * Z * list (list ccmd)) :=
  map (fun j => (j, hgt (cores s) j, gs_of s j)) (anc_list (cores s) (depth s x) x).
Lemma active_chain_of : forall s, active_chain s = chain_of s (tip _ _ s).
Proof. reflexivity. Qed.
Lemma active_chain_of_tip : forall s1 s2, active_chain s1 = active_chain s2 ->
    chain_of s1 (tip _ _ s1) = chain_of s2 (tip _ _ s1).
Proof. intros s1 s2 H. pose proof (tip_agree _ _ H) as Ht. rewrite !active_chain_of, <- Ht in H. exact H. Qed.

(** (id, height) of x, parent x, ..., root *)
Definition line (s : cst) (x : N) : list (N * Z) :=
  map (fun j => (j, hgt (cores s) j)) (anc_list (cores s) (depth s x) x).
Lemma line_chain_of : forall s x, line s x = map fst (chain_of s x).
Proof. intros s x. unfold line, chain_of. rewrite map_map. reflexivity. Qed.

Lemma line_frame : forall s t x, frame s t -> line t x = line s x.
Proof.
  intros s t x F. pose proof (fr_static _ _ F) as S. unfold line, depth.
  rewrite (fr_root _ _ F), !(hgt_static _ _ _ S), (anc_list_static _ _ _ _ S).
  apply map_ext. intros j. rewrite (hgt_static _ _ _ S). reflexivity.
Qed.

Lemma anc_list_ups : forall l m c, anc_list l m c = map (fun k => up l k c) (seq 0 (S m)).
Proof.
  intros l m. induction m as [|m IH]; intros c; [reflexivity|].
  change (anc_list l (S m) c) with (c :: anc_list l m (parent l c)). rewrite IH.
  change (seq 0 (S (S m))) with (0%nat :: seq 1 (S m)). cbn [map up]. f_equal.
  rewrite <- seq_shift, map_map. reflexivity.
Qed.

Lemma chain_of_ids : forall s c, map (fun t => fst (fst t)) (chain_of s c) = anc_list (cores s) (depth s c) c.
Proof. intros s c. unfold chain_of. rewrite map_map. apply map_id. Qed.

Definition on_chain (s : cst) (c x : N) : Prop := In x (map (fun t => fst (fst t)) (chain_of s c)).
Lemma on_chain_iff : forall s c x, on_chain s c x <-> exists k, (k <= depth s c)%nat /\ x = up (cores s) k c.
Proof.
  intros s c x. unfold on_chain. rewrite chain_of_ids, anc_list_ups, in_map_iff. split.
  - intros (k & Hk & Hin). apply in_seq in Hin. exists k. split; [lia|symmetry; exact Hk].
  - intros (k & Hk & ->). exists k. split; [reflexivity|apply in_seq; lia].
Qed.

Lemma chain_of_ups : forall s1 s2 c k, chain_of s1 c = chain_of s2 c -> (k <= depth s1 c)%nat ->
    up (cores s2) k c = up (cores s1) k c.
Proof.
  intros s1 s2 c k H Hk. apply (f_equal (map (fun t : N * Z * list (list ccmd) => fst (fst t)))) in H.
  rewrite !chain_of_ids, !anc_list_ups in H.
  assert (Hd : depth s2 c = depth s1 c) by (apply (f_equal (@length _)) in H; rewrite !map_length, !seq_length in H; lia).
  rewrite Hd, map_ext_in_iff in H. symmetry. apply H. apply in_seq. lia.
Qed.

Lemma chain_of_data : forall s1 s2 c j, chain_of s1 c = chain_of s2 c -> on_chain s1 c j ->
    hgt (cores s2) j = hgt (cores s1) j /\ gs_of s2 j = gs_of s1 j.
Proof.
  intros s1 s2 c j H Hj. unfold on_chain in Hj. rewrite chain_of_ids in Hj.
  assert (He : In (j, hgt (cores s1) j, gs_of s1 j) (chain_of s2 c)) by (rewrite <- H; exact (in_map (fun i => (i, hgt (cores s1) i, gs_of s1 i)) _ _ Hj)).
  apply in_map_iff in He. destruct He as (j' & E & _). inversion E; subst j'. split; reflexivity.
Qed.

Lemma chain_of_self : forall s c, on_chain s c c.
Proof. intros s c. apply on_chain_iff. exists O. split; [apply Nat.le_0_l|reflexivity]. Qed.

Lemma top_bodies_agree : forall s1 s2 c n, chain_of s1 c = chain_of s2 c -> (n <= S (depth s1 c))%nat ->
    map (gs_of s2) (top s2 c n) = map (gs_of s1) (top s1 c n).
Proof.
  intros s1 s2 c n H Hn. unfold top. rewrite !map_rev, !map_map. apply (f_equal (@rev _)).
  apply map_ext_in. intros k Hk. apply in_seq in Hk. rewrite (chain_of_ups s1 s2 c k H) by lia.
  apply (chain_of_data s1 s2 c _ H). apply on_chain_iff. exists k. split; [lia|reflexivity].
Qed.

Lemma depth_dep : forall s c e, wf s -> scoh s -> cfind (cores s) c = Some e -> Z.of_nat (depth s c) = dep s c.
Proof.
  intros s c e W K C. destruct (dep_facts s c e W K C) as [D _]. change (depth s c) with (Z.to_nat (dep s c)). lia.
Qed.
Lemma up_hgt_depth : forall s c e k, wf s -> scoh s -> cfind (cores s) c = Some e -> (k <= depth s c)%nat ->
    hgt (cores s) (up (cores s) k c) = hgt (cores s) c - Z.of_nat k.
Proof.
  intros s c e k W K C Hk. apply (up_hgt_dep s c e k W K C). rewrite <- (depth_dep s c e W K C). lia.
Qed.

(** * C01: the candidate's branch validates alike, and leaves the same protecting multiset *)
Theorem candidate_validation_history_independent : forall base s1 s2 c fork t1 ok1 t2 ok2,
    reachable base s1 -> reachable base s2 -> active_chain s1 = active_chain s2 ->
    (exists b, bfind (blocks _ _ s1) c = Some b) -> (exists b, bfind (blocks _ _ s2) c = Some b) ->
    chain_of s1 c = chain_of s2 c ->
    In fork (map (fun t => fst (fst t)) (chain_of s1 c)) ->
    clean s1 c (Z.to_nat (hgt (cores s1) c - hgt (cores s1) fork)) ->
    clean s2 c (Z.to_nat (hgt (cores s1) c - hgt (cores s1) fork)) ->
    apply pstate ccmd cexec cunexec s1 fork c = Ok (t1, ok1) ->
    apply pstate ccmd cexec cunexec s2 fork c = Ok (t2, ok2) ->
    ok1 = ok2 /\ (ok1 = true -> Permutation (pst _ _ t1) (pst _ _ t2)) /\ frame s1 t1 /\ frame s2 t2.
Proof.
  intros base s1 s2 c fork t1 ok1 t2 ok2 R1 R2 HA (bc1 & Fc1) _ HC Hfork Cl1 Cl2 A1 A2.
  destruct (reachable_good _ _ R1) as ((W1 & _) & _ & K1 & _). destruct (reachable_good _ _ R2) as ((W2 & _) & _).
  destruct (history_independence base s1 s2 R1 R2 (active_chain_gs _ _ HA)) as [HP _].
  destruct (chain_of_data _ _ _ _ HC Hfork) as [Hhf _]. destruct (chain_of_data _ _ _ _ HC (chain_of_self s1 c)) as [Hhc _].
  (* the fork is the m-th ancestor of c, so the branch has m blocks *)
  apply on_chain_iff in Hfork. destruct Hfork as (m & Hm & Ef).
  pose proof (up_hgt_depth s1 c _ m W1 K1 (find_cfind _ _ _ Fc1) Hm) as Hh. rewrite <- Ef in Hh.
  replace (Z.to_nat (hgt (cores s1) c - hgt (cores s1) fork)) with m in Cl1, Cl2 by (clear -Hh; lia).
  destruct (apply_replay s1 fork c m t1 ok1 Ef Hh Cl1 A1) as [E1 _].
  destruct (apply_replay s2 fork c m t2 ok2 (eq_trans Ef (eq_sym (chain_of_ups s1 s2 c m HC Hm))) ltac:(rewrite Hhf, Hhc; exact Hh) Cl2 A2) as [E2 _].
  rewrite (top_bodies_agree s1 s2 c m HC (le_S _ _ Hm)) in E2.
  pose proof (replay_perm (map (gs_of s1) (top s1 c m)) _ _ HP) as HR. rewrite E1, E2 in HR.
  split; [destruct ok1, ok2; tauto|]. split; [intros ->; destruct ok2; tauto|].
  split; [exact (proj1 (apply_arith _ _ _ _ _ W1 A1))|exact (proj1 (apply_arith _ _ _ _ _ W2 A2))].
Qed.

(** * the scoring input: publication views as a projection of the POP state *)
Definition slice := list (N * Z).   (* (id, height), tip first, fork last *)
Definition on_line (L : slice) (j : N) : bool := existsb (fun a => N.eqb (fst a) j) L.
(** the part of a line from its tip down to block f *)
Fixpoint upto (f : N) (L : slice) : slice :=
  match L with
  | [] => []
  | jh :: r => if N.eqb (fst jh) f then [jh] else jh :: upto f r
  end.
(** highest block of line LB that also lies on line LA *)
Definition fork_of (LA LB : slice) : option N :=
  option_map fst (List.find (fun jh => on_line LA (fst jh)) LB).
Definition slice_tip_h (S : slice) : Z := match S with [] => 0 | jh :: _ => snd jh end.
Definition slice_fork_h (S : slice) : Z := snd (last S (0%N, 0)).

Definition sp_times_determined (sp_times : (N -> nat) -> list Z) : Prop :=
  forall f g : N -> nat, (forall x, f x = g x) -> sp_times f = sp_times g.

Section Scoring.
  Variable cfg : VB.Score.CmpDefs.config.
  Variable ki : Z.
  Variable ta : bool.
  Variable alt_time : N -> Z.
  Variable spv : (N -> nat) -> N -> option Z.
  Variable sp_times : (N -> nat) -> list Z.

  (** getProtoKeystoneContext: endorsements of the blocks k .. k + ki + 1 of this chain slice ... *)
  Definition in_period (S : slice) (k : Z) (e : N) : bool :=
    existsb (fun jh => N.eqb (fst jh) e && (k <=? snd jh) && (snd jh <=? VB.Score.KeystoneDefs.m_highestConnecting k ki)) S.
  (** ... contained in the same slice, block of proof on the best SP chain: heights of the blocks of proof
      (a list; the C++ collects a set, [ktx] is a minimum and does not see duplicates or order) *)
  Definition kst_bops (p : pstate) (S : slice) (k : Z) : list nat :=
    flat_map (fun it => match it with
                        | IEnd e c b =>
                          if in_period S k e && on_line S c
                          then match spv (refs p) b with Some h => [Z.to_nat h] | None => [] end
                          else []
                        | IRef _ => []
                        end) p.
  Definition kst_time (S : slice) (k : Z) : Z :=
    match List.find (fun jh => snd jh =? k) S with Some jh => alt_time (fst jh) | None => 0 end.
  (** firstBlockPublicationHeight of keystone k (Score/ViewDefs.v [ktx] = getKeystoneContext as coded) *)
  Definition kst_pub (p : pstate) (S : slice) (k : Z) : Z :=
    match VB.Score.ViewDefs.ktx ta (sp_times (refs p)) (kst_time S k) (kst_bops p S k) with
    | Some m => Z.of_nat m
    | None => VB.Score.CmpDefs.NO_ENDORSEMENT
    end.
  (** ReducedPublicationView of a slice: one context per keystone firstKeystone, firstKeystone + ki, ..., lastKeystone *)
  Definition pub_view (p : pstate) (S : slice) : list (option Z) :=
    map (fun i => Some (kst_pub p S (VB.Score.KeystoneDefs.view_first (slice_fork_h S) ki + Z.of_nat i * ki)))
        (seq 0 (Z.to_nat (VB.Score.KeystoneDefs.view_size (slice_fork_h S) (slice_tip_h S) ki))).

  (** comparePopScoreImpl on the views of [fork..tip] of line LA and [fork..tip] of line LB *)
  Definition core_score (p : pstate) (LA LB : slice) : option (VB.Score.CInt.res Z) :=
    match fork_of LA LB with
    | Some f => Some (VB.Score.CmpDefs.impl cfg (pub_view p (upto f LA)) (pub_view p (upto f LB)))
    | None => None
    end.
  (** adapter to the machine's [score : st -> N -> Z]: evaluated in the state with both chains applied;
      undefined behaviour of the scoring core / no common block is mapped to 0 *)
  Definition score_of (t : cst) (c : N) : Z :=
    match core_score (pst _ _ t) (line t (tip _ _ t)) (line t c) with
    | Some (VB.Score.CInt.Ok r) => r
    | _ => 0
    end.
  Definition crossed_of (b t : Z) : bool := VB.Score.KeystoneDefs.m_crossed b t ki.

  Hypothesis SD : sp_determined spv.
  Hypothesis TD : sp_times_determined sp_times.

  Lemma kst_bops_perm : forall p q S k, Permutation p q -> Permutation (kst_bops p S k) (kst_bops q S k).
  Proof.
    intros p q S k H. unfold kst_bops.
    rewrite (flat_map_ext _ (fun it => match it with
                        | IEnd e c b =>
                          if in_period S k e && on_line S c
                          then match spv (refs q) b with Some h => [Z.to_nat h] | None => [] end
                          else []
                        | IRef _ => []
                        end)).
    - apply flat_map_perm. exact H.
    - intros [x|e c b]; [reflexivity|]. rewrite (SD (refs p) (refs q) (fun x => count_ref_perm x _ _ H) b). reflexivity.
  Qed.

  (** the scoring input depends on the protecting state only as a multiset *)
  Lemma pub_view_perm : forall p q S, Permutation p q -> pub_view p S = pub_view q S.
  Proof.
    intros p q S H. unfold pub_view. apply map_ext. intros i. f_equal. unfold kst_pub.
    rewrite (TD (refs p) (refs q) (fun x => count_ref_perm x _ _ H)).
    rewrite (VB.Score.ViewProofs.ktx_order_independent ta _ _ _ _ (kst_bops_perm p q S _ H)). reflexivity.
  Qed.

  Lemma core_score_perm : forall p q LA LB, Permutation p q -> core_score p LA LB = core_score q LA LB.
  Proof.
    intros p q LA LB H. unfold core_score. destruct (fork_of LA LB) as [f|]; [|reflexivity].
    rewrite (pub_view_perm p q _ H), (pub_view_perm p q _ H). reflexivity.
  Qed.

  (** C01: comparePopScoreImpl's result and the machine's score against candidate c are functions of the active chain,
      the candidate's chain and P as a multiset; t1, t2 are states with both chains applied *)
  Theorem score_agree : forall s1 s2 c t1 t2,
      frame s1 t1 -> frame s2 t2 -> active_chain s1 = active_chain s2 -> chain_of s1 c = chain_of s2 c ->
      Permutation (pst _ _ t1) (pst _ _ t2) ->
      core_score (pst _ _ t1) (line t1 (tip _ _ t1)) (line t1 c) = core_score (pst _ _ t2) (line t2 (tip _ _ t2)) (line t2 c) /\
      score_of t1 c = score_of t2 c.
  Proof.
    intros s1 s2 c t1 t2 F1 F2 HA HC HP.
    assert (E : core_score (pst _ _ t1) (line t1 (tip _ _ t1)) (line t1 c) = core_score (pst _ _ t2) (line t2 (tip _ _ t2)) (line t2 c)).
    { rewrite (fr_tip _ _ F1), (fr_tip _ _ F2), !(line_frame _ _ _ F1), !(line_frame _ _ _ F2), !line_chain_of,
        <- !active_chain_of, HA, HC. apply core_score_perm. exact HP. }
    split; [exact E|]. unfold score_of. rewrite E. reflexivity.
  Qed.
End Scoring.
