(** POP state machine — tree facts: every block reaches the root, depth bound, correctness of the fork search. *)
From Coq Require Import List ZArith NArith Bool Lia Permutation.
Import ListNotations.
From VB Require Import Pop.SmDefs Pop.SmProofs Pop.SmWf Pop.SmTruth Pop.SmCmp Pop.SmCoh.
Local Open Scope Z_scope.

Lemma up_hgt : forall s k j,
    wf s -> (exists e, cfind (cores s) j = Some e) ->
    (forall i, (i < k)%nat -> up (cores s) i j <> root _ _ s) ->
    hgt (cores s) (up (cores s) k j) = hgt (cores s) j - Z.of_nat k /\ exists e, cfind (cores s) (up (cores s) k j) = Some e.
Proof.
  intros s k. induction k as [|k IH]; intros j W (e & He) Hnr.
  - cbn. split; [lia|exists e; exact He].
  - destruct (IH j W (ex_intro _ e He)) as (Hh & (ek & Hek)); [intros i Hi; apply Hnr; lia|].
    rewrite up_succ_r. assert (Hk : up (cores s) k j <> root _ _ s) by (apply Hnr; lia).
    pose proof (wf_parent_height _ _ _ W Hek Hk) as Hp. unfold parent. rewrite Hek.
    destruct (wf_closed s W _ _ Hek) as (pe & Hpe). split; [lia|exists pe; exact Hpe].
Qed.

(** every block descends from the root (parents come first in the list) *)
Lemma reach_root : forall s, wf s -> scoh s -> forall j e, cfind (cores s) j = Some e ->
    exists k, up (cores s) k j = root _ _ s /\ (forall i, (i < k)%nat -> up (cores s) i j <> root _ _ s).
Proof.
  intros s W (ND & OR & _) j e He. destruct (core_find _ _ _ He) as (b & Fb & _). destruct (find_some_in _ _ _ Fb) as [Hin <-].
  apply (ord_ok_ind (fun j => exists k, up (cores s) k j = root _ _ s /\ (forall i, (i < k)%nat -> up (cores s) i j <> root _ _ s))
           (root _ _ s) (blocks _ _ s) [] OR); [intros k []| |exact Hin].
  intros y Hy Hq. destruct (N.eq_dec (b_id ccmd y) (root _ _ s)) as [Heq|Hne]; [exists O; split; [exact Heq|intros i Hi; lia]|].
  destruct Hq as [Hq|(k & Hk & Hmin)]; [contradiction|].
  pose proof (parent_find _ _ _ (find_in_blocks _ _ ND Hy)) as Hpar.
  exists (S k). split; [cbn; rewrite Hpar; exact Hk|]. intros [|i] Hi; cbn; [exact Hne|rewrite Hpar; apply Hmin; lia].
Qed.

Definition dep (s : cst) (j : N) : Z := hgt (cores s) j - hgt (cores s) (root _ _ s).

Lemma dep_facts : forall s j e, wf s -> scoh s -> cfind (cores s) j = Some e ->
    0 <= dep s j /\ up (cores s) (Z.to_nat (dep s j)) j = root _ _ s /\
    (forall i, (i < Z.to_nat (dep s j))%nat -> up (cores s) i j <> root _ _ s).
Proof.
  intros s j e W C He. destruct (reach_root s W C j e He) as (k & Hk & Hmin).
  destruct (up_hgt s k j W (ex_intro _ e He) Hmin) as (Hh & _). rewrite Hk in Hh.
  assert (dep s j = Z.of_nat k) by (unfold dep; lia). rewrite H, Nat2Z.id. split; [lia|split; assumption].
Qed.

Lemma up_add : forall l a b j, up l (a + b) j = up l b (up l a j).
Proof. intros l a. induction a as [|a IH]; intros b j; [reflexivity|]. cbn. apply IH. Qed.

Lemma NoDup_map_inj_in : forall (A B : Type) (f : A -> B) (l : list A),
    (forall a b, In a l -> In b l -> f a = f b -> a = b) -> NoDup l -> NoDup (map f l).
Proof.
  intros A B f l. induction l as [|x r IH]; intros Hinj ND; cbn; [constructor|]. inversion ND as [|? ? Hn ND']; subst.
  constructor.
  - intro Hin. apply in_map_iff in Hin. destruct Hin as (y & Hy & Hyin). apply Hn.
    rewrite (Hinj x y (or_introl eq_refl) (or_intror Hyin) (eq_sym Hy)). exact Hyin.
  - apply IH; [|exact ND']. intros a b Ha Hb. apply Hinj; right; assumption.
Qed.

Lemma up_hgt_dep : forall s j e i, wf s -> scoh s -> cfind (cores s) j = Some e -> Z.of_nat i <= dep s j ->
    hgt (cores s) (up (cores s) i j) = hgt (cores s) j - Z.of_nat i /\ exists e', cfind (cores s) (up (cores s) i j) = Some e'.
Proof.
  intros s j e i W C He Hi. destruct (dep_facts s j e W C He) as (H0 & _ & Hmin).
  apply up_hgt; [exact W|exists e; exact He|]. intros i' Hi'. apply Hmin. lia.
Qed.

Lemma dep_bound : forall s j e, wf s -> scoh s -> cfind (cores s) j = Some e -> dep s j < Z.of_nat (length (blocks _ _ s)).
Proof.
  intros s j e W C He. destruct (dep_facts s j e W C He) as (H0 & _ & _).
  set (n := Z.to_nat (dep s j)).
  (* the n+1 blocks j, up 1 j, .. are known and have pairwise different heights *)
  assert (Hh : forall i, (i <= n)%nat -> hgt (cores s) (up (cores s) i j) = hgt (cores s) j - Z.of_nat i /\ exists e', cfind (cores s) (up (cores s) i j) = Some e')
    by (intros i Hi; apply (up_hgt_dep s j e i W C He); lia).
  set (L := map (fun i => up (cores s) i j) (seq 0 (S n))).
  assert (NDL : NoDup L).
  { unfold L. apply NoDup_map_inj_in; [|apply seq_NoDup].
    intros a b Ha Hb Hab. apply in_seq in Ha. apply in_seq in Hb.
    destruct (Hh a ltac:(lia)) as [Ea _]. destruct (Hh b ltac:(lia)) as [Eb _]. rewrite Hab in Ea. lia. }
  assert (Hincl : incl L (map e_id (cores s))).
  { intros x Hx. unfold L in Hx. apply in_map_iff in Hx. destruct Hx as (i & <- & Hi). apply in_seq in Hi.
    destruct (Hh i ltac:(lia)) as [_ (e' & He')]. apply cfind_some in He'. destruct He' as [Hid Hin]. rewrite <- Hid. apply in_map. exact Hin. }
  pose proof (NoDup_incl_length NDL Hincl) as Hlen. unfold L in Hlen. rewrite !map_length, seq_length in Hlen.
  unfold cores in Hlen. rewrite map_length in Hlen. unfold n in Hlen. lia.
Qed.

Lemma dep_parent : forall s j e, wf s -> cfind (cores s) j = Some e -> j <> root _ _ s ->
    dep s (parent (cores s) j) = dep s j - 1 /\ exists pe, cfind (cores s) (parent (cores s) j) = Some pe.
Proof.
  intros s j e W He Hr. pose proof (wf_parent_height _ _ _ W He Hr) as Hh. unfold parent. rewrite He.
  destruct (wf_closed s W _ _ He) as (pe & Hpe). split; [unfold dep; lia|exists pe; exact Hpe].
Qed.

Lemma dep_zero_root : forall s j e, wf s -> scoh s -> cfind (cores s) j = Some e -> dep s j = 0 -> j = root _ _ s.
Proof. intros s j e W C He H0. destruct (dep_facts s j e W C He) as (_ & Hr & _). rewrite H0 in Hr. exact Hr. Qed.

(** getForkBlock / findFork returns the highest common ancestor *)
Definition is_lca (s : cst) (a b f : N) : Prop :=
  exists ka kb, f = up (cores s) ka a /\ f = up (cores s) kb b /\ Z.of_nat ka <= dep s a /\ Z.of_nat kb <= dep s b /\
    (forall g i j, g = up (cores s) i a -> g = up (cores s) j b -> Z.of_nat i <= dep s a -> Z.of_nat j <= dep s b ->
                   hgt (cores s) g <= hgt (cores s) f).

Lemma is_lca_sym : forall s a b f, is_lca s a b f -> is_lca s b a f.
Proof.
  intros s a b f (ka & kb & H1 & H2 & K1 & K2 & Hmax). exists kb, ka. repeat split; try assumption.
  intros g i j Hi Hj Li Lj. exact (Hmax g j i Hj Hi Lj Li).
Qed.

Lemma upper_parent : forall s a b ea eb, wf s -> scoh s -> cfind (cores s) a = Some ea -> cfind (cores s) b = Some eb ->
    a <> b -> hgt (cores s) a <= hgt (cores s) b ->
    exists pe, cfind (cores s) (parent (cores s) b) = Some pe /\ 0 <= dep s (parent (cores s) b) /\ dep s (parent (cores s) b) = dep s b - 1.
Proof.
  intros s a b ea eb W C Ha Hb Hab Hh. destruct (dep_facts s a ea W C Ha) as (D0 & _ & _).
  assert (Hbr : b <> root _ _ s).
  { intros ->. apply Hab. apply (dep_zero_root s a ea W C Ha). unfold dep in *. lia. }
  destruct (dep_parent s b eb W Hb Hbr) as (Dp & pe & Hpe). exists pe. split; [exact Hpe|]. split; [apply (dep_facts s _ pe W C Hpe)|exact Dp].
Qed.

Lemma is_lca_step : forall s a b ea eb f, wf s -> scoh s -> cfind (cores s) a = Some ea -> cfind (cores s) b = Some eb ->
    a <> b -> hgt (cores s) a <= hgt (cores s) b -> is_lca s a (parent (cores s) b) f -> is_lca s a b f.
Proof.
  intros s a b ea eb f W C Ha Hb Hab Hh (ka & kb & H1 & H2 & K1 & K2 & Hmax).
  destruct (upper_parent s a b ea eb W C Ha Hb Hab Hh) as (_ & _ & _ & Dp).
  exists ka, (S kb). split; [exact H1|]. split; [exact H2|]. split; [exact K1|]. split; [lia|].
  intros g i [|j] Hg1 Hg2 Hi Hj.
  - (* b itself is not an ancestor of a *)
    exfalso. cbn in Hg2. rewrite Hg2 in Hg1. destruct (up_hgt_dep s a ea i W C Ha Hi) as [Hu _]. rewrite <- Hg1 in Hu.
    apply Hab. assert (i = O) by lia. subst i. symmetry. exact Hg1.
  - apply (Hmax g i j Hg1 Hg2 Hi). lia.
Qed.

Lemma lca_spec : forall s, wf s -> scoh s -> forall fuel a b ea eb,
    cfind (cores s) a = Some ea -> cfind (cores s) b = Some eb ->
    (Z.to_nat (dep s a) + Z.to_nat (dep s b) < fuel)%nat ->
    exists f, lca ccmd (blocks _ _ s) fuel a b = Some f /\ is_lca s a b f.
Proof.
  intros s W C fuel. induction fuel as [|fuel IH]; intros a b ea eb Ha Hb Hm; [lia|].
  cbn [lca]. destruct (N.eqb a b) eqn:Eab.
  { apply N.eqb_eq in Eab. subst b. exists a. split; [reflexivity|]. exists O, O. repeat split; try (unfold dep; lia).
    - apply (dep_facts s a ea W C Ha).
    - apply (dep_facts s a ea W C Ha).
    - intros g i j -> _ Hi _. destruct (up_hgt_dep s a ea i W C Ha Hi) as [Hh _]. lia. }
  apply N.eqb_neq in Eab.
  destruct (core_find _ _ _ Ha) as (ba & Fa & _). destruct (core_find _ _ _ Hb) as (bb & Fb & _). rewrite Fa, Fb.
  rewrite <- (hgt_find _ _ _ Fa), <- (hgt_find _ _ _ Fb), <- (parent_find _ _ _ Fa), <- (parent_find _ _ _ Fb).
  pose proof (upper_parent s a b ea eb W C Ha Hb Eab) as Sb. pose proof (upper_parent s b a eb ea W C Hb Ha (not_eq_sym Eab)) as Sa.
  destruct (Z.ltb_spec (hgt (cores s) a) (hgt (cores s) b)) as [E1|E1]; [|destruct (Z.ltb_spec (hgt (cores s) b) (hgt (cores s) a)) as [E2|E2]].
  - destruct Sb as (pe & Hpe & D0 & Dp); [lia|]. destruct (IH a _ ea pe Ha Hpe) as (f & Hl & L); [lia|].
    exists f. split; [exact Hl|]. apply (is_lca_step s a b ea eb f W C Ha Hb Eab); [lia|exact L].
  - destruct Sa as (pe & Hpe & D0 & Dp); [lia|]. destruct (IH _ b pe eb Hpe Hb) as (f & Hl & L); [lia|].
    exists f. split; [exact Hl|]. apply is_lca_sym. apply (is_lca_step s b a eb ea f W C Hb Ha (not_eq_sym Eab)); [lia|apply is_lca_sym; exact L].
  - destruct Sa as (pea & Hpea & D0a & Dpa); [lia|]. destruct Sb as (peb & Hpeb & D0b & Dpb); [lia|].
    destruct (IH _ _ pea peb Hpea Hpeb) as (f & Hl & L); [lia|]. exists f. split; [exact Hl|].
    assert (Hpa : hgt (cores s) (parent (cores s) b) = hgt (cores s) b - 1) by (unfold dep in Dpb; lia).
    apply (is_lca_step s a b ea eb f W C Ha Hb Eab); [lia|]. apply is_lca_sym.
    apply (is_lca_step s _ a peb ea f W C Hpeb Ha); [intro E; rewrite E in Hpa; lia|lia|apply is_lca_sym; exact L].
Qed.

Lemma lca_fuel : forall s a b ea eb, wf s -> scoh s -> cfind (cores s) a = Some ea -> cfind (cores s) b = Some eb ->
    exists f, lca ccmd (blocks _ _ s) (2 * fuel_of _ _ s) a b = Some f /\ is_lca s a b f.
Proof.
  intros s a b ea eb W C Ha Hb. apply (lca_spec s W C _ a b ea eb Ha Hb).
  pose proof (dep_bound s a ea W C Ha). pose proof (dep_bound s b eb W C Hb).
  pose proof (proj1 (dep_facts s a ea W C Ha)). pose proof (proj1 (dep_facts s b eb W C Hb)). unfold fuel_of. lia.
Qed.
