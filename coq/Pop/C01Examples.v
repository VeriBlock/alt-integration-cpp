(** C01 by composition: the premises of the payout / verdict theorems are satisfiable by a non-trivial pair of
    histories, and the verdict statement without the "no cached failed mark" premise fails on the model
    (the listed finding C01:verdict-0-vs-1-cached-invalid). *)
From Coq Require Import List ZArith NArith Bool Lia Permutation.
Import ListNotations.
From VB Require Import Pop.SmDefs Pop.SmProofs Pop.SmWf Pop.SmTruth Pop.SmCmp Pop.SmAll Pop.SmCoh Pop.SmFull Pop.SmMarks Pop.SmTree
     Pop.SmReact Pop.SmAbort Pop.C01Compose Pop.C01Verdict Pop.C01Fork.
From VB Require Rewards.BoundsDefs Rewards.FinalProofs Score.CmpDefs.
Local Open Scope Z_scope.

(** concrete adapters: the payout info is the block of proof's id; every known SP block is on the best SP chain at
    height = its id; all timestamps 0, no time adjustment *)
Definition ex_pinfo (e c b : N) : Z := Z.of_N b.
Definition ex_spv (refs : N -> nat) (b : N) : option Z := if (0 <? refs b)%nat then Some (Z.of_N b) else None.
Definition ex_times (refs : N -> nat) : list Z := [].
Lemma ex_spv_determined : sp_determined ex_spv.
Proof. intros f g H b. unfold ex_spv. rewrite H. reflexivity. Qed.
Lemma ex_times_determined : sp_times_determined ex_times.
Proof. intros f g H. reflexivity. Qed.

(** history 1 = [ex_ops] of SmProofs.v: two abandoned forks, a failing switch, comparisons with either verdict, a
    back-and-forth reorg, ends on a1-a2.  History 2 = a fresh instance: it is shown a1, a2 (and the candidate a5)
    and activates a2. *)
Definition fresh_ops : list op :=
  [ OConnect 3 0 false [[AddRef 4 1]; [AddRef 7 4; AddEnd 3 3 7]];
    OConnect 6 3 false [[AddRef 10 7]];
    OConnect 15 3 false [[AddRef 22 7]];
    OSetState 6 ].
Definition st_of (ops : list op) : cst :=
  match run (c_init 0 0 ex_base) ops with Ok s => s | Abort _ => c_init 0 0 ex_base end.
Definition ex_s1 : cst := st_of ex_ops.
Definition ex_s2 : cst := st_of fresh_ops.

Lemma st_of_reachable : forall ops,
    match run (c_init 0 0 ex_base) ops with Ok _ => True | Abort _ => False end -> reachable ex_base (st_of ops).
Proof.
  intros ops H. exists 0%N, 0, ops. unfold st_of. destruct (run (c_init 0 0 ex_base) ops); [reflexivity|destruct H].
Qed.
Lemma ex_s1_reachable : reachable ex_base ex_s1.
Proof. apply st_of_reachable. vm_compute. exact I. Qed.
Lemma ex_s2_reachable : reachable ex_base ex_s2.
Proof. apply st_of_reachable. vm_compute. exact I. Qed.
Lemma fresh_ops_fresh : fresh_history fresh_ops.
Proof. exists (firstn 3 fresh_ops), 6%N. split; [reflexivity|]. cbn. exact I. Qed.

(** two different histories, the same active chain a0-a1-a2 with a non-empty endorsement list on a1, the side
    conditions of the calculator hold for the library's default parameters *)
Example compose_premises_satisfiable :
  ex_ops <> fresh_ops /\
  reachable ex_base ex_s1 /\ reachable ex_base ex_s2 /\ fresh_history fresh_ops /\
  active_chain ex_s1 = active_chain ex_s2 /\
  map (fun t => fst (fst t)) (active_chain ex_s1) = [6; 3; 0]%N /\
  ends_of (pst _ _ ex_s1) 3 = [(3, 3, 7)]%N /\
  sp_determined ex_spv /\
  VB.Rewards.BoundsDefs.params_okb VB.Rewards.BoundsDefs.default_params = true /\
  VB.Rewards.BoundsDefs.chain_okb (payout_input ex_pinfo ex_spv ex_s1) = true /\
  map (fun b => length (VB.Rewards.CalcDefs.b_ends b)) (payout_input ex_pinfo ex_spv ex_s1) = [0; 1; 0]%nat.
Proof.
  split; [intro H; apply (f_equal (@length _)) in H; discriminate|].
  split; [exact ex_s1_reachable|]. split; [exact ex_s2_reachable|]. split; [exact fresh_ops_fresh|].
  split; [vm_compute; reflexivity|]. split; [vm_compute; reflexivity|]. split; [vm_compute; reflexivity|].
  split; [exact ex_spv_determined|]. split; [exact VB.Rewards.FinalProofs.default_params_ok|]. split; vm_compute; reflexivity.
Qed.

Lemma clean_all_check : forall s c n, wf s -> up (cores s) n c = root _ _ s ->
    forallb (fun k => match bfind (blocks _ _ s) (up (cores s) k c) with Some b => negb (is_failed _ b) | None => true end)
            (seq 0 (S n)) = true ->
    clean_all s c.
Proof.
  intros s c n W Hr H m k b _ F. rewrite forallb_forall in H.
  assert (Hk : exists k', (k' <= n)%nat /\ up (cores s) k' c = up (cores s) k c).
  { destruct (Nat.le_gt_cases k n) as [Hk|Hk]; [exists k; split; [exact Hk|reflexivity]|].
    exists n. split; [apply Nat.le_refl|]. replace k with (n + (k - n))%nat by lia. rewrite up_add, Hr. symmetry. apply up_root. exact W. }
  destruct Hk as (k' & Hk' & E). specialize (H k' ltac:(apply in_seq; lia)). rewrite E, F in H. apply negb_true_iff. exact H.
Qed.

(** the candidate a5 (on a1, fork block a1): no block of its chain carries a failed mark in either state ([clean_all],
    the premise of the fork-case verdict theorem) *)
Example verdict_clean_all_satisfiable : clean_all ex_s1 15 /\ clean_all ex_s2 15.
Proof.
  split.
  - apply (clean_all_check _ _ 3); [exact (proj1 (proj1 (reachable_good _ _ ex_s1_reachable)))|vm_compute; reflexivity..].
  - apply (clean_all_check _ _ 3); [exact (proj1 (proj1 (reachable_good _ _ ex_s2_reachable)))|vm_compute; reflexivity..].
Qed.

(** ... same chain in both states, and its branch applies in both *)
Example verdict_premises_satisfiable :
  chain_of ex_s1 15 = chain_of ex_s2 15 /\
  (exists b, bfind (blocks _ _ ex_s1) 15 = Some b) /\ (exists b, bfind (blocks _ _ ex_s2) 15 = Some b) /\
  In 3%N (map (fun t => fst (fst t)) (chain_of ex_s1 15)) /\
  clean ex_s1 15 (Z.to_nat (hgt (cores ex_s1) 15 - hgt (cores ex_s1) 3)) /\
  clean ex_s2 15 (Z.to_nat (hgt (cores ex_s1) 15 - hgt (cores ex_s1) 3)) /\
  (exists t1, apply pstate ccmd cexec cunexec ex_s1 3 15 = Ok (t1, true)) /\
  (exists t2, apply pstate ccmd cexec cunexec ex_s2 3 15 = Ok (t2, true)).
Proof.
  destruct verdict_clean_all_satisfiable as [C1 C2].
  split; [vm_compute; reflexivity|]. split; [vm_compute; eexists; reflexivity|]. split; [vm_compute; eexists; reflexivity|].
  split; [vm_compute; tauto|]. split; [exact (C1 _)|]. split; [exact (C2 _)|]. split; vm_compute; eexists; reflexivity.
Qed.

(** * the verdict statement WITHOUT the premise "no cached failed mark" is false on the model
    Instance 1 tried to activate a4 (its body carries a contextually invalid payload) and cached BLOCK_FAILED_POP;
    instance 2 was only shown the blocks.  Same active chain, same candidate chain; neither chain crosses a keystone
    boundary (ki = 1000).  Instance 1 answers 1 (candidate invalid), instance 2 answers 0 (the keystone short-cut
    returns before the candidate is validated): finding C01:verdict-0-vs-1-cached-invalid. *)
Definition rf_blocks : list op :=
  [ OConnect 3 0 false [[AddRef 4 1]; [AddRef 7 4; AddEnd 3 3 7]];
    OConnect 6 3 false [[AddRef 10 7]];
    OConnect 9 0 false [[AddRef 4 1]; [AddRef 13 4]];
    OConnect 12 9 false [[AddRef 16 13]; [AddRef 19 16; Poison]] ].
Definition rf_ops1 : list op := rf_blocks ++ [OSetState 6; OSetState 12].
Definition rf_ops2 : list op := rf_blocks ++ [OSetState 6].
Definition rf_cfg : VB.Score.CmpDefs.config := {| VB.Score.CmpDefs.fd := 11; VB.Score.CmpDefs.table := [100; 100; 95] |}.
Definition rf_sc := score_of rf_cfg 1000 false (fun _ => 0) ex_spv ex_times.
Definition rf_cr := crossed_of 1000.

Example verdict_without_clean_premise_refuted :
  reachable ex_base (st_of rf_ops1) /\ reachable ex_base (st_of rf_ops2) /\
  active_chain (st_of rf_ops1) = active_chain (st_of rf_ops2) /\
  chain_of (st_of rf_ops1) 12 = chain_of (st_of rf_ops2) 12 /\
  (exists b, bfind (blocks _ _ (st_of rf_ops1)) 12 = Some b /\ b_fp _ b = true) /\
  (exists b, bfind (blocks _ _ (st_of rf_ops2)) 12 = Some b /\ is_failed _ b = false) /\
  ~ clean (st_of rf_ops1) 12 1 /\
  match c_compare rf_sc rf_cr (st_of rf_ops1) (Some 12%N), c_compare rf_sc rf_cr (st_of rf_ops2) (Some 12%N) with
  | Ok (_, r1), Ok (_, r2) => r1 = 1 /\ r2 = 0
  | _, _ => False
  end.
Proof.
  assert (F1 : exists b, bfind (blocks _ _ (st_of rf_ops1)) 12 = Some b /\ b_fp _ b = true) by (vm_compute; eexists; split; reflexivity).
  split; [apply st_of_reachable; vm_compute; exact I|]. split; [apply st_of_reachable; vm_compute; exact I|].
  split; [vm_compute; reflexivity|]. split; [vm_compute; reflexivity|].
  split; [exact F1|]. split; [vm_compute; eexists; split; reflexivity|].
  split; [|vm_compute; split; reflexivity].
  intros H. destruct F1 as (b & F & Hp). pose proof (H O b Nat.lt_0_1 F) as Hc. unfold is_failed in Hc. rewrite Hp in Hc.
  destruct (b_fb _ b); discriminate.
Qed.

(** * a scored comparison: the candidate a5-a6 (a5 endorsed in SP block 22) against the active chain a1-a2 with ki = 1.
    Instance 1 went through a fork, activated a5 once (a5 is cached fully valid, a6 is not) and came back; instance 2 is
    fresh (nothing of the branch validated).  Same active chain, same candidate chain, no failed mark; the validated part
    of the branch differs (the case handled by the re-validation theorem).  Both answer -100 and activate a6. *)
Definition vx_blocks : list op :=
  [ OConnect 3 0 false [[AddRef 4 1]; [AddRef 7 4; AddEnd 3 3 7]];
    OConnect 6 3 false [[AddRef 10 7]];
    OConnect 15 3 false [[AddRef 22 7; AddEnd 15 15 22]];
    OConnect 18 15 false [[AddRef 25 22]] ].
Definition vx_ops1 : list op :=
  vx_blocks ++ [OConnect 9 0 false [[AddRef 4 1]; [AddRef 13 4]]; OSetState 6; OSetState 9; OSetState 15; OSetState 6].
Definition vx_ops2 : list op := vx_blocks ++ [OSetState 6].
Definition vx_sc := score_of rf_cfg 1 false (fun _ => 0) ex_spv ex_times.
Definition vx_cr := crossed_of 1.

Example verdict_scored_example :
  reachable ex_base (st_of vx_ops1) /\ reachable ex_base (st_of vx_ops2) /\ fresh_history vx_ops2 /\
  active_chain (st_of vx_ops1) = active_chain (st_of vx_ops2) /\
  chain_of (st_of vx_ops1) 18 = chain_of (st_of vx_ops2) 18 /\
  clean_all (st_of vx_ops1) 18 /\ clean_all (st_of vx_ops2) 18 /\
  option_map (b_lvl _) (bfind (blocks _ _ (st_of vx_ops1)) 15) = Some L_FULL /\
  option_map (b_lvl _) (bfind (blocks _ _ (st_of vx_ops2)) 15) = Some L_CONNECTED /\
  match c_compare vx_sc vx_cr (st_of vx_ops1) (Some 18%N), c_compare vx_sc vx_cr (st_of vx_ops2) (Some 18%N) with
  | Ok (t1, r1), Ok (t2, r2) => r1 = -100 /\ r2 = -100 /\ tip _ _ t1 = 18%N /\ tip _ _ t2 = 18%N
  | _, _ => False
  end.
Proof.
  assert (R1 : reachable ex_base (st_of vx_ops1)) by (apply st_of_reachable; vm_compute; exact I).
  assert (R2 : reachable ex_base (st_of vx_ops2)) by (apply st_of_reachable; vm_compute; exact I).
  split; [exact R1|]. split; [exact R2|].
  split; [exists vx_blocks, 6%N; split; [reflexivity|cbn; exact I]|].
  split; [vm_compute; reflexivity|]. split; [vm_compute; reflexivity|].
  split; [|split].
  - apply (clean_all_check _ _ 3); [exact (proj1 (proj1 (reachable_good _ _ R1)))|vm_compute; reflexivity..].
  - apply (clean_all_check _ _ 3); [exact (proj1 (proj1 (reachable_good _ _ R2)))|vm_compute; reflexivity..].
  - split; [vm_compute; reflexivity|]. split; [vm_compute; reflexivity|]. vm_compute. repeat split; reflexivity.
Qed.
