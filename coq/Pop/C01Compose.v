(** C01 by composition, part 1: POP payouts are a function of the active chain.

    The POP state machine model (Pop/Sm*.v) keeps the protecting state P as a multiset of items
    ([IRef x]: one reference to SP block x, [IEnd e c b]: an endorsement of ALT block e, contained in ALT block c,
    with block of proof b).  The payout calculator model (Rewards/CalcDefs.v) consumes, for the blocks
    tip, parent(tip), ..., root of the active chain, the height of the block and its endorsements
    ([getEndorsedBy()]) as (payout info, height of the block of proof on the best SP chain if it is there).

    This file defines the projection of a POP state that the calculator reads ([payout_input]) with two explicit
    adapters for what the POP model does not contain, and proves that it is - per block, up to the order of the
    endorsements - the same in any two reachable states with the same active chain, hence (order independence of the
    calculator, C14) that the payouts are equal.

    Adapters (Section variables, visible in every statement):
      [pinfo e c b]  payout info of the endorsement (e, c, b): a function of the endorsement's identity.  The POP
                     model identifies an endorsement with its (endorsed, containing, block of proof) triple.
      [spv refs b]   [Some h] when SP block b lies on the best SP chain at height h, [None] otherwise, where
                     [refs x] is the reference count of SP block x (x is known iff refs x > 0).  The premise
                     [sp_determined spv] says that the best SP chain is determined by the known SP blocks: this is
                     the carve-out of the property text (no exact ties between SP forks, fewer than three endorsed SP
                     forks); without it first-seen tie-breaking makes the SP best chain history dependent. *)
From Coq Require Import List ZArith NArith Bool Lia Permutation.
Import ListNotations.
From VB Require Import Pop.SmDefs Pop.SmProofs Pop.SmWf Pop.SmCmp.
From VB Require Rewards.BigDecDefs Rewards.CalcDefs Rewards.SpecDefs Rewards.BoundsDefs Rewards.ArithProofs
     Rewards.PayoutProofs Rewards.FinalProofs.
Local Open Scope Z_scope.

Notation RBlock := VB.Rewards.CalcDefs.Block.
Notation REnd := VB.Rewards.CalcDefs.Endorsement.
Notation r_height := VB.Rewards.CalcDefs.b_height.
Notation r_ends := VB.Rewards.CalcDefs.b_ends.
Notation get_pop_payout256 := (VB.Rewards.CalcDefs.get_pop_payout VB.Rewards.BigDecDefs.wrap256).
Notation params_okb := VB.Rewards.BoundsDefs.params_okb.
Notation block_okb := VB.Rewards.BoundsDefs.block_okb.
Notation chain_okb := VB.Rewards.BoundsDefs.chain_okb.

(** * the active chain with identities: (id, height, payloads) of tip, parent(tip), ..., root *)
Definition active_chain (s : cst) : list (N * Z * list (list ccmd)) :=
  map (fun j => (j, hgt (cores s) j, gs_of s j)) (chain s).

Lemma active_chain_gs : forall s1 s2, active_chain s1 = active_chain s2 -> chain_gs s1 = chain_gs s2.
Proof.
  intros s1 s2 H. apply (f_equal (map snd)) in H. unfold active_chain in H. rewrite !map_map in H. exact H.
Qed.

Lemma active_chain_ids : forall s1 s2, active_chain s1 = active_chain s2 -> chain s1 = chain s2.
Proof.
  intros s1 s2 H. apply (f_equal (map (fun t => fst (fst t)))) in H. unfold active_chain in H.
  rewrite !map_map in H. cbn [fst] in H. rewrite !map_id in H. exact H.
Qed.

Lemma tip_agree : forall s1 s2, active_chain s1 = active_chain s2 -> tip _ _ s1 = tip _ _ s2.
Proof.
  intros s1 s2 H. apply active_chain_ids in H. unfold chain in H.
  do 2 destruct (Z.to_nat _) in H; cbn [anc_list] in H; congruence.
Qed.

(** the endorsements of ALT block j ([getEndorsedBy()] of j) *)
Definition ends_of (p : pstate) (j : N) : list (N * N * N) :=
  flat_map (fun it => match it with IEnd e c b => if N.eqb e j then [(e, c, b)] else [] | IRef _ => [] end) p.
Definition refs (p : pstate) : N -> nat := fun x => count_ref x p.

Definition sp_determined (spv : (N -> nat) -> N -> option Z) : Prop :=
  forall f g : N -> nat, (forall x, f x = g x) -> forall b, spv f b = spv g b.

Definition block_equiv (b b' : RBlock) : Prop :=
  r_height b = r_height b' /\ Permutation (r_ends b) (r_ends b').

Section Payout.
  Variable pinfo : N -> N -> N -> Z.
  Variable spv : (N -> nat) -> N -> option Z.

  Definition to_endorsement (p : pstate) (t : N * N * N) : REnd :=
    let '(e, c, b) := t in
    {| VB.Rewards.CalcDefs.e_pid := pinfo e c b; VB.Rewards.CalcDefs.e_bop := spv (refs p) b |}.

  (** one block of the calculator's input: height and endorsements of block j at height h *)
  Definition payout_block (p : pstate) (jh : N * Z) : RBlock :=
    {| VB.Rewards.CalcDefs.b_height := snd jh;
       VB.Rewards.CalcDefs.b_ends := map (to_endorsement p) (ends_of p (fst jh)) |}.

  (** the calculator's input for the active chain of s: tip first *)
  Definition payout_input (s : cst) : list RBlock :=
    map (fun t => payout_block (pst _ _ s) (fst t)) (active_chain s).

  (** getPopPayout for the block k positions below the tip of the active chain (k = 0: the tip) *)
  Definition payouts (params : VB.Rewards.CalcDefs.Params) (s : cst) (k : nat) :=
    get_pop_payout256 params (skipn k (payout_input s)).

  Lemma ends_of_perm : forall p q j, Permutation p q -> Permutation (ends_of p j) (ends_of q j).
  Proof. intros p q j H. unfold ends_of. apply flat_map_perm. exact H. Qed.

  Lemma to_endorsement_ext : forall p q, sp_determined spv -> (forall x, refs p x = refs q x) ->
      forall t, to_endorsement p t = to_endorsement q t.
  Proof. intros p q SD H [[e c] b]. unfold to_endorsement. rewrite (SD _ _ H b). reflexivity. Qed.

  Lemma payout_block_equiv : forall p q jh, sp_determined spv -> Permutation p q ->
      block_equiv (payout_block p jh) (payout_block q jh).
  Proof.
    intros p q jh SD H. split; [reflexivity|]. cbn.
    rewrite (map_ext _ _ (to_endorsement_ext p q SD (fun x => count_ref_perm x _ _ H))).
    apply Permutation_map. apply ends_of_perm. exact H.
  Qed.

  (** the calculator's input is, block by block, the same multiset of endorsements at the same height *)
  Theorem payout_input_history_independent : forall base s1 s2,
      sp_determined spv ->
      reachable base s1 -> reachable base s2 -> active_chain s1 = active_chain s2 ->
      Forall2 block_equiv (payout_input s1) (payout_input s2).
  Proof.
    intros base s1 s2 SD R1 R2 HA.
    destruct (history_independence base s1 s2 R1 R2 (active_chain_gs _ _ HA)) as [HP _].
    unfold payout_input. rewrite HA. clear HA. generalize (active_chain s2).
    induction l as [|t r IH]; cbn; [constructor|]. constructor; [|exact IH].
    apply payout_block_equiv; assumption.
  Qed.
End Payout.

Lemma Forall2_nth_error : forall (A : Type) (R : A -> A -> Prop) l l' n, Forall2 R l l' ->
    match nth_error l n, nth_error l' n with
    | Some a, Some b => R a b
    | None, None => True
    | _, _ => False
    end.
Proof.
  intros A R l l' n H. revert n. induction H; intros [|n]; cbn; auto. apply IHForall2.
Qed.
Lemma Forall2_skipn : forall (A : Type) (R : A -> A -> Prop) l l' n, Forall2 R l l' -> Forall2 R (skipn n l) (skipn n l').
Proof. intros A R l l' n H. revert n. induction H; intros [|n]; cbn; auto. Qed.
Lemma Forall2_firstn : forall (A : Type) (R : A -> A -> Prop) l l' n, Forall2 R l l' -> Forall2 R (firstn n l) (firstn n l').
Proof. intros A R l l' n H. revert n. induction H; intros [|n]; cbn; auto. Qed.
Lemma Forall2_map_eq : forall (A B : Type) (R : A -> A -> Prop) (f : A -> B) l l',
    (forall a b, R a b -> f a = f b) -> Forall2 R l l' -> map f l = map f l'.
Proof. intros A B R f l l' Hf H. induction H; cbn; [reflexivity|]. rewrite (Hf _ _ H), IHForall2. reflexivity. Qed.

Lemma forallb_perm : forall (A : Type) (f : A -> bool) l l', Permutation l l' -> forallb f l = true -> forallb f l' = true.
Proof.
  intros A f l l' H E. rewrite forallb_forall in *. intros x Hx. apply E. eapply Permutation_in; [symmetry; exact H|exact Hx].
Qed.

Lemma block_okb_equiv : forall b b', block_equiv b b' -> block_okb b = true -> block_okb b' = true.
Proof.
  intros b b' [Hh Hp] H. unfold VB.Rewards.BoundsDefs.block_okb, VB.Rewards.BoundsDefs.ends_okb in *.
  rewrite <- Hh, <- (Permutation_length Hp).
  apply andb_true_iff in H. destruct H as [Hb H]. apply andb_true_iff in H. destruct H as [Hl He].
  rewrite Hb, Hl. exact (forallb_perm _ _ _ _ Hp He).
Qed.
Lemma chain_okb_equiv : forall c c', Forall2 block_equiv c c' -> chain_okb c = true -> chain_okb c' = true.
Proof.
  intros c c' H. unfold VB.Rewards.BoundsDefs.chain_okb. induction H; cbn; [auto|].
  rewrite !andb_true_iff. intros [A B]. split; [eapply block_okb_equiv; eassumption|apply IHForall2; exact B].
Qed.
Lemma chain_okb_skipn : forall c n, chain_okb c = true -> chain_okb (skipn n c) = true.
Proof.
  unfold VB.Rewards.BoundsDefs.chain_okb. induction c as [|b r IH]; intros [|n] H; cbn in *; auto.
  apply andb_true_iff in H. apply IH. exact (proj2 H).
Qed.
Lemma chain_okb_nth : forall c n b, chain_okb c = true -> nth_error c n = Some b -> block_okb b = true.
Proof.
  unfold VB.Rewards.BoundsDefs.chain_okb. intros c n b H E. rewrite forallb_forall in H. apply H. eapply nth_error_In. exact E.
Qed.

Lemma spec_difficulty_equiv : forall p prevs prevs', Forall2 block_equiv prevs prevs' ->
    VB.Rewards.SpecDefs.spec_difficulty p prevs = VB.Rewards.SpecDefs.spec_difficulty p prevs'.
Proof.
  intros p prevs prevs' H. unfold VB.Rewards.SpecDefs.spec_difficulty. do 3 f_equal.
  apply (Forall2_map_eq _ _ block_equiv); [|apply Forall2_firstn; exact H].
  intros a b [_ Hp]. apply VB.Rewards.FinalProofs.spec_score_perm. exact Hp.
Qed.

Lemma calc_payouts_equiv : forall p e e' prevs prevs',
    params_okb p = true -> block_okb e = true -> chain_okb prevs = true ->
    block_equiv e e' -> Forall2 block_equiv prevs prevs' ->
    VB.Rewards.CalcDefs.calc_payouts VB.Rewards.BigDecDefs.wrap256 p e prevs =
    VB.Rewards.CalcDefs.calc_payouts VB.Rewards.BigDecDefs.wrap256 p e' prevs'.
Proof.
  intros p e e' prevs prevs' Hp He Hc Ee Ep.
  pose proof (block_okb_equiv _ _ Ee He) as He'. pose proof (chain_okb_equiv _ _ Ep Hc) as Hc'.
  destruct Ee as [Hh Hperm].
  rewrite (VB.Rewards.FinalProofs.payout_order_independent p e e' prevs Hp He He' Hc Hh Hperm).
  pose proof (VB.Rewards.ArithProofs.params_okb_ok p Hp) as Hpp.
  rewrite (VB.Rewards.PayoutProofs.calc_payouts_spec _ VB.Rewards.PayoutProofs.wrap256_small p Hpp e' prevs
             (VB.Rewards.PayoutProofs.block_okb_ok _ He') (VB.Rewards.PayoutProofs.chain_okb_ok _ Hc)).
  rewrite (VB.Rewards.PayoutProofs.calc_payouts_spec _ VB.Rewards.PayoutProofs.wrap256_small p Hpp e' prevs'
             (VB.Rewards.PayoutProofs.block_okb_ok _ He') (VB.Rewards.PayoutProofs.chain_okb_ok _ Hc')).
  unfold VB.Rewards.SpecDefs.spec_payout_map. rewrite (spec_difficulty_equiv p prevs prevs' Ep). reflexivity.
Qed.

(** getPopPayout on two chains that agree block by block up to the order of the endorsements *)
Theorem get_pop_payout_equiv : forall p c c',
    params_okb p = true -> chain_okb c = true -> Forall2 block_equiv c c' ->
    get_pop_payout256 p c = get_pop_payout256 p c'.
Proof.
  intros p c c' Hp Hc H. unfold VB.Rewards.CalcDefs.get_pop_payout.
  destruct H as [|tip tip' rest rest' Ht Hr]; [reflexivity|].
  pose proof (Forall2_cons _ _ Ht Hr) as Hall.
  destruct Ht as [Hth Htp]. rewrite <- Hth.
  destruct ((VB.Rewards.CalcDefs.p_delay p - 1 <? 0) || (r_height tip <? VB.Rewards.CalcDefs.p_delay p - 1)); [reflexivity|].
  pose proof (Forall2_nth_error _ _ _ _ (Z.to_nat (VB.Rewards.CalcDefs.p_delay p - 1)) Hall) as Hn.
  destruct (nth_error (tip :: rest) _) as [e|] eqn:E1; destruct (nth_error (tip' :: rest') _) as [e'|] eqn:E2;
    try contradiction; [|reflexivity].
  rewrite <- (proj1 Hn).
  destruct (_ <? _); [reflexivity|].
  apply calc_payouts_equiv; [exact Hp|eapply chain_okb_nth; eassumption|apply chain_okb_skipn; exact Hc|exact Hn|].
  apply Forall2_skipn. exact Hall.
Qed.

Theorem payouts_history_independent :
  forall (pinfo : N -> N -> N -> Z) (spv : (N -> nat) -> N -> option Z) params base s1 s2,
    sp_determined spv ->
    reachable base s1 -> reachable base s2 -> active_chain s1 = active_chain s2 ->
    params_okb params = true -> chain_okb (payout_input pinfo spv s1) = true ->
    Forall2 block_equiv (payout_input pinfo spv s1) (payout_input pinfo spv s2) /\
    forall k, payouts pinfo spv params s1 k = payouts pinfo spv params s2 k.
Proof.
  intros pinfo spv params base s1 s2 SD R1 R2 HA Hp Hc.
  pose proof (payout_input_history_independent pinfo spv base s1 s2 SD R1 R2 HA) as HE.
  split; [exact HE|]. intros k. unfold payouts.
  apply get_pop_payout_equiv; [exact Hp|apply chain_okb_skipn; exact Hc|apply Forall2_skipn; exact HE].
Qed.

(** the fresh instance: a history that only connects blocks and then activates one tip *)
Fixpoint only_connects (ops : list op) : Prop :=
  match ops with
  | [] => True
  | OConnect _ _ _ _ :: r => only_connects r
  | _ => False
  end.
Definition fresh_history (ops : list op) : Prop :=
  exists cs to, ops = cs ++ [OSetState to] /\ only_connects cs.

Corollary payouts_fresh_instance :
  forall (pinfo : N -> N -> N -> Z) (spv : (N -> nat) -> N -> option Z) params base s1 r h ops s2,
    sp_determined spv ->
    reachable base s1 ->
    fresh_history ops -> run (c_init r h base) ops = Ok s2 ->
    active_chain s1 = active_chain s2 ->
    params_okb params = true -> chain_okb (payout_input pinfo spv s1) = true ->
    forall k, payouts pinfo spv params s1 k = payouts pinfo spv params s2 k.
Proof.
  intros pinfo spv params base s1 r h ops s2 SD R1 _ R2 HA Hp Hc.
  apply (payouts_history_independent pinfo spv params base s1 s2 SD R1 (ex_intro _ r (ex_intro _ h (ex_intro _ ops R2))) HA Hp Hc).
Qed.
