(** POP state machine — two applied chains. In every state that comparePopScore and setState pass through ([twin])
    the active chain is applied from some block down and the other branch from some block down to the fork.
    Neither hits an assert. *)
From Coq Require Import List ZArith NArith Bool Lia Permutation.
Import ListNotations.
From VB Require Import Pop.SmDefs Pop.SmProofs Pop.SmWf Pop.SmTruth Pop.SmCmp Pop.SmAll Pop.SmCoh Pop.SmFull Pop.SmMarks Pop.SmTree Pop.SmReact Pop.SmAbort.
Local Open Scope Z_scope.

(** [c] is the candidate of comparePopScore or the target of setState; [fork], [ka] below the tip and [kb] below [c],
    is what getForkBlock returns (SmCmpTotal.lca_tip). In lemma names A is the active chain's side, B the other. *)
Section Twin.
  Variable base : pstate.
  Variable s0 : cst.
  Hypothesis G0 : good base s0.
  Variables (c fork : N) (ka kb : nat).
  Notation l0 := (cores s0).
  Notation t := (tip pstate ccmd s0).
  Notation r0 := (root pstate ccmd s0).
  Variable ec : ent.
  Hypothesis Hc : cfind l0 c = Some ec.
  Hypothesis Hf1 : fork = up l0 ka t.
  Hypothesis Hf2 : fork = up l0 kb c.
  Hypothesis Ka : Z.of_nat ka <= dep s0 t.
  Hypothesis Kb : Z.of_nat kb <= dep s0 c.
  Hypothesis Hmax : forall g i j, g = up l0 i t -> g = up l0 j c -> Z.of_nat i <= dep s0 t -> Z.of_nat j <= dep s0 c ->
                                  hgt l0 g <= hgt l0 fork.

  Let W0 : wf s0 := proj1 (proj1 G0).
  Let K0 : scoh s0 := proj1 (proj2 (proj2 G0)).

  Lemma t_found : exists et, cfind l0 t = Some et.
  Proof. pose proof (proj1 G0) as Q. destruct Q as (_ & (e & He & _) & _). exists e. exact He. Qed.

  Lemma hgt_t : forall i, Z.of_nat i <= dep s0 t -> hgt l0 (up l0 i t) = hgt l0 t - Z.of_nat i.
  Proof. intros i Hi. destruct t_found as (et & Het). exact (proj1 (up_hgt_dep s0 t et i W0 K0 Het Hi)). Qed.
  Lemma hgt_c : forall i, Z.of_nat i <= dep s0 c -> hgt l0 (up l0 i c) = hgt l0 c - Z.of_nat i.
  Proof. intros i Hi. exact (proj1 (up_hgt_dep s0 c ec i W0 K0 Hc Hi)). Qed.
  Lemma hgt_fork_t : hgt l0 fork = hgt l0 t - Z.of_nat ka.
  Proof. rewrite Hf1. apply hgt_t. exact Ka. Qed.
  Lemma hgt_fork_c : hgt l0 fork = hgt l0 c - Z.of_nat kb.
  Proof. rewrite Hf2. apply hgt_c. exact Kb. Qed.

  Lemma c_not_root : forall i, (i < kb)%nat -> up l0 i c <> r0.
  Proof. intros i Hi. destruct (dep_facts s0 c ec W0 K0 Hc) as (_ & _ & Hmin). apply Hmin. lia. Qed.
  Lemma t_not_root : forall i, (i < ka)%nat -> up l0 i t <> r0.
  Proof. intros i Hi. destruct t_found as (et & Het). destruct (dep_facts s0 t et W0 K0 Het) as (_ & _ & Hmin). apply Hmin. lia. Qed.

  Lemma up_t_cases : forall k, (Z.of_nat k <= dep s0 t /\ hgt l0 (up l0 k t) = hgt l0 t - Z.of_nat k) \/ up l0 k t = r0.
  Proof.
    intros k. destruct (Z_le_gt_dec (Z.of_nat k) (dep s0 t)) as [l|g]; [left; split; [exact l|apply hgt_t; exact l]|right].
    destruct t_found as (et & Het). eapply up_beyond; try eassumption. lia.
  Qed.

  (* else a common ancestor above the lowest one *)
  Lemma c_vs_t : forall i k, (i < kb)%nat -> up l0 i c <> up l0 k t.
  Proof.
    intros i k Hi Heq. destruct (up_t_cases k) as [[Hk _]|Hr].
    - pose proof (Hmax (up l0 k t) k i eq_refl (eq_sym Heq) Hk ltac:(lia)) as Hle.
      rewrite <- Heq, hgt_c, hgt_fork_c in Hle by lia. lia.
    - rewrite Hr in Heq. exact (c_not_root i Hi Heq).
  Qed.

  Lemma c_inj : forall i j, (i <= kb)%nat -> (j <= kb)%nat -> up l0 i c = up l0 j c -> i = j.
  Proof. intros i j Hi Hj H. pose proof (hgt_c i ltac:(lia)) as E1. pose proof (hgt_c j ltac:(lia)) as E2. rewrite H in E1. lia. Qed.

  Lemma t_above : forall i m, (i < ka)%nat -> (i < m)%nat -> up l0 m t <> up l0 i t.
  Proof.
    intros i m Hi Hm Heq. destruct (up_t_cases m) as [[_ Hh]|Hr].
    - rewrite Heq, hgt_t in Hh by lia. lia.
    - rewrite Heq in Hr. exact (t_not_root i Hi Hr).
  Qed.

  Lemma up_fork : forall k, up l0 (kb + k) c = up l0 (ka + k) t.
  Proof. intros k. rewrite !up_add, <- Hf1, <- Hf2. reflexivity. Qed.

  Lemma twin_find : forall s x e, frame s0 s -> cfind l0 x = Some e ->
      exists b, bfind (blocks _ _ s) x = Some b /\ b_par _ b = parent l0 x /\ b_h _ b = hgt l0 x.
  Proof.
    intros s x e F He. pose proof (fr_static _ _ F x) as Sx. unfold sfind in Sx. rewrite He in Sx.
    destruct (cfind (cores s) x) as [e'|] eqn:He'; [|discriminate]. cbn in Sx. injection Sx as Hp Hh.
    destruct (core_find _ _ _ He') as (b & Fb & Cb). exists b. unfold parent, hgt. rewrite He, <- Hp, <- Hh, <- Cb.
    split; [exact Fb|split; reflexivity].
  Qed.
  Lemma find_c : forall s i, frame s0 s -> (i <= kb)%nat ->
      exists b, bfind (blocks _ _ s) (up l0 i c) = Some b /\ b_par _ b = up l0 (S i) c /\ b_h _ b = hgt l0 c - Z.of_nat i.
  Proof.
    intros s i F Hi. destruct (up_hgt_dep s0 c ec i W0 K0 Hc ltac:(lia)) as (Hh & e & He).
    rewrite up_succ_r, <- Hh. exact (twin_find s _ e F He).
  Qed.
  Lemma find_t : forall s i, frame s0 s -> (i <= ka)%nat ->
      exists b, bfind (blocks _ _ s) (up l0 i t) = Some b /\ b_par _ b = up l0 (S i) t /\ b_h _ b = hgt l0 t - Z.of_nat i.
  Proof.
    intros s i F Hi. destruct t_found as (et & Het). destruct (up_hgt_dep s0 t et i W0 K0 Het ltac:(lia)) as (Hh & e & He).
    rewrite up_succ_r, <- Hh. exact (twin_find s _ e F He).
  Qed.

  Lemma twin_fuel : forall s, frame s0 s -> (ka <= fuel_of pstate ccmd s)%nat /\ (kb <= fuel_of pstate ccmd s)%nat.
  Proof.
    intros s F. unfold fuel_of. rewrite (frame_len _ _ W0 F). destruct t_found as (et & Het).
    pose proof (dep_bound s0 t et W0 K0 Het). pose proof (dep_bound s0 c ec W0 K0 Hc). lia.
  Qed.

  Definition twin (s : cst) (ia ib : nat) : Prop :=
    frame s0 s /\ ginv base s /\ (ia <= ka)%nat /\ (ib <= kb)%nat /\
    (forall k, is_act (cores s) (up l0 (ia + k) t)) /\
    (forall i, (ib <= i < kb)%nat -> is_act (cores s) (up l0 i c)) /\
    Z.of_N (napp _ _ s) = (hgt l0 t - Z.of_nat ia - hgt l0 r0 + 1) + Z.of_nat (kb - ib).

  Lemma twin_actA : forall s ia ib i, twin s ia ib -> (ia <= i)%nat -> is_act (cores s) (up l0 i t).
  Proof. intros s ia ib i (_ & _ & _ & _ & HA & _) Hi. replace i with (ia + (i - ia))%nat by lia. apply HA. Qed.

  Lemma twin_actB : forall s ia ib i, twin s ia ib -> (ib <= i)%nat -> is_act (cores s) (up l0 i c).
  Proof.
    intros s ia ib i T Hi. pose proof T as (_ & _ & Hia & _ & _ & HB & _).
    destruct (Nat.lt_ge_cases i kb) as [Hlt|Hge]; [apply HB; lia|].
    replace i with (kb + (i - kb))%nat by lia. rewrite up_fork. apply (twin_actA s ia ib _ T). lia.
  Qed.

  Lemma twin_meet : forall s ia ib j m, twin s ia ib -> up l0 j c = up l0 m t -> is_act (cores s) (up l0 j c).
  Proof.
    intros s ia ib j m T Heq. apply (twin_actB s ia ib j T). pose proof T as (_ & _ & _ & Hib & _).
    destruct (Nat.lt_ge_cases j kb) as [Hlt|Hge]; [destruct (c_vs_t j m Hlt Heq)|lia].
  Qed.

  Lemma twin_exact : forall s ia ib, twin s ia ib ->
      forall j, is_act (cores s) j -> (exists k, j = up l0 (ia + k) t) \/ (exists i, (ib <= i < kb)%nat /\ j = up l0 i c).
  Proof.
    intros s ia ib T j Hj. pose proof T as (F & ((W & _) & _ & _) & Hia & Hib & _ & HB & Hn).
    (* the blocks listed in [twin], without repetition: [napp] many *)
    set (LA := map (fun i => up l0 i t) (seq ia (S (Z.to_nat (dep s0 t) - ia)))).
    set (LB := map (fun i => up l0 i c) (seq ib (kb - ib))).
    assert (HinA : forall x, In x LA -> exists i, (ia <= i)%nat /\ Z.of_nat i <= dep s0 t /\ x = up l0 i t).
    { intros x Hx. apply in_map_iff in Hx. destruct Hx as (i & <- & Hi). apply in_seq in Hi. exists i. split; [lia|split; [lia|reflexivity]]. }
    assert (HinB : forall x, In x LB -> exists i, (ib <= i < kb)%nat /\ x = up l0 i c).
    { intros x Hx. apply in_map_iff in Hx. destruct Hx as (i & <- & Hi). apply in_seq in Hi. exists i. split; [lia|reflexivity]. }
    assert (Hin : In j (LA ++ LB)).
    { apply (act_exact s _ W); [apply NoDup_append| | |exact Hj].
      - apply NoDup_map_inj_in; [|apply seq_NoDup]. intros x y Hx Hy Hxy. apply in_seq in Hx. apply in_seq in Hy.
        pose proof (hgt_t x ltac:(lia)) as E1. pose proof (hgt_t y ltac:(lia)) as E2. rewrite Hxy in E1. lia.
      - apply NoDup_map_inj_in; [|apply seq_NoDup]. intros x y Hx Hy Hxy. apply in_seq in Hx. apply in_seq in Hy. apply c_inj in Hxy; lia.
      - intros x Hx1 Hx2. destruct (HinA x Hx1) as (k & _ & _ & Ex). destruct (HinB x Hx2) as (i & Hi & Ei).
        apply (c_vs_t i k); [lia|congruence].
      - intros x Hx. apply in_app_or in Hx. destruct Hx as [Hx|Hx].
        + destruct (HinA x Hx) as (i & Hi & _ & ->). exact (twin_actA s ia ib i T Hi).
        + destruct (HinB x Hx) as (i & Hi & ->). apply HB. exact Hi.
      - unfold LA, LB. rewrite app_length, !map_length, !seq_length. unfold dep in *. lia. }
    apply in_app_or in Hin. destruct Hin as [Hin|Hin]; [left|right; exact (HinB j Hin)].
    destruct (HinA j Hin) as (i & Hi & _ & ->). exists (i - ia)%nat. f_equal. lia.
  Qed.

  Lemma twin_no_child : forall s ia ib x, twin s ia ib ->
      (forall k, up l0 (S (ia + k)) t <> x) -> (forall i, (ib <= i < kb)%nat -> up l0 (S i) c <> x) ->
      child_active ccmd (blocks _ _ s) x = false.
  Proof.
    intros s ia ib x T HAp HBp. pose proof T as (F & G & _). pose proof G as ((W & _) & _ & _).
    apply not_true_iff_false. intro H. unfold child_active in H. apply existsb_exists in H.
    destruct H as (cb & Hin & Hcc). apply andb_prop in Hcc. destruct Hcc as [Hcc Ac]. apply andb_prop in Hcc. destruct Hcc as [Pc _].
    apply N.eqb_eq in Pc.
    pose proof (find_cfind _ _ _ (find_in_blocks _ _ (wf_ids _ W) Hin)) as Cc.
    assert (Hpar : parent l0 (b_id ccmd cb) = x).
    { rewrite <- (parent_static _ _ _ (fr_static _ _ F)). unfold parent. rewrite Cc. exact Pc. }
    destruct (twin_exact s ia ib T (b_id ccmd cb)) as [(k & Hk)|(i & Hi & Hk)].
    - exists (core cb). split; [exact Cc|exact Ac].
    - rewrite Hk, <- up_succ_r in Hpar. exact (HAp k Hpar).
    - rewrite Hk, <- up_succ_r in Hpar. exact (HBp i Hi Hpar).
  Qed.

  Lemma twin_topB : forall s ia ib ib', twin s ia ib' -> (ib <= ib')%nat -> (ib < kb)%nat ->
      child_active ccmd (blocks _ _ s) (up l0 ib c) = false.
  Proof.
    intros s ia ib ib' T Hle Hlt. apply (twin_no_child s ia ib' _ T).
    - intros k Hp. exact (c_vs_t ib _ Hlt (eq_sym Hp)).
    - intros i Hi Hp. apply c_inj in Hp; lia.
  Qed.

  Lemma twin_off : forall s ia ib x s' ia' ib', twin s ia ib -> c_unapplyBlock s x = Ok s' ->
      (ia <= ia' <= ka)%nat -> (ib <= ib' <= kb)%nat -> (ia' + ib' = S (ia + ib))%nat ->
      (forall k, up l0 (ia' + k) t <> x) -> (forall i, (ib' <= i < kb)%nat -> up l0 i c <> x) -> twin s' ia' ib'.
  Proof.
    intros s ia ib x s' ia' ib' T E Hia' Hib' Hsum HxA HxB. pose proof T as (F & G & Hia & Hib & _ & HB & Hn). pose proof G as ((W & _) & _ & _).
    destruct (unapply_core _ _ _ W E) as (_ & C1 & N1 & _).
    split; [exact (frame_trans _ _ _ F (unapplyBlock_frame _ _ _ W E))|]. split; [exact (ginv_unapply _ _ _ _ G E)|].
    split; [lia|]. split; [lia|]. rewrite C1. split; [|split].
    - intros k. apply is_act_cupd_other; [apply (twin_actA s ia ib _ T); lia|right; apply HxA].
    - intros i Hi. apply is_act_cupd_other; [apply HB; lia|right; apply HxB; exact Hi].
    - lia.
  Qed.

  Lemma twin_unapplyB : forall s ia ib, twin s ia ib -> (ib < kb)%nat ->
      exists s', c_unapplyBlock s (up l0 ib c) = Ok s' /\ twin s' ia (S ib).
  Proof.
    intros s ia ib T Hlt. pose proof T as (F & G & Hia & _). pose proof G as ((W & _) & _ & _).
    destruct (unapplyBlock_runs s (up l0 ib c) W) as (s' & E).
    - exact (twin_actB s ia ib ib T (Nat.le_refl _)).
    - rewrite (fr_root _ _ F). apply c_not_root. exact Hlt.
    - exact (twin_topB s ia ib ib T (Nat.le_refl _) Hlt).
    - exists s'. split; [exact E|]. apply (twin_off s ia ib _ s' ia (S ib) T E); try lia.
      + intros k Heq. exact (c_vs_t ib _ Hlt (eq_sym Heq)).
      + intros i Hi Heq. apply c_inj in Heq; lia.
  Qed.

  Lemma twin_unapplyA : forall s ia ib, twin s ia ib -> (ia < ka)%nat ->
      exists s', c_unapplyBlock s (up l0 ia t) = Ok s' /\ twin s' (S ia) ib.
  Proof.
    intros s ia ib T Hlt. pose proof T as (F & G & _ & Hib & _). pose proof G as ((W & _) & _ & _).
    destruct (unapplyBlock_runs s (up l0 ia t) W) as (s' & E).
    - exact (twin_actA s ia ib ia T (Nat.le_refl _)).
    - rewrite (fr_root _ _ F). apply t_not_root. exact Hlt.
    - apply (twin_no_child s ia ib _ T).
      + intros k. apply t_above; lia.
      + (* the parent of a candidate block is the fork, below [up ia t], or again a candidate block *)
        intros i Hi Hp. destruct (Nat.eq_dec (S i) kb) as [e|n].
        * rewrite e, <- Hf2, Hf1 in Hp. exact (t_above ia ka Hlt Hlt Hp).
        * exact (c_vs_t (S i) ia ltac:(lia) Hp).
    - exists s'. split; [exact E|]. apply (twin_off s ia ib _ s' (S ia) ib T E); try lia.
      + intros k. apply t_above; lia.
      + intros i Hi. apply c_vs_t. lia.
  Qed.

  Lemma twin_off_active_chain : forall s i, frame s0 s -> (i < kb)%nat -> on_active_chain pstate ccmd s (up l0 i c) = false.
  Proof.
    intros s i F Hi. rewrite (frame_on_active_chain _ _ _ W0 F). unfold on_active_chain.
    destruct (bfind (blocks pstate ccmd s0) (up l0 i c)) as [bi|]; [|reflexivity].
    destruct (anc_at ccmd _ _ t (b_h ccmd bi)) as [a|] eqn:Ea; [|reflexivity].
    destruct (anc_at_sound s0 W0 _ _ _ _ Ea) as (k & -> & _). apply N.eqb_neq. intro Heq. exact (c_vs_t i k Hi (eq_sym Heq)).
  Qed.

  Lemma twin_applyB_runs : forall s ia ib b,
      twin s ia (S ib) -> bfind (blocks _ _ s) (up l0 ib c) = Some b -> is_failed _ b = false ->
      exists s' ok, c_applyBlock s (up l0 ib c) = Ok (s', ok).
  Proof.
    intros s ia ib b T Fb Hnf. pose proof T as (F & ((W & K) & C & U) & _ & Hib & _).
    assert (Hlt : (ib < kb)%nat) by lia.
    assert (Hxr : up l0 ib c <> root _ _ s) by (rewrite (fr_root _ _ F); apply c_not_root; exact Hlt).
    destruct (find_c s ib F ltac:(lia)) as (b1 & Fb1 & Hpar & _). rewrite Fb in Fb1. injection Fb1 as <-.
    pose proof (twin_actB s ia (S ib) (S ib) T (Nat.le_refl _)) as Hpact.
    destruct (is_act_find _ _ Hpact) as (pb & Fpb & Apb). rewrite <- Hpar in Fpb.
    apply (applyBlock_runs s _ b pb K Fb Hxr Fpb Apb); [| |exact Hnf| |].
    - destruct (b_act ccmd b) eqn:Ab; [exfalso|reflexivity].
      destruct (twin_exact s ia (S ib) T (up l0 ib c)) as [(k & Hk)|(i & Hi & Hk)].
      + exists (core b). split; [apply find_cfind; exact Fb|exact Ab].
      + exact (c_vs_t ib (ia + k) Hlt Hk).
      + apply c_inj in Hk; lia.
    - exact (twin_topB s ia ib (S ib) T (Nat.le_succ_diag_r _) Hlt).
    - exact (twin_off_active_chain s ib F Hlt).
    - (* fully valid: its groups run on the effects of its own chain, and the rest of P does no harm *)
      intros El. apply (groups_succeed_sub base s _ _ b W K C U Hpact Fb Hpar Hxr). rewrite El. apply N.le_refl.
  Qed.

  Lemma twin_applied : forall s ia ib s', twin s ia (S ib) -> c_applyBlock s (up l0 ib c) = Ok (s', true) -> twin s' ia ib.
  Proof.
    intros s ia ib s' (F & G & Hia & Hib & HA & HB & Hn) E. pose proof G as ((W & _) & _ & _).
    destruct (apply_ok_core _ _ _ W E) as (_ & C1 & N1 & _ & _ & (e0 & He0 & _)).
    split; [exact (frame_trans _ _ _ F (applyBlock_frame _ _ _ _ W E))|]. split; [exact (ginv_apply _ _ _ _ _ G E)|].
    split; [exact Hia|]. split; [lia|]. rewrite C1. split; [|split].
    - intros k. apply is_act_cupd_other; [apply HA|left; reflexivity].
    - intros i Hi. destruct (Nat.eq_dec i ib) as [->|n]; [exact (is_act_cupd_on _ _ _ He0)|].
      apply is_act_cupd_other; [apply HB; lia|left; reflexivity].
    - rewrite N1. lia.
  Qed.

  Lemma twin_refused : forall s ia ib x s', twin s ia ib -> c_applyBlock s x = Ok (s', false) -> twin s' ia ib /\ failed_in s' x.
  Proof.
    intros s ia ib x s' (F & G & Hia & Hib & HA & HB & Hn) E. pose proof G as ((W & _) & _ & _).
    destruct (apply_fail_core _ _ _ E) as (C1 & N1 & _). split; [|exact (applyBlock_refused_failed s x s' W E)].
    split; [exact (frame_trans _ _ _ F (applyBlock_frame _ _ _ _ W E))|]. split; [exact (ginv_apply _ _ _ _ _ G E)|].
    rewrite C1, N1. split; [exact Hia|]. split; [exact Hib|]. split; [exact HA|]. split; [exact HB|exact Hn].
  Qed.

  (* The end of a walk on the candidate part is given as [to = up l0 jb c], so that [fork] (jb = kb) fits as named. *)
  Lemma twin_uw_to : forall jb to, to = up l0 jb c -> forall d s ia ib pred fuel,
      twin s ia ib -> (ib <= jb <= kb)%nat -> (jb - ib = d)%nat -> (d <= fuel)%nat ->
      exists s' j, unapplyWhile pstate ccmd cunexec fuel s (up l0 ib c) to pred = Ok (s', up l0 j c) /\
                   twin s' ia j /\ (ib <= j <= jb)%nat /\ ((forall bb, pred bb = true) -> j = jb).
  Proof.
    intros jb to ->. induction d as [|d IH]; intros s ia ib pred fuel T Hj Hd Hf.
    { assert (ib = jb) by lia. subst ib. exists s, jb. split; [apply uw_here|]. split; [exact T|]. split; [lia|reflexivity]. }
    destruct fuel as [|f]; [lia|]. pose proof T as (F & _).
    destruct (find_c s ib F ltac:(lia)) as (bc & Fc & Pc & Hc'). destruct (find_c s jb F ltac:(lia)) as (bt & Ft & _ & Ht').
    rewrite (uw_step _ _ _ _ _ _ _ Fc Ft) by lia.
    destruct (pred bc) eqn:Hp.
    - destruct (twin_unapplyB s ia ib T ltac:(lia)) as (s1 & E1 & T1). rewrite E1. cbn [bind]. rewrite Pc.
      destruct (IH s1 ia (S ib) pred f T1 ltac:(lia) ltac:(lia) ltac:(lia)) as (s' & j & E' & T' & Hj' & Hall).
      exists s', j. split; [exact E'|]. split; [exact T'|]. split; [lia|exact Hall].
    - exists s, ib. split; [reflexivity|]. split; [exact T|]. split; [lia|]. intros Hall. rewrite Hall in Hp. discriminate.
  Qed.

  Lemma twin_uwB : forall s ia ib pred fuel, twin s ia ib -> (kb - ib <= fuel)%nat ->
      exists s' j, unapplyWhile pstate ccmd cunexec fuel s (up l0 ib c) fork pred = Ok (s', up l0 j c) /\
                   twin s' ia j /\ (ib <= j <= kb)%nat /\ ((forall bb, pred bb = true) -> j = kb).
  Proof.
    intros s ia ib pred fuel T Hf. pose proof T as (_ & _ & _ & Hib & _).
    apply (twin_uw_to kb fork Hf2 (kb - ib) s ia ib pred fuel T); lia.
  Qed.

  Lemma twin_unapplyB_range : forall jb to, to = up l0 jb c -> forall s ia ib, twin s ia ib -> (ib <= jb <= kb)%nat ->
      exists s', unapply pstate ccmd cunexec s (up l0 ib c) to = Ok s' /\ twin s' ia jb.
  Proof.
    intros jb to Hto s ia ib T Hj. pose proof T as (F & _).
    destruct (twin_uw_to jb to Hto (jb - ib) s ia ib (fun _ => true) (fuel_of pstate ccmd s) T Hj eq_refl) as (s' & j & E & T' & _ & Hall).
    { pose proof (twin_fuel s F). lia. }
    rewrite (Hall (fun _ => eq_refl)), <- Hto in E. rewrite (Hall (fun _ => eq_refl)) in T'.
    exists s'. split; [apply unapply_of_uw; exact E|exact T'].
  Qed.

  Lemma twin_unapplyA_range : forall n s ia ib fuel, twin s ia ib -> (ka - ia <= n)%nat -> (n <= fuel)%nat ->
      exists s', unapplyWhile pstate ccmd cunexec fuel s (up l0 ia t) fork (fun _ => true) = Ok (s', fork) /\ twin s' ka ib.
  Proof.
    induction n as [|n IH]; intros s ia ib fuel T Hn Hf; pose proof T as (F & _ & Hia & _).
    all: destruct (Nat.eq_dec ia ka) as [->|Hne]; [exists s; rewrite <- Hf1; split; [apply uw_here|exact T]|].
    { lia. }
    destruct fuel as [|f]; [lia|].
    destruct (find_t s ia F Hia) as (bc & Fc & Pc & Hc'). destruct (find_t s ka F (Nat.le_refl _)) as (bt & Ft & _ & Ht').
    rewrite <- Hf1 in Ft. rewrite (uw_step _ _ _ _ _ _ _ Fc Ft) by lia.
    destruct (twin_unapplyA s ia ib T ltac:(lia)) as (s1 & E1 & T1). rewrite E1. cbn [bind]. rewrite Pc.
    exact (IH s1 (S ia) ib f T1 ltac:(lia) ltac:(lia)).
  Qed.

  Lemma twin_unapplyA_fork : forall s ia ib, twin s ia ib ->
      exists s', unapply pstate ccmd cunexec s (up l0 ia t) fork = Ok s' /\ twin s' ka ib.
  Proof.
    intros s ia ib T. pose proof T as (F & _).
    destruct (twin_unapplyA_range ka s ia ib (fuel_of pstate ccmd s) T ltac:(lia) (proj1 (twin_fuel s F))) as (s' & E & T').
    exists s'. split; [apply unapply_of_uw; exact E|exact T'].
  Qed.

  Lemma twin_rollback : forall s1, twin s1 0 0 ->
      exists j s2 s3, (j <= kb)%nat /\
        unapplyWhile pstate ccmd cunexec (fuel_of pstate ccmd s1) s1 c fork (not_full ccmd) = Ok (s2, up l0 j c) /\
        unapply pstate ccmd cunexec s2 t fork = Ok s3 /\ twin s3 ka j.
  Proof.
    intros s1 T1. pose proof T1 as (F1 & _).
    destruct (twin_uwB s1 O O (not_full ccmd) (fuel_of pstate ccmd s1) T1 ltac:(pose proof (twin_fuel s1 F1); lia)) as (s2 & j & E2 & T2 & Hj & _).
    destruct (twin_unapplyA_fork s2 O j T2) as (s3 & E3 & T3).
    exists j, s2, s3. split; [lia|]. split; [exact E2|]. split; [exact E3|exact T3].
  Qed.

  Definition path_from (ib : nat) : list N := rev (map (fun i => up l0 i c) (seq 0 ib)).
  Lemma path_from_S : forall ib, path_from (S ib) = up l0 ib c :: path_from ib.
  Proof. intros ib. unfold path_from. rewrite seq_S, map_app, rev_app_distr. reflexivity. Qed.

  Lemma twin_apply_path : forall jb from, from = up l0 jb c -> forall ib s ia, (ib <= jb <= kb)%nat -> twin s ia ib ->
      (forall i, (i < ib)%nat -> exists b, bfind (blocks _ _ s) (up l0 i c) = Some b /\ is_failed _ b = false) ->
      exists s' ok, apply_path pstate ccmd cexec cunexec s from (path_from ib) = Ok (s', ok) /\
                    if ok then twin s' ia 0 else twin s' ia jb /\ exists i, (i < ib)%nat /\ failed_in s' (up l0 i c).
  Proof.
    intros jb from Hfrom. induction ib as [|ib IH]; intros s ia Hib T Hnf.
    - exists s, true. split; [reflexivity|exact T].
    - rewrite path_from_S. destruct (Hnf ib ltac:(lia)) as (b & Fb & Hf).
      destruct (twin_applyB_runs s ia ib b T Fb Hf) as (s1 & ok1 & E1).
      cbn [apply_path]. change (applyBlock pstate ccmd cexec cunexec s (up l0 ib c)) with (c_applyBlock s (up l0 ib c)). rewrite E1. cbn [bind].
      destruct ok1.
      + pose proof (twin_applied s ia ib s1 T E1) as Ht1. pose proof Ht1 as (F1 & _).
        destruct (IH s1 ia ltac:(lia) Ht1) as (s' & ok & E' & H').
        { intros i Hi. destruct (Hnf i ltac:(lia)) as (bi & Fbi & Hfi). destruct (find_c s1 i F1 ltac:(lia)) as (bi1 & Fbi1 & _).
          exists bi1. split; [exact Fbi1|]. rewrite (applyBlock_keeps_failed _ _ _ _ _ _ E1 Fbi Fbi1). exact Hfi. }
        exists s', ok. split; [exact E'|]. destruct ok; [exact H'|]. destruct H' as (Tk & i & Hi & Fi).
        split; [exact Tk|]. exists i. split; [lia|exact Fi].
      + destruct (twin_refused s ia (S ib) _ s1 T E1) as (T1 & Fx1). pose proof T1 as (F1 & _).
        destruct (find_c s1 ib F1 ltac:(lia)) as (bx & Fx & Px & _). rewrite Fx, Px.
        destruct (twin_unapplyB_range jb from Hfrom s1 ia (S ib) T1 ltac:(lia)) as (s2 & E2 & T2).
        rewrite E2. cbn [bind]. exists s2, false. split; [reflexivity|]. split; [exact T2|].
        exists ib. split; [lia|]. exact (failed_in_md _ _ _ (md_unapply_range _ _ _ _ E2) Fx1).
  Qed.

  Lemma twin_apply_from : forall jb from, from = up l0 jb c -> forall s ia, (jb <= kb)%nat -> twin s ia jb ->
      exists s' ok, apply pstate ccmd cexec cunexec s from c = Ok (s', ok) /\
                    if ok then twin s' ia 0 else twin s' ia jb /\ failed_in s' c.
  Proof.
    intros jb from Hfrom s ia Hjb T. pose proof T as (F & ((W & K) & _ & _) & _). pose proof (fr_static _ _ F) as Sst.
    destruct jb as [|m].
    { exists s, true. unfold apply. rewrite Hfrom. cbn [up]. rewrite N.eqb_refl. split; [reflexivity|exact T]. }
    destruct (find_c s (S m) F Hjb) as (ba & Fa & _ & Ha'). destruct (find_c s O F ltac:(lia)) as (bb & Fb & _ & Hb'). cbn [up] in Fb.
    destruct (find_c s m F ltac:(lia)) as (bx & Fx & Px & _). rewrite <- Hfrom in Fa, Px.
    assert (E : apply pstate ccmd cexec cunexec s from c =
                if is_failed _ bb then Ok (s, false) else apply_path pstate ccmd cexec cunexec s from (path_from (S m))).
    { rewrite (apply_as_path s from c m ba bb bx Fa Fb), (map_ext _ _ (fun i => up_static _ _ i c Sst)); [reflexivity|lia| | |exact Px].
      - intros i Hi. rewrite (up_static _ _ i c Sst). destruct (find_c s i F ltac:(lia)) as (b & Fb' & _). exact (ex_intro _ _ (find_cfind _ _ _ Fb')).
      - rewrite (up_static _ _ m c Sst). exact Fx. }
    rewrite E. destruct (is_failed ccmd bb) eqn:Hfb.
    { exists s, false. split; [reflexivity|]. split; [exact T|]. exists bb. split; assumption. }
    (* no block below the candidate is failed, since it is not; if one fails now, so does it *)
    destruct (twin_apply_path (S m) from Hfrom (S m) s ia ltac:(lia) T) as (s' & ok & E' & H').
    { intros i Hi. rewrite <- (up_static _ _ i c Sst). apply (anc_valid s c bb W K Fb Hfb). rewrite (frame_dep _ _ _ F). lia. }
    exists s', ok. split; [exact E'|]. destruct ok; [exact H'|]. destruct H' as (T' & i & Hi & Fi).
    split; [exact T'|]. destruct T' as (F' & ((W' & K') & _ & _) & _). destruct (frame_cfind _ _ _ _ F' Hc) as (ec' & Hc').
    rewrite <- (up_static _ _ i c (fr_static _ _ F')) in Fi.
    apply (failed_down s' c ec' W' K' Hc' i); [rewrite (frame_dep _ _ _ F'); lia|exact Fi].
  Qed.

  Lemma twin_apply : forall s ia, twin s ia kb ->
      exists s' ok, apply pstate ccmd cexec cunexec s fork c = Ok (s', ok) /\
                    (ok = true -> twin s' ia 0) /\ (ok = false -> twin s' ia kb).
  Proof.
    intros s ia T. destruct (twin_apply_from kb fork Hf2 s ia (Nat.le_refl _) T) as (s' & ok & E & H).
    exists s', ok. split; [exact E|]. destruct ok.
    - split; [intros _; exact H|discriminate].
    - split; [discriminate|intros _; exact (proj1 H)].
  Qed.

  Lemma twin_alone_B : forall s ib, twin s ka ib -> alone s (up l0 ib c).
  Proof.
    intros s ib T. pose proof T as (F & _ & _ & Hib & _ & _ & Hn).
    apply (applied_to_frame s0 s _ F); [exact (twin_actB s ka ib ib T (Nat.le_refl _))|].
    rewrite Hn, hgt_c by lia. pose proof hgt_fork_t. pose proof hgt_fork_c. lia.
  Qed.
  Lemma twin_alone_A : forall s ia, twin s ia kb -> alone s (up l0 ia t).
  Proof.
    intros s ia T. pose proof T as (F & _ & Hia & _ & _ & _ & Hn).
    apply (applied_to_frame s0 s _ F); [exact (twin_actA s ia kb ia T (Nat.le_refl _))|].
    rewrite Hn, hgt_t by lia. lia.
  Qed.
  Lemma twin_init : twin s0 0 kb.
  Proof.
    pose proof G0 as (Q & C & K & T & U). pose proof Q as (W & Ta & Hn).
    split; [apply frame_refl; exact W|]. split; [split; [split; assumption|split; assumption]|]. split; [lia|]. split; [lia|].
    split; [intros k; apply chain_up_active; exact Q|]. split; [intros i Hi; lia|]. replace (kb - kb)%nat with O by lia. lia.
  Qed.

  (* a failure mark on a block of the old chain would come from a block of the candidate branch that is its
     ancestor-or-self, so lies on root..fork, is applied, and cannot be failed *)
  Lemma old_chain_ok : forall s, twin s ka kb -> md (branch s0 c) s0 s -> forall i, (i < ka)%nat -> okblk s (up l0 i t).
  Proof.
    intros s T M i Hi. pose proof T as (F & ((_ & K) & _ & _) & _). pose proof G0 as (Q & _ & _ & Tf & _).
    destruct (chain_lvl s0 Q K0 Tf i) as (b & Fb & Hl).
    destruct (act_valid s0 _ K0 (chain_up_active s0 Q i)) as (b' & Fb' & _ & Hnf). rewrite Fb in Fb'. injection Fb' as <-.
    assert (Hno : forall x k bx, branch s0 c x -> x = up l0 (i + k) t -> bfind (blocks _ _ s) x = Some bx -> b_fp _ bx = false).
    { intros x k bx (j & Hj) Hx Fx. rewrite Hj in Hx.
      destruct (act_valid s _ K (twin_meet s ka kb j _ T Hx)) as (bx' & Fx' & _ & Hv). rewrite <- Hj, Fx in Fx'. injection Fx' as <-.
      unfold is_failed in Hv. destruct (b_fp ccmd bx); [rewrite orb_true_r in Hv; discriminate Hv|reflexivity]. }
    destruct (static_find _ _ _ b (proj1 M) Fb) as (b2 & Fb2).
    destruct (proj2 M _ b b2 Fb Fb2) as (Afb & Alv & _ & _ & Afp & _ & Afc).
    split; [rewrite (fr_root _ _ F); apply t_not_root; exact Hi|]. exists b2. split; [exact Fb2|]. split; [lia|].
    unfold is_failed in *. apply orb_false_iff in Hnf. destruct Hnf as [Hnf Hfc]. apply orb_false_iff in Hnf. destruct Hnf as [Hfb Hfp].
    rewrite Afb, Hfb.
    destruct (b_fp ccmd b2) eqn:P.
    { destruct (Afp eq_refl) as [e|Hbr]; [congruence|]. rewrite (Hno _ 0%nat b2 Hbr) in P; [discriminate P|f_equal; lia|exact Fb2]. }
    destruct (b_fc ccmd b2) eqn:Q2; [|reflexivity].
    destruct (Afc eq_refl) as [e|(x & k & Hbr & (_ & bx & Fx & Px) & _ & Hux)]; [congruence|].
    rewrite (Hno x k bx Hbr) in Px; [discriminate Px|rewrite up_add; symmetry; exact Hux|exact Fx].
  Qed.

  Lemma twin_restore : forall s, twin s ka kb -> md (branch s0 c) s0 s ->
      exists s', apply pstate ccmd cexec cunexec s fork t = Ok (s', true) /\ alone s' t /\ frame s s' /\ md nobody s s'.
  Proof.
    intros s T M. pose proof T as (F & G & _). pose proof (twin_alone_A s ka T) as A. rewrite <- Hf1 in A.
    destruct t_found as (et & Het). destruct (frame_cfind _ _ _ _ F Het) as (et' & Het').
    destruct (apply_alone_total base s fork t ka et' A G (proj2 (proj1 G)) Het') as (s' & E & A' & _ & F' & M').
    - rewrite (up_static _ _ _ _ (fr_static _ _ F)). exact Hf1.
    - rewrite (frame_dep _ _ _ F). exact Ka.
    - intros i Hi. rewrite (up_static _ _ _ _ (fr_static _ _ F)). exact (old_chain_ok s T M i Hi).
    - exists s'. split; [exact E|]. split; [exact A'|]. split; assumption.
  Qed.

  Lemma twin_marks : forall s ia ib from s' ok, twin s ia ib -> apply pstate ccmd cexec cunexec s from c = Ok (s', ok) ->
      md (branch s0 c) s s'.
  Proof.
    intros s ia ib from s' ok (F & G & _) E. eapply md_weaken; [|exact (proj1 (md_apply_range _ _ _ _ _ (proj1 G) E))].
    intros j Hj. exact (branch_static s0 s c j (fr_static _ _ F) Hj).
  Qed.

  Lemma twin_sm_setState : lca ccmd (blocks _ _ s0) (2 * fuel_of _ _ s0) t c = Some fork -> t <> c ->
      exists s' ok, sm_setState pstate ccmd cexec cunexec s0 t c = Ok (s', ok) /\
                    if ok then exists b, bfind (blocks _ _ s') c = Some b /\ valid_upto _ b L_FULL = true
                    else failed_in s' c /\ napp _ _ s' = chain_count pstate ccmd s' (tip _ _ s').
  Proof.
    intros Hl Hne. pose proof G0 as (Q & _ & _ & Tf & _).
    unfold sm_setState. rewrite (proj2 (N.eqb_neq _ _) Hne), Hl.
    destruct (twin_unapplyA_fork s0 O kb twin_init) as (s1 & E1 & T1). cbn [up] in E1. rewrite E1. cbn [bind].
    destruct (twin_apply_from kb fork Hf2 s1 ka (Nat.le_refl _) T1) as (s2 & ok & E2 & T2).
    rewrite E2. cbn [bind]. pose proof T1 as (F1 & G1 & _).
    destruct ok.
    - (* applied, hence valid; on top of a fully valid chain, reported fully valid *)
      exists s2, true. split; [reflexivity|]. pose proof T2 as (_ & ((_ & K2) & _ & _) & _).
      destruct (act_valid s2 _ K2 (twin_actB s2 ka O O T2 (Nat.le_refl _))) as (b2 & Fb2 & _ & Hv2). cbn [up] in Fb2. exists b2. split; [exact Fb2|].
      pose proof (twin_alone_A s1 ka T1) as A1. rewrite <- Hf1 in A1. destruct (proj1 (alone_unfold _ _) A1) as (_ & Af1 & Hn1).
      destruct (apply_full s1 fork c s2 (proj1 G1) Af1) as (b2' & Fb2' & Hl2); [|exact Hn1|exact E2|].
      { rewrite Hf1. eapply lvl_ge_unapply_range; [|exact E1]. apply chain_lvl; assumption. }
      rewrite Fb2 in Fb2'. injection Fb2' as <-. exact (valid_upto_intro _ _ Hv2 Hl2).
    - destruct T2 as (T2 & Hfc).
      assert (M : md (branch s0 c) s0 s2).
      { exact (md_trans _ _ _ _ (md_nobody _ _ _ (md_unapply_range _ _ _ _ E1)) (twin_marks _ _ _ _ _ _ T1 E2)). }
      destruct (twin_restore s2 T2 M) as (s3 & E3 & A3 & F3 & M3). rewrite E3. cbn [bind].
      exists s3, false. split; [reflexivity|]. split; [exact (failed_in_md _ _ _ M3 Hfc)|].
      destruct T2 as (F2 & _). rewrite (fr_tip _ _ F3), (fr_tip _ _ F2). exact (alone_count _ _ A3).
  Qed.

  Lemma twin_compare_fork : forall sc cr bc bt, lca ccmd (blocks _ _ s0) (2 * fuel_of _ _ s0) t c = Some fork ->
      exists s' r, compare_fork pstate ccmd cexec cunexec sc cr s0 c bc bt = Ok (s', r).
  Proof.
    intros sc cr bc bt Hl. unfold compare_fork. rewrite Hl.
    destruct (find_t s0 ka (frame_refl _ W0) (Nat.le_refl _)) as (bf & Ff & _). rewrite <- Hf1 in Ff. rewrite Ff. destruct (negb (cr _ _) && negb (cr _ _)); [eexists; eexists; reflexivity|].
    destruct (twin_apply s0 O twin_init) as (s1 & ok1 & E1 & Ht1 & _).
    rewrite E1. cbn [bind]. destruct ok1; cbn [negb]; [|eexists; eexists; reflexivity].
    specialize (Ht1 eq_refl).
    destruct (Z.leb 0 (sc s1 c)).
    - destruct (twin_unapplyB_range kb fork Hf2 s1 O O Ht1 ltac:(lia)) as (s2 & E2 & _). cbn [up] in E2. rewrite E2. cbn [bind]. eexists. eexists. reflexivity.
    - (* the candidate wins: unapply its not fully valid part, then the old chain, then apply it alone *)
      destruct (twin_rollback s1 Ht1) as (j & s2 & s3 & Hj & E2 & E3 & T3). rewrite E2. cbn [bind]. rewrite E3. cbn [bind].
      destruct (twin_apply_from j _ eq_refl s3 ka ltac:(lia) T3) as (s4 & ok2 & E4 & T4).
      rewrite E4. cbn [bind]. destruct ok2; [eexists; eexists; reflexivity|].
      (* it failed alone: back to the fork, then up the untouched old chain *)
      destruct T4 as (T4 & _).
      destruct (twin_unapplyB_range kb fork Hf2 s4 ka j T4 ltac:(lia)) as (s5 & E5 & T5). rewrite E5. cbn [bind].
      assert (M : md (branch s0 c) s0 s5).
      { apply (md_trans _ _ _ _ (twin_marks _ _ _ _ _ _ twin_init E1)).
        apply (md_trans _ _ _ _ (md_nobody _ _ _ (md_uw _ _ _ _ _ _ _ E2))).
        apply (md_trans _ _ _ _ (md_nobody _ _ _ (md_unapply_range _ _ _ _ E3))).
        apply (md_trans _ _ _ _ (twin_marks _ _ _ _ _ _ T3 E4)).
        exact (md_nobody _ _ _ (md_unapply_range _ _ _ _ E5)). }
      destruct (twin_restore s5 T5 M) as (s6 & E6 & _). rewrite E6. cbn [bind]. eexists. eexists. reflexivity.
  Qed.
End Twin.
