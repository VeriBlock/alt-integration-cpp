(** POP state machine — when applyBlock cannot hit an assert, what a returning applyBlock did to the marks, and
    facts about trees and frames for the never-abort theorems of Pop/SmCmpTotal.v. *)
From Coq Require Import List ZArith NArith Bool Lia Permutation.
Import ListNotations.
From VB Require Import Pop.SmDefs Pop.SmProofs Pop.SmWf Pop.SmTruth Pop.SmCmp Pop.SmAll Pop.SmCoh Pop.SmFull Pop.SmMarks Pop.SmTree Pop.SmReact.
Local Open Scope Z_scope.

Lemma act_valid : forall s x, scoh s -> is_act (cores s) x ->
    exists b, bfind (blocks _ _ s) x = Some b /\ b_act _ b = true /\ is_failed _ b = false.
Proof.
  intros s x (_ & _ & _ & _ & C3 & _) Hx. destruct (is_act_find _ _ Hx) as (b & Fb & Ab).
  exists b. split; [exact Fb|]. split; [exact Ab|exact (proj1 (C3 _ _ Fb Ab))].
Qed.

Lemma valid_upto_intro : forall (b : cblk) l, is_failed _ b = false -> N.le l (b_lvl _ b) -> valid_upto _ b l = true.
Proof. intros b l Hf Hl. unfold valid_upto. rewrite Hf. apply N.leb_le. exact Hl. Qed.

Lemma act_exact : forall s L, wf s -> NoDup L -> (forall x, In x L -> is_act (cores s) x) ->
    Z.of_N (napp _ _ s) <= Z.of_nat (length L) -> forall j, is_act (cores s) j -> In j L.
Proof.
  intros s L (ND & _ & _ & HN) NDL Hall Hlen j Hj. refine (@NoDup_length_incl _ L (act_ids (cores s)) NDL _ _ j _).
  - unfold act_ids. rewrite map_length. fold (nact (cores s)). rewrite HN, nat_N_Z in Hlen. lia.
  - intros x Hx. apply (act_ids_in _ _ ND). exact (Hall x Hx).
  - apply (act_ids_in _ _ ND). exact Hj.
Qed.

Lemma up_root : forall s k, wf s -> up (cores s) k (root _ _ s) = root _ _ s.
Proof.
  intros s k W. induction k as [|k IH]; [reflexivity|]. cbn. destruct W as (_ & (hr & HR) & _).
  unfold parent. rewrite HR. exact IH.
Qed.

Lemma up_beyond : forall s b eb j, wf s -> scoh s -> cfind (cores s) b = Some eb -> dep s b <= Z.of_nat j ->
    up (cores s) j b = root _ _ s.
Proof.
  intros s b eb j W C Hb Hj. destruct (dep_facts s b _ W C Hb) as (D0 & Hr & _).
  replace j with (Z.to_nat (dep s b) + (j - Z.to_nat (dep s b)))%nat by lia. rewrite up_add, Hr. apply up_root. exact W.
Qed.

Lemma anc_at_eq : forall (l : list cblk) fuel i h,
    anc_at ccmd l fuel i h =
    match bfind l i with
    | None => None
    | Some b => if Z.eqb (b_h _ b) h then Some i else if Z.ltb (b_h _ b) h then None
                else match fuel with O => None | S f => anc_at ccmd l f (b_par _ b) h end
    end.
Proof. intros l [|f] i h; reflexivity. Qed.
(** soundness of Chain::operator[] / getAncestor as modelled by [anc_at] *)
Lemma anc_at_sound : forall s, wf s -> forall fuel i h a,
    anc_at ccmd (blocks _ _ s) fuel i h = Some a ->
    exists k, a = up (cores s) k i /\ hgt (cores s) a = h /\ hgt (cores s) a = hgt (cores s) i - Z.of_nat k.
Proof.
  intros s W fuel. induction fuel as [|f IH]; intros i h a H; rewrite anc_at_eq in H.
  all: destruct (bfind (blocks pstate ccmd s) i) as [b|] eqn:Fb; [|discriminate].
  all: pose proof (hgt_find _ _ _ Fb) as Hh.
  all: destruct (Z.eqb_spec (b_h ccmd b) h) as [E|E]; [injection H as <-; exists O; cbn; lia|].
  all: destruct (Z.ltb (b_h ccmd b) h); [discriminate|].
  - discriminate.
  - (* one step up: [i] is not the root, whose parent has its own height *)
    destruct (IH _ _ _ H) as (k & Ha & Hh1 & Hh2).
    pose proof (parent_find _ _ _ Fb) as Hp.
    destruct (N.eq_dec i (root _ _ s)) as [Hr|Hr].
    + exfalso. subst i. destruct (wf_act_closed _ W) as (_ & Pr & _). rewrite (Pr _ Fb) in Ha, Hh2.
      rewrite (up_root s k W) in Ha. subst a. lia.
    + pose proof (wf_parent_height _ _ _ W (find_cfind _ _ _ Fb) Hr) as Hph. change (e_par (core b)) with (b_par ccmd b) in Hph.
      exists (S k). split; [cbn; rewrite Hp; exact Ha|]. split; [exact Hh1|]. rewrite Nat2Z.inj_succ. lia.
Qed.

Lemma frame_cfind : forall s s' x e, frame s s' -> cfind (cores s) x = Some e -> exists e', cfind (cores s') x = Some e'.
Proof.
  intros s s' x e F He. pose proof (fr_static _ _ F x) as Sx. unfold sfind in Sx. rewrite He in Sx.
  destruct (cfind (cores s') x); [eexists; reflexivity|discriminate].
Qed.

Lemma frame_dep : forall s s' x, frame s s' -> dep s' x = dep s x.
Proof. intros s s' x F. unfold dep. rewrite (fr_root _ _ F), !(hgt_static _ _ _ (fr_static _ _ F)). reflexivity. Qed.

Lemma static_ids_incl : forall l l', (forall j, sfind l' j = sfind l j) -> NoDup (map e_id l') -> incl (map e_id l') (map e_id l).
Proof.
  intros l l' H ND j Hj. apply in_map_iff in Hj. destruct Hj as (e & <- & He).
  specialize (H (e_id e)). unfold sfind in H. rewrite (cfind_in _ _ ND He) in H.
  destruct (cfind l (e_id e)) as [e'|] eqn:E'; [|discriminate].
  apply cfind_some in E'. destruct E' as [Hid Hin]. rewrite <- Hid. apply in_map. exact Hin.
Qed.

Lemma frame_len : forall s s', wf s -> frame s s' -> length (blocks _ _ s') = length (blocks _ _ s).
Proof.
  intros s s' (ND & _) F. pose proof (fr_static _ _ F) as H. destruct (fr_wf _ _ F) as (ND' & _).
  pose proof (NoDup_incl_length ND' (static_ids_incl _ _ H ND')) as L1.
  pose proof (NoDup_incl_length ND (static_ids_incl _ _ (fun j => eq_sym (H j)) ND)) as L2.
  unfold cores in L1, L2. rewrite !map_length in L1, L2. lia.
Qed.

Lemma same_static_find : forall (l l' : list cblk) i, same_static (map core l) (map core l') ->
    match bfind l' i, bfind l i with
    | Some b', Some b => b_par _ b' = b_par _ b /\ b_h _ b' = b_h _ b
    | None, None => True
    | _, _ => False
    end.
Proof.
  intros l l' i S. pose proof (S i) as Si. unfold sfind in Si. rewrite !cfind_core in Si.
  destruct (bfind l' i), (bfind l i); cbn in Si; try discriminate; [|exact I]. injection Si as Hp Hh. split; assumption.
Qed.

Lemma anc_at_same_static : forall (l l' : list cblk) fuel i h,
    same_static (map core l) (map core l') -> anc_at ccmd l' fuel i h = anc_at ccmd l fuel i h.
Proof.
  intros l l' fuel i h S. revert i. induction fuel as [|f IH]; intros i; rewrite (anc_at_eq l'), (anc_at_eq l).
  all: pose proof (same_static_find l l' i S) as Si; destruct (bfind l' i) as [b'|], (bfind l i) as [b|]; try contradiction; try reflexivity.
  all: destruct Si as [Hp Hh]; rewrite Hh, ?Hp, ?IH; reflexivity.
Qed.

Lemma frame_on_active_chain : forall s s' x, wf s -> frame s s' -> on_active_chain pstate ccmd s' x = on_active_chain pstate ccmd s x.
Proof.
  intros s s' x W F. unfold on_active_chain, fuel_of. rewrite (fr_tip _ _ F), (frame_len _ _ W F).
  pose proof (same_static_find _ _ x (fr_static _ _ F)) as Sx.
  destruct (bfind (blocks pstate ccmd s') x) as [b'|], (bfind (blocks pstate ccmd s) x) as [b|]; try contradiction; [|reflexivity].
  destruct Sx as [_ Hh]. rewrite Hh, (anc_at_same_static _ _ _ _ _ (fr_static _ _ F)). reflexivity.
Qed.

(** ** applyBlock: every assert of the code is one hypothesis here. The last one: a block already reported fully
    valid must not fail (BLOCK_CAN_BE_APPLIED and BLOCK_FAILED_POP are mutually exclusive). *)
Lemma applyBlock_runs : forall s x b pb,
    scoh s -> bfind (blocks _ _ s) x = Some b -> x <> root _ _ s ->
    bfind (blocks _ _ s) (b_par _ b) = Some pb -> b_act _ pb = true ->
    b_act _ b = false -> child_active ccmd (blocks _ _ s) x = false -> is_failed _ b = false ->
    on_active_chain pstate ccmd s x = false ->
    (b_lvl _ b = L_FULL -> exists p', gsexec pstate ccmd cexec cunexec [] (b_gs _ b) (pst _ _ s) = (p', true)) ->
    exists s' ok, c_applyBlock s x = Ok (s', ok).
Proof.
  intros s x b pb (_ & _ & _ & _ & C3 & C5) Fb Hxr Fpb Apb Hina Hnc Hnf Hoac Hg.
  pose proof (proj2 (C3 _ _ Fpb Apb)) as Hpl.
  pose proof Hnf as Hnf'. unfold is_failed in Hnf'. apply orb_false_iff in Hnf'. destruct Hnf' as [Hfbp Hfc].
  apply orb_false_iff in Hfbp. destruct Hfbp as [_ Hfp].
  unfold c_applyBlock, applyBlock. rewrite Fb, (proj2 (N.eqb_neq _ _) Hxr), Fpb, Apb, Hina, Hnc, Hfc, Hnf. cbn [negb].
  rewrite (proj2 (N.ltb_ge _ _) (C5 _ _ Fb)).
  destruct (gsexec pstate ccmd cexec cunexec [] (b_gs ccmd b) (pst pstate ccmd s)) as [p' okg] eqn:Eg.
  destruct okg; cbn [negb].
  - (* raiseValidity: FULL is asked for only above a fully valid parent, MAYBE only above an applied one *)
    assert (Hu : forall full : bool, (full = true -> valid_upto ccmd pb L_FULL = true) ->
                 N.ltb (b_lvl ccmd pb) (if full then L_FULL else L_MAYBE) = false).
    { intros [|] Hv; apply N.ltb_ge; [|exact Hpl]. apply N.leb_le. exact (proj2 (andb_prop _ _ (Hv eq_refl))). }
    rewrite Hu, andb_false_r by (intro Hv; exact (proj1 (andb_prop _ _ Hv))). eexists. eexists. reflexivity.
  - unfold invalidate_pop. cbn [blocks with_pst]. rewrite Fb, Hfp, Hnf.
    change (on_active_chain pstate ccmd (with_pst pstate ccmd s p') x) with (on_active_chain pstate ccmd s x). rewrite Hoac.
    destruct (N.eqb_spec (b_lvl ccmd b) L_FULL) as [El|_].
    + destruct (Hg El) as (p'' & Eg'). discriminate Eg'.
    + eexists. eexists. reflexivity.
Qed.

Lemma applyBlock_keeps_failed : forall s i s' j b b', c_applyBlock s i = Ok (s', true) ->
    bfind (blocks _ _ s) j = Some b -> bfind (blocks _ _ s') j = Some b' -> is_failed _ b' = is_failed _ b.
Proof.
  intros s i s' j b b' H F F'. destruct (applyBlock_inv _ _ _ _ _ _ _ _ H) as (bi & pb & _ & _ & _ & _ & _ & _ & p' & lv & _ & _ & _ & _ & ->).
  cbn [blocks] in F'. rewrite find_upd_any, F in F' by reflexivity. cbn in F'. inversion F'.
  destruct (N.eqb (b_id ccmd b) i); reflexivity.
Qed.

Definition failed_in (s : cst) (x : N) : Prop := exists b, bfind (blocks _ _ s) x = Some b /\ is_failed _ b = true.

Lemma applyBlock_refused_failed : forall s x s', wf s -> c_applyBlock s x = Ok (s', false) -> failed_in s' x.
Proof.
  intros s x s' W H. destruct (applyBlock_inv _ _ _ _ _ _ _ _ H) as (b & _ & Fb & _ & _ & _ & _ & _ & [[Hf ->]|(p' & _ & _ & ->)]).
  { exists b. split; assumption. }
  unfold failed_in. cbn [blocks with_blocks with_pst].
  rewrite find_mark_desc by (rewrite ids_upd by reflexivity; exact (wf_ids _ W)).
  rewrite find_upd_any, Fb by reflexivity. cbn. rewrite (bfind_id _ _ _ Fb), N.eqb_refl.
  eexists. split; [reflexivity|]. unfold is_failed. destruct (existsb _ _); cbn; rewrite ?orb_true_r; reflexivity.
Qed.

Lemma failed_in_md : forall s s' x, md nobody s s' -> failed_in s x -> failed_in s' x.
Proof.
  intros s s' x M (b & Fb & Hf). destruct (static_find _ _ _ b (proj1 M) Fb) as (b' & Fb').
  exists b'. split; [exact Fb'|]. rewrite (proj1 (md_nobody_failed _ _ _ _ _ M Fb Fb')). exact Hf.
Qed.

Lemma anc_valid : forall s to bto, wf s -> scoh s ->
    bfind (blocks _ _ s) to = Some bto -> is_failed _ bto = false ->
    forall i, Z.of_nat i <= dep s to ->
    exists b, bfind (blocks _ _ s) (up (cores s) i to) = Some b /\ is_failed _ b = false.
Proof.
  intros s to bto W C Fto Hv i Hi.
  destruct (anc_ok s to bto 0%N W C Fto (valid_upto_intro _ _ Hv (N.le_0_l _)) i Hi) as (b & F & _ & Hf). exists b. split; assumption.
Qed.

Lemma failed_down : forall s b eb, wf s -> scoh s -> cfind (cores s) b = Some eb ->
    forall i, Z.of_nat i <= dep s b -> failed_in s (up (cores s) i b) -> failed_in s b.
Proof.
  intros s b eb W C Hb. destruct (dep_facts s b _ W C Hb) as (_ & _ & Hmin).
  induction i as [|i IH]; intros Hi Hf; [exact Hf|]. apply IH; [lia|].
  destruct (up_hgt_dep s b eb i W C Hb ltac:(lia)) as (_ & (ei & Hei)). destruct (core_find _ _ _ Hei) as (bi & Fbi & Cbi).
  assert (Hnr : up (cores s) i b <> root _ _ s) by (apply Hmin; lia).
  destruct Hf as (pb & Fpb & Hpf). rewrite up_succ_r in Fpb. unfold parent in Fpb. rewrite Hei, <- Cbi in Fpb. change (e_par (core bi)) with (b_par ccmd bi) in Fpb.
  exists bi. split; [exact Fbi|]. destruct C as (_ & _ & C1 & _). pose proof (C1 _ _ _ Fbi Hnr Fpb Hpf) as Hfc.
  unfold is_failed. rewrite Hfc. apply orb_true_r.
Qed.

(** appliedBlockCount as overrideTip recomputes it *)
Lemma alone_count : forall s x, alone s x -> napp _ _ s = chain_count pstate ccmd s x.
Proof.
  intros s x A. destruct (proj1 (alone_unfold _ _) A) as (_ & Tx & Hn). destruct (is_act_find _ _ Tx) as (b & Fb & _).
  unfold chain_count. rewrite Fb, root_h_hgt, <- (hgt_find _ _ _ Fb). apply N2Z.inj. rewrite Z2N.id by lia. lia.
Qed.

Lemma ginv_apply_range : forall base s a b s' ok, ginv base s -> apply pstate ccmd cexec cunexec s a b = Ok (s', ok) -> ginv base s'.
Proof. intros base s a b s' ok. apply (Inv_apply_range pstate ccmd cexec cunexec (ginv base) (ginv_apply base) (ginv_unapply base)). Qed.
