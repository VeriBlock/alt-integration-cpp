(** POP state machine — C02: validity marks change only on the target / candidate branch. *)
From Coq Require Import List ZArith NArith Bool Lia.
Import ListNotations.
From VB Require Import Pop.SmDefs Pop.SmProofs Pop.SmWf Pop.SmCmp Pop.SmCoh Pop.SmFull.
Local Open Scope Z_scope.

(** [md T s s']: between s and s' nothing of the tree changed except validity marks, and those only as follows:
    levels were raised only on blocks of T; FAILED_POP was set only on blocks of T; FAILED_CHILD was set only on proper
    descendants of a block of T that got FAILED_POP; nothing was cleared or lowered; FAILED_BLOCK is untouched. *)
Definition fp_new (s s' : cst) (x : N) : Prop :=
  (exists bx, bfind (blocks _ _ s) x = Some bx /\ b_fp _ bx = false) /\
  (exists bx', bfind (blocks _ _ s') x = Some bx' /\ b_fp _ bx' = true).

Definition md (T : N -> Prop) (s s' : cst) : Prop :=
  map (static ccmd) (blocks _ _ s') = map (static ccmd) (blocks _ _ s) /\
  forall j b b', bfind (blocks _ _ s) j = Some b -> bfind (blocks _ _ s') j = Some b' ->
    b_fb _ b' = b_fb _ b /\
    N.le (b_lvl _ b) (b_lvl _ b') /\ (b_lvl _ b <> b_lvl _ b' -> T j) /\
    (b_fp _ b = true -> b_fp _ b' = true) /\ (b_fp _ b' = true -> b_fp _ b = true \/ T j) /\
    (b_fc _ b = true -> b_fc _ b' = true) /\
    (b_fc _ b' = true -> b_fc _ b = true \/
                          exists x k, T x /\ fp_new s s' x /\ (0 < k)%nat /\ up (cores s) k j = x).

Lemma static_find : forall (l l' : list cblk) j b,
    map (static ccmd) l' = map (static ccmd) l -> bfind l j = Some b -> exists b', bfind l' j = Some b'.
Proof.
  intros l l' j b H F. pose proof (find_map_eq _ (static ccmd) (fun x y E => f_equal (fun t => fst (fst (fst t))) E) _ _ j H) as E.
  rewrite F in E. destruct (bfind l' j) as [b'|]; [exists b'; reflexivity|discriminate].
Qed.

Lemma md_refl : forall T s, md T s s.
Proof.
  intros T s. split; [reflexivity|]. intros j b b' F F'. rewrite F in F'. inversion F'; subst b'.
  repeat split; auto; try lia; try (intro; congruence).
Qed.

Lemma md_weaken : forall (T T' : N -> Prop) s s', (forall j, T j -> T' j) -> md T s s' -> md T' s s'.
Proof.
  intros T T' s s' HT (HS & H). split; [exact HS|]. intros j b b' F F'.
  destruct (H j b b' F F') as (A & B & C & D & E & G & I). repeat split; auto.
  - intros Hx. destruct (E Hx) as [|]; auto.
  - intros Hx. destruct (I Hx) as [|(x & k & Tx & Nx & Hk & Hu)]; [left; assumption|right]. exists x, k. auto.
Qed.

Lemma md_trans : forall T s s1 s2, md T s s1 -> md T s1 s2 -> md T s s2.
Proof.
  intros T s s1 s2 (S1 & H1) (S2 & H2). split; [congruence|]. intros j b b2 F F2.
  destruct (static_find _ _ j b S1 F) as (b1 & F1).
  destruct (H1 j b b1 F F1) as (A1 & B1 & C1 & D1 & E1 & G1 & I1).
  destruct (H2 j b1 b2 F1 F2) as (A2 & B2 & C2 & D2 & E2 & G2 & I2).
  repeat split.
  - congruence.
  - lia.
  - intros Hne. destruct (N.eq_dec (b_lvl ccmd b) (b_lvl ccmd b1)) as [e|n]; [apply C2; congruence|apply C1; exact n].
  - auto.
  - intros Hx. destruct (E2 Hx) as [Hy|Hy]; [apply E1; exact Hy|right; exact Hy].
  - auto.
  - intros Hx. destruct (I2 Hx) as [Hy|(x & k & Tx & (Nx1 & Nx2) & Hk & Hu)].
    + destruct (I1 Hy) as [Hz|(x & k & Tx & (Nx1 & Nx2) & Hk & Hu)]; [left; exact Hz|right].
      exists x, k. split; [exact Tx|]. split; [|split; [exact Hk|exact Hu]]. split; [exact Nx1|].
      destruct Nx2 as (bx1 & Fx1 & Px1). destruct (static_find _ _ x bx1 S2 Fx1) as (bx2 & Fx2).
      exists bx2. split; [exact Fx2|]. destruct (H2 x bx1 bx2 Fx1 Fx2) as (_ & _ & _ & D & _). apply D. exact Px1.
    + right. exists x, k. split; [exact Tx|]. split; [|split; [exact Hk|]].
      * destruct Nx1 as (bx1 & Fx1 & Px1). split; [|exact Nx2].
        destruct (static_find _ _ x bx1 (eq_sym S1) Fx1) as (bx & Fx). exists bx. split; [exact Fx|].
        destruct (H1 x bx bx1 Fx Fx1) as (_ & _ & _ & D & _). destruct (b_fp ccmd bx); [rewrite (D eq_refl) in Px1; discriminate|reflexivity].
      * rewrite <- Hu. symmetry. apply up_static. apply same_static_of_static. exact S1.
Qed.

Definition nobody : N -> Prop := fun _ => False.
Lemma md_nobody : forall T s s', md nobody s s' -> md T s s'.
Proof. intros T s s'. apply md_weaken. intros j []. Qed.

Definition branch (s : cst) (t : N) : N -> Prop := fun j => exists k, j = up (cores s) k t.
Lemma branch_static : forall s s' t j, same_static (cores s) (cores s') -> branch s' t j -> branch s t j.
Proof. intros s s' t j S (k & ->). exists k. apply up_static. exact S. Qed.
Lemma md_static : forall T s s', md T s s' -> same_static (cores s) (cores s').
Proof. intros T s s' (HS & _). unfold cores. apply same_static_of_static. exact HS. Qed.
Lemma md_then_branch : forall s s1 s2 t, md (branch s t) s s1 -> md (branch s1 t) s1 s2 -> md (branch s t) s s2.
Proof.
  intros s s1 s2 t M1 M2. apply (md_trans _ _ _ _ M1). apply (md_weaken (branch s1 t)); [|exact M2].
  intros j. apply branch_static. exact (md_static _ _ _ M1).
Qed.

Lemma md_upd : forall (T : N -> Prop) (s s' : cst) i f,
    blocks _ _ s' = upd ccmd (blocks _ _ s) i f ->
    (forall b, static ccmd (f b) = static ccmd b /\ b_fb _ (f b) = b_fb _ b /\ b_fp _ (f b) = b_fp _ b /\
               b_fc _ (f b) = b_fc _ b /\ N.le (b_lvl _ b) (b_lvl _ (f b))) ->
    (forall b, bfind (blocks _ _ s) i = Some b -> b_lvl _ b <> b_lvl _ (f b) -> T i) ->
    md T s s'.
Proof.
  intros T s s' i f Hb Hf HT. split.
  - rewrite Hb. unfold upd. rewrite map_map. apply map_ext. intros b. destruct (N.eqb (b_id ccmd b) i); [apply Hf|reflexivity].
  - intros j b b' F F'.
    rewrite Hb, find_upd_any, F in F' by (intro x; exact (f_equal (fun t => fst (fst (fst t))) (proj1 (Hf x)))). injection F' as <-.
    destruct (N.eqb (b_id ccmd b) i) eqn:E.
    + apply N.eqb_eq in E. rewrite (bfind_id _ _ _ F) in E. subst j. destruct (Hf b) as (_ & -> & -> & -> & Hl).
      repeat split; auto. exact (HT b F).
    + repeat split; auto; try apply N.le_refl; intros Hne; destruct (Hne eq_refl).
Qed.

Lemma md_unapply : forall s i s', c_unapplyBlock s i = Ok s' -> md nobody s s'.
Proof.
  intros s i s' H. destruct (unapplyBlock_inv _ _ _ _ _ _ H) as (b & _ & _ & _ & _ & _ & _ & _ & _ & ->).
  apply (md_upd nobody _ _ i (set_act ccmd false)); [reflexivity| |intros b0 _ Hne; exact (Hne eq_refl)].
  intro b0. repeat split. apply N.le_refl.
Qed.

Lemma md_apply_ok : forall s i s', c_applyBlock s i = Ok (s', true) ->
    md (eq i) s s' /\ (lvl_ge L_FULL i s -> md nobody s s').
Proof.
  intros s i s' H. destruct (applyBlock_inv _ _ _ _ _ _ _ _ H) as (b & pb & Fi & _ & _ & _ & _ & _ & p' & upTo & _ & _ & Hup & _ & ->).
  assert (Hle : N.le upTo L_FULL) by (rewrite Hup; destruct (_ && _); discriminate). clear Hup. fold (apf upTo).
  assert (Hf : forall x, static ccmd (apf upTo x) = static ccmd x /\ b_fb _ (apf upTo x) = b_fb _ x /\ b_fp _ (apf upTo x) = b_fp _ x /\
                         b_fc _ (apf upTo x) = b_fc _ x /\ N.le (b_lvl _ x) (b_lvl _ (apf upTo x))) by (intro x; repeat split; rewrite apf_lvl; lia).
  split; [apply (md_upd (eq i) _ _ i (apf upTo)); [reflexivity|exact Hf|reflexivity]|].
  (* a block at the full level is not raised *)
  intros (bf & Fbf & Hl). apply (md_upd nobody _ _ i (apf upTo)); [reflexivity|exact Hf|].
  intros b0 F0 Hne. rewrite Fbf in F0. inversion F0; subst b0. apply Hne. rewrite apf_lvl. lia.
Qed.

Lemma md_apply_fail : forall s i s', wf s -> c_applyBlock s i = Ok (s', false) -> md (eq i) s s'.
Proof.
  intros s i s' W H. destruct (applyBlock_inv _ _ _ _ _ _ _ _ H) as (bi & pb & Fi & _ & _ & _ & _ & _ & [[_ ->]|(p' & Hf & _ & ->)]); [apply md_refl|].
  split; [exact (staticInv_apply _ _ _ _ _ eq_refl H)|]. pose proof (wf_ids _ W) as ND.
  pose proof (fun j => find_fail (blocks pstate ccmd s) i j ND) as FF.
  set (l1 := upd ccmd (blocks pstate ccmd s) i (set_fp ccmd)) in *. set (M := marks i [] l1) in *.
  assert (HM : forall j, In j M -> exists k, (0 < k)%nat /\ up (cores s) k j = i).
  { apply (marks_ind (fun j => exists k, (0 < k)%nat /\ up (cores s) k j = i) i l1 []); [|intros k []].
    intros y1 Hy1 Hpar. apply in_upd_idpar in Hy1; [|reflexivity]. destruct Hy1 as (y & Hy & -> & Ep). rewrite Ep in Hpar.
    assert (E : forall k, up (cores s) (S k) (b_id ccmd y) = up (cores s) k (b_par ccmd y))
      by (intro k; cbn [up]; rewrite (parent_find _ _ _ (find_in_blocks _ _ ND Hy)); reflexivity).
    destruct Hpar as [Hp|(k & Hk & Hu)]; [exists 1%nat|exists (S k)]; rewrite E; split; try lia; assumption. }
  intros j b b' F F'. cbn [blocks with_blocks with_pst] in F'. rewrite FF, F in F'. injection F' as <-.
  unfold failmark. cbn [b_fb b_lvl b_fp b_fc].
  split; [reflexivity|]. split; [apply N.le_refl|]. split; [intros Hne; destruct (Hne eq_refl)|].
  split; [intros ->; apply orb_true_r|]. split; [|split; [intros ->; apply orb_true_r|]]; intros Hx; apply orb_true_iff in Hx.
  - destruct Hx as [Hx|Hx]; [right|left; exact Hx]. apply N.eqb_eq in Hx. rewrite <- Hx. exact (bfind_id _ _ _ F).
  - destruct Hx as [Hx|Hx]; [right|left; exact Hx]. apply existsb_eqb_in, HM in Hx. destruct Hx as (k & Hk & Hu).
    exists i, k. split; [reflexivity|]. split; [|split; assumption]. split.
    + exists bi. split; [exact Fi|]. unfold is_failed in Hf. destruct (b_fp ccmd bi); [rewrite orb_true_r in Hf; discriminate|reflexivity].
    + cbn [blocks with_blocks]. rewrite FF, Fi. eexists. split; [reflexivity|].
      cbn. rewrite (bfind_id _ _ _ Fi), N.eqb_refl. reflexivity.
Qed.

Lemma md_uw : forall fuel s cur to pred s' w,
    unapplyWhile pstate ccmd cunexec fuel s cur to pred = Ok (s', w) -> md nobody s s'.
Proof.
  intros fuel s cur to pred s' w H.
  apply (Inv_unapplyWhile pstate ccmd cunexec (fun x => md nobody s x)
           (fun x i x' Hx Hu => md_trans _ _ _ _ Hx (md_unapply _ _ _ Hu)) fuel s cur to pred s' w (md_refl _ _) H).
Qed.
Lemma md_unapply_range : forall s a b s', unapply pstate ccmd cunexec s a b = Ok s' -> md nobody s s'.
Proof.
  intros s a b s' H.
  apply (Inv_unapply_range pstate ccmd cunexec (fun x => md nobody s x)
           (fun x i x' Hx Hu => md_trans _ _ _ _ Hx (md_unapply _ _ _ Hu)) s a b s' (md_refl _ _) H).
Qed.

Lemma md_apply_path : forall path s from s' ok,
    winv s -> apply_path pstate ccmd cexec cunexec s from path = Ok (s', ok) ->
    md (fun j => In j path) s s' /\ (ok = true -> (forall x, In x path -> lvl_ge L_FULL x s) -> md nobody s s').
Proof.
  induction path as [|x r IH]; intros s from s' ok WI H; cbn in H.
  - inversion H; subst. split; intros; apply md_refl.
  - dbind H. destruct a as [s1 ok1]. destruct ok1.
    + destruct (md_apply_ok _ _ _ E) as [M1 M1f]. destruct (IH _ _ _ _ (winv_apply _ _ _ _ WI E) H) as [M2 M2f]. split.
      * eapply md_trans; (eapply md_weaken; [|eassumption]); [intros j <-; left; reflexivity|intros j Hj; right; exact Hj].
      * intros Hok Hl. apply (md_trans _ _ _ _ (M1f (Hl x (or_introl eq_refl)))). apply (M2f Hok).
        intros y Hy. eapply lvl_ge_apply; [apply Hl; right; exact Hy|exact E].
    + destruct (bfind (blocks pstate ccmd s1) x); [|discriminate]. dbind H. inversion H; subst. split; [|discriminate].
      apply (md_trans _ _ s1); [|apply md_nobody; exact (md_unapply_range _ _ _ _ E0)].
      eapply md_weaken; [|exact (md_apply_fail _ _ _ (proj1 WI) E)]. intros j <-. left. reflexivity.
Qed.

Lemma md_apply_range : forall s a b s' ok,
    winv s -> apply pstate ccmd cexec cunexec s a b = Ok (s', ok) ->
    md (branch s b) s s' /\ (ok = true -> (forall k, lvl_ge L_FULL (up (cores s) k b) s) -> md nobody s s').
Proof.
  intros s a b s' ok WI H.
  destruct (apply_inv _ _ _ _ _ H) as [(_ & ->)|(path & _ & _ & _ & _ & Hin & Hp)]; [split; intros; apply md_refl|].
  assert (Hb : forall y, In y path -> branch s b y) by (intros y Hy; destruct (proj1 (Hin y) Hy) as (k & _ & ->); exists k; symmetry; apply up_iter).
  destruct (md_apply_path _ _ _ _ _ WI Hp) as [M Mf]. split; [exact (md_weaken _ _ _ _ Hb M)|].
  intros Hok Hl. apply (Mf Hok). intros y Hy. destruct (Hb y Hy) as (k & ->). apply Hl.
Qed.

Lemma md_lvl_ge : forall T s s' u j, md T s s' -> lvl_ge u j s -> lvl_ge u j s'.
Proof.
  intros T s s' u j (HS & H) (b & F & Hl). destruct (static_find _ _ j b HS F) as (b' & F').
  exists b'. split; [exact F'|]. destruct (H j b b' F F') as (_ & Hle & _). lia.
Qed.

Lemma md_reapply : forall T s s1 f a s2,
    md T s s1 -> winv s1 -> (forall k, lvl_ge L_FULL (up (cores s) k a) s) ->
    apply pstate ccmd cexec cunexec s1 f a = Ok (s2, true) -> md T s s2.
Proof.
  intros T s s1 f a s2 M WI Hl H. apply (md_trans _ _ _ _ M). apply md_nobody.
  apply (proj2 (md_apply_range _ _ _ _ _ WI H) eq_refl).
  intros k. rewrite (up_static _ _ k a (md_static _ _ _ M)). exact (md_lvl_ge _ _ _ _ _ M (Hl k)).
Qed.

Lemma md_sm_setState : forall s a b s' ok,
    winv s -> (forall k, lvl_ge L_FULL (up (cores s) k a) s) ->
    sm_setState pstate ccmd cexec cunexec s a b = Ok (s', ok) -> md (branch s b) s s'.
Proof.
  intros s a b s' ok WI Hl H. unfold sm_setState in H.
  destruct (N.eqb a b); [inversion H; subst; apply md_refl|].
  destruct (lca ccmd (blocks pstate ccmd s) _ a b) as [fork|]; [|discriminate].
  dbind H. rename a0 into s1. pose proof (md_unapply_range _ _ _ _ E) as M1.
  pose proof (winv_unapply_range _ _ _ _ WI E) as WI1.
  dbind H. destruct a0 as [s2 ok2]. destruct (md_apply_range _ _ _ _ _ WI1 E0) as [M2 _].
  pose proof (md_then_branch _ _ _ _ (md_nobody _ _ _ M1) M2) as M12.
  destruct ok2; [inversion H; subst; exact M12|].
  dbind H. destruct a0 as [s3 ok3]. destruct ok3; inversion H; subst; clear H.
  exact (md_reapply _ _ _ _ _ _ M12 (winv_apply_range _ _ _ _ _ WI1 E0) Hl E1).
Qed.

Theorem md_setState : forall s to s' ok,
    quiet s -> scoh s -> tf s -> c_setState s to = Ok (s', ok) -> md (branch s to) s s'.
Proof.
  intros s to s' ok Q C T H. destruct (setState_inv _ _ _ _ _ _ _ _ H) as (s1 & bto & E & _ & Hs').
  assert (M1 : md (branch s to) s s1).
  { eapply md_sm_setState; [split; [exact (proj1 Q)|exact C]| |exact E]. apply chain_lvl; assumption. }
  destruct ok; [destruct Hs' as [_ ->]|destruct Hs' as (_ & _ & ->)]; exact M1.
Qed.

Lemma md_compare_fork : forall sc cr s c bc bt s' r,
    quiet s -> scoh s -> tf s ->
    compare_fork pstate ccmd cexec cunexec sc cr s c bc bt = Ok (s', r) -> md (branch s c) s s'.
Proof.
  intros sc cr s c bc bt s' r Q C T H. assert (WI : winv s) by (split; [exact (proj1 Q)|exact C]).
  unfold compare_fork in H.
  destruct (lca ccmd (blocks pstate ccmd s) _ (tip pstate ccmd s) c) as [fork|]; [|discriminate].
  destruct (bfind (blocks pstate ccmd s) fork) as [bf|]; [|discriminate].
  destruct (negb (cr _ _) && negb (cr _ _)); [inversion H; subst; apply md_refl|].
  dbind H. destruct a as [s1 ok1]. destruct (md_apply_range _ _ _ _ _ WI E) as [M1 _].
  pose proof (winv_apply_range _ _ _ _ _ WI E) as WI1.
  destruct ok1; cbn [negb] in H; [|inversion H; subst; exact M1].
  destruct (Z.leb 0 (sc s1 c)).
  - dbind H. inversion H; subst. apply (md_trans _ _ _ _ M1). apply md_nobody. exact (md_unapply_range _ _ _ _ E0).
  - dbind H. destruct a as [s2 vf]. pose proof (winv_uw _ _ _ _ _ _ _ WI1 E0) as WI2.
    dbind H. rename a into s3. pose proof (winv_unapply_range _ _ _ _ WI2 E1) as WI3.
    assert (M13 : md (branch s c) s s3).
    { apply (md_trans _ _ _ _ M1). apply md_nobody. exact (md_trans _ _ _ _ (md_uw _ _ _ _ _ _ _ E0) (md_unapply_range _ _ _ _ E1)). }
    dbind H. destruct a as [s4 ok2]. destruct (md_apply_range _ _ _ _ _ WI3 E2) as [M4 _].
    pose proof (md_then_branch _ _ _ _ M13 M4) as M14.
    destruct ok2; [inversion H; subst; exact M14|].
    (* the candidate failed alone: back to the old chain *)
    dbind H. rename a into s5. dbind H. destruct a as [s6 ok3]. destruct ok3; inversion H; subst; clear H.
    pose proof (md_trans _ _ _ _ M14 (md_nobody _ _ _ (md_unapply_range _ _ _ _ E3))) as M15.
    pose proof (winv_unapply_range _ _ _ _ (winv_apply_range _ _ _ _ _ WI3 E2) E3) as WI5.
    exact (md_reapply _ _ _ _ _ _ M15 WI5 (chain_lvl s Q C T) E4).
Qed.

Theorem md_compare : forall sc cr s c s' r,
    quiet s -> scoh s -> tf s -> c_compare sc cr s (Some c) = Ok (s', r) -> md (branch s c) s s'.
Proof.
  intros sc cr s c s' r Q C T H.
  destruct (compare_inv _ _ _ _ _ _ H) as [[-> _]|[(bc & bt & HF)|(s1 & ok & E & Hr)]]; [apply md_refl|eapply md_compare_fork; eassumption|].
  destruct (md_apply_range _ _ _ _ _ (conj (proj1 Q) C) E) as [M1 _]. destruct ok; destruct Hr as [-> _]; exact M1.
Qed.

(** ** C02: the marks clause over reachable states *)
Theorem setState_marks : forall base s to s' ok,
    reachable base s -> c_setState s to = Ok (s', ok) -> md (branch s to) s s'.
Proof. intros base s to s' ok R H. destruct (reachable_good _ _ R) as (Q & _ & K & T & _). eapply md_setState; eassumption. Qed.

Theorem compare_marks : forall base sc cr s c s' r,
    reachable base s -> c_compare sc cr s (Some c) = Ok (s', r) -> md (branch s c) s s'.
Proof. intros base sc cr s c s' r R H. destruct (reachable_good _ _ R) as (Q & _ & K & T & _). eapply md_compare; eassumption. Qed.
