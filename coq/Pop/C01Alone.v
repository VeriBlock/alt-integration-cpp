(** C01 by composition, part 4: the stand-alone re-validation of a candidate that outscores the active chain.
    comparePopScore unapplies the not fully valid top of the candidate branch, unapplies the active chain down to the
    fork and applies that top again: the outcome is "the bodies of root..candidate replay from the bootstrap state",
    whatever part of the branch had been validated before (truthfulness of the fully-valid level, C20). *)
From Coq Require Import List ZArith NArith Bool Lia Permutation.
Import ListNotations.
From VB Require Import Pop.SmDefs Pop.SmProofs Pop.SmWf Pop.SmTruth Pop.SmCmp Pop.SmAll Pop.SmCoh Pop.SmFull Pop.SmMarks Pop.SmTree
     Pop.SmReact Pop.SmAbort Pop.SmTwin Pop.SmCmpTotal Pop.C01Compose Pop.C01Verdict Pop.C01Fork.
Local Open Scope Z_scope.

Lemma anc_list_split : forall l j dv c,
    anc_list l (j + dv) c = map (fun i => up l i c) (seq 0 j) ++ anc_list l dv (up l j c).
Proof.
  intros l j. induction j as [|j IH]; intros dv c; [reflexivity|].
  cbn [Nat.add anc_list seq map app up]. rewrite IH, <- seq_shift, map_map. reflexivity.
Qed.
Lemma bgs_split : forall s c j dv, bgs s (j + dv) c = bgs s dv (up (cores s) j c) ++ map (gs_of s) (top s c j).
Proof. intros s c j dv. unfold bgs, top. rewrite anc_list_split, map_app, rev_app_distr, map_rev. reflexivity. Qed.

Lemma static_trace_apply : forall s a b t ok, apply pstate ccmd cexec cunexec s a b = Ok (t, ok) ->
    map (static ccmd) (blocks _ _ t) = map (static ccmd) (blocks _ _ s).
Proof.
  intros s a b t ok H.
  exact (Inv_apply_range pstate ccmd cexec cunexec (staticInv (map (static ccmd) (blocks _ _ s)))
           (staticInv_apply _) (staticInv_unapply _) s a b t ok eq_refl H).
Qed.

(* P is canonical, and the fully-valid level is truthful (C20) *)
Lemma alone_full_replay : forall base s v,
    canon base s -> truthful base s -> alone s v -> lvl_ge L_FULL v s ->
    exists p0, replay (bgs s (depth s v) v) base = Some p0 /\ Permutation p0 (pst _ _ s).
Proof.
  intros base s v [PC _] TR A (bv & Fv & Hlv). destruct (find_some_in _ _ _ Fv) as (Inv & Idv).
  destruct (TR bv Inv ltac:(apply N.leb_le; exact Hlv)) as (p0 & Hp0). rewrite Idv in Hp0.
  exists p0. split; [exact Hp0|].
  pose proof (active_items_chain (at_blk s v) A) as AC.
  change (Permutation (active_items (blocks _ _ s)) (flat_map block_items (map (gs_of s) (anc_list (cores s) (depth s v) v)))) in AC.
  rewrite (replay_items _ _ _ Hp0), PC, AC. apply Permutation_app_tail. apply flat_map_rev_perm.
Qed.

Lemma revalidation_state : forall base s c bc fork t s2 vf s3,
    reachable base s -> bfind (blocks _ _ s) c = Some bc ->
    lca ccmd (blocks _ _ s) (2 * fuel_of _ _ s) (tip _ _ s) c = Some fork ->
    clean_all s c ->
    apply pstate ccmd cexec cunexec s fork c = Ok (t, true) ->
    unapplyWhile pstate ccmd cunexec (fuel_of _ _ t) t c fork (not_full ccmd) = Ok (s2, vf) ->
    unapply pstate ccmd cunexec s2 (tip _ _ s) fork = Ok s3 ->
    exists j, Z.of_nat j <= dep s c /\ vf = up (cores s) j c /\
      frame s s3 /\ map (static ccmd) (blocks _ _ s3) = map (static ccmd) (blocks _ _ s) /\
      canon base s3 /\ truthful base s3 /\ alone s3 vf /\ lvl_ge L_FULL vf s3 /\ clean s3 c j.
Proof.
  intros base s c bc fork t s2 vf s3 R Fc L Cl A1 U2 U3.
  pose proof (reachable_good _ _ R) as G0. pose proof G0 as (Q & _ & K & T & _). pose proof (proj1 Q) as W.
  pose proof (find_cfind _ _ _ Fc) as Cc.
  destruct (lca_tip_spec base s c bc fork R Fc L) as (ka & kb & Hf1 & Hf2 & Ka & Kb & Hmax).
  pose proof (twin_init base s G0 c fork ka kb Hf1 Hf2) as T0.
  destruct (twin_apply base s G0 c fork ka kb (core bc) Cc Hf1 Hf2 Ka Kb Hmax s O T0) as (t' & ok1 & E & Ht1 & _).
  rewrite A1 in E. injection E as <- <-. specialize (Ht1 eq_refl).
  destruct (twin_rollback base s G0 c fork ka kb (core bc) Cc Hf1 Hf2 Ka Kb Hmax t Ht1) as (j & s2' & s3' & Hj & E2 & E3 & T3).
  rewrite U2 in E2. injection E2 as <- Evf. rewrite U3 in E3. injection E3 as <-.
  pose proof (twin_alone_B base s G0 c fork ka kb (core bc) Cc Hf1 Hf2 Ka Kb s3 j T3) as A3. rewrite <- Evf in A3.
  pose proof T3 as (F3 & (_ & C3 & TR3) & _).
  (* t..s3 changes applied flags only; s..t keeps bodies and failed marks *)
  pose proof (md_trans _ _ _ _ (md_uw _ _ _ _ _ _ _ U2) (md_unapply_range _ _ _ _ U3)) as M.
  assert (St3 : map (static ccmd) (blocks _ _ s3) = map (static ccmd) (blocks _ _ s)).
  { rewrite (proj1 M). exact (static_trace_apply _ _ _ _ _ A1). }
  destruct (up_hgt_dep s c _ kb W K Cc Kb) as (Hhf & _). rewrite <- Hf2 in Hhf.
  destruct (apply_replay s fork c kb t true Hf2 Hhf (Cl kb) A1) as [_ K1]. specialize (K1 eq_refl).
  exists j. split; [lia|]. split; [exact Evf|]. split; [exact F3|]. split; [exact St3|]. split; [exact C3|]. split; [exact TR3|].
  split; [exact A3|]. split.
  - (* the roll-back stopped at the fork, fully valid as on the active chain, or at a fully valid block *)
    eapply lvl_ge_unapply_range; [|exact U3]. destruct (uw_stop _ _ _ _ _ _ _ U2) as [Evf2|(bw & Fw & Hp)].
    + rewrite Evf2. eapply lvl_ge_uw; [|exact U2]. eapply lvl_ge_apply_range; [|exact A1].
      rewrite Hf1. exact (chain_lvl s Q K T ka).
    + exists bw. split; [exact Fw|]. unfold not_full, valid_upto in Hp. apply negb_false_iff, andb_true_iff in Hp.
      apply N.leb_le. exact (proj2 Hp).
  - intros k b Hk Fb. rewrite (up_static _ _ _ _ (fr_static _ _ F3)) in Fb.
    destruct (static_find _ _ _ _ (eq_sym St3) Fb) as (b0 & Fb0). destruct (K1 _ _ Fb0) as (b1 & Fb1 & _ & Hf1').
    destruct (md_nobody_failed _ _ _ _ _ M Fb1 Fb) as [Hf3 _].
    rewrite Hf3, Hf1'. exact (Cl (S k) k b0 (Nat.lt_succ_diag_r k) Fb0).
Qed.

(** * the re-validation of a winning candidate = replay of root..candidate from the bootstrap state *)
Theorem revalidation_replay : forall base s c bc fork t s2 vf s3 s4 ok2,
    reachable base s -> bfind (blocks _ _ s) c = Some bc ->
    lca ccmd (blocks _ _ s) (2 * fuel_of _ _ s) (tip _ _ s) c = Some fork ->
    clean_all s c ->
    apply pstate ccmd cexec cunexec s fork c = Ok (t, true) ->
    unapplyWhile pstate ccmd cunexec (fuel_of _ _ t) t c fork (not_full ccmd) = Ok (s2, vf) ->
    unapply pstate ccmd cunexec s2 (tip _ _ s) fork = Ok s3 ->
    apply pstate ccmd cexec cunexec s3 vf c = Ok (s4, ok2) ->
    (ok2 = true <-> exists p, replay (bgs s (depth s c) c) base = Some p).
Proof.
  intros base s c bc fork t s2 vf s3 s4 ok2 R Fc L Cl A1 U2 U3 A4.
  destruct (revalidation_state base s c bc fork t s2 vf s3 R Fc L Cl A1 U2 U3)
    as (j & Hjd & Evf & F3 & St3 & C3 & TR3 & A3 & Lv & Cl3).
  destruct (reachable_good _ _ R) as ((W & _) & _ & K & _). pose proof (fr_static _ _ F3) as S3.
  (* P of s3 = the effects of root..vf *)
  destruct (alone_full_replay base s3 vf C3 TR3 A3 Lv) as (p0 & Hp0 & HP3).
  rewrite (depth_static s s3 vf St3 (fr_root _ _ F3)), (bgs_static s s3 _ _ St3) in Hp0.
  (* the second apply = replay of the top j bodies *)
  destruct (up_hgt_dep s c _ j W K (find_cfind _ _ _ Fc) Hjd) as (Hhv & _). rewrite <- Evf in Hhv.
  destruct (apply_replay s3 vf c j s4 ok2 (eq_trans Evf (eq_sym (up_static _ _ _ _ S3)))
              ltac:(rewrite !(hgt_static _ _ _ S3); exact Hhv) Cl3 A4) as [E4 _].
  assert (EG : map (gs_of s3) (top s3 c j) = map (gs_of s) (top s c j)).
  { unfold top. rewrite (map_ext _ _ (fun i => up_static _ _ i c S3)). apply map_ext. intros y. apply gs_of_static. exact St3. }
  rewrite EG in E4. pose proof (replay_perm (map (gs_of s) (top s c j)) _ _ HP3) as HR. rewrite E4 in HR.
  replace (depth s c) with (j + depth s vf)%nat by (unfold depth; unfold dep in Hjd; clear -Hjd Hhv; lia).
  rewrite bgs_split, <- Evf, replay_app, Hp0.
  destruct (replay _ p0) as [p|], ok2; try contradiction.
  - split; [intros _; exists p; reflexivity|reflexivity].
  - split; [discriminate|intros (p & Hp); discriminate].
Qed.

Lemma bgs_chain_of : forall s c, bgs s (depth s c) c = rev (map snd (chain_of s c)).
Proof. intros s c. unfold bgs, chain_of. rewrite map_map. reflexivity. Qed.

(** the last stage of comparePopScore when the candidate (validated next to the active chain: state t) outscores the
    active chain; r is the answer *)
Definition revalidated (sc : cst -> N -> Z) (s : cst) (c fork : N) (t : cst) (r : Z) : Prop :=
  exists s2 vf s3 s4 ok2,
    unapplyWhile pstate ccmd cunexec (fuel_of _ _ t) t c fork (not_full ccmd) = Ok (s2, vf) /\
    unapply pstate ccmd cunexec s2 (tip _ _ s) fork = Ok s3 /\
    apply pstate ccmd cexec cunexec s3 vf c = Ok (s4, ok2) /\
    r = if ok2 then sc t c else 1.

Lemma revalidated_replay : forall sc base s c bc fork t r,
    reachable base s -> bfind (blocks _ _ s) c = Some bc ->
    lca ccmd (blocks _ _ s) (2 * fuel_of _ _ s) (tip _ _ s) c = Some fork ->
    clean_all s c -> apply pstate ccmd cexec cunexec s fork c = Ok (t, true) ->
    revalidated sc s c fork t r ->
    r = match replay (rev (map snd (chain_of s c))) base with Some _ => sc t c | None => 1 end.
Proof.
  intros sc base s c bc fork t r R Fc L Cl A1 (s2 & vf & s3 & s4 & ok2 & U2 & U3 & A4 & ->).
  pose proof (revalidation_replay base s c bc fork t s2 vf s3 s4 ok2 R Fc L Cl A1 U2 U3 A4) as V. rewrite bgs_chain_of in V.
  destruct ok2, (replay _ base) as [p|]; try reflexivity.
  - destruct (proj1 V eq_refl) as (p & Hp). discriminate.
  - discriminate (proj2 V (ex_intro _ p eq_refl)).
Qed.

