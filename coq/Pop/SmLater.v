(** C20 over ALL histories: a block that has once reported full validity (level CAN_BE_APPLIED, target of a successful
    setState, or winner of a comparison) can be activated again from EVERY later state of EVERY continuation of the
    history, unless it carries a failure mark there. *)
From Coq Require Import List ZArith NArith Bool Lia.
Import ListNotations.
From VB Require Import Pop.SmDefs Pop.SmProofs Pop.SmWf Pop.SmTruth Pop.SmCmp Pop.SmAll Pop.SmCoh Pop.SmFull Pop.SmReact Pop.SmLaterDefs.
Local Open Scope Z_scope.

Lemma run_app : forall a b s s1, run s a = Ok s1 -> run s (a ++ b) = run s1 b.
Proof.
  induction a as [|o r IH]; intros b s s1 H; cbn in *.
  - inversion H; subst. reflexivity.
  - destruct (step_op s o) as [s2|]; cbn in *; [|discriminate]. apply IH. exact H.
Qed.

Lemma reachable_run : forall base s ops s', reachable base s -> run s ops = Ok s' -> reachable base s'.
Proof.
  intros base s ops s' (r & h & ops0 & R) H. exists r, h, (ops0 ++ ops). rewrite (run_app _ _ _ _ R). exact H.
Qed.

Lemma lvl_ge_run : forall u j ops s s', lvl_ge u j s -> run s ops = Ok s' -> lvl_ge u j s'.
Proof. intros u j. exact (run_inv_all (lvl_ge u j) (lvl_ge_connect u j) (lvl_ge_setState u j) (lvl_ge_compare u j)). Qed.

(** ** the three ways in which the library reports a chain as fully valid *)
Inductive reported_full (s : cst) (t : N) : Prop :=
| RF_level : lvl_ge L_FULL t s -> reported_full s t
| RF_setState : forall s0, c_setState s0 t = Ok (s, true) -> reported_full s t
| RF_compare : forall s0 sc cr r, c_compare sc cr s0 (Some t) = Ok (s, r) -> r < 0 -> reported_full s t.

Lemma setState_true_full : forall s0 t s, c_setState s0 t = Ok (s, true) -> lvl_ge L_FULL t s.
Proof.
  intros s0 t s H. destruct (setState_inv _ _ _ _ _ _ _ _ H) as (s1 & bto & _ & F & V & ->).
  exists bto. split; [exact F|exact (valid_upto_lvl _ _ V)].
Qed.

(* a negative verdict is given in two places only, and both make the candidate the tip *)
Lemma compare_won_tip : forall sc cr s0 t s r, c_compare sc cr s0 (Some t) = Ok (s, r) -> r < 0 -> tip _ _ s = t.
Proof.
  intros sc cr s0 t s r H Hr.
  destruct (compare_inv _ _ _ _ _ _ H) as [[_ ->]|[(bc & bt & HF)|(s1 & ok & _ & Hok)]]; [lia| |destruct ok; destruct Hok as [-> ->]; [reflexivity|lia]].
  unfold compare_fork in HF.
  destruct (lca ccmd _ _ _ _) as [fork|]; [|discriminate].
  destruct (bfind _ fork) as [bf|]; [|discriminate].
  destruct (negb _ && negb _); [inversion HF; subst; lia|].
  dbind HF. destruct a as [s1 ok]. destruct (negb ok); [inversion HF; subst; lia|].
  destruct (Z.leb_spec 0 (sc s1 t)).
  - dbind HF. inversion HF; subst. lia.
  - dbind HF. destruct a as [s2 vf]. dbind HF. dbind HF. destruct a0 as [s4 ok2].
    destruct ok2; [inversion HF; subst; reflexivity|].
    dbind HF. dbind HF. destruct a1 as [s6 ok3]. destruct ok3; [inversion HF; subst; lia|discriminate].
Qed.

Lemma reported_full_level : forall base s t, reachable base s -> reported_full s t -> lvl_ge L_FULL t s.
Proof.
  intros base s t R [L|s0 H|s0 sc cr r H Hr].
  - exact L.
  - eapply setState_true_full; exact H.
  - (* the winner is the new tip, and the tip of a reachable state is at the fully-valid level *)
    destruct (reachable_good _ _ R) as (_ & _ & _ & T & _). rewrite <- (compare_won_tip _ _ _ _ _ _ H Hr). exact T.
Qed.

Theorem later_reactivation : forall base s t ops s2 b2,
    reachable base s -> reported_full s t ->
    run s ops = Ok s2 ->
    bfind (blocks _ _ s2) t = Some b2 -> is_failed _ b2 = false ->
    exists s3, c_setState s2 t = Ok (s3, true).
Proof.
  intros base s t ops s2 b2 R RF H F NF.
  pose proof (reported_full_level _ _ _ R RF) as L.
  destruct (lvl_ge_run _ _ _ _ _ L H) as (b & Fb & Hl). rewrite F in Fb. inversion Fb; subst b.
  eapply reactivation; [eapply reachable_run; eassumption|exact F|].
  apply valid_upto_iff. split; assumption.
Qed.

(** a block that reported full validity stays reported (the claim is never silently withdrawn) *)
Theorem reported_full_persists : forall base s t ops s2,
    reachable base s -> reported_full s t -> run s ops = Ok s2 -> lvl_ge L_FULL t s2.
Proof. intros base s t ops s2 R RF H. eapply lvl_ge_run; [eapply reported_full_level; eassumption|exact H]. Qed.

(** ** the sweep of the check: a `false` answer can only come from a failure mark *)
Theorem react_seq_sound : forall base ids s s' l,
    reachable base s -> react_seq s ids = Ok (s', l) ->
    reachable base s' /\ map fst l = ids /\
    forall t, In (t, false) l -> lvl_ge L_FULL t s ->
              exists ops s1 b1, run s ops = Ok s1 /\ bfind (blocks _ _ s1) t = Some b1 /\ is_failed _ b1 = true.
Proof.
  induction ids as [|t r IH]; intros s s' l R H; cbn in H.
  - inversion H; subst. split; [exact R|]. split; [reflexivity|]. intros t [].
  - destruct (c_setState s t) as [[s1 ok]|] eqn:E; cbn [bind fst snd] in H; [|discriminate].
    destruct (react_seq s1 r) as [[s2 l2]|] eqn:E2; cbn [bind fst snd] in H; [|discriminate].
    inversion H; subst; clear H.
    assert (Rn : run s [OSetState t] = Ok s1) by (cbn; rewrite E; reflexivity).
    pose proof (reachable_run _ _ _ _ R Rn) as R1.
    destruct (IH _ _ _ R1 E2) as (R2 & M2 & X2).
    split; [exact R2|]. split; [cbn; rewrite M2; reflexivity|].
    intros x [Hx|Hx] L.
    + inversion Hx; subst. destruct L as (b & Fb & Hl).
      destruct (is_failed ccmd b) eqn:Fl.
      * exists [], s, b. split; [reflexivity|]. split; assumption.
      * destruct (reactivation base s x b R Fb) as (s3 & E3).
        { apply valid_upto_iff. split; assumption. }
        rewrite E3 in E. discriminate.
    + destruct (X2 x Hx (lvl_ge_run _ _ _ _ _ L Rn)) as (ops & s3 & b3 & A & B & C).
      exists (OSetState t :: ops), s3, b3. split; [|split; assumption].
      cbn. rewrite E. cbn. exact A.
Qed.

(** ** non-vacuity: in the history [ex_ops] of SmProofs block 6 is the target of a successful setState within the first
    8 ops (level CAN_BE_APPLIED); five ops later (switches, a failing switch, comparisons with either verdict) the tip is
    15, block 6 is off the chain, not applied and not failed - and setState 6 returns true. *)
Definition ex_later_check : bool :=
  match run (c_init 0 0%Z ex_base) (firstn 8 ex_ops) with
  | Ok s =>
    match run s (skipn 8 (firstn 13 ex_ops)) with
    | Ok s2 =>
      match bfind (blocks _ _ s) 6%N, bfind (blocks _ _ s2) 6%N, c_setState s2 6%N with
      | Some b, Some b2, Ok (s3, true) =>
        N.leb L_FULL (b_lvl _ b) && negb (is_failed _ b2) && negb (b_act _ b2) && N.eqb (tip _ _ s2) 15 && N.eqb (tip _ _ s3) 6
        && Nat.eqb (length (skipn 8 (firstn 13 ex_ops))) 5
      | _, _, _ => false
      end
    | Abort _ => false
    end
  | Abort _ => false
  end.
Example later_reactivation_satisfiable : ex_later_check = true.
Proof. vm_compute. reflexivity. Qed.

(* the sweep over every fully valid block of that later state: all answers true, and the switch back succeeds *)
Example react_sweep_example :
  match run (c_init 0 0%Z ex_base) (firstn 13 ex_ops) with
  | Ok s => match react s (full_ids s) with
            | Ok (s', l, back) => (map fst l, forallb snd l, back, tip _ _ s') = (full_ids s, true, true, tip _ _ s) /\ (2 < length l)%nat
            | Abort _ => False
            end
  | Abort _ => False
  end.
Proof. vm_compute. split; [reflexivity|lia]. Qed.
