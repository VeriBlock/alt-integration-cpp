(** C12 — the property theorems. *)
From Coq Require Import List NArith.
From VB Require Import Mempool.CountDefs Mempool.CountProofs.
Import ListNotations.
Local Open Scope N_scope.

(** the running figure of CountingContext equals estimateSize of the PopData kept so far, for every candidate
    sequence and every verdict of the payload mutator *)
Theorem C12_counting_exact :
  forall L cands,
    let '(c, r) := filter_fit L cands c0 (mkk [] [] []) in popsize c = est_kept r.
Proof.
  intros L cands. pose proof (filter_fit_agrees can_fit L cands c0 (mkk [] [] []) agrees0) as H. unfold filter_fit.
  destruct (filter_fit_with can_fit L cands c0 (mkk [] [] [])) as [c r]. apply popsize_estimate, H.
Qed.
Print Assumptions C12_counting_exact.

(** canFit as coded now (the growth of the kind's length prefix is priced): whatever filterInvalidPayloads keeps
    satisfies assertPopDataFits (three counts and the byte size), for every candidate sequence - no bound on counts *)
Theorem C12_generated_fits :
  forall L cands,
    10 <= max_size L ->
    fits L (snd (filter_fit L cands c0 (mkk [] [] []))) = true.
Proof. intros L cands M. apply filter_fit_fits; [exact agrees0 | apply (fits_within L c0 _ agrees0), within0, M]. Qed.
Print Assumptions C12_generated_fits.

(** documentation: canFit before the repair priced the length prefix of the CURRENT count: the 256th payload of a
    kind that fits exactly made the kept PopData one byte larger than the maximum (assertPopDataFits aborted) *)
Theorem C12_counting_prefix_refuted :
  fits witness_limits (snd (filter_fit_v0 witness_limits witness_cands c0 (mkk [] [] []))) = false /\
  len (k_atv (snd (filter_fit_v0 witness_limits witness_cands c0 (mkk [] [] [])))) = 256.
Proof.
  assert (snd (filter_fit_v0 witness_limits witness_cands c0 (mkk [] [] [])) = mkk [] [] (repeat 1 256)) as ->
      by (vm_compute; reflexivity).
  split; vm_compute; reflexivity.
Qed.
Print Assumptions C12_counting_prefix_refuted.

(** add the temporary block, execute what can be executed, un-execute in reverse order, remove the block:
    the state is the one it started from (given the inverse laws of commands and of the temporary block) *)
Theorem C12_generate_pure :
  forall (S P : Type) (add_temp remove_temp : S -> S) (exec : P -> S -> option S) (unexec : P -> S -> S),
    (forall s, remove_temp (add_temp s) = s) ->
    (forall p s s', exec p s = Some s' -> unexec p s' = s) ->
    forall s ps, generate_machine S P add_temp remove_temp exec unexec s ps = s.
Proof.
  intros S P add_temp remove_temp exec unexec Ht He s ps. unfold generate_machine.
  pose proof (apply_unapply S P exec unexec He ps (add_temp s) []) as H.
  destruct (apply_all S P exec ps (add_temp s) []) as [s1 ap]. cbn [fst snd unapply_all] in H. rewrite H. apply Ht.
Qed.
Print Assumptions C12_generate_pure.

(** every payload kept by filterInvalidPayloads (pre-tests canFit / stateless duplicate, then execution on the
    temporary block) was executed in the final order: a block carrying exactly the generated list, applied on the same
    tip state, executes completely and reaches the state the temporary block had (exec is deterministic) *)
Theorem C12_generated_applies :
  forall (S P : Type) (add_temp : S -> S) (exec : P -> S -> option S) (pre : P -> list P -> bool) s ps,
    exec_all S P exec (generated S P add_temp exec pre s ps) (add_temp s) =
    Some (fst (filter_apply S P exec pre ps (add_temp s) [])).
Proof. intros S P add_temp exec pre s ps. apply filter_apply_replays. Qed.
Print Assumptions C12_generated_applies.

(** the application order made explicit: filterInvalidPayloads filters context, then VTBs, then ATVs - the order in
    which a block body is executed - so the body (kept context ++ kept VTBs ++ kept ATVs) executes completely on the
    same tip state and reaches the state of the temporary block *)
Theorem C12_generated_applies_ordered :
  forall (S P : Type) (exec : P -> S -> option S) (pre : P -> list P -> bool) ctx vtbs atvs s,
    let '(s3, kc, kv, ka) := filter_as_coded S P exec pre ctx vtbs atvs s in
    exec_body S P exec kc kv ka s = Some s3.
Proof. intros S P exec pre ctx vtbs atvs s. apply filter3_exec. Qed.
Print Assumptions C12_generated_applies_ordered.

(** for a filter that applies ATVs before VTBs the statement is false (the kept VTB's containing block was known only
    through an ATV's block of proof) *)
Theorem C12_generated_applies_other_order_refuted :
  let '(s3, kc, kv, ka) := filter_atvs_first (list N) N om_exec (fun _ _ => true) [] [3] [1] [] in
  kv = [3] /\ ka = [1] /\ exec_body (list N) N om_exec kc kv ka [] = None.
Proof. vm_compute. repeat split; reflexivity. Qed.
Print Assumptions C12_generated_applies_other_order_refuted.

(** ** the selection of generatePopData as coded, on the relations structure, with payload ids (GenDefs):
    relations in a height-sorted order (EVERY such order: relations_ is an unordered_map and std::sort is not stable),
    header / ATVs / VTBs of each relation appended, then filterInvalidPayloads (canFit, stateless duplicate,
    mutator.add) over context, VTBs, ATVs. The verdicts of the tree are oracles the theorems quantify over. *)
From Coq Require Import Permutation.
From VB Require Import Mempool.RelDefs Mempool.RelProofs Mempool.RelMore Mempool.GenDefs Mempool.GenMore.

(** whatever was submitted before (any operation sequence, no caller contract): everything handed out is a CONNECTED
    payload of the pool *)
Theorem C12_selection_from_pool :
  forall (par bop cont szB szV szA : N -> N) L treeB dupB dupV dupA okB okV okA ops s order,
    rrun bop cont mp0 ops = ROk s -> Permutation order (rels s) ->
    let out := generatePop par bop cont szB szV szA L treeB dupB dupV dupA okB okV okA order in
    incl (o_ctx out) (vbks s) /\ incl (o_vtbs out) (svtbs s) /\ incl (o_atvs out) (satvs s).
Proof.
  intros par bop cont szB szV szA L treeB dupB dupV dupA okB okV okA ops s order E P.
  destruct (rrun_inv bop cont ops mp0 (rinv0 bop cont)) as [s' [E' I]]. rewrite E in E'. injection E' as <-.
  apply selection_from_pool; assumption.
Qed.
Print Assumptions C12_selection_from_pool.

(** for every candidate order sorted by height and every oracle: no id twice; context blocks by ascending height, each
    one known to the tree already or preceded by its previous block (in the tree or EARLIER in the context); every
    VTB / ATV has its containing block / block of proof in the tree or in the returned context (which a block body
    applies first); nothing the tree marks as already on the active chain *)
Theorem C12_selection_valid :
  forall (hgt par bop cont szB szV szA : N -> N) L treeB dupB dupV dupA okB okV okA order,
    asc hgt (map hdr order) ->
    let out := generatePop par bop cont szB szV szA L treeB dupB dupV dupA okB okV okA order in
    NoDup (o_ctx out) /\ NoDup (o_vtbs out) /\ NoDup (o_atvs out) /\
    asc hgt (o_ctx out) /\
    (forall pre b post, o_ctx out = pre ++ b :: post ->
       dupB b = false /\ (treeB b = true \/ treeB (par b) = true \/ In (par b) pre)) /\
    (forall t, In t (o_vtbs out) -> dupV t = false /\ (treeB (cont t) = true \/ In (cont t) (o_ctx out))) /\
    (forall a, In a (o_atvs out) -> dupA a = false /\ (treeB (bop a) = true \/ In (bop a) (o_ctx out))).
Proof.
  intros hgt par bop cont szB szV szA L treeB dupB dupV dupA okB okV okA order As out.
  destruct (gen_spec par bop cont szB szV szA L treeB dupB dupV dupA okB okV okA order)
    as [[S1 _] [[N1 [N2 N3]] [A1 [A2 A3]]]]. fold out in S1, N1, N2, N3, A1, A2, A3.
  split; [exact N1|]. split; [exact N2|]. split; [exact N3|]. split; [exact (subseq_asc hgt _ _ S1 As)|]. split; [|split].
  - intros pre b post E. exact (admB_true _ _ _ _ _ _ (A1 pre b post E)).
  - intros t Ht. apply in_split in Ht. destruct Ht as [pre [post E]]. exact (needs_block _ _ _ _ _ (A2 pre t post E)).
  - intros a Ha. apply in_split in Ha. destruct Ha as [pre [post E]]. exact (needs_block _ _ _ _ _ (A3 pre a post E)).
Qed.
Print Assumptions C12_selection_valid.

(** assertPopDataFits on the ids handed out: the three counts and estimateSize respect the limits (same accounting as
    C12_generated_fits) *)
Theorem C12_selection_fits :
  forall (par bop cont szB szV szA : N -> N) L treeB dupB dupV dupA okB okV okA order,
    10 <= max_size L ->
    out_fits szB szV szA L
      (generatePop par bop cont szB szV szA L treeB dupB dupV dupA okB okV okA order) = true.
Proof. intros par bop cont. apply selection_fits. Qed.
Print Assumptions C12_selection_fits.

(** a height-sorted permutation of the relations exists (the hypotheses above are satisfiable for every pool) *)
Theorem C12_sorted_order_exists :
  forall (hgt : N -> N) rs, is_order hgt rs (sort_rels hgt rs).
Proof. exact sort_is_order. Qed.
Print Assumptions C12_sorted_order_exists.

(** the pool side of generatePopData (tryConnectPayloads before, cleanUp after; the selection itself only reads): no
    assertion, the bookkeeping invariant is kept, and no payload appears - every ATV / VTB known afterwards was known
    before. (It is not the identity: see C13_cleanUp_exact for what leaves.) *)
Theorem C12_generate_pool_effect :
  forall (bop cont : N -> N) c o s,
    RInv bop cont s -> DInv s ->
    exists s', generate bop cont c o s = ROk s' /\ RInv bop cont s' /\
      (forall a, KA s' a -> KA s a) /\ (forall t, KV s' t -> KV s t).
Proof.
  intros bop cont c o s I _. destruct (rstep_inv bop cont s (Gen c o) I) as [s' [E I']].
  exists s'. split; [exact E|]. split; [exact I'|]. exact (generate_no_new bop cont c o s s' E).
Qed.
Print Assumptions C12_generate_pool_effect.

(** non-vacuity: a pool where block 8 connects only through block 7 of an ATV, with an ATV already on chain;
    offered in the order 8, 7, block 8 does not connect *)
Theorem C12_selection_example :
  exists s, rrun xbop xcont mp0 [SubB Fine false 8; SubV Fine 3; SubA Fine 1; SubA Fine 2] = ROk s /\
    is_order xhgt (rels s) (sort_rels xhgt (rels s)) /\
    xgen wide (fun a => a =? 2) (sort_rels xhgt (rels s)) = mkout [7; 8] [3] [1] /\
    xgen wide (fun a => a =? 2) [mkr 8 [3] []; mkr 7 [] [2; 1]] = mkout [7] [] [1].
Proof.
  eexists. split; [vm_compute; reflexivity|]. split; [apply sort_is_order|]. split; vm_compute; reflexivity.
Qed.
Print Assumptions C12_selection_example.

(** "the result depends only on the pool content and the tree" is FALSE as coded: (1) rel.vtbs keeps the submission
    order and the VTB limit cuts it - two pools with the same content, same tree, different PopData; *)
Theorem C12_selection_submission_order_refuted :
  exists s12 s21,
    rrun xbop xcont mp0 [SubB Fine false 7; SubV Fine 1; SubV Fine 2] = ROk s12 /\
    rrun xbop xcont mp0 [SubB Fine false 7; SubV Fine 2; SubV Fine 1] = ROk s21 /\
    (forall x, In x (vbks s12) <-> In x (vbks s21)) /\ (forall x, In x (svtbs s12) <-> In x (svtbs s21)) /\
    satvs s12 = satvs s21 /\ fb s12 = fb s21 /\ fv s12 = fv s21 /\ fa s12 = fa s21 /\
    xgen one_vtb nodup (sort_rels xhgt (rels s12)) = mkout [7; 8] [1] [] /\
    xgen one_vtb nodup (sort_rels xhgt (rels s21)) = mkout [7; 8] [2] [].
Proof.
  eexists. eexists. split; [vm_compute; reflexivity|]. split; [vm_compute; reflexivity|].
  cbn [vbks svtbs satvs fb fv fa]. repeat split; try (vm_compute; reflexivity); simpl; tauto.
Qed.
Print Assumptions C12_selection_submission_order_refuted.

(** (2) equal heights: both orders of two fork blocks of one height are height-sorted permutations of the SAME pool;
    under a block limit of 1 the results differ (which one the library returns depends on the hash-map iteration
    order and on std::sort) *)
Theorem C12_selection_equal_height_refuted :
  let rs := [mkr 5 [] []; mkr 6 [] []] in
  let rs' := [mkr 6 [] []; mkr 5 [] []] in
  is_order fork_hgt rs rs /\ is_order fork_hgt rs rs' /\
  fork_gen rs = mkout [5] [] [] /\ fork_gen rs' = mkout [6] [] [].
Proof.
  cbn zeta. split; [|split; [|split; vm_compute; reflexivity]].
  - split; [apply Permutation_refl|]. simpl. unfold fork_hgt. repeat split; intros; apply N.le_refl.
  - split; [apply perm_swap|]. simpl. unfold fork_hgt. repeat split; intros; apply N.le_refl.
Qed.
Print Assumptions C12_selection_equal_height_refuted.

(** valid as-is, on the oracles: every payload handed out was admitted by the tree (not a stateful duplicate, its
    block present, and the arbitrary rest of the verdict okB/okV/okA) in the state made by exactly the payloads handed
    out before it in body order - the state in which a block carrying exactly this PopData applies that payload *)
Theorem C12_selection_replays :
  forall (par bop cont szB szV szA : N -> N) L treeB dupB dupV dupA okB okV okA order,
    let out := generatePop par bop cont szB szV szA L treeB dupB dupV dupA okB okV okA order in
    (forall pre b post, o_ctx out = pre ++ b :: post -> admB par treeB dupB okB pre b = true) /\
    (forall pre t post, o_vtbs out = pre ++ t :: post -> admV cont treeB dupV okV (o_ctx out) pre t = true) /\
    (forall pre a post, o_atvs out = pre ++ a :: post ->
                        admA bop treeB dupA okA (o_ctx out) (o_vtbs out) pre a = true).
Proof. intros par bop cont szB szV szA L treeB dupB dupV dupA okB okV okA order. apply gen_spec. Qed.
Print Assumptions C12_selection_replays.
